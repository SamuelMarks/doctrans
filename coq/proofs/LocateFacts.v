(* LocateFacts: lemmas about Locate.v (annotate / find_in_ast / resolve) and the C15 lookup theorems. *)
From Coq Require Import List Ascii Bool Arith ZArith Lia.
From Coq Require String.
Import String.StringSyntax.
From DT Require Import PyStr Sexp PyVal PureUtils PyAst Locate C15Spec PyStrFacts ListFacts.
From DT Require EmitAstFacts.
Import ListNotations.

Definition stmt_ind2 := EmitAstFacts.stmt_ind'.

Section AStmtInd.
  Variable P : astmt -> Prop.
  Hypothesis Hfunc : forall i l n a b d r, Forall P b -> P (AFunc i l n a b d r).
  Hypothesis Hclass : forall i l n bs b d, Forall P b -> P (AClass i l n bs b d).
  Hypothesis Hann : forall i l t a v, P (AAnnAssign i l t a v).
  Hypothesis Hassign : forall i l ts v, P (AAssign i l ts v).
  Hypothesis Hexpr : forall i e, P (AExpr i e).
  Hypothesis Hret : forall i e, P (AReturn i e).
  Hypothesis Hother : forall i t h bl, Forall (Forall P) bl -> P (AOther i t h bl).
  Hypothesis Hargs : forall a, P (AArgS a).

  Fixpoint astmt_ind2 (s : astmt) : P s :=
    match s with
    | AFunc i l n a b d r =>
      Hfunc i l n a b d r ((fix go (l : list astmt) : Forall P l :=
                              match l with [] => Forall_nil _ | x :: r => Forall_cons _ (astmt_ind2 x) (go r) end) b)
    | AClass i l n bs b d =>
      Hclass i l n bs b d ((fix go (l : list astmt) : Forall P l :=
                              match l with [] => Forall_nil _ | x :: r => Forall_cons _ (astmt_ind2 x) (go r) end) b)
    | AAnnAssign i l t a v => Hann i l t a v
    | AAssign i l ts v => Hassign i l ts v
    | AExpr i e => Hexpr i e
    | AReturn i e => Hret i e
    | AOther i t h bl =>
      Hother i t h bl
             ((fix gob (l : list (list astmt)) : Forall (Forall P) l :=
                 match l with
                 | [] => Forall_nil _
                 | b :: r =>
                   Forall_cons _ ((fix go (l : list astmt) : Forall P l :=
                                     match l with [] => Forall_nil _ | x :: r => Forall_cons _ (astmt_ind2 x) (go r) end) b)
                               (gob r)
                 end) bl)
    | AArgS a => Hargs a
    end.
End AStmtInd.

Lemma list_eqb_eq : forall (A : Type) (f : A -> A -> bool),
    (forall a b, f a b = true <-> a = b) -> forall x y, list_eqb f x y = true <-> x = y.
Proof.
  intros A f Hf x. induction x as [|a x IH]; intros y; destruct y as [|b y]; simpl; split; intros H;
    try reflexivity; try discriminate.
  - apply andb_true_iff in H. destruct H as [H1 H2]. apply Hf in H1. apply IH in H2. subst. reflexivity.
  - inversion H; subst. apply andb_true_iff. split; [apply Hf; reflexivity | apply IH; reflexivity].
Qed.

Lemma loc_eqb_eq : forall a b, loc_eqb a b = true <-> a = b.
Proof. intros a b. unfold loc_eqb. apply list_eqb_eq. exact str_eqb_eq. Qed.

Lemma loc_eqb_refl : forall a, loc_eqb a a = true.
Proof. intros a. apply loc_eqb_eq. reflexivity. Qed.

Lemma loc_eqb_neq : forall a b, a <> b -> loc_eqb a b = false.
Proof. intros a b H. destruct (loc_eqb a b) eqn:E; [apply loc_eqb_eq in E; contradiction | reflexivity]. Qed.

Lemma path_eqb_eq : forall a b, path_eqb a b = true <-> a = b.
Proof. intros a b. unfold path_eqb. apply list_eqb_eq. exact Nat.eqb_eq. Qed.

Lemma path_eqb_refl : forall a, path_eqb a a = true.
Proof. intros a. apply path_eqb_eq. reflexivity. Qed.

Lemma oloc_eqb_some : forall l s, oloc_eqb (Some l) s = loc_eqb l s.
Proof. reflexivity. Qed.

Lemma loc_eqb_length : forall a b, List.length a <> List.length b -> loc_eqb a b = false.
Proof. intros a b H. apply loc_eqb_neq. intros E. subst. apply H. reflexivity. Qed.

Lemma loc_eqb_snoc : forall p a b, loc_eqb (p ++ [a]) (p ++ [b]) = str_eqb a b.
Proof.
  intros p a b. destruct (str_eqb a b) eqn:E.
  - apply str_eqb_eq in E. subst. apply loc_eqb_refl.
  - apply loc_eqb_neq. intros H. apply app_inv_head in H. inversion H; subst.
    rewrite str_eqb_refl in E. discriminate.
Qed.

Lemma annotate_go : forall (pname : list str) (f : nat -> path) (p : path), (forall j, f j = p ++ [j]) ->
    forall b j,
      (fix go (j : nat) (b : list stmt) : list astmt :=
         match b with [] => [] | x :: r => annotate_stmt pname (f j) x :: go (S j) r end) j b
      = annotate_body pname p j b.
Proof.
  intros pname f p Hf b. induction b as [|x r IH]; intros j; simpl; [reflexivity | rewrite IH, Hf; reflexivity].
Qed.

Fixpoint annotate_blocks (p : path) (bi : nat) (bl : list (list stmt)) : list (list astmt) :=
  match bl with
  | [] => []
  | b :: r => annotate_body [] (p ++ [bi]) 0 b :: annotate_blocks p (S bi) r
  end.

Lemma annotate_func : forall pname p n a b d r,
    annotate_stmt pname p (SFunc n a b d r)
    = AFunc p (Some (pname ++ [n])) n (annotate_arguments (pname ++ [n]) p a) (annotate_body [n] (p ++ [2]) 0 b) d r.
Proof.
  intros. simpl. f_equal. apply (annotate_go [n] (fun j => p ++ [2; j]) (p ++ [2])).
  intros j. rewrite <- app_assoc. reflexivity.
Qed.

Lemma annotate_class : forall pname p n bs body d,
    annotate_stmt pname p (SClass n bs body d)
    = AClass p (Some (pname ++ [n])) n bs (annotate_body [n] p 0 body) d.
Proof. intros. simpl. f_equal. apply (annotate_go [n] (fun j => p ++ [j]) p). reflexivity. Qed.

Lemma annotate_other : forall pname p t h bl,
    annotate_stmt pname p (SOther t h bl) = AOther p t h (annotate_blocks p 0 bl).
Proof.
  intros. simpl. f_equal. generalize 0 at 2 3. induction bl as [|b r IH]; intros bi; simpl; [reflexivity|].
  rewrite IH. f_equal. apply (annotate_go [] (fun j => p ++ [bi; j]) (p ++ [bi])).
  intros j. rewrite <- app_assoc. reflexivity.
Qed.

Lemma annotate_body_Forall : forall (Q : path -> Prop) (P : astmt -> Prop), (forall p l, Q p -> Q (p ++ l)) ->
    forall b, Forall (fun s => forall pname p, Q p -> P (annotate_stmt pname p s)) b ->
    forall pname p j, Q p -> Forall P (annotate_body pname p j b).
Proof.
  intros Q P Qapp b H. induction H as [|x l Hx Hl IH]; intros pname p j Hq; simpl; constructor.
  - apply Hx. apply Qapp. exact Hq.
  - apply IH. exact Hq.
Qed.

Lemma annotate_blocks_Forall : forall (Q : path -> Prop) (P : astmt -> Prop), (forall p l, Q p -> Q (p ++ l)) ->
    forall bl, Forall (Forall (fun s => forall pname p, Q p -> P (annotate_stmt pname p s))) bl ->
    forall p bi, Q p -> Forall (Forall P) (annotate_blocks p bi bl).
Proof.
  intros Q P Qapp bl H. induction H as [|b l Hb Hl IH]; intros p bi Hq; simpl; constructor.
  - apply (annotate_body_Forall Q P Qapp b Hb). apply Qapp. exact Hq.
  - apply IH. exact Hq.
Qed.

Lemma annotate_body_app : forall pname p a b j,
    annotate_body pname p j (a ++ b)
    = annotate_body pname p j a ++ annotate_body pname p (j + List.length a) b.
Proof.
  intros pname p a. induction a as [|x r IH]; intros b j; simpl.
  - rewrite Nat.add_0_r. reflexivity.
  - rewrite IH. replace (S j + List.length r) with (j + S (List.length r)) by lia. reflexivity.
Qed.

(* the _location of a freshly annotated statement, read off the PyAst statement *)
Definition plain_loc (pname : list str) (c : stmt) : option loc :=
  match c with
  | SFunc n _ _ _ _ => Some (pname ++ [n])
  | SClass n _ _ _ => Some (pname ++ [n])
  | SAnnAssign t _ _ => option_map (fun i => pname ++ [i]) (name_id t)
  | SAssign ts _ => option_map (fun i => pname ++ [i]) (assign_last_name ts None)
  | _ => None
  end.

Lemma stmt_loc_annotate : forall pname p c, stmt_loc (annotate_stmt pname p c) = plain_loc pname c.
Proof. intros pname p c. destruct c; reflexivity. Qed.

Lemma stmt_id_annotate : forall pname p c, stmt_id (annotate_stmt pname p c) = p.
Proof. intros pname p c. destruct c; reflexivity. Qed.

Lemma erase_annotate_args : forall floc p k idx l, map erase_arg (annotate_args floc p k idx l) = l.
Proof.
  intros floc p k idx l. revert k idx. induction l as [|a r IH]; intros k idx; simpl; [reflexivity|].
  rewrite IH. destruct a; reflexivity.
Qed.

Lemma erase_annotate_arguments : forall floc p a, erase_arguments (annotate_arguments floc p a) = a.
Proof.
  intros floc p a. unfold erase_arguments, annotate_arguments. simpl.
  rewrite !erase_annotate_args, map_map. simpl. rewrite map_id. destruct a; reflexivity.
Qed.

Lemma erase_annotate_body_of : forall b, Forall (fun s => forall pname p, erase_stmt (annotate_stmt pname p s) = s) b ->
    forall pname p j, map erase_stmt (annotate_body pname p j b) = b.
Proof.
  intros b H. induction H as [|x l Hx Hl IH]; intros pname p j; simpl; [reflexivity | rewrite Hx, IH; reflexivity].
Qed.

Lemma erase_annotate : forall s pname p, erase_stmt (annotate_stmt pname p s) = s.
Proof.
  induction s using stmt_ind2; intros pname p; try reflexivity.
  - rewrite annotate_func. simpl. rewrite erase_annotate_arguments, erase_annotate_body_of by assumption. reflexivity.
  - rewrite annotate_class. simpl. rewrite erase_annotate_body_of by assumption. reflexivity.
  - rewrite annotate_other. simpl. f_equal. generalize 0.
    induction H as [|b l Hb Hl IH]; intros bi; simpl; [reflexivity|].
    rewrite erase_annotate_body_of, IH by assumption. reflexivity.
Qed.

Lemma erase_annotate_body : forall b pname p j, map erase_stmt (annotate_body pname p j b) = b.
Proof. intros b. apply erase_annotate_body_of. apply Forall_forall. intros s _. apply erase_annotate. Qed.

Lemma attach_default_view : forall log a,
    aa_id (attach_default log a) = aa_id a /\ erase_arg (attach_default log a) = erase_arg a.
Proof.
  intros log a. unfold attach_default.
  destruct (List.find (fun ev => path_eqb (fst ev) (aa_id a)) log); simpl; split; reflexivity.
Qed.

Lemma erase_map_args : forall f, (forall a, erase_arg (f a) = erase_arg a) ->
                                 forall s, erase_stmt (map_args_stmt f s) = erase_stmt s.
Proof.
  intros f Hf. induction s using astmt_ind2; simpl; try reflexivity.
  - f_equal.
    + unfold erase_arguments, map_arguments. simpl. rewrite !map_map.
      f_equal; apply map_ext; intros x; apply Hf.
    + rewrite map_map. apply map_ext_Forall. assumption.
  - f_equal. rewrite map_map. apply map_ext_Forall. assumption.
  - f_equal. rewrite map_map. apply map_ext_Forall. eapply Forall_impl; [|exact H].
    intros b Hb. rewrite map_map. apply map_ext_Forall. assumption.
  - specialize (Hf a). unfold erase_arg in Hf. inversion Hf as [[H1 H2]]. rewrite H1. reflexivity.
Qed.

Lemma stmt_id_map_args : forall f, (forall a, aa_id (f a) = aa_id a) ->
                                   forall s, stmt_id (map_args_stmt f s) = stmt_id s.
Proof. intros f Hf s. destruct s; simpl; try reflexivity. apply Hf. Qed.

Lemma node_view_apply_dlog : forall log n, node_view (apply_dlog_node log n) = node_view n.
Proof.
  intros log n. destruct n as [m|s|a]; simpl.
  - f_equal. f_equal. unfold erase, apply_dlog. rewrite map_map. apply map_ext. intros s.
    apply erase_map_args. intros a. apply attach_default_view.
  - f_equal.
    + apply stmt_id_map_args. intros a. apply attach_default_view.
    + f_equal. apply erase_map_args. intros a. apply attach_default_view.
  - destruct (attach_default_view log a) as [H1 H2]. rewrite H1, H2. reflexivity.
Qed.

(* find_for: statements the loop passes over *)
Definition askip (search : loc) (query : str) (cs : list str) (c : astmt) : bool :=
  negb (oloc_eqb (stmt_loc c) search) &&
  match c with
  | AFunc _ _ n _ _ _ _ => match cs with [] => true | _ => negb (str_eqb n query) end
  | AAnnAssign _ _ t _ _ => match name_id t with Some i => negb (str_eqb i query) | None => true end
  | AClass _ _ n _ _ _ => negb (str_eqb n query)
  | _ => true
  end.

Fixpoint last_of (kids : list astmt) (last : option astmt) : option astmt :=
  match kids with [] => last | c :: r => last_of r (Some c) end.

Lemma find_for_skip : forall search pre rest query cs cur last log,
    forallb (askip search query cs) pre = true ->
    find_for search (pre ++ rest) query cs cur last log
    = find_for search rest query cs cur (last_of pre last) log.
Proof.
  intros search pre. induction pre as [|c pre IH]; intros rest query cs cur last log H; simpl in *; [reflexivity|].
  apply andb_true_iff in H. destruct H as [Hc Hpre].
  unfold askip in Hc. apply andb_true_iff in Hc. destruct Hc as [Hloc Hkind].
  apply negb_true_iff in Hloc. rewrite Hloc.
  destruct c; try (apply IH; assumption).
  - destruct cs as [|c0 cs0]; [apply IH; assumption|]. rewrite Hkind. apply IH; assumption.
  - destruct (str_eqb name query) eqn:E; [discriminate|]. apply IH; assumption.
  - destruct (name_id target) as [i|] eqn:E.
    + destruct (str_eqb i query) eqn:E2; [discriminate|]. apply IH; assumption.
    + apply IH; assumption.
Qed.

Lemma find_for_skip_all : forall search kids query cs cur last log,
    forallb (askip search query cs) kids = true ->
    find_for search kids query cs cur last log = FDone cs cur (last_of kids last) log.
Proof.
  intros. rewrite <- (app_nil_r kids) at 1. rewrite find_for_skip by assumption. reflexivity.
Qed.

Lemma forallb_annotate_body : forall (f : astmt -> bool) pname p b j,
    (forall c q, In c b -> f (annotate_stmt pname q c) = true) ->
    forallb f (annotate_body pname p j b) = true.
Proof.
  intros f pname p b. induction b as [|c r IH]; intros j H; simpl; [reflexivity|].
  rewrite H by (left; reflexivity). simpl. apply IH. intros c0 q Hin. apply H. right. assumption.
Qed.

Lemma last_of_app1 : forall l x last, last_of (l ++ [x]) last = Some x.
Proof. induction l as [|y r IH]; intros x last; simpl; [reflexivity | apply IH]. Qed.

(* what the loop variable holds after a whole body was passed over: its last statement *)
Lemma last_of_annotate_body : forall pname p b j last,
    last_of (annotate_body pname p j b) last
    = match rev b with
      | [] => last
      | c :: _ => Some (annotate_stmt pname (p ++ [j + (List.length b - 1)]) c)
      end.
Proof.
  intros pname p b j last. destruct (rev b) as [|c r] eqn:E.
  - apply (f_equal (@rev stmt)) in E. rewrite rev_involutive in E. subst. reflexivity.
  - apply (f_equal (@rev stmt)) in E. rewrite rev_involutive in E. simpl in E. subst b.
    rewrite annotate_body_app. simpl. rewrite last_of_app1. rewrite app_length. simpl.
    replace (List.length (rev r) + 1 - 1) with (List.length (rev r)) by lia. reflexivity.
Qed.

Lemma split_member_some : forall y b pre t post,
    split_member y b = Some (pre, t, post) ->
    b = pre ++ t :: post /\ is_member y t = true /\ forallb (fun c => negb (is_member y c)) pre = true.
Proof.
  intros y b. induction b as [|c r IH]; intros pre t post H; simpl in H; [discriminate|].
  destruct (is_member y c) eqn:E.
  - inversion H; subst. simpl. repeat split; assumption.
  - destruct (split_member y r) as [[[pre0 t0] post0]|] eqn:E2; [|discriminate].
    inversion H; subst. destruct (IH _ _ _ eq_refl) as [H1 [H2 H3]]. subst r.
    simpl. rewrite E. simpl. repeat split; assumption.
Qed.

Lemma split_member_none : forall y b,
    split_member y b = None -> forallb (fun c => negb (is_member y c)) b = true.
Proof.
  intros y b. induction b as [|c r IH]; intros H; simpl in *; [reflexivity|].
  destruct (is_member y c) eqn:E; [discriminate|].
  destruct (split_member y r) as [[[pre0 t0] post0]|] eqn:E2; [discriminate|].
  simpl. apply IH. reflexivity.
Qed.

Lemma member_loc : forall y pname c, assign_ok c = true -> is_member y c = true ->
                                      plain_loc pname c = Some (pname ++ [y]).
Proof.
  intros y pname c Hok Hm. destruct c; simpl in *; try discriminate.
  - apply str_eqb_eq in Hm. subst. reflexivity.
  - apply str_eqb_eq in Hm. subst. reflexivity.
  - destruct (name_id target) as [i|]; [|discriminate]. apply str_eqb_eq in Hm. subst. reflexivity.
  - destruct targets as [|t [|t2 r]]; simpl in *; try discriminate.
    destruct (name_id t) as [i|]; simpl in *; [|discriminate].
    rewrite orb_false_r in Hm. apply str_eqb_eq in Hm. subst. reflexivity.
Qed.

Lemma nonmember_loc : forall y pname c, assign_ok c = true -> is_member y c = false ->
                                         oloc_eqb (plain_loc pname c) (pname ++ [y]) = false.
Proof.
  intros y pname c Hok Hm. destruct c; simpl in *; try reflexivity.
  - rewrite loc_eqb_snoc. assumption.
  - rewrite loc_eqb_snoc. assumption.
  - destruct (name_id target) as [i|]; simpl; [|reflexivity]. rewrite loc_eqb_snoc. assumption.
  - destruct targets as [|t [|t2 r]]; simpl in *; try reflexivity; try discriminate.
    destruct (name_id t) as [i|]; simpl in *; [|reflexivity].
    rewrite orb_false_r in Hm. rewrite loc_eqb_snoc. assumption.
Qed.

Lemma plain_loc_shape : forall pname c l, plain_loc pname c = Some l -> exists n, l = pname ++ [n].
Proof.
  intros pname c l H. destruct c; simpl in H; try discriminate.
  - inversion H. eexists; reflexivity.
  - inversion H. eexists; reflexivity.
  - destruct (name_id target); simpl in H; inversion H. eexists; reflexivity.
  - destruct (assign_last_name targets None); simpl in H; inversion H. eexists; reflexivity.
Qed.

Lemma loc_eqb_never : forall pname search, (forall n, search <> pname ++ [n]) ->
                                            forall n, loc_eqb (pname ++ [n]) search = false.
Proof. intros pname search H n. apply loc_eqb_neq. intros E. apply (H n). symmetry. exact E. Qed.

Lemma loc_never : forall pname c search, (forall n, search <> pname ++ [n]) ->
                                          oloc_eqb (plain_loc pname c) search = false.
Proof.
  intros pname c search H. destruct (plain_loc pname c) as [l|] eqn:E; [|reflexivity].
  destruct (plain_loc_shape _ _ _ E) as [n Hn]. subst l. apply loc_eqb_never. exact H.
Qed.

Lemma find_arg_annot_none : forall y l floc p k idx i,
    has_arg_named y l = false -> find_arg_named y i (annotate_args floc p k idx l) = None.
Proof.
  intros y l. induction l as [|a r IH]; intros floc p k idx i H; simpl in *; [reflexivity|].
  apply orb_false_iff in H. destruct H as [H1 H2]. rewrite H1. apply IH. assumption.
Qed.

Lemma find_plain_none : forall y l k, has_arg_named y l = false -> find_plain_arg y k l = None.
Proof.
  intros y l. induction l as [|a r IH]; intros k H; simpl in *; [reflexivity|].
  apply orb_false_iff in H. destruct H as [H1 H2]. rewrite H1. apply IH. assumption.
Qed.

Lemma find_arg_annot_some : forall y l floc p k idx i,
    has_arg_named y l = true ->
    exists k' a i' a',
      find_plain_arg y k l = Some (k', a)
      /\ find_arg_named y i (annotate_args floc p k idx l) = Some (i', a')
      /\ aa_id a' = p ++ [k'] /\ erase_arg a' = a /\ i <= i' < i + List.length l.
Proof.
  intros y l. induction l as [|a r IH]; intros floc p k idx i H; simpl in *; [discriminate|].
  destruct (str_eqb (a_name a) y) eqn:E.
  - exists k, a, i. eexists. repeat split; try lia. destruct a; reflexivity.
  - simpl in H. destruct (IH floc p (S k) (idx + 1)%Z (S i) H) as [k' [a0 [i' [a' [H1 [H2 [H3 [H4 H5]]]]]]]].
    exists k', a0, i', a'. repeat split; try assumption; lia.
Qed.

Lemma with_default_view : forall a e, node_view (NArg (with_default a e)) = node_view (NArg a).
Proof. intros a e. reflexivity. Qed.

Lemma resolve_body_split : forall seg q' p b j,
    resolve_body seg q' p j b
    = match split_member seg b with
      | Some (pre, t, _) => resolve_stmt q' (p ++ [j + List.length pre]) t
      | None => None
      end.
Proof.
  intros seg q' p b. induction b as [|c r IH]; intros j; simpl; [reflexivity|].
  destruct (is_member seg c) eqn:E.
  - simpl. rewrite Nat.add_0_r. reflexivity.
  - rewrite IH. destruct (split_member seg r) as [[[pre t] post]|]; [|reflexivity].
    simpl. replace (S (j + List.length pre)) with (j + S (List.length pre)) by lia. reflexivity.
Qed.

Lemma resolve_at_split : forall root x q' m,
    resolve_at root (x :: q') m
    = match split_member x m with
      | Some (pre, t, _) => resolve_stmt q' (root ++ [List.length pre]) t
      | None => None
      end.
Proof. intros. unfold resolve_at. apply resolve_body_split. Qed.

Lemma resolve_first_member : forall seg q' p b j,
    (fix first_member (j : nat) (b : list stmt) : option (path * pnode) :=
       match b with
       | [] => None
       | x :: r => if is_member seg x then resolve_stmt q' (p ++ [j]) x else first_member (S j) r
       end) j b
    = resolve_body seg q' p j b.
Proof.
  intros seg q' p b. induction b as [|c r IH]; intros j; simpl; [reflexivity|].
  rewrite IH. reflexivity.
Qed.

Lemma resolve_stmt_class : forall seg q' p n bs body d,
    resolve_stmt (seg :: q') p (SClass n bs body d) = resolve_body seg q' p 0 body.
Proof. intros. simpl. apply resolve_first_member. Qed.

Lemma askip_leaf : forall y pname p c,
    assign_ok c = true -> is_member y c = false ->
    askip (pname ++ [y]) y [] (annotate_stmt pname p c) = true.
Proof.
  intros y pname p c Hok Hm. unfold askip. rewrite stmt_loc_annotate, nonmember_loc by assumption. simpl.
  destruct c; simpl in *; try reflexivity.
  - rewrite Hm. reflexivity.
  - destruct (name_id target); [rewrite Hm|]; reflexivity.
Qed.

Lemma forallb_In : forall (A : Type) (f : A -> bool) l x, forallb f l = true -> In x l -> f x = true.
Proof. intros A f l x H Hin. rewrite forallb_forall in H. apply H. assumption. Qed.

Lemma leaf_found : forall pname p j b y pre t post cur last log,
    split_member y b = Some (pre, t, post) -> forallb assign_ok b = true ->
    find_for (pname ++ [y]) (annotate_body pname p j b) y [] cur last log
    = FReturn (NStmt (annotate_stmt pname (p ++ [j + List.length pre]) t)) log.
Proof.
  intros pname p j b y pre t post cur last log Hs Hok.
  destruct (split_member_some _ _ _ _ _ Hs) as [Hb [Hmt Hpre]]. subst b.
  rewrite annotate_body_app, find_for_skip.
  - simpl. rewrite stmt_loc_annotate, (member_loc y); [|apply (forallb_In _ _ _ t Hok); apply in_or_app; right; left; reflexivity|assumption].
    simpl. rewrite loc_eqb_refl. reflexivity.
  - apply forallb_annotate_body. intros c q Hin. apply askip_leaf.
    + apply (forallb_In _ _ _ c Hok). apply in_or_app. left. assumption.
    + apply negb_true_iff. apply (forallb_In _ _ _ c Hpre). assumption.
Qed.

Lemma leaf_notfound : forall pname p j b y cur last log,
    split_member y b = None -> forallb assign_ok b = true ->
    find_for (pname ++ [y]) (annotate_body pname p j b) y [] cur last log
    = FDone [] cur (last_of (annotate_body pname p j b) last) log.
Proof.
  intros pname p j b y cur last log Hs Hok. apply find_for_skip_all.
  apply forallb_annotate_body. intros c q Hin. apply askip_leaf.
  - apply (forallb_In _ _ _ c Hok). assumption.
  - apply negb_true_iff. apply (forallb_In _ _ _ c (split_member_none _ _ Hs)). assumption.
Qed.

Lemma nonmember_kinds : forall x c, is_member x c = false ->
                                     func_named x c = false /\ annassign_named x c = false /\ class_named x c = false.
Proof. intros x c H. destruct c; simpl in *; repeat split; try reflexivity; assumption. Qed.

Lemma askip_head : forall search x cs pname p c,
    (forall n, search <> pname ++ [n]) ->
    func_named x c = false -> annassign_named x c = false -> class_named x c = false ->
    askip search x cs (annotate_stmt pname p c) = true.
Proof.
  intros search x cs pname p c Hs Hf Ha Hc. unfold askip. rewrite stmt_loc_annotate, loc_never by assumption. simpl.
  destruct c; simpl in *; try reflexivity.
  - destruct cs; [reflexivity|]. rewrite Hf. reflexivity.
  - rewrite Hc. reflexivity.
  - destruct (name_id target); [rewrite Ha|]; reflexivity.
Qed.

Lemma askip_fall : forall search z pname p c,
    (forall n, search <> pname ++ [n]) ->
    annassign_named z c = false -> class_named z c = false ->
    askip search z [] (annotate_stmt pname p c) = true.
Proof.
  intros search z pname p c Hs Ha Hc. unfold askip. rewrite stmt_loc_annotate, loc_never by assumption. simpl.
  destruct c; simpl in *; try reflexivity.
  - rewrite Hc. reflexivity.
  - destruct (name_id target); [rewrite Ha|]; reflexivity.
Qed.

Lemma class_enter : forall search pname p n bs body d rest cs cur last log,
    (forall k, search <> pname ++ [k]) ->
    find_for search (annotate_stmt pname p (SClass n bs body d) :: rest) n cs cur last log
    = FDone cs (CList (annotate_body [n] p 0 body)) (Some (annotate_stmt pname p (SClass n bs body d))) log.
Proof.
  intros search pname p n bs body d rest cs cur last log Hs.
  rewrite annotate_class. simpl find_for. rewrite (loc_eqb_never _ _ Hs n), str_eqb_refl. reflexivity.
Qed.

Lemma find_while_nil : forall fuel search child cur log,
    find_while (S fuel) search child cur [] log = Ok (None, log).
Proof. reflexivity. Qed.

(* one iteration of the while loop: what becomes of the result of find_for *)
Definition step_result (fuel : nat) (search : loc) (r : for_res) : outcome (option anode * dlog) :=
  match r with
  | FReturn n log' => Ok (Some n, log')
  | FNone log' => Ok (None, log')
  | FErr e => Err e
  | FDone cs2 cur' child' log' => find_while fuel search child' cur' cs2 log'
  end.

Lemma find_while_step_more : forall fuel search child kids query c cs log,
    find_while (S fuel) search child (CList kids) (query :: c :: cs) log
    = step_result fuel search (find_for search kids query (c :: cs) (CList kids) child log).
Proof. intros. simpl. destruct child; reflexivity. Qed.

Lemma find_while_step_none : forall fuel search kids query cs log,
    find_while (S fuel) search None (CList kids) (query :: cs) log
    = step_result fuel search (find_for search kids query cs (CList kids) None log).
Proof. intros. simpl. destruct cs; reflexivity. Qed.

Lemma find_while_step_name : forall fuel search c kids query log,
    match astmt_name c with Some n => str_eqb n query | None => false end = false ->
    find_while (S fuel) search (Some c) (CList kids) [query] log
    = step_result fuel search (find_for search kids query [] (CList kids) (Some c) log).
Proof. intros fuel search c kids query log H. simpl. rewrite H. reflexivity. Qed.

(* the loop ends here: with exactly one segment left, the argument (positional, else keyword-only) or None; with
   more, None whatever the arguments *)
Lemma func_segment : forall search pname p n args body d r rest z more cur last log fuel,
    (forall k, search <> pname ++ [k]) ->
    List.length (ar_kw_defaults args) = List.length (ar_kwonly args) ->
    exists res log',
      step_result fuel search
                  (find_for search (annotate_stmt pname p (SFunc n args body d r) :: rest) n (z :: more) cur last log)
      = Ok (res, log')
      /\ option_map node_view res = match more with [] => resolve_arg z p args | _ => None end.
Proof.
  intros search pname p n args body d r rest z more cur last log fuel Hs Hkw.
  (* what the loop returns for the argument it found *)
  assert (Hret : forall a' log1 (k : path) x, aa_id a' = p ++ k -> erase_arg a' = x ->
             exists res log',
               step_result fuel search (match more with [] => FReturn (NArg a') log1 | _ => FNone log1 end) = Ok (res, log')
               /\ option_map node_view res = match more with [] => Some (p ++ k, PArg x) | _ => None end).
  { intros a' log1 k x Hid He. destruct more; eexists; eexists; (split; [reflexivity|]); [|reflexivity].
    simpl. rewrite Hid, He. reflexivity. }
  simpl find_for. rewrite (loc_eqb_never _ _ Hs n), str_eqb_refl. simpl negb. cbv iota.
  unfold resolve_arg.
  destruct (has_arg_named z (ar_args args)) eqn:Ha.
  - destruct (find_arg_annot_some z (ar_args args) (pname ++ [n]) (p ++ [0]) 0 (args_start (ar_args args)) 0 Ha)
      as [k' [a [i' [a' [H1 [H2 [H3 [H4 _]]]]]]]].
    rewrite H2, nth_error_map, H1. rewrite <- app_assoc in H3.
    destruct (nth_error (ar_defaults args) i') as [e|]; simpl; apply Hret; assumption.
  - rewrite find_arg_annot_none by assumption. rewrite find_plain_none by assumption.
    destruct (has_arg_named z (ar_kwonly args)) eqn:Hk.
    + destruct (find_arg_annot_some z (ar_kwonly args) (pname ++ [n]) (p ++ [1]) 0 0%Z 0 Hk)
        as [k' [a [i' [a' [H1 [H2 [H3 [H4 H5]]]]]]]].
      cbn [aar_kwonly annotate_arguments aar_kw_defaults]. rewrite H2, H1. rewrite <- app_assoc in H3.
      destruct (nth_error (ar_kw_defaults args) i') as [[e|]|] eqn:En; simpl; try (apply Hret; assumption).
      exfalso. apply nth_error_None in En. lia.
    + cbn [aar_kwonly annotate_arguments]. rewrite find_arg_annot_none by assumption.
      rewrite find_plain_none by assumption.
      exists None. eexists. split; [reflexivity|]. destruct more; reflexivity.
Qed.

Lemma find_view_of_while : forall root q m r log res,
    q <> [] ->
    find_while (S (List.length q)) q None (CList (annotate_at root m)) q [] = Ok (r, log) ->
    option_map node_view r = res ->
    find_view_at root q m = Ok res.
Proof.
  intros root q m r log res Hq Hw Hr. unfold find_view_at, find_in_ast, find_in_ast_log.
  destruct q as [|x q']; [contradiction|]. rewrite Hw. simpl.
  destruct r as [n|]; simpl in *; [rewrite node_view_apply_dlog|]; subst; reflexivity.
Qed.

Lemma supported_func_kw : forall n args body d r,
    supported_stmt (SFunc n args body d r) = true ->
    List.length (ar_kw_defaults args) = List.length (ar_kwonly args).
Proof.
  intros n args body d r H. simpl in H. apply andb_true_iff in H. destruct H as [H _].
  apply Nat.eqb_eq. assumption.
Qed.

Lemma supported_split : forall x b pre t post,
    forallb supported_stmt b = true -> split_member x b = Some (pre, t, post) -> supported_stmt t = true.
Proof.
  intros x b pre t post H Hs. destruct (split_member_some _ _ _ _ _ Hs) as [Hb _]. subst b.
  apply (forallb_In _ _ _ t H). apply in_or_app. right. left. reflexivity.
Qed.

Lemma leaf_lookup_facts : forall b, leaf_lookup_class b = None -> forallb assign_ok b = true.
Proof.
  intros b H. unfold leaf_lookup_class in H. destruct (forallb assign_ok b); [reflexivity | discriminate].
Qed.

Lemma head_pre_skipped : forall search x cs pname p j pre,
    (forall n, search <> pname ++ [n]) ->
    forallb (fun c => negb (is_member x c)) pre = true ->
    forallb (askip search x cs) (annotate_body pname p j pre) = true.
Proof.
  intros search x cs pname p j pre Hs Hm. apply forallb_annotate_body. intros c q Hin.
  assert (Hmc : is_member x c = false) by (apply negb_true_iff; apply (forallb_In _ _ _ c Hm Hin)).
  destruct (nonmember_kinds _ _ Hmc) as [Hf [Ha Hc]].
  apply askip_head; assumption.
Qed.

Lemma walk_to_member : forall search x cs pname p j b pre t post cur last log,
    split_member x b = Some (pre, t, post) ->
    (forall n, search <> pname ++ [n]) ->
    find_for search (annotate_body pname p j b) x cs cur last log
    = find_for search
               (annotate_stmt pname (p ++ [j + List.length pre]) t
                              :: annotate_body pname p (S (j + List.length pre)) post)
               x cs cur (last_of (annotate_body pname p j pre) last) log.
Proof.
  intros search x cs pname p j b pre t post cur last log Hs Hn.
  destruct (split_member_some _ _ _ _ _ Hs) as [Hm [Hmt Hpre]]. subst b.
  rewrite annotate_body_app, find_for_skip by (apply head_pre_skipped; assumption).
  reflexivity.
Qed.

Lemma split_member_func : forall x b pre n args body d r post,
    split_member x b = Some (pre, SFunc n args body d r, post) -> n = x.
Proof.
  intros x b pre n args body d r post H. destruct (split_member_some _ _ _ _ _ H) as [_ [Hm _]].
  apply str_eqb_eq. exact Hm.
Qed.

Lemma split_member_class : forall x b pre n bs body d post,
    split_member x b = Some (pre, SClass n bs body d, post) -> n = x.
Proof.
  intros x b pre n bs body d post H. destruct (split_member_some _ _ _ _ _ H) as [_ [Hm _]].
  apply str_eqb_eq. exact Hm.
Qed.

Lemma astmt_name_annotate : forall pname p c, astmt_name (annotate_stmt pname p c) = stmt_name c.
Proof. intros pname p c. destruct c; reflexivity. Qed.

(* the three moves of the while loop inside a scope (a module or class body b annotated at p under the name pname),
   whatever the loop variable child holds: at a function, into a class, the last segment *)
Lemma at_func : forall fuel search child pname p b x z more pre args body d r post log,
    split_member x b = Some (pre, SFunc x args body d r, post) ->
    (forall k, search <> pname ++ [k]) ->
    List.length (ar_kw_defaults args) = List.length (ar_kwonly args) ->
    exists res log',
      find_while (S fuel) search child (CList (annotate_body pname p 0 b)) (x :: z :: more) log = Ok (res, log')
      /\ option_map node_view res = match more with [] => resolve_arg z (p ++ [List.length pre]) args | _ => None end.
Proof.
  intros fuel search child pname p b x z more pre args body d r post log Hs Hn Hkw.
  rewrite find_while_step_more.
  rewrite (walk_to_member search x (z :: more) pname p 0 b pre _ post _ child log Hs Hn).
  apply func_segment; assumption.
Qed.

Lemma enter_class : forall fuel search child pname p b x c cs pre bs body d post log,
    split_member x b = Some (pre, SClass x bs body d, post) ->
    (forall k, search <> pname ++ [k]) ->
    find_while (S fuel) search child (CList (annotate_body pname p 0 b)) (x :: c :: cs) log
    = find_while fuel search (Some (annotate_stmt pname (p ++ [List.length pre]) (SClass x bs body d)))
                 (CList (annotate_body [x] (p ++ [List.length pre]) 0 body)) (c :: cs) log.
Proof.
  intros fuel search child pname p b x c cs pre bs body d post log Hs Hn.
  rewrite find_while_step_more.
  rewrite (walk_to_member search x (c :: cs) pname p 0 b pre _ post _ child log Hs Hn).
  rewrite class_enter by exact Hn. reflexivity.
Qed.

Lemma leaf_lookup : forall fuel pname p b y child log,
    forallb assign_ok b = true ->
    match child with
    | Some c => match astmt_name c with Some n => str_eqb n y | None => false end = false
    | None => True
    end ->
    exists res,
      find_while (S (S fuel)) (pname ++ [y]) child (CList (annotate_body pname p 0 b)) [y] log = Ok (res, log)
      /\ option_map node_view res = resolve_body y [] p 0 b.
Proof.
  intros fuel pname p b y child log Hok Hch.
  assert (Hstep : find_while (S (S fuel)) (pname ++ [y]) child (CList (annotate_body pname p 0 b)) [y] log
                  = step_result (S fuel) (pname ++ [y])
                                (find_for (pname ++ [y]) (annotate_body pname p 0 b) y []
                                          (CList (annotate_body pname p 0 b)) child log)).
  { destruct child as [c|]; [apply find_while_step_name; exact Hch | apply find_while_step_none]. }
  rewrite Hstep, resolve_body_split. destruct (split_member y b) as [[[pre t] post]|] eqn:Hs.
  - rewrite (leaf_found pname p 0 b y pre t post _ child log Hs Hok). eexists. split; [reflexivity|].
    simpl. rewrite stmt_id_annotate, erase_annotate. reflexivity.
  - rewrite (leaf_notfound pname p 0 b y _ child log Hs Hok). eexists. split; reflexivity.
Qed.

Lemma c15_depth1 : forall root m x, leaf_lookup_class m = None ->
                                    find_view_at root [x] m = Ok (resolve_at root [x] m).
Proof.
  intros root m x H.
  destruct (leaf_lookup 0 [] root m x None [] (leaf_lookup_facts _ H) I) as [res [Hw Hr]].
  apply find_view_of_while with (r := res) (log := []); [discriminate | exact Hw | exact Hr].
Qed.

Lemma c15_depth2_func : forall root m x y pre n args body d r post,
    supported m = true ->
    split_member x m = Some (pre, SFunc n args body d r, post) ->
    find_view_at root [x; y] m = Ok (resolve_at root [x; y] m).
Proof.
  intros root m x y pre n args body d r post Hsup Hs. pose proof (split_member_func _ _ _ _ _ _ _ _ _ Hs). subst n.
  pose proof (supported_func_kw _ _ _ _ _ (supported_split _ _ _ _ _ Hsup Hs)) as Hkw.
  destruct (at_func 2 [x; y] None [] root m x y [] pre args body d r post [] Hs) as [res [log' [Hw Hr]]];
    [intros k; discriminate | exact Hkw |].
  apply find_view_of_while with (r := res) (log := log'); [discriminate | exact Hw |].
  rewrite Hr, resolve_at_split, Hs. reflexivity.
Qed.

Lemma c15_depth2_class : forall root m x y pre n bs body d post,
    split_member x m = Some (pre, SClass n bs body d, post) ->
    str_eqb x y = false -> leaf_lookup_class body = None ->
    find_view_at root [x; y] m = Ok (resolve_at root [x; y] m).
Proof.
  intros root m x y pre n bs body d post Hs Hxy Hl. pose proof (split_member_class _ _ _ _ _ _ _ _ Hs). subst n.
  destruct (leaf_lookup 0 [x] (root ++ [List.length pre]) body y
                        (Some (annotate_stmt [] (root ++ [List.length pre]) (SClass x bs body d))) []
                        (leaf_lookup_facts _ Hl)) as [res [Hw Hr]].
  { rewrite astmt_name_annotate. exact Hxy. }
  apply find_view_of_while with (r := res) (log := []); [discriminate | |].
  - unfold annotate_at. simpl List.length. rewrite (enter_class 2 [x; y] None [] root m x y [] pre bs body d post [] Hs).
    + exact Hw.
    + intros k; discriminate.
  - rewrite Hr, resolve_at_split, Hs. symmetry. apply resolve_stmt_class.
Qed.

Lemma unresolved_head_facts : forall x y m,
    unresolved_head_class x y m = None ->
    existsb (fun c => func_named x c || annassign_named x c || class_named x c) m = false
    /\ existsb (fun c => annassign_named y c || class_named y c) m = false
    /\ last_func_named y m = false.
Proof.
  intros x y m H. unfold unresolved_head_class in H.
  destruct (existsb (fun c => func_named x c || annassign_named x c || class_named x c) m); [discriminate|].
  destruct (existsb (fun c => annassign_named y c || class_named y c) m); simpl in H; [discriminate|].
  destruct (last_func_named y m); [discriminate|]. repeat split; reflexivity.
Qed.

Lemma c15_depth2_unresolved : forall root m x y,
    unresolved_head_class x y m = None -> resolve_at root [x; y] m = None ->
    find_view_at root [x; y] m = Ok (resolve_at root [x; y] m).
Proof.
  intros root m x y H Hres. rewrite Hres.
  (* nothing in m is called x, so the first iteration passes over all of m and leaves its last statement in the loop
     variable; the second looks for y with that statement as child: neither the child nor anything in m matches *)
  destruct (unresolved_head_facts _ _ _ H) as [Hx [Hy Hlast]].
  assert (Hlen : forall k : str, [x; y] <> [] ++ [k]) by (intros k; discriminate).
  apply find_view_of_while with (r := None) (log := []); [discriminate | | reflexivity].
  simpl List.length. rewrite find_while_step_more.
  set (cur := CList (annotate_at root m)). unfold annotate_at.
  assert (Hskip1 : forallb (askip [x; y] x [y]) (annotate_body [] root 0 m) = true).
  { apply forallb_annotate_body. intros c q Hin.
    pose proof (existsb_false_In _ _ _ c Hx Hin) as Hc. simpl in Hc.
    apply orb_false_iff in Hc. destruct Hc as [Hc H3]. apply orb_false_iff in Hc. destruct Hc as [H1 H2].
    apply askip_head; assumption. }
  assert (Hskip2 : forallb (askip [x; y] y []) (annotate_body [] root 0 m) = true).
  { apply forallb_annotate_body. intros c q Hin.
    pose proof (existsb_false_In _ _ _ c Hy Hin) as Hc. simpl in Hc. apply orb_false_iff in Hc. destruct Hc as [H1 H2].
    apply askip_fall; assumption. }
  rewrite find_for_skip_all by exact Hskip1. unfold step_result at 1.
  rewrite last_of_annotate_body. unfold last_func_named in Hlast.
  destruct (rev m) as [|c r] eqn:Erev.
  - subst cur. rewrite find_while_step_none. unfold annotate_at.
    rewrite find_for_skip_all by exact Hskip2. reflexivity.
  - subst cur. rewrite find_while_step_name.
    + unfold annotate_at. rewrite find_for_skip_all by exact Hskip2. reflexivity.
    + rewrite astmt_name_annotate.
      assert (Hin : In c m). { apply in_rev. rewrite Erev. left. reflexivity. }
      pose proof (existsb_false_In _ _ _ c Hy Hin) as Hc. simpl in Hc. apply orb_false_iff in Hc. destruct Hc as [H1 H2].
      destruct c; simpl in *; try reflexivity; assumption.
Qed.

(* x.y.z where x is a function: a function has no members, and find_in_ast returns None as well *)
Lemma c15_depth3_func_head : forall root m x y z pre n args body d r post,
    supported m = true ->
    split_member x m = Some (pre, SFunc n args body d r, post) ->
    find_view_at root [x; y; z] m = Ok (resolve_at root [x; y; z] m).
Proof.
  intros root m x y z pre n args body d r post Hsup Hs. pose proof (split_member_func _ _ _ _ _ _ _ _ _ Hs). subst n.
  pose proof (supported_func_kw _ _ _ _ _ (supported_split _ _ _ _ _ Hsup Hs)) as Hkw.
  destruct (at_func 3 [x; y; z] None [] root m x y [z] pre args body d r post [] Hs) as [res [log' [Hw Hr]]];
    [intros k; discriminate | exact Hkw |].
  apply find_view_of_while with (r := res) (log := log'); [discriminate | exact Hw |].
  rewrite Hr, resolve_at_split, Hs. reflexivity.
Qed.

Lemma c15_depth3 : forall root m x y z pre n bs body d post pre' n' args body' d' r' post',
    supported m = true ->
    split_member x m = Some (pre, SClass n bs body d, post) ->
    split_member y body = Some (pre', SFunc n' args body' d' r', post') ->
    find_view_at root [x; y; z] m = Ok (resolve_at root [x; y; z] m).
Proof.
  intros root m x y z pre n bs body d post pre' n' args body' d' r' post' Hsup Hs Hs'.
  pose proof (split_member_class _ _ _ _ _ _ _ _ Hs). subst n.
  pose proof (split_member_func _ _ _ _ _ _ _ _ _ Hs'). subst n'.
  assert (Hkw : List.length (ar_kw_defaults args) = List.length (ar_kwonly args)).
  { pose proof (supported_split _ _ _ _ _ Hsup Hs) as Hc. simpl in Hc.
    exact (supported_func_kw _ _ _ _ _ (supported_split _ _ _ _ _ Hc Hs')). }
  destruct (at_func 2 [x; y; z] (Some (annotate_stmt [] (root ++ [List.length pre]) (SClass x bs body d)))
                    [x] (root ++ [List.length pre]) body y z [] pre' args body' d' r' post' [] Hs')
    as [res [log' [Hw Hr]]]; [intros k; discriminate | exact Hkw |].
  apply find_view_of_while with (r := res) (log := log'); [discriminate | |].
  - unfold annotate_at. simpl List.length.
    rewrite (enter_class 3 [x; y; z] None [] root m x y [z] pre bs body d post [] Hs); [exact Hw|].
    intros k; discriminate.
  - rewrite Hr, resolve_at_split, Hs.
    rewrite resolve_stmt_class, resolve_body_split, Hs'. reflexivity.
Qed.

Lemma c15_depth0 : forall root m, find_view_at root [] m = Ok (resolve_at root [] m).
Proof.
  intros root m. unfold find_view_at, find_in_ast, find_in_ast_log. simpl.
  unfold erase, annotate_at. rewrite erase_annotate_body. reflexivity.
Qed.

Theorem C15_partial_at : forall root m q,
    supported m = true -> finding_class_C15 m q = None ->
    find_view_at root q m = Ok (resolve_at root q m).
Proof.
  intros root m q Hsup E.
  destruct q as [|x [|y [|z [|w q]]]]; simpl in E.
  - apply c15_depth0.
  - apply c15_depth1. assumption.
  - destruct (split_member x m) as [[[pre t] post]|] eqn:Hs.
    + (* the cases of finding_class_C15: a function, a class, an annotated assignment (in a class), anything else *)
      destruct t.
      1: eapply c15_depth2_func; eassumption.
      1: destruct (str_eqb x y) eqn:Hxy; [discriminate|]; eapply c15_depth2_class; eassumption.
      1: discriminate.
      all: apply c15_depth2_unresolved; [assumption|]; rewrite resolve_at_split, Hs; reflexivity.
    + apply c15_depth2_unresolved; [assumption|]. rewrite resolve_at_split, Hs. reflexivity.
  - destruct (split_member x m) as [[[pre t] post]|] eqn:Hs; [|discriminate].
    destruct t; try discriminate.
    + eapply c15_depth3_func_head; eassumption.
    + destruct (split_member y body) as [[[pre' t'] post']|] eqn:Hs'; [|discriminate].
      destruct t'; try discriminate.
      eapply c15_depth3; eassumption.
  - discriminate.
Qed.

Theorem C15_partial_lemma : forall m q, guard_C15 m q = true -> C15_find_at m q.
Proof.
  intros m q H. unfold guard_C15 in H. apply andb_true_iff in H. destruct H as [Hsup H].
  unfold C15_find_at, find_view, resolve.
  destruct (finding_class_C15 m q) eqn:E; [discriminate|]. apply C15_partial_at; assumption.
Qed.
