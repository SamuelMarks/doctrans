(* ParseSigFacts: lemmas about ParseSig.v — which names parse.function's merge produces and in which
   order (exactly), what py_signature reports, and when the two agree.  Unbounded in the number of
   parameters.  Defined here for the statements: fd_facts / doc_facts (what wf_fd / wf_doc give), kw_split and append_kw
   (the ** step of parse.function); parse_function_structure reads a successful parse stage by stage over them. *)
From Coq Require Import List Ascii Bool Arith ZArith Lia Permutation.
From Coq Require String.
Import String.StringSyntax.
From DT Require Import PyStr Sexp PyVal TyExpr PureUtils Defaults PyAst IR Merge ParseSig C12Spec C07Spec
     ListFacts PyStrFacts MergeFacts C12Facts.
Import ListNotations.

Lemma strs_distinct_NoDup : forall l, strs_distinct l = true <-> NoDup l.
Proof.
  induction l as [|x r IH]; cbn [strs_distinct].
  - split; [constructor|reflexivity].
  - rewrite andb_true_iff, negb_true_iff, IH, mem_str_false. split.
    + intros [H1 H2]; constructor; assumption.
    + intros H; inversion H; subst; split; assumption.
Qed.

Lemma filter_neq_notin' : forall (x : str) l, ~ In x l -> filter (fun y => negb (str_eqb x y)) l = l.
Proof.
  intros k l; induction l as [|y l IH]; cbn [filter In]; [reflexivity|].
  intros H. assert (E : str_eqb k y = false) by (apply str_eqb_neq; intros ->; apply H; left; reflexivity).
  rewrite E. cbn [negb]. f_equal. apply IH. tauto.
Qed.

Lemma dedup_first_NoDup_id : forall l, NoDup l -> dedup_first l = l.
Proof.
  induction l as [|x r IH]; intros H; cbn [dedup_first]; [reflexivity|].
  inversion H as [|? ? Hx Hr]; subst. rewrite IH by exact Hr. rewrite filter_neq_notin' by exact Hx. reflexivity.
Qed.

Lemma NoDup_app_intro : forall l1 l2 : list str, NoDup l1 -> NoDup l2 ->
  (forall x, In x l1 -> ~ In x l2) -> NoDup (l1 ++ l2).
Proof.
  intros l1 l2 H1 H2 Hd. induction H1 as [|x l1 Hx H1 IH]; cbn [app]; [exact H2|].
  constructor.
  - intros Hin. apply in_app_or in Hin. destruct Hin as [Hin|Hin]; [tauto|]. apply (Hd x); [left; reflexivity|exact Hin].
  - apply IH. intros y Hy. apply Hd. right; exact Hy.
Qed.

Lemma NoDup_app_filter : forall A B : list str, NoDup A -> NoDup B ->
  NoDup (A ++ filter (fun k => negb (mem_str k A)) B).
Proof.
  intros A B HA HB. apply NoDup_app_intro; [exact HA|apply NoDup_filter; exact HB|].
  intros x Hx Hin. apply filter_In in Hin. destruct Hin as [_ Hm].
  apply mem_str_In in Hx. rewrite Hx in Hm. discriminate.
Qed.

Lemma NoDup_app_l : forall l1 l2 : list str, NoDup (l1 ++ l2) -> NoDup l1.
Proof.
  induction l1 as [|x l1 IH]; intros l2 H; [constructor|]. cbn [app] in H. inversion H; subst.
  constructor; [|eapply IH; eauto]. intros Hin. match goal with Hx : ~ In x _ |- _ => apply Hx end.
  apply in_or_app; left; exact Hin.
Qed.

Lemma NoDup_app_single : forall (l : list str) x, NoDup l -> ~ In x l -> NoDup (l ++ [x]).
Proof. exact (@NoDup_snoc str). Qed.

Lemma is_prefix_spec : forall p l, is_prefix p l = true <-> exists r, l = p ++ r.
Proof.
  induction p as [|x p IH]; intros l; cbn [is_prefix].
  - split; [intros _; exists l; reflexivity|reflexivity].
  - destruct l as [|y l].
    + split; [discriminate|]. intros [r H]; discriminate.
    + rewrite andb_true_iff, str_eqb_eq, IH. split.
      * intros [-> [r ->]]. exists r; reflexivity.
      * intros [r H]. cbn [app] in H. inversion H; subst. split; [reflexivity|exists r; reflexivity].
Qed.

Lemma prefix_then_rest : forall D S : list str, NoDup S -> is_prefix D S = true ->
  D ++ filter (fun k => negb (mem_str k D)) S = S.
Proof.
  intros D S Hnd Hp. apply is_prefix_spec in Hp. destruct Hp as [R ->]. f_equal. rewrite filter_app.
  rewrite filter_none by (intros k Hk; apply negb_false_iff, mem_str_In, Hk).
  apply filter_all. intros k Hk. apply negb_true_iff, mem_str_false. intros HkD.
  induction D as [|d D IH]; [destruct HkD|]. cbn [app] in Hnd. inversion Hnd as [|? ? Hd Hnd']; subst.
  destruct HkD as [->|HkD]; [apply Hd, in_or_app; right; exact Hk|exact (IH Hnd' HkD)].
Qed.

Lemma mapM_Forall2 : forall {A B} (f : A -> outcome B) l l', mapM f l = Ok l' -> Forall2 (fun x y => f x = Ok y) l l'.
Proof.
  intros A B f l; induction l as [|x r IH]; intros l' H; cbn [mapM] in H.
  - inversion H; constructor.
  - destruct (f x) as [y|] eqn:E; cbn [bind] in H; [|discriminate].
    destruct (mapM f r) as [ys|] eqn:E2; cbn [bind] in H; [|discriminate].
    inversion H; subst. constructor; [exact E|apply IH; reflexivity].
Qed.

Lemma snt_name_ok : forall n, name_ok n = true -> snt_name n = n.
Proof.
  intros n H. unfold snt_name. destruct (kwargs_like n); [|reflexivity].
  destruct n as [|c r]; [reflexivity|]. cbn [name_ok] in H.
  unfold lstrip_chars, lstrip_by. cbn [dropwhile mem_c existsb].
  apply negb_true_iff in H. rewrite H. reflexivity.
Qed.

Lemma return_type_not_kwargs : kwargs_like (L "return_type") = false.
Proof. reflexivity. Qed.

Lemma set_name_and_type_fst : forall n p it ww r, set_name_and_type n p it ww = Ok r -> fst r = snt_name n.
Proof.
  intros n p it ww r H. unfold set_name_and_type in H.
  destruct (snt_param n p it ww); cbn [bind] in H; [|discriminate]. inversion H; reflexivity.
Qed.

Lemma snt_pairs_keys : forall ps it ww l, forallb name_ok (od_keys ps) = true ->
  Forall2 (fun x y => set_name_and_type (fst x) (snd x) it ww = Ok y) ps l -> od_keys l = od_keys ps.
Proof.
  intros ps it ww l Hok E. induction E as [|[k p] y ps l Hxy E IH]; [reflexivity|].
  cbn [od_keys map fst] in *. apply andb_true_iff in Hok. destruct Hok as [Hk Hok].
  cbn [fst snd] in Hxy. apply set_name_and_type_fst in Hxy. rewrite Hxy, snt_name_ok by exact Hk.
  f_equal. apply IH; exact Hok.
Qed.

Lemma set_names_and_types_keys : forall ps it ww r,
  NoDup (od_keys ps) -> forallb name_ok (od_keys ps) = true ->
  set_names_and_types ps it ww = Ok r -> od_keys r = od_keys ps.
Proof.
  intros ps it ww r Hnd Hok H. unfold set_names_and_types in H.
  destruct (mapM _ ps) as [l|] eqn:E; cbn [bind] in H; [|discriminate]. inversion H; subst; clear H.
  pose proof (snt_pairs_keys ps it ww l Hok (mapM_Forall2 _ _ _ E)) as K.
  rewrite od_of_pairs_NoDup; [exact K|]. rewrite K; exact Hnd.
Qed.

Lemma set_names_and_types_get : forall ps it ww r k p,
  NoDup (od_keys ps) -> forallb name_ok (od_keys ps) = true ->
  set_names_and_types ps it ww = Ok r -> od_get k ps = Some p ->
  exists p', snt_param k p it ww = Ok p' /\ od_get k r = Some p'.
Proof.
  intros ps it ww r k p Hnd Hok H Hg. unfold set_names_and_types in H.
  destruct (mapM _ ps) as [l|] eqn:E; cbn [bind] in H; [|discriminate]. inversion H; subst; clear H.
  apply mapM_Forall2 in E.
  rewrite od_of_pairs_NoDup by (rewrite (snt_pairs_keys ps it ww l Hok E); exact Hnd).
  clear Hnd. induction E as [|[k0 p0] [k1 p1] ps l Hxy E IH]; [discriminate|].
  cbn [od_keys map fst forallb] in Hok. apply andb_true_iff in Hok. destruct Hok as [Hk Hok].
  cbn [fst snd] in Hxy. pose proof (set_name_and_type_fst _ _ _ _ _ Hxy) as Hn. cbn [fst] in Hn.
  rewrite snt_name_ok in Hn by exact Hk. subst k1.
  cbn [od_get] in *. destruct (str_eqb k k0) eqn:Ek.
  - apply str_eqb_eq in Ek; subst k0. inversion Hg; subst p0.
    unfold set_name_and_type in Hxy. destruct (snt_param k p it ww) as [q|]; cbn [bind] in Hxy; [|discriminate].
    inversion Hxy; subst. exists p1. split; reflexivity.
  - apply IH; assumption.
Qed.

Lemma map2_func_arg2param_keys : forall args (ds : list (option expr)), List.length args <= List.length ds ->
  map fst (map2 func_arg2param args ds) = map a_name args.
Proof.
  induction args as [|x args IH]; intros ds H; cbn [map2 map]; [reflexivity|].
  destruct ds as [|d ds]; [cbn in H; lia|]. cbn [map fst func_arg2param]. f_equal. apply IH. cbn in H; lia.
Qed.

Lemma pad_defaults_length : forall {A} n (ds : list (option A)), n <= List.length (pad_defaults n ds).
Proof. intros A n ds. unfold pad_defaults. rewrite app_length, repeat_length. lia. Qed.

Lemma sig_pairs_keys : forall a pos, od_keys (sig_pairs a pos) = map a_name pos ++ map a_name (ar_kwonly a).
Proof.
  intros a pos. unfold sig_pairs, od_keys. rewrite map_app.
  rewrite !map2_func_arg2param_keys by apply pad_defaults_length. reflexivity.
Qed.

(* facts that wf_fd gives *)
Record fd_facts (a : arguments) : Prop := mkFacts {
  ff_vararg : ar_vararg a = None;
  ff_defaults : List.length (ar_defaults a) <= List.length (ar_args a);
  ff_kw : List.length (ar_kwonly a) = List.length (ar_kw_defaults a);
  ff_nodup : NoDup (sig_pos_names a ++ opt_list (kwarg_name a));
  ff_ok : forallb name_ok (sig_pos_names a ++ opt_list (kwarg_name a)) = true
}.

Lemma wf_fd_facts : forall fd, wf_fd fd = true -> exists n a b dc r, fd = SFunc n a b dc r /\ fd_facts a.
Proof.
  intros fd H. destruct fd as [n a b dc r| | | | | |]; try discriminate.
  exists n, a, b, dc, r. split; [reflexivity|]. cbn [wf_fd] in H.
  apply andb_true_iff in H. destruct H as [H _]. apply andb_true_iff in H. destruct H as [H Hok].
  apply andb_true_iff in H. destruct H as [H Hnd]. apply andb_true_iff in H. destruct H as [H Hkw].
  apply andb_true_iff in H. destruct H as [Hva Hdf]. apply strs_distinct_NoDup in Hnd.
  (* the checked name list is the one of the facts, after self / cls if there is one *)
  assert (Hsuf : exists pre, map a_name (ar_args a) ++ map a_name (ar_kwonly a) ++ opt_list (kwarg_name a)
                             = pre ++ sig_pos_names a ++ opt_list (kwarg_name a)).
  { unfold sig_pos_names, pos_args. destruct (str_eqb (get_function_type a) (L "static")).
    - exists []. rewrite <- app_assoc. reflexivity.
    - destruct (ar_args a) as [|x args]; [exists []|exists [a_name x]]; cbn [tl map app]; rewrite <- ?app_assoc; reflexivity. }
  destruct Hsuf as [pre Hsuf]. rewrite Hsuf in Hnd, Hok.
  constructor.
  - destruct (ar_vararg a); [discriminate|reflexivity].
  - apply Nat.leb_le. exact Hdf.
  - apply Nat.eqb_eq. exact Hkw.
  - clear - Hnd. induction pre as [|x pre IH]; [exact Hnd|]. inversion Hnd; subst. apply IH; assumption.
  - rewrite forallb_app in Hok. apply andb_true_iff in Hok. apply Hok.
Qed.

Lemma kwarg_fresh : forall a karg, fd_facts a -> ar_kwarg a = Some karg -> ~ In (a_name karg) (sig_pos_names a).
Proof.
  intros a karg F Hk. pose proof (ff_nodup a F) as Hnd. unfold kwarg_name in Hnd. rewrite Hk in Hnd.
  cbn [option_map opt_list] in Hnd. apply NoDup_remove_2 in Hnd. rewrite app_nil_r in Hnd. exact Hnd.
Qed.

Lemma map2_sig_names : forall k args (ds : list (option expr)), List.length args <= List.length ds ->
  map s_name (map2 (fun x d => mkSig (a_name x) k d (a_ann x)) args ds) = map a_name args.
Proof.
  intros k; induction args as [|x args IH]; intros ds H; cbn [map2 map]; [reflexivity|].
  destruct ds as [|d ds]; [cbn in H; lia|]. cbn [map s_name]. f_equal. apply IH. cbn in H; lia.
Qed.

(* what Python sees, minus self/cls: positional and keyword-only names in source order, then ** *)
Lemma sig_names_spec : forall n a b dc r, fd_facts a ->
  sig_names (SFunc n a b dc r) = sig_pos_names a ++ opt_list (kwarg_name a).
Proof.
  intros n a b dc r F. destruct F as [Hv Hd Hk _ _].
  unfold sig_names, py_signature, py_signature_raw.
  assert (E1 : Nat.ltb (List.length (ar_args a)) (List.length (ar_defaults a)) = false) by (apply Nat.ltb_ge; exact Hd).
  assert (E2 : Nat.eqb (List.length (ar_kwonly a)) (List.length (ar_kw_defaults a)) = true) by (apply Nat.eqb_eq; exact Hk).
  rewrite E1, E2, Hv. cbn [orb negb app].
  unfold sig_pos_names, pos_args, get_function_type, kwarg_name.
  destruct (ar_args a) as [|x args] eqn:Ea.
  - cbn [map2 app map tl List.length].
    assert (Hstat : str_eqb (L "static") (L "static") = true) by reflexivity. rewrite Hstat.
    destruct (ar_kwonly a) as [|y ys] eqn:Eko; destruct (ar_kw_defaults a) as [|d ds]; cbn [List.length] in Hk; try lia.
    + cbn [map2 app]. destruct (ar_kwarg a); reflexivity.
    + cbn [map2 app s_kind andb map s_name]. rewrite !map_app.
      rewrite map2_sig_names by (cbn [List.length] in *; lia). destruct (ar_kwarg a); reflexivity.
  - assert (Hlen : List.length (x :: args) <=
                   List.length (repeat (@None expr) (List.length (x :: args) - List.length (ar_defaults a))
                                ++ map Some (ar_defaults a))).
    { rewrite app_length, repeat_length, map_length. lia. }
    destruct (repeat None (List.length (x :: args) - List.length (ar_defaults a)) ++ map Some (ar_defaults a))
      as [|d0 ds0] eqn:Eds; [cbn [List.length] in Hlen; lia|].
    cbn [map2 app s_kind s_name andb].
    assert (Hrest : map s_name
              (map2 (fun x0 d => mkSig (a_name x0) PosOrKw d (a_ann x0)) args ds0 ++
               map2 (fun x0 d => mkSig (a_name x0) KwOnly d (a_ann x0)) (ar_kwonly a) (ar_kw_defaults a) ++
               match ar_kwarg a with Some x0 => [mkSig (a_name x0) VarKw None (a_ann x0)] | None => [] end)
              = map a_name args ++ map a_name (ar_kwonly a) ++ opt_list (option_map a_name (ar_kwarg a))).
    { rewrite !map_app. rewrite map2_sig_names by (cbn [List.length] in Hlen; lia).
      rewrite map2_sig_names by lia. destruct (ar_kwarg a); reflexivity. }
    destruct (str_eqb (a_name x) (L "self") || str_eqb (a_name x) (L "cls")) eqn:Es.
    + assert (Hns : str_eqb (a_name x) (L "static") = false).
      { apply orb_true_iff in Es. destruct Es as [Es|Es]; apply str_eqb_eq in Es; rewrite Es; reflexivity. }
      rewrite Hns. cbn [tl]. rewrite Hrest. rewrite <- app_assoc. reflexivity.
    + assert (Hstat : str_eqb (L "static") (L "static") = true) by reflexivity. rewrite Hstat.
      cbn [map s_name]. rewrite Hrest. cbn [map app]. rewrite <- app_assoc. reflexivity.
Qed.

Lemma ir_merge_params : forall pi pj t o m, ir_merge pi pj t o = Ok m ->
  merge_params pi (ir_params t) (ir_params o) = Ok (ir_params m).
Proof.
  intros pi pj t o m H. unfold ir_merge in H.
  destruct (negb _); [discriminate|].
  destruct (merge_params pi (ir_params t) (ir_params o)) as [ps|]; cbn [bind] in H; [|discriminate].
  destruct (merge_returns pj (ir_returns t) (ir_returns o)); cbn [bind] in H; [|discriminate].
  inversion H; reflexivity.
Qed.

(* the kwargs step of parse.function on the docstring's parameter map *)
Definition kw_split (a : arguments) (dps : list (str * gparam))
  : outcome (list (str * gparam) * list (str * gparam)) :=
  match ar_kwarg a with
  | Some k =>
    match od_get (a_name k) dps with
    | Some p => if fld_present (g_typ p)
                then Ok (od_pop (a_name k) dps, [(a_name k, mkG (g_doc p) (g_typ p) (Some (DV (VStr NoneStr))))])
                else Err AssertionError
    | None => Ok (dps, [])
    end
  | None => Ok (dps, [])
  end.

Lemma pf_prepare_inv : forall d n a b dc r ft fnm pp,
  pf_prepare d (SFunc n a b dc r) ft fnm = Ok pp ->
  kw_split a (doc_params d (SFunc n a b dc r)) = Ok (ir_params (pp_target pp), pp_append pp)
  /\ ir_params (pp_other pp) = od_of_pairs (sig_pairs a (pos_args a))
  /\ pp_sig pp = sig_pos_names a.
Proof.
  intros d n a b dc r ft fnm pp H. unfold pf_prepare in H.
  destruct (match fnm with Some n0 => negb (str_eqb n n0) | None => false end); [discriminate|].
  destruct (negb (arg_exprs_ok a)); [discriminate|].
  (* the docstring's IR, or the empty one when there is no docstring *)
  match type of H with bind ?x _ = _ => destruct x as [base|] eqn:Eb; cbn [bind] in H; [|discriminate] end.
  assert (Hbase : ir_params base = doc_params d (SFunc n a b dc r)).
  { unfold doc_params, fd_body. destruct (docstring_of b); [destruct d|]; inversion Eb; [reflexivity|destruct d; reflexivity]. }
  fold (kw_split a (ir_params base)) in H. rewrite Hbase in H.
  destruct (kw_split a (doc_params d (SFunc n a b dc r))) as [[T app]|]; cbn [bind] in H; [|discriminate].
  injection H as <-. repeat apply conj; reflexivity.
Qed.

Lemma pf_finish_params : forall pp m it ww r, pf_finish pp m it ww = Ok r ->
  set_names_and_types (fold_left (fun d kv => od_set (fst kv) (snd kv) d) (pp_append pp)
                                 (sort_by_sig (pp_sig pp) (ir_params m))) it ww
  = Ok (ir_params r).
Proof.
  intros pp m it ww r H. unfold pf_finish in H.
  destruct (set_names_and_types _ it ww) as [ps|]; cbn [bind] in H; [|discriminate].
  destruct (interpolate_return _ _ _) as [rets|]; cbn [bind] in H; [|discriminate].
  destruct rets as [| |p]; cbn [bind] in H.
  - inversion H; reflexivity.
  - inversion H; reflexivity.
  - destruct (set_name_and_type _ p it ww); cbn [bind] in H; [|discriminate]. inversion H; reflexivity.
Qed.

Lemma parse_function_type : forall pi pj d n a b dc r it ww res,
  parse_function pi pj d (SFunc n a b dc r) it ww None None = Ok res -> ir_type res = Has (get_function_type a).
Proof.
  intros pi pj d n a b dc r it ww res H. unfold parse_function in H.
  destruct (pf_prepare d (SFunc n a b dc r) None None) as [pp|] eqn:Epp; cbn [bind] in H; [|discriminate].
  destruct (ir_merge pi pj (pp_target pp) (pp_other pp)) as [m|] eqn:Em; cbn [bind] in H; [|discriminate].
  assert (Ht : ir_type (pp_target pp) = Has (get_function_type a)).
  { unfold pf_prepare in Epp. destruct (negb (arg_exprs_ok a)); [discriminate|]. cbn [negb] in Epp.
    match type of Epp with bind ?x _ = _ => destruct x; cbn [bind] in Epp; [|discriminate] end.
    match type of Epp with bind ?x _ = _ => destruct x; cbn [bind] in Epp; [|discriminate] end.
    injection Epp as <-. reflexivity. }
  assert (Hm : ir_type m = ir_type (pp_target pp)).
  { unfold ir_merge in Em. destruct (negb _); [discriminate|].
    destruct (merge_params pi _ _); cbn [bind] in Em; [|discriminate].
    destruct (merge_returns pj _ _); cbn [bind] in Em; [|discriminate]. injection Em as <-. reflexivity. }
  unfold pf_finish in H.
  destruct (set_names_and_types _ it ww); cbn [bind] in H; [|discriminate].
  destruct (interpolate_return _ _ _); cbn [bind] in H; [|discriminate].
  match type of H with bind ?x _ = _ => destruct x; cbn [bind] in H; [|discriminate] end.
  injection H as <-. cbn [ir_type]. rewrite Hm. exact Ht.
Qed.

Definition pick (ps : list (str * gparam)) (k : str) : list (str * gparam) :=
  match od_get k ps with Some v => [(k, v)] | None => [] end.

Lemma flat_map_pick_keys : forall ps l,
  od_keys (flat_map (pick ps) l) = filter (fun k => mem_str k (od_keys ps)) l.
Proof.
  intros ps l; induction l as [|x l IH]; cbn [flat_map filter]; [reflexivity|].
  unfold od_keys in *. rewrite map_app, IH. unfold pick.
  destruct (od_get x ps) as [v|] eqn:E.
  - assert (Hm : mem_str x (map fst ps) = true) by (apply mem_str_In; eapply od_get_Some_In_keys; exact E).
    rewrite Hm. reflexivity.
  - assert (Hm : mem_str x (map fst ps) = false) by (apply mem_str_false; apply od_get_None_iff; exact E).
    rewrite Hm. reflexivity.
Qed.

Lemma flat_map_pick_get : forall ps l k, NoDup l ->
  od_get k (flat_map (pick ps) l) = if mem_str k l then od_get k ps else None.
Proof.
  intros ps l k; induction l as [|x l IH]; intros Hnd; cbn [flat_map mem_str]; [reflexivity|].
  inversion Hnd as [|? ? Hx Hl]; subst. rewrite od_get_app. unfold pick at 1.
  destruct (str_eqb k x) eqn:E.
  - apply str_eqb_eq in E; subst x. cbn [orb].
    destruct (od_get k ps) as [v|] eqn:Eg; cbn [od_get]; [rewrite str_eqb_refl; reflexivity|].
    rewrite IH by exact Hl. apply mem_str_false in Hx. rewrite Hx. reflexivity.
  - cbn [orb]. destruct (od_get x ps) as [v|]; cbn [od_get]; [rewrite E|]; apply IH; exact Hl.
Qed.

Lemma sort_by_sig_keys : forall S ps, NoDup S ->
  od_keys (sort_by_sig S ps) = filter (fun k => mem_str k (od_keys ps)) S
                               ++ filter (fun k => negb (mem_str k S)) (od_keys ps).
Proof.
  intros S ps HS. unfold sort_by_sig. rewrite dedup_first_NoDup_id by exact HS.
  change (fun k => match od_get k ps with Some v => [(k, v)] | None => [] end) with (pick ps).
  unfold od_keys at 1. rewrite map_app.
  change (map fst (flat_map (pick ps) S)) with (od_keys (flat_map (pick ps) S)).
  rewrite flat_map_pick_keys. f_equal.
  apply (od_keys_filter_fst (fun k => negb (mem_str k S))).
Qed.

Lemma sort_by_sig_get : forall S ps k, NoDup S -> od_get k (sort_by_sig S ps) = od_get k ps.
Proof.
  intros S ps k HS. unfold sort_by_sig. rewrite dedup_first_NoDup_id by exact HS.
  change (fun k => match od_get k ps with Some v => [(k, v)] | None => [] end) with (pick ps).
  rewrite od_get_app, flat_map_pick_get by exact HS.
  destruct (mem_str k S) eqn:E.
  - destruct (od_get k ps) as [v|] eqn:Eg; [reflexivity|].
    rewrite (od_get_filter_fst_none (fun k => negb (mem_str k S))); [reflexivity|rewrite E; reflexivity].
  - rewrite (od_get_filter_fst (fun k => negb (mem_str k S))); [reflexivity|rewrite E; reflexivity].
Qed.

Record doc_facts (d : option ir) (fd : stmt) (a : arguments) : Prop := mkDocFacts {
  df_nodup : NoDup (doc_names d fd);
  df_sub : forall k, In k (doc_names d fd) -> In k (sig_pos_names a ++ opt_list (kwarg_name a))
}.

Lemma wf_doc_facts : forall d n a b dc r, wf_doc d (SFunc n a b dc r) = true -> doc_facts d (SFunc n a b dc r) a.
Proof.
  intros d n a b dc r H. unfold wf_doc in H. cbn [fd_arguments] in H.
  apply andb_true_iff in H. destruct H as [H _]. apply andb_true_iff in H. destruct H as [H _].
  apply andb_true_iff in H. destruct H as [Hnd Hsub]. constructor.
  - apply strs_distinct_NoDup; exact Hnd.
  - intros k Hk. rewrite forallb_forall in Hsub. apply mem_str_In. apply Hsub. exact Hk.
Qed.

Lemma forallb_sub : forall (f : str -> bool) l l', (forall k, In k l -> In k l') ->
  forallb f l' = true -> forallb f l = true.
Proof.
  intros f l l' Hs H. rewrite forallb_forall in *. intros x Hx. apply H, Hs, Hx.
Qed.

Lemma doc_pos_names_in_sig : forall d n a b dc r k, doc_facts d (SFunc n a b dc r) a ->
  In k (doc_pos_names d a (SFunc n a b dc r)) -> In k (sig_pos_names a).
Proof.
  intros d n a b dc r k D H. unfold doc_pos_names in H.
  destruct (kwarg_name a) as [kw|] eqn:Ek.
  - apply filter_In in H. destruct H as [Hin Hne]. apply (df_sub _ _ _ D) in Hin. rewrite Ek in Hin.
    apply in_app_or in Hin. destruct Hin as [Hin|[Hin|[]]]; [exact Hin|]. subst. rewrite str_eqb_refl in Hne. discriminate.
  - apply (df_sub _ _ _ D) in H. rewrite Ek in H. cbn [opt_list] in H. rewrite app_nil_r in H. exact H.
Qed.

Lemma expected_names_domain : forall d n a b dc r, doc_facts d (SFunc n a b dc r) a ->
  expected_names d (SFunc n a b dc r)
  = sig_pos_names a ++ (if kwarg_documented d a (SFunc n a b dc r) then opt_list (kwarg_name a) else []).
Proof.
  intros d n a b dc r D. unfold expected_names. cbn [fd_arguments].
  rewrite (filter_none _ (doc_pos_names d a (SFunc n a b dc r))); [reflexivity|].
  intros k Hk. apply negb_false_iff. apply mem_str_In. eapply doc_pos_names_in_sig; eauto.
Qed.

Lemma expected_names_NoDup : forall d n a b dc r, fd_facts a -> doc_facts d (SFunc n a b dc r) a ->
  NoDup (expected_names d (SFunc n a b dc r)).
Proof.
  intros d n a b dc r F D. rewrite (expected_names_domain _ _ _ _ _ _ D).
  pose proof (ff_nodup a F) as H. destruct (kwarg_documented _ _ _); [exact H|].
  rewrite app_nil_r. apply (NoDup_app_l _ _ H).
Qed.

Lemma expected_names_sub : forall d n a b dc r k, doc_facts d (SFunc n a b dc r) a ->
  In k (expected_names d (SFunc n a b dc r)) -> In k (sig_pos_names a ++ opt_list (kwarg_name a)).
Proof.
  intros d n a b dc r k D H. rewrite (expected_names_domain _ _ _ _ _ _ D) in H.
  apply in_app_or in H. apply in_or_app. destruct H as [H|H]; [left; exact H|].
  destruct (kwarg_documented _ _ _); [right; exact H|destruct H].
Qed.

Definition append_kw (app m : list (str * gparam)) : list (str * gparam) :=
  fold_left (fun d0 kv => od_set (fst kv) (snd kv) d0) app m.

(* kw_split followed by append_kw, entry by entry: every name but the ** one is untouched; the ** entry, if documented,
   is the last one and carries the conventional default *)
Lemma kw_split_get_other : forall a dps tparams app m k,
  kw_split a dps = Ok (tparams, app) -> (forall karg, ar_kwarg a = Some karg -> a_name karg <> k) ->
  od_get k (append_kw app m) = od_get k m /\ od_get k tparams = od_get k dps.
Proof.
  intros a dps tparams app m k H Hk. unfold kw_split in H.
  destruct (ar_kwarg a) as [karg|]; [|injection H as <- <-; split; reflexivity].
  destruct (od_get (a_name karg) dps) as [p|]; [|injection H as <- <-; split; reflexivity].
  destruct (fld_present (g_typ p)); [|discriminate H]. injection H as <- <-.
  unfold append_kw. cbn [fold_left fst snd].
  split; [apply od_get_set_other|apply od_get_pop_other]; apply (Hk karg eq_refl).
Qed.

Lemma kw_split_get_kwarg : forall a dps tparams app m karg p,
  kw_split a dps = Ok (tparams, app) -> ar_kwarg a = Some karg -> od_get (a_name karg) dps = Some p ->
  od_get (a_name karg) (append_kw app m) = Some (mkG (g_doc p) (g_typ p) (Some (DV (VStr NoneStr)))).
Proof.
  intros a dps tparams app m karg p H Hk Hp. unfold kw_split in H. rewrite Hk, Hp in H.
  destruct (fld_present (g_typ p)); [|discriminate H]. injection H as <- <-.
  unfold append_kw. cbn [fold_left fst snd]. apply od_get_set_same.
Qed.

(* a successful parse, stage by stage *)
Lemma parse_function_structure : forall pi pj d n a b dc rr it ww ft fnm r,
  fd_facts a -> doc_facts d (SFunc n a b dc rr) a ->
  parse_function pi pj d (SFunc n a b dc rr) it ww ft fnm = Ok r ->
  exists tparams app m,
    kw_split a (doc_params d (SFunc n a b dc rr)) = Ok (tparams, app)
    /\ merge_params pi tparams (sig_pairs a (pos_args a)) = Ok m
    /\ set_names_and_types (append_kw app (sort_by_sig (sig_pos_names a) m)) it ww = Ok (ir_params r)
    /\ od_keys (append_kw app (sort_by_sig (sig_pos_names a) m)) = expected_names d (SFunc n a b dc rr).
Proof.
  intros pi pj d n a b dc rr it ww ft fnm r F D H.
  unfold parse_function in H.
  destruct (pf_prepare d (SFunc n a b dc rr) ft fnm) as [pp|] eqn:Epp; cbn [bind] in H; [|discriminate].
  destruct (ir_merge pi pj (pp_target pp) (pp_other pp)) as [m|] eqn:Em; cbn [bind] in H; [|discriminate].
  apply pf_prepare_inv in Epp. destruct Epp as (Ekw & Eother & Esig).
  apply ir_merge_params in Em. rewrite Eother in Em.
  apply pf_finish_params in H. rewrite Esig in H.
  assert (HS : NoDup (sig_pos_names a)) by (apply (NoDup_app_l _ _ (ff_nodup a F))).
  assert (Hop : od_of_pairs (sig_pairs a (pos_args a)) = sig_pairs a (pos_args a)).
  { apply od_of_pairs_NoDup. rewrite sig_pairs_keys. exact HS. }
  rewrite Hop in Em.
  exists (ir_params (pp_target pp)), (pp_append pp), (ir_params m).
  split; [exact Ekw|]. split; [exact Em|]. split; [exact H|].
  apply merge_params_keys in Em; [|rewrite sig_pairs_keys; exact HS].
  rewrite sig_pairs_keys in Em. fold (sig_pos_names a) in Em.
  (* keys after sorting: the signature's names (all present), then the target's names that are no parameter *)
  assert (Ksort : od_keys (sort_by_sig (sig_pos_names a) (ir_params m))
                  = sig_pos_names a
                    ++ filter (fun k => negb (mem_str k (sig_pos_names a))) (od_keys (ir_params (pp_target pp)))).
  { rewrite sort_by_sig_keys by exact HS. rewrite Em. f_equal.
    - apply filter_all. intros k Hk. apply mem_str_In.
      destruct (mem_str k (od_keys (ir_params (pp_target pp)))) eqn:E.
      + apply in_or_app; left. apply mem_str_In; exact E.
      + apply in_or_app; right. apply filter_In. split; [exact Hk|rewrite E; reflexivity].
    - rewrite filter_app. rewrite (filter_none _ (filter _ (sig_pos_names a))); [apply app_nil_r|].
      intros k Hk. apply filter_In in Hk. destruct Hk as [Hk _]. apply negb_false_iff. apply mem_str_In; exact Hk. }
  unfold append_kw. unfold kw_split in Ekw. unfold expected_names. cbn [fd_arguments].
  unfold doc_pos_names, kwarg_documented, kwarg_name.
  destruct (ar_kwarg a) as [karg|] eqn:Ek; cbn [option_map opt_list].
  - destruct (od_get (a_name karg) (doc_params d (SFunc n a b dc rr))) as [p|] eqn:Eg.
    + destruct (fld_present (g_typ p)); [|discriminate].
      injection Ekw as Et Ea. rewrite <- Ea. cbn [fold_left fst snd].
      assert (Hin : In (a_name karg) (doc_names d (SFunc n a b dc rr))) by (eapply od_get_Some_In_keys; exact Eg).
      apply mem_str_In in Hin. rewrite Hin.
      assert (Kt : od_keys (ir_params (pp_target pp))
                   = filter (fun x => negb (str_eqb (a_name karg) x)) (doc_names d (SFunc n a b dc rr))).
      { rewrite <- Et. apply od_keys_pop. apply (df_nodup _ _ _ D). }
      rewrite od_keys_set_absent.
      * rewrite Ksort, Kt. rewrite <- app_assoc. reflexivity.
      * rewrite Ksort, Kt. intros Hx. apply in_app_or in Hx. destruct Hx as [Hx|Hx].
        -- exact (kwarg_fresh a karg F Ek Hx).
        -- apply filter_In in Hx. destruct Hx as [Hx _]. apply filter_In in Hx. destruct Hx as [_ Hx].
           rewrite str_eqb_refl in Hx. discriminate.
    + injection Ekw as Et Ea. rewrite <- Ea. cbn [fold_left].
      assert (Hnot : ~ In (a_name karg) (doc_names d (SFunc n a b dc rr))) by (apply od_get_None_iff; exact Eg).
      pose proof Hnot as Hm. apply mem_str_false in Hm. rewrite Hm. rewrite app_nil_r.
      rewrite filter_neq_notin' by exact Hnot. rewrite Ksort, <- Et. reflexivity.
  - injection Ekw as Et Ea. rewrite <- Ea. cbn [fold_left]. rewrite app_nil_r. rewrite Ksort, <- Et. reflexivity.
Qed.

(* THE order parse.function produces: the signature's positional and keyword-only names in source
   order, then a documented ** parameter.  For every set order. *)
Theorem parse_function_names : forall pi pj d fd it ww ft fnm r, C07_domain d fd = true ->
  parse_function pi pj d fd it ww ft fnm = Ok r -> od_keys (ir_params r) = expected_names d fd.
Proof.
  intros pi pj d fd it ww ft fnm r Hdom H.
  unfold C07_domain in Hdom. apply andb_true_iff in Hdom. destruct Hdom as [Hwf Hdoc].
  destruct (wf_fd_facts _ Hwf) as (n & a & b & dc & rr & -> & F).
  pose proof (wf_doc_facts _ _ _ _ _ _ Hdoc) as D.
  destruct (parse_function_structure _ _ _ _ _ _ _ _ _ _ _ _ _ F D H) as (tp & app & m & _ & _ & Esn & Ekeys).
  apply set_names_and_types_keys in Esn.
  - rewrite Esn. exact Ekeys.
  - rewrite Ekeys. apply expected_names_NoDup; assumption.
  - rewrite Ekeys. eapply forallb_sub; [|apply (ff_ok a F)]. intros k Hk. eapply expected_names_sub; eauto.
Qed.

(* each exactly once *)
Theorem parse_function_names_NoDup : forall pi pj d fd it ww ft fnm r, C07_domain d fd = true ->
  parse_function pi pj d fd it ww ft fnm = Ok r -> NoDup (od_keys (ir_params r)).
Proof.
  intros pi pj d fd it ww ft fnm r Hdom H. rewrite (parse_function_names _ _ _ _ _ _ _ _ _ Hdom H).
  unfold C07_domain in Hdom. apply andb_true_iff in Hdom. destruct Hdom as [Hwf Hdoc].
  destruct (wf_fd_facts _ Hwf) as (n & a & b & dc & rr & -> & F).
  apply expected_names_NoDup; [exact F|apply wf_doc_facts; exact Hdoc].
Qed.

(* the exact condition under which these are the names Python sees, in source order: an existing **
   parameter is documented (an undocumented one is dropped) *)
Lemma order_guard_iff : forall d fd, C07_domain d fd = true ->
  (expected_names d fd = sig_names fd <-> order_guard d fd = true).
Proof.
  intros d fd Hdom. unfold C07_domain in Hdom. apply andb_true_iff in Hdom. destruct Hdom as [Hwf Hdoc].
  destruct (wf_fd_facts _ Hwf) as (n & a & b & dc & rr & -> & F).
  pose proof (wf_doc_facts _ _ _ _ _ _ Hdoc) as D.
  rewrite (sig_names_spec _ _ _ _ _ F), (expected_names_domain _ _ _ _ _ _ D).
  unfold order_guard. cbn [fd_arguments].
  destruct (kwarg_name a) as [k|] eqn:Ek; cbn [opt_list].
  - destruct (kwarg_documented d a (SFunc n a b dc rr)); [split; reflexivity|].
    split; [|discriminate]. intros H. apply (f_equal (@List.length _)) in H. rewrite !app_length in H. cbn in H. lia.
  - destruct (kwarg_documented d a (SFunc n a b dc rr)); split; reflexivity.
Qed.

(* the positional and keyword-only parameters are ALWAYS there, once each, in source order *)
Lemma sig_pos_prefix : forall pi pj d fd it ww ft fnm r a, C07_domain d fd = true -> fd_arguments fd = Some a ->
  parse_function pi pj d fd it ww ft fnm = Ok r ->
  exists rest, od_keys (ir_params r) = sig_pos_names a ++ rest
               /\ (rest = [] \/ rest = opt_list (kwarg_name a)).
Proof.
  intros pi pj d fd it ww ft fnm r a Hdom Ha H. rewrite (parse_function_names _ _ _ _ _ _ _ _ _ Hdom H).
  unfold C07_domain in Hdom. apply andb_true_iff in Hdom. destruct Hdom as [Hwf Hdoc].
  destruct (wf_fd_facts _ Hwf) as (n & a' & b & dc & rr & -> & F). cbn [fd_arguments] in Ha. inversion Ha; subst a'.
  pose proof (wf_doc_facts _ _ _ _ _ _ Hdoc) as D. rewrite (expected_names_domain _ _ _ _ _ _ D).
  eexists. split; [reflexivity|]. destruct (kwarg_documented _ _ _); [right|left]; reflexivity.
Qed.
