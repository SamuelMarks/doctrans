(* C16Ext: the PARSE side and the round trip  source -> IR -> source  of C16 (bodies carried verbatim), composed
   from the models ParseSig.parse_function / ParseAst.parse_argparse_ast / ParseAst.parse_class and
   EmitAst.emit_function / emit_argparse / emit_class.  Definitions in model/C16RoundTrip.v and (full statements, witnesses) proofs/C16RoundTripFacts.v,
   lemmas in proofs/C16RoundTripFacts.v.  props/C16.v is about the three splice sites of the emitters alone; here
   the round trip is a theorem about the composed model (the oracle of harness/prop_C16.py runs the same round trip
   on the implementation), for every body (any number and kind of statements), every argument list, every option,
   every docstring-derived IR (parse side) and every docstring text (emit side).

   PROVED
     function / method  (parse.function ; emit.function)
       C16_rt_function_parse_side      what parse.function stores: `_internal` = the statements after the docstring,
                                       verbatim, with the definition's own name and kind; name/type; the return entry
                                       is a function of the body, the annotation and the docstring's return entry only;
       C16_rt_function_structure       same target, a body or a clean docstring IR: the emitted body is the docstring followed by the
                                       function splice of exactly the source's statements and the return generated
                                       from them (with C16_function_structure: no statement dropped, duplicated or
                                       reordered except at most the final return);
       C16_rt_function_partial / _stmts   inside guard_rt_function: verbatim, same name;
       class-free:  C16_rt_function_no_return (no top-level `return <value>`, docstring without return default),
                    C16_rt_function_final_return_name (`return <name>`), C16_rt_function_final_return_node
                    (`return <call / attribute / subscript / display / opaque expression>` when the parse table sends
                    the printed source back to the expression), C16_rt_function_final_return (any regenerated return);
       C16_rt_docstring_text_independent  the statements after the docstring do not depend on what to_docstring returned;
       C16_rt_function_refuted + witnesses: function-return-replaced (`return 'abc'` comes back as `return abc`) and
                    function-return-appended (last top-level return is not the last statement) ON THE ROUND TRIP.
     argparse  (parse.argparse_ast ; emit.argparse_function)
       C16_rt_argparse_parse_side, C16_rt_argparse_partial (body = docstring, description, add_argument calls,
       the source's extra statements in order, one final return), C16_rt_argparse_extras (in source terms),
       C16_rt_argparse_refuted + witness (argparse-leading-string-dropped: a string statement BETWEEN two add_argument
       calls is the first carried statement and is lost).
     class  (parse.class_ ; emit.class_)
       C16_rt_class_parse_side, C16_rt_class_call (every non-attribute statement of the class - its methods - ends up
       inside ONE generated __call__, re-homed; inside guard_C16_call exactly the scoped substitution),
       C16_rt_class_refuted + witness: a method is NOT carried as a method (nested in __call__ with emit_call, dropped
       without): class-method-rehomed-or-dropped of KNOWN_FINDINGS.txt.
   NOT PROVED here
     that ParseSig / ParseAst / EmitAst are the code (correspondence families parsesig, parseast, emitast);
     that the parse table pt is ast.parse (an input of EmitAst; the class-free theorems name the one lookup they need);
     success of the conversions (C03 / C04): every theorem is about round trips that return;
     source text level (ast.unparse / ast.parse between the two conversions): C03Spec.reparse_stmt's business;
     _merge_inner_function (class with merge_inner_function) and the FunctionType (live object) path of parse.function. *)
From Coq Require Import List ZArith.
From Coq Require String.
Import String.StringSyntax.
From DT Require Import PyStr Sexp PyVal TyExpr PureUtils Defaults PyAst IR Merge EmitAst C16Spec C16RoundTrip C16Facts C16RoundTripFacts.
From DT Require ParseSig ParseAst.
Import ListNotations.

Theorem C16_rt_function_parse_side : forall pi pj d n a body dc r it ww pft pfn i,
    ParseSig.parse_function pi pj d (SFunc n a body dc r) it ww pft pfn = Ok i ->
    ir_name i = Has (ParseSig.opt_or pfn n)
    /\ ir_type i = Has (ParseSig.opt_or pft (ParseSig.get_function_type a))
    /\ ir_internal i = match body_stmts body with
                       | [] => doc_internal d body
                       | s :: rest => Some (mkInternal (s :: rest) (Has n) (Has (ParseSig.get_function_type a)))
                       end
    /\ rt_function_returns d body r it ww = Ok (ir_returns i).
Proof. exact parse_function_internal. Qed.
Print Assumptions C16_rt_function_parse_side.

Theorem C16_rt_function_structure :
  forall pi pj d n a body dc r it ww pft pfn pt efn eft inl kw tds n' a' body' d' r' i2,
    rt_function pi pj d (SFunc n a body dc r) it ww pft pfn pt efn eft inl kw tds
    = Ok (SFunc n' a' body' d' r', i2) ->
    same_target_function n a pft pfn efn eft = true ->
    body_or_clean_doc d body = true ->
    exists text rv,
      tds = Ok text /\ n' = n
      /\ rt_function_rv pt d body r it ww = Ok rv
      /\ body' = SExpr (set_value (VStr text)) :: function_body_splice (body_stmts body) rv.
Proof. exact rt_function_structure_lemma. Qed.
Print Assumptions C16_rt_function_structure.

Theorem C16_rt_function_partial :
  forall pi pj d n a body dc r it ww pft pfn pt efn eft inl kw tds n' a' body' d' r' i2,
    rt_function pi pj d (SFunc n a body dc r) it ww pft pfn pt efn eft inl kw tds
    = Ok (SFunc n' a' body' d' r', i2) ->
    guard_rt_function pt d (SFunc n a body dc r) it ww pft pfn efn eft = true ->
    exists text,
      tds = Ok text /\ n' = n
      /\ body' = SExpr (set_value (VStr text)) :: body_stmts body.
Proof. exact rt_function_body_lemma. Qed.
Print Assumptions C16_rt_function_partial.

Theorem C16_rt_function_stmts :
  forall pi pj d n a body dc r it ww pft pfn pt efn eft inl kw tds n' a' body' d' r' i2,
    rt_function pi pj d (SFunc n a body dc r) it ww pft pfn pt efn eft inl kw tds
    = Ok (SFunc n' a' body' d' r', i2) ->
    guard_rt_function pt d (SFunc n a body dc r) it ww pft pfn efn eft = true ->
    n' = n /\ body_stmts body' = body_stmts body.
Proof. exact rt_function_stmts_lemma. Qed.
Print Assumptions C16_rt_function_stmts.

Theorem C16_rt_function_no_return :
  forall pi pj d n a body dc r it ww pft pfn pt efn eft inl kw tds n' a' body' d' r' i2,
    rt_function pi pj d (SFunc n a body dc r) it ww pft pfn pt efn eft inl kw tds
    = Ok (SFunc n' a' body' d' r', i2) ->
    same_target_function n a pft pfn efn eft = true ->
    body_or_clean_doc d body = true ->
    no_value_return (body_stmts body) = true -> doc_return_default_absent d body = true ->
    exists text, tds = Ok text /\ n' = n /\ body' = SExpr (set_value (VStr text)) :: body_stmts body.
Proof. exact rt_function_no_return_lemma. Qed.
Print Assumptions C16_rt_function_no_return.

Theorem C16_rt_function_final_return_name :
  forall pi pj d n a body dc r it ww pft pfn pt efn eft inl kw tds n' a' body' d' r' i2,
    rt_function pi pj d (SFunc n a body dc r) it ww pft pfn pt efn eft inl kw tds
    = Ok (SFunc n' a' body' d' r', i2) ->
    same_target_function n a pft pfn efn eft = true ->
    final_return_name_reparses pt (body_stmts body) = true ->
    exists text, tds = Ok text /\ n' = n /\ body' = SExpr (set_value (VStr text)) :: body_stmts body.
Proof. exact rt_function_final_name_lemma. Qed.
Print Assumptions C16_rt_function_final_return_name.

Theorem C16_rt_function_final_return_node :
  forall pi pj d n a body dc r it ww pft pfn pt efn eft inl kw tds n' a' body' d' r' i2,
    rt_function pi pj d (SFunc n a body dc r) it ww pft pfn pt efn eft inl kw tds
    = Ok (SFunc n' a' body' d' r', i2) ->
    same_target_function n a pft pfn efn eft = true ->
    final_return_reparses pt (body_stmts body) = true ->
    exists text, tds = Ok text /\ n' = n /\ body' = SExpr (set_value (VStr text)) :: body_stmts body.
Proof. exact rt_function_final_return_reparses_lemma. Qed.
Print Assumptions C16_rt_function_final_return_node.

Theorem C16_rt_function_final_return :
  forall pi pj d n a body dc r it ww pft pfn pt efn eft inl kw tds n' a' body' d' r' i2 pre e,
    rt_function pi pj d (SFunc n a body dc r) it ww pft pfn pt efn eft inl kw tds
    = Ok (SFunc n' a' body' d' r', i2) ->
    same_target_function n a pft pfn efn eft = true ->
    body_stmts body = pre ++ [SReturn e] ->
    rt_function_rv pt d body r it ww = Ok (Some (SReturn e)) ->
    exists text, tds = Ok text /\ n' = n /\ body' = SExpr (set_value (VStr text)) :: body_stmts body.
Proof. exact rt_function_final_return_lemma. Qed.
Print Assumptions C16_rt_function_final_return.

(* the guard's third clause is implied by each of the class-free conditions *)
Theorem C16_rt_function_no_return_class : forall pt d body r it ww,
    no_value_return (body_stmts body) = true -> doc_return_default_absent d body = true ->
    finding_class_rt_function pt d body r it ww = None.
Proof. exact rt_function_no_return_class. Qed.
Print Assumptions C16_rt_function_no_return_class.

Theorem C16_rt_function_final_name_class : forall pt d body r it ww,
    final_return_name_reparses pt (body_stmts body) = true ->
    finding_class_rt_function pt d body r it ww = None.
Proof. exact rt_function_final_name_class. Qed.
Print Assumptions C16_rt_function_final_name_class.

Theorem C16_rt_function_final_node_class : forall pt d body r it ww,
    final_return_reparses pt (body_stmts body) = true ->
    finding_class_rt_function pt d body r it ww = None.
Proof. exact rt_function_final_return_class. Qed.
Print Assumptions C16_rt_function_final_node_class.

Theorem C16_rt_docstring_text_independent : forall pt i fn ft it kw t1 t2 n1 a1 b1 d1 r1 j1 n2 a2 b2 d2 r2 j2,
    emit_function pt i fn ft it kw (Ok t1) = Ok (SFunc n1 a1 b1 d1 r1, j1) ->
    emit_function pt i fn ft it kw (Ok t2) = Ok (SFunc n2 a2 b2 d2 r2, j2) ->
    tl b1 = tl b2.
Proof. exact emit_function_tail_indep. Qed.
Print Assumptions C16_rt_docstring_text_independent.

Theorem C16_rt_function_refuted : ~ rt_function_statement.
Proof. exact rt_function_refuted_lemma. Qed.
Print Assumptions C16_rt_function_refuted.

Theorem C16_rt_function_return_replaced_witness :
  finding_class_rt_function [] (Some wr_doc) (wr_body [SReturn (Some (EConst (VStr (L "abc"))))]) None false true
  = Some K_fn_return_replaced
  /\ exists b, fn_body_of (wr_run [] [SReturn (Some (EConst (VStr (L "abc"))))]) = Some b
               /\ body_stmts b = body_stmts (wr_body [SReturn (Some (EName (L "abc")))]).
Proof. exact rt_function_return_replaced_witness. Qed.
Print Assumptions C16_rt_function_return_replaced_witness.

Theorem C16_rt_function_return_appended_witness :
  finding_class_rt_function [] (Some wr_doc) (wr_body wr_tail) None false true = Some K_fn_return_appended
  /\ exists b, fn_body_of (wr_run [] wr_tail) = Some b
               /\ body_stmts b = body_stmts (wr_body wr_tail) ++ [SReturn (Some (EName (L "t")))].
Proof. split; [vm_compute; reflexivity|]. eexists. split; vm_compute; reflexivity. Qed.
Print Assumptions C16_rt_function_return_appended_witness.

Example C16_rt_function_nonvacuous :
  guard_rt_function [] (Some wr_doc) (wr_fn [SReturn (Some (EName (L "t")))]) false true None None None None = true
  /\ exists b, fn_body_of (wr_run [] [SReturn (Some (EName (L "t")))]) = Some b
               /\ body_stmts b = body_stmts (wr_body [SReturn (Some (EName (L "t")))])
               /\ List.length (body_stmts b) = 5.
Proof. split; [vm_compute; reflexivity|]. eexists. split; [vm_compute; reflexivity|]. split; reflexivity. Qed.
Print Assumptions C16_rt_function_nonvacuous.

Example C16_rt_function_nonvacuous_classfree :
  (no_value_return (body_stmts (wr_body [SReturn None])) = true
   /\ doc_return_default_absent (Some wr_doc) (wr_body [SReturn None]) = true
   /\ exists b, fn_body_of (wr_run [] [SReturn None]) = Some b)
  /\ final_return_name_reparses [] (body_stmts (wr_body [SReturn (Some (EName (L "t")))])) = true
  /\ (final_return_reparses wr_pt (body_stmts (wr_body [SReturn (Some wr_call)])) = true
      /\ exists b, fn_body_of (wr_run wr_pt [SReturn (Some wr_call)]) = Some b
                   /\ body_stmts b = body_stmts (wr_body [SReturn (Some wr_call)])).
Proof.
  exact (conj rt_function_nonvacuous_no_return
              (conj rt_function_nonvacuous_final_name rt_function_nonvacuous_final_return)).
Qed.
Print Assumptions C16_rt_function_nonvacuous_classfree.

Theorem C16_rt_argparse_parse_side : forall di n a fbody dc r pft pfn i,
    ParseAst.parse_argparse_ast di (SFunc n a fbody dc r) pft pfn = Ok i ->
    ir_name i = ParseAst.fld_of_opt pfn
    /\ ir_type i = Has (argparse_parsed_type a pft)
    /\ ir_internal i = match extras (body_stmts fbody) with
                       | [] => None
                       | s :: rest => Some (mkInternal (s :: rest) (Has n) (Has (L "static")))
                       end.
Proof. exact parse_argparse_internal. Qed.
Print Assumptions C16_rt_argparse_parse_side.

Theorem C16_rt_argparse_partial :
  forall di n a fbody dc r pft pfn pt edd efn eft wd ww ds n' a' body' d' r' i2,
    rt_argparse di (SFunc n a fbody dc r) pft pfn pt edd efn eft wd ww ds = Ok (SFunc n' a' body' d' r', i2) ->
    guard_rt_argparse (SFunc n a fbody dc r) pft pfn efn eft = true ->
    exists dtext desc adds ret,
      ds = Ok dtext /\ n' = n
      /\ body' = SExpr (set_value (VStr (indent tab dtext ++ tab))) :: description_assign desc
                       :: adds ++ extras (body_stmts fbody) ++ ret
      /\ Forall (fun s => ParseAst.is_argparse_add_argument s = true) adds
      /\ one_final_return (extras (body_stmts fbody)) ret.
Proof. exact rt_argparse_body_lemma. Qed.
Print Assumptions C16_rt_argparse_partial.

Theorem C16_rt_argparse_extras :
  forall di n a fbody dc r pft pfn pt edd efn eft wd ww ds n' a' body' d' r' i2,
    rt_argparse di (SFunc n a fbody dc r) pft pfn pt edd efn eft wd ww ds = Ok (SFunc n' a' body' d' r', i2) ->
    guard_rt_argparse (SFunc n a fbody dc r) pft pfn efn eft = true ->
    n' = n
    /\ exists ret, extras (body_stmts body') = extras (body_stmts fbody) ++ ret
                   /\ one_final_return (extras (body_stmts fbody)) ret.
Proof. exact rt_argparse_extras_lemma. Qed.
Print Assumptions C16_rt_argparse_extras.

Theorem C16_rt_argparse_refuted : ~ rt_argparse_statement.
Proof. exact rt_argparse_refuted_lemma. Qed.
Print Assumptions C16_rt_argparse_refuted.

Theorem C16_rt_argparse_leading_string_witness :
  finding_class_rt_argparse
    (match wa_fn [wa_note] [SReturn (Some wa_ap)] with SFunc _ _ b _ _ => b | _ => [] end)
  = Some K_ap_leading_string_dropped
  /\ exists b, fn_body_of (wa_run [wa_note] [SReturn (Some wa_ap)]) = Some b
               /\ extras (body_stmts b) = [wa_assign; wr_inner; SReturn (Some wa_ap)].
Proof. exact rt_argparse_leading_string_witness. Qed.
Print Assumptions C16_rt_argparse_leading_string_witness.

Example C16_rt_argparse_nonvacuous :
  guard_rt_argparse (wa_fn [] [SReturn (Some wa_ap)]) None (Some (L "set_cli_args")) None None = true
  /\ exists b, fn_body_of (wa_run [] [SReturn (Some wa_ap)]) = Some b
               /\ extras (body_stmts b) = [wa_assign; wr_inner; SReturn (Some wa_ap)]
               /\ List.length b = 7.
Proof. split; [vm_compute; reflexivity|]. eexists. split; [vm_compute; reflexivity|]. split; reflexivity. Qed.
Print Assumptions C16_rt_argparse_nonvacuous.

Theorem C16_rt_class_parse_side : forall di nm bs cbody dc pn it ww i,
    ParseAst.parse_class di (ParseAst.CStmt (SClass nm bs cbody dc)) pn it ww = Ok i ->
    ir_internal i = Some (mkInternal (class_extras (body_stmts cbody)) (Has nm) (Has (L "cls"))).
Proof. exact parse_class_internal. Qed.
Print Assumptions C16_rt_class_parse_side.

Theorem C16_rt_class_call : forall di nm bs cbody dc pn it pww i pt cn bases decos ww tds n' bs' body' dc' i2 s0 rest,
    ParseAst.parse_class di (ParseAst.CStmt (SClass nm bs cbody dc)) pn it pww = Ok i ->
    emit_class pt i true cn bases decos ww tds = Ok (SClass n' bs' body' dc', i2) ->
    class_extras (body_stmts cbody) = s0 :: rest ->
    (ir_params i = [] /\ In (call_meth (s0 :: rest)) body')
    \/ (ir_params i <> []
        /\ (guard_C16_call (od_keys (ir_params i)) (s0 :: rest) = true ->
            In (call_meth (map (subst_stmt (od_keys (ir_params i))) (s0 :: rest))) body')).
Proof. exact rt_class_call_lemma. Qed.
Print Assumptions C16_rt_class_call.

Theorem C16_rt_class_refuted : ~ rt_class_statement.
Proof. exact rt_class_refuted_lemma. Qed.
Print Assumptions C16_rt_class_refuted.

Theorem C16_rt_class_method_nested_witness :
  (exists doc attr, class_body_of (wc_run true) = Some [doc; attr; call_meth [wc_meth]])
  /\ (exists doc attr, class_body_of (wc_run false) = Some [doc; attr]).
Proof. split; eexists; eexists; vm_compute; reflexivity. Qed.
Print Assumptions C16_rt_class_method_nested_witness.

(* the two by-design side conditions of guard_rt_function (same name and kind asked of the emitter; a body or a
   docstring IR without `_internal`) cannot be dropped *)
Theorem C16_rt_function_side_conditions_needed :
  (same_target_function (L "f") wr_args None None (Some (L "h")) None = false
   /\ exists b, fn_body_of (rt_function idp idp (Some wr_doc) (wr_fn [SReturn (Some (EName (L "t")))]) false true
                                         None None [] (Some (L "h")) None false false (Ok (L "DOC"))) = Some b
                /\ body_stmts b = [SReturn (Some (EName (L "t")))])
  /\ (body_or_clean_doc (Some wr_doc_internal) [SExpr (EConst (VStr (L "doc")))] = false
      /\ exists b, fn_body_of (rt_function idp idp (Some wr_doc_internal)
                                           (SFunc (L "f") no_arguments [SExpr (EConst (VStr (L "doc")))] [] None)
                                           false true None None [] None None false false (Ok (L "DOC"))) = Some b
                   /\ body_stmts b = [SExpr (EName (L "x"))]).
Proof. split; (split; [vm_compute; reflexivity|]); eexists; split; vm_compute; reflexivity. Qed.
Print Assumptions C16_rt_function_side_conditions_needed.

(* class: classifier and guard.
   finding_class_rt_class (model/C16RoundTrip.v, asked through the driver as c16rt_class_class) names the class
   `class-method-rehomed-or-dropped` exactly when the class body has a statement that is not an attribute
   (AnnAssign / Assign) after its docstring; guard_rt_class is its complement on class statements.
   PROVED: inside the guard the emitted body is docstring + one annotated assignment per attribute + at most
   the __call__ emit.class_ generates from the return entry (emit_call, attributes and a return_type present);
   without emit_call the non-attribute statements of the class are kept (there are none, and none appear).
   The __call__-only case does NOT hold (C16_rt_class_call_only_witness: nested like any other method).
   NOT PROVED: parse.class_ with merge_inner_function; Module input with several classes (find_class). *)
Theorem C16_rt_class_partial :
  forall di nm bs cbody dc pn it pww pt ec cn bases decos ww tds n' bs' body' dc' i2,
    rt_class di (ParseAst.CStmt (SClass nm bs cbody dc)) pn it pww pt ec cn bases decos ww tds
    = Ok (SClass n' bs' body' dc', i2) ->
    guard_rt_class (SClass nm bs cbody dc) ec = true ->
    exists i text attrs meth,
      ParseAst.parse_class di (ParseAst.CStmt (SClass nm bs cbody dc)) pn it pww = Ok i
      /\ tds = Ok text
      /\ body' = SExpr (set_value (VStr (class_docstring text))) :: attrs ++ meth
      /\ Forall (fun s => ParseAst.is_assignment s = true) attrs
      /\ generated_call pt i ec ww meth
      /\ class_extras (body_stmts body') = class_extras (body_stmts cbody) ++ meth.
Proof. exact rt_class_partial_lemma. Qed.
Print Assumptions C16_rt_class_partial.

Theorem C16_rt_class_partial_no_call :
  forall di nm bs cbody dc pn it pww pt cn bases decos ww tds n' bs' body' dc' i2,
    rt_class di (ParseAst.CStmt (SClass nm bs cbody dc)) pn it pww pt false cn bases decos ww tds
    = Ok (SClass n' bs' body' dc', i2) ->
    guard_rt_class (SClass nm bs cbody dc) false = true ->
    class_extras (body_stmts body') = class_extras (body_stmts cbody).
Proof. exact rt_class_partial_no_call_lemma. Qed.
Print Assumptions C16_rt_class_partial_no_call.

Theorem C16_rt_class_witness_class : forall ec, finding_class_rt_class wc_class ec = Some rt_class_class_name.
Proof. intros ec. reflexivity. Qed.
Print Assumptions C16_rt_class_witness_class.

Theorem C16_rt_class_call_only_witness :
  finding_class_rt_class wc_call_class true = Some rt_class_class_name
  /\ exists doc attr, class_body_of (wc_run_of wc_call_class true) = Some [doc; attr; call_meth [wc_call]].
Proof. split; [reflexivity|]. eexists; eexists; vm_compute; reflexivity. Qed.
Print Assumptions C16_rt_class_call_only_witness.

Example C16_rt_class_nonvacuous :
  guard_rt_class wc_attrs_class true = true /\ guard_rt_class wc_ret_class true = true
  /\ (exists doc, class_body_of (wc_run_of wc_attrs_class true) = Some [doc; wc_attr])
  /\ (exists doc ret, class_body_of (wc_run_of wc_ret_class true)
                      = Some [doc; wc_attr; ret; call_meth [SReturn (Some (EConst (VInt 5%Z)))]])
  /\ (exists doc ret, class_body_of (wc_run_of wc_ret_class false) = Some [doc; wc_attr; ret]).
Proof. exact rt_class_nonvacuous_lemma. Qed.
Print Assumptions C16_rt_class_nonvacuous.
