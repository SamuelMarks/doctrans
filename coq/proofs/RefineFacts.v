(* A classifier refined by new classes: where the old classifier names a class the refined one keeps it (under an
   injection into the larger type of classes), elsewhere the new classifier decides.  The refined classifiers and guards
   of model/C*Spec2.v have this shape up to unfolding (C18Spec2's does not: it stays in the old type of classes; the
   guard of C19Spec2 is a conjunction with the old guard). *)
From Coq Require Import List Bool.
Import ListNotations.

Section Refine.
  Context {K R : Type} (inj : K -> R).

  Definition refine (old : option K) (new : option R) : option R :=
    match old with Some k => Some (inj k) | None => new end.

  Definition silent {A} (o : option A) : bool := match o with None => true | Some _ => false end.

  Lemma refine_adds : forall old new c, refine old new = Some c ->
      (exists k, old = Some k /\ c = inj k) \/ (old = None /\ new = Some c).
  Proof.
    intros [k|] new c H; cbn [refine] in H.
    - left. exists k. injection H as H. split; [reflexivity|symmetry; exact H].
    - right. split; [reflexivity|exact H].
  Qed.

  Lemma refine_old : forall new k old, old = Some k -> refine old new = Some (inj k).
  Proof. intros new k old H. rewrite H. reflexivity. Qed.

  Lemma refine_silent : forall old new, silent (refine old new) = true -> silent old = true.
  Proof. intros [k|] new H; [discriminate H|reflexivity]. Qed.

  Lemma refine_guard : forall dom old new, dom && silent (refine old new) = true -> dom && silent old = true.
  Proof.
    intros dom old new H. apply andb_true_iff in H. destruct H as [Hd Hc].
    rewrite Hd, (refine_silent old new Hc). reflexivity.
  Qed.
End Refine.
