(* C16RoundTripFacts: the round trip  source -> IR -> source  of C16 (model/C16RoundTrip.v): what the parser
   models store in `_internal` (ParseSig.parse_function, ParseAst.parse_argparse_ast, ParseAst.parse_class),
   that the merge and finishing stages keep it, that get_internal_body hands it to the emitter when name and
   kind agree, and the splice lemmas of C16Facts.  Unbounded in the number of body statements and of
   parameters; universally quantified over the docstring-derived IR (parse side) and the docstring text
   (emit side).  Also defined here, because props/C16Ext.v states them: the full round-trip statements
   rt_function_statement, rt_argparse_statement, rt_class_statement that the wr_, wa_, wc_ witnesses refute, one_final_return, generated_call. *)
From Coq Require Import List Ascii Bool Arith ZArith Lia.
From Coq Require String.
Import String.StringSyntax.
From DT Require Import PyStr Sexp PyVal TyExpr PureUtils Defaults PyAst IR Merge EmitAst C16Spec C16RoundTrip.
From DT Require ParseSig ParseAst.
From DT Require Import PyStrFacts ListFacts DefaultsFacts EmitAstFacts C16Facts.
From DT Require C03Spec C06Facts MergeFacts ParseSigFacts.
Import ListNotations.

Lemma is_none_true : forall {A} (o : option A), is_none o = true -> o = None.
Proof. intros A [x|] H; [discriminate | reflexivity]. Qed.

Lemma fld_eq_opt_has : forall n o, fld_eq_opt (Has n) o = true -> o = Some n.
Proof.
  intros n [m|] H; cbn in H; [|discriminate]. apply str_eqb_eq in H. now subst m.
Qed.

Lemma body_stmts_docstring : forall e rest, body_stmts (SExpr (set_value (VStr e)) :: rest) = rest.
Proof. intros e rest. reflexivity. Qed.

Lemma body_or_clean_doc_final : forall d body pre s, body_stmts body = pre ++ [s] -> body_or_clean_doc d body = true.
Proof. intros d body pre s Eb. unfold body_or_clean_doc. rewrite Eb. destruct pre; reflexivity. Qed.

Lemma merge_returns_sig : forall pj d body rets,
    (match docstring_of body, d with
     | None, _ => Ok (mkIR Missing Missing Missing [] FNone None)
     | Some _, Some di => Ok di
     | Some _, None => Err Unmodelled
     end) = Ok rets ->
    merge_returns pj (ir_returns rets) FNone = Ok (doc_returns d body)
    /\ (ir_internal rets) = doc_internal d body.
Proof.
  intros pj d body base H. unfold doc_returns, doc_internal.
  destruct (docstring_of body) as [s|].
  - destruct d as [di|]; [|discriminate]. injection H as H. subst base.
    split; [|reflexivity]. unfold merge_returns. destruct (ir_returns di); reflexivity.
  - injection H as H. subst base. split; reflexivity.
Qed.

Lemma parse_function_internal : forall pi pj d n a body dc r it ww pft pfn i,
    ParseSig.parse_function pi pj d (SFunc n a body dc r) it ww pft pfn = Ok i ->
    ir_name i = Has (ParseSig.opt_or pfn n)
    /\ ir_type i = Has (ParseSig.opt_or pft (ParseSig.get_function_type a))
    /\ ir_internal i = match body_stmts body with
                       | [] => doc_internal d body
                       | s :: rest => Some (mkInternal (s :: rest) (Has n) (Has (ParseSig.get_function_type a)))
                       end
    /\ rt_function_returns d body r it ww = Ok (ir_returns i).
Proof.
  intros pi pj d n a body dc r it ww pft pfn i H. unfold ParseSig.parse_function in H.
  apply bind_Ok_inv in H. destruct H as [pp [Hpp H]].
  apply bind_Ok_inv in H. destruct H as [m [Hm H]].
  unfold ParseSig.pf_prepare in Hpp.
  match type of Hpp with (if ?c then _ else _) = _ => destruct c end; [discriminate|].
  match type of Hpp with (if ?c then _ else _) = _ => destruct c end; [discriminate|].
  apply bind_Ok_inv in Hpp. destruct Hpp as [base [Hbase Hpp]].
  apply bind_Ok_inv in Hpp. destruct Hpp as [kw [_ Hpp]].
  injection Hpp as Hpp. subst pp.
  apply (merge_returns_sig pj) in Hbase. destruct Hbase as [Hmr Hbi].
  unfold ir_merge in Hm.
  match type of Hm with (if ?c then _ else _) = _ => destruct c end; [discriminate|].
  apply bind_Ok_inv in Hm. destruct Hm as [ps [_ Hm]].
  apply bind_Ok_inv in Hm. destruct Hm as [rets [Hrets Hm]].
  cbn [ParseSig.pp_target ParseSig.pp_other ir_returns ir_internal ir_name ir_type ir_doc] in Hm, Hrets.
  rewrite Hmr in Hrets. injection Hrets as Hrets. subst rets.
  injection Hm as Hm. subst m.
  unfold ParseSig.pf_finish in H.
  cbn [ParseSig.pp_body ParseSig.pp_returns ParseSig.pp_append ParseSig.pp_sig
       ir_returns ir_internal ir_name ir_type ir_doc ir_params] in H.
  apply bind_Ok_inv in H. destruct H as [params2 [_ H]].
  apply bind_Ok_inv in H. destruct H as [rets1 [Hir H]].
  apply bind_Ok_inv in H. destruct H as [rets' [Hfin H]].
  injection H as H. subst i. cbn [ir_name ir_type ir_internal ir_returns].
  split; [reflexivity|]. split; [reflexivity|]. split.
  - unfold merge_internal. fold (body_stmts body). rewrite Hbi.
    destruct (body_stmts body); reflexivity.
  - unfold rt_function_returns. fold (body_stmts body) in Hir. rewrite Hir. cbn [bind]. exact Hfin.
Qed.

(* both same_target tests: the emitter is asked for the very name and kind *)
Lemma same_target_inv : forall (x y : outcome (option str)) n t,
    match x, y with Ok en, Ok et => fld_eq_opt (Has n) en && fld_eq_opt (Has t) et | _, _ => false end = true ->
    x = Ok (Some n) /\ y = Ok (Some t).
Proof.
  intros [en|] [et|] n t H; try discriminate H. apply andb_true_iff in H. destruct H as [H1 H2].
  apply fld_eq_opt_has in H1. apply fld_eq_opt_has in H2. subst. split; reflexivity.
Qed.

(* the general form: whatever the generated return is, the emitted body is the docstring followed by
   the function splice of exactly the source's statements *)
Lemma rt_function_structure_lemma :
  forall pi pj d n a body dc r it ww pft pfn pt efn eft inl kw tds n' a' body' d' r' i2,
    rt_function pi pj d (SFunc n a body dc r) it ww pft pfn pt efn eft inl kw tds
    = Ok (SFunc n' a' body' d' r', i2) ->
    same_target_function n a pft pfn efn eft = true ->
    body_or_clean_doc d body = true ->
    exists text rv,
      tds = Ok text /\ n' = n
      /\ rt_function_rv pt d body r it ww = Ok rv
      /\ body' = SExpr (set_value (VStr text)) :: function_body_splice (body_stmts body) rv.
Proof.
  intros pi pj d n a body dc r it ww pft pfn pt efn eft inl kw tds n' a' body' d' r' i2 H ST BC.
  unfold rt_function in H. apply bind_Ok_inv in H. destruct H as [i [Hp He]].
  apply parse_function_internal in Hp. destruct Hp as (Hn & Ht & Hint & Hret).
  apply emit_function_inv in He. destruct He as (n0 & ftype & afp & dfp & b & rv & text & r0 & Hfn & Hft & _ & _ & Hb & Hrv & Htds & _ & Es & _).
  injection Es as -> _ Hbody _ _.
  unfold same_target_function in ST. apply same_target_inv in ST. destruct ST as [ST1 ST2].
  rewrite Hn, ST1 in Hfn. injection Hfn as <-.
  rewrite Ht, ST2 in Hft. injection Hft as <-.
  exists text, rv. split; [exact Htds|]. split; [reflexivity|]. split.
  - unfold rt_function_rv. rewrite Hret. cbn [bind]. exact Hrv.
  - subst body'. f_equal. f_equal.
    destruct (body_stmts body) as [|s rest] eqn:Eb.
    + unfold body_or_clean_doc in BC. rewrite Eb in BC. cbn in BC. apply is_none_true in BC.
      rewrite BC in Hint. rewrite (get_internal_body_none _ _ _ Hint) in Hb. now injection Hb as <-.
    + rewrite (get_internal_body_same _ _ _ _ _ Hint) in Hb. now injection Hb as <-.
Qed.

Lemma rt_function_body_lemma :
  forall pi pj d n a body dc r it ww pft pfn pt efn eft inl kw tds n' a' body' d' r' i2,
    rt_function pi pj d (SFunc n a body dc r) it ww pft pfn pt efn eft inl kw tds
    = Ok (SFunc n' a' body' d' r', i2) ->
    guard_rt_function pt d (SFunc n a body dc r) it ww pft pfn efn eft = true ->
    exists text,
      tds = Ok text /\ n' = n
      /\ body' = SExpr (set_value (VStr text)) :: body_stmts body.
Proof.
  intros pi pj d n a body dc r it ww pft pfn pt efn eft inl kw tds n' a' body' d' r' i2 H G.
  unfold guard_rt_function in G.
  apply andb_true_iff in G. destruct G as [G G3]. apply andb_true_iff in G. destruct G as [G1 G2].
  destruct (rt_function_structure_lemma _ _ _ _ _ _ _ _ _ _ _ _ _ _ _ _ _ _ _ _ _ _ _ _ H G1 G2)
    as (text & rv & Htds & Hn & Hrv & Hbody).
  exists text. split; [exact Htds|]. split; [exact Hn|]. subst body'. f_equal.
  apply C16_function_partial_lemma. unfold guard_C16_function.
  unfold finding_class_rt_function in G3. rewrite Hrv in G3. apply is_none_true in G3. now rewrite G3.
Qed.

Lemma rt_function_stmts_lemma :
  forall pi pj d n a body dc r it ww pft pfn pt efn eft inl kw tds n' a' body' d' r' i2,
    rt_function pi pj d (SFunc n a body dc r) it ww pft pfn pt efn eft inl kw tds
    = Ok (SFunc n' a' body' d' r', i2) ->
    guard_rt_function pt d (SFunc n a body dc r) it ww pft pfn efn eft = true ->
    n' = n /\ body_stmts body' = body_stmts body.
Proof.
  intros pi pj d n a body dc r it ww pft pfn pt efn eft inl kw tds n' a' body' d' r' i2 H G.
  destruct (rt_function_body_lemma _ _ _ _ _ _ _ _ _ _ _ _ _ _ _ _ _ _ _ _ _ _ _ _ H G) as (text & _ & Hn & Hb).
  split; [exact Hn|]. subst body'. apply body_stmts_docstring.
Qed.

(* the carried statements do not depend on the docstring text: two emitter runs that differ only in what
   to_docstring returned agree on everything after the docstring, guard or not *)
Lemma emit_function_tail_indep : forall pt i fn ft it kw t1 t2 n1 a1 b1 d1 r1 j1 n2 a2 b2 d2 r2 j2,
    emit_function pt i fn ft it kw (Ok t1) = Ok (SFunc n1 a1 b1 d1 r1, j1) ->
    emit_function pt i fn ft it kw (Ok t2) = Ok (SFunc n2 a2 b2 d2 r2, j2) ->
    tl b1 = tl b2.
Proof.
  intros pt i fn ft it kw t1 t2 n1 a1 b1 d1 r1 j1 n2 a2 b2 d2 r2 j2 H1 H2.
  apply emit_function_inv in H1. destruct H1 as (m1 & ft1 & u1 & v1 & c1 & rv1 & y1 & z1 & Hn1 & Hf1 & _ & _ & Hb1 & Hr1 & _ & _ & E1 & _).
  apply emit_function_inv in H2. destruct H2 as (m2 & ft2 & u2 & v2 & c2 & rv2 & y2 & z2 & Hn2 & Hf2 & _ & _ & Hb2 & Hr2 & _ & _ & E2 & _).
  rewrite Hn1 in Hn2. injection Hn2 as <-.
  rewrite Hf1 in Hf2. injection Hf2 as <-.
  rewrite Hb1 in Hb2. injection Hb2 as <-.
  rewrite Hr1 in Hr2. injection Hr2 as <-.
  injection E1 as _ _ -> _ _. injection E2 as _ _ -> _ _. reflexivity.
Qed.

Definition default_of (f : fld gparam) : option dval := match f with Has p => g_default p | _ => None end.

Lemma snt_post_default : forall p1 ww p', ParseSig.snt_post p1 ww = Ok p' -> g_default p' = g_default p1.
Proof.
  intros p1 ww p' H. unfold ParseSig.snt_post in H. cbv zeta in H.
  destruct (g_doc p1) as [| |[|c r]]; try (injection H as <-; reflexivity).
  destruct (g_typ p1) as [| |t].
  - match type of H with (if ?c then _ else _) = _ => destruct c end; injection H as <-; reflexivity.
  - match type of H with (if ?c then _ else _) = _ => destruct c end; [discriminate | injection H as <-; reflexivity].
  - destruct (endswith ParseSig.google_opt t);
      (match type of H with (if ?c then _ else _) = _ => destruct c end;
       [ match type of H with (if ?c then _ else _) = _ => destruct c end; injection H as <-; reflexivity
       | injection H as <-; reflexivity ]).
Qed.

Lemma set_name_and_type_return_no_default : forall p it ww x,
    g_default p = None -> ParseSig.set_name_and_type (L "return_type") p it ww = Ok x -> g_default (snd x) = None.
Proof.
  intros p it ww x Hd H. unfold ParseSig.set_name_and_type in H.
  apply bind_Ok_inv in H. destruct H as [p' [Hp H]]. injection H as H. subst x. cbn [snd].
  unfold ParseSig.snt_param in Hp. apply bind_Ok_inv in Hp. destruct Hp as [p1 [Hpre Hpost]].
  unfold ParseSig.snt_pre in Hpre. rewrite ParseSigFacts.return_type_not_kwargs, Hd in Hpre. injection Hpre as Hpre. subst p1.
  apply snt_post_default in Hpost. now rewrite Hpost.
Qed.

Lemma last_return_final : forall pre e, ParseSig.last_return (pre ++ [SReturn e]) = Some e.
Proof. intros pre e. unfold ParseSig.last_return. rewrite rev_app_distr. reflexivity. Qed.

(* the return default interpolate_return leaves: that of the last top-level `return <value>` when there is one,
   the docstring's otherwise; the declared return annotation only sets the type *)
Lemma interpolate_return_default : forall stmts r rets0 rets,
    ParseSig.interpolate_return stmts r rets0 = Ok rets ->
    match ParseSig.last_return stmts with
    | Some (Some e) => exists dflt, C03Spec.ret_default_of e = Ok dflt /\ default_of rets = Some dflt
    | _ => default_of rets = default_of rets0
    end.
Proof.
  intros stmts r rets0 rets H. unfold ParseSig.interpolate_return in H.
  apply bind_Ok_inv in H. destruct H as [rets1 [H1 H]].
  assert (E : default_of rets = default_of rets1).
  { destruct r as [r0|]; [|injection H as <-; reflexivity].
    destruct (negb (ParseSig.expr_ok r0)); [discriminate H|]. injection H as <-. destruct rets1; reflexivity. }
  rewrite E. destruct (ParseSig.last_return stmts) as [[e|]|]; try (injection H1 as <-; reflexivity).
  destruct (negb (ParseSig.expr_ok e)); [discriminate H1|]. cbv zeta in H1.
  apply bind_Ok_inv in H1. destruct H1 as [typ1 [_ H1]].
  apply bind_Ok_inv in H1. destruct H1 as [dflt [Hd H1]]. injection H1 as <-.
  exists dflt. split; [exact Hd|reflexivity].
Qed.

Lemma interpolate_return_no_value : forall stmts r rets0 rets,
    no_value_return stmts = true -> ParseSig.interpolate_return stmts r rets0 = Ok rets ->
    default_of rets = default_of rets0.
Proof.
  intros stmts r rets0 rets NV H. apply interpolate_return_default in H. unfold no_value_return in NV.
  destruct (ParseSig.last_return stmts) as [[v|]|]; [discriminate NV|exact H|exact H].
Qed.

Lemma return_val_of_no_default : forall pt rets, default_of rets = None -> return_val_of pt rets = Ok None.
Proof.
  intros pt rets H. unfold return_val_of, function_return_val, returns_param. cbn [ir_returns].
  destruct rets as [| |p]; cbn [fget]; try reflexivity. cbn [default_of] in H. now rewrite H.
Qed.

Lemma rt_function_no_return_class : forall pt d body r it ww,
    no_value_return (body_stmts body) = true -> doc_return_default_absent d body = true ->
    finding_class_rt_function pt d body r it ww = None.
Proof.
  intros pt d body r it ww NV DA. unfold finding_class_rt_function, rt_function_rv.
  destruct (rt_function_returns d body r it ww) as [rets|x] eqn:E; cbn [bind]; [|reflexivity].
  assert (Hd : default_of rets = None).
  { unfold rt_function_returns in E. apply bind_Ok_inv in E. destruct E as [rets1 [Hir Hfin]].
    apply (interpolate_return_no_value _ _ _ _ NV) in Hir.
    assert (H0 : default_of (doc_returns d body) = None).
    { unfold doc_return_default_absent in DA. destruct (doc_returns d body) as [| |p]; try reflexivity.
      now apply is_none_true in DA. }
    rewrite H0 in Hir.
    destruct rets1 as [| |p].
    - injection Hfin as <-. reflexivity.
    - injection Hfin as <-. reflexivity.
    - apply bind_Ok_inv in Hfin. destruct Hfin as [x [Hx Hfin]]. injection Hfin as <-.
      cbn [default_of] in *. eapply set_name_and_type_return_no_default; eauto. }
  rewrite (return_val_of_no_default _ _ Hd). reflexivity.
Qed.

(* a body without a top-level `return <value>`, under a docstring that declares no return default: verbatim *)
Lemma rt_function_no_return_lemma :
  forall pi pj d n a body dc r it ww pft pfn pt efn eft inl kw tds n' a' body' d' r' i2,
    rt_function pi pj d (SFunc n a body dc r) it ww pft pfn pt efn eft inl kw tds
    = Ok (SFunc n' a' body' d' r', i2) ->
    same_target_function n a pft pfn efn eft = true ->
    body_or_clean_doc d body = true ->
    no_value_return (body_stmts body) = true -> doc_return_default_absent d body = true ->
    exists text, tds = Ok text /\ n' = n /\ body' = SExpr (set_value (VStr text)) :: body_stmts body.
Proof.
  intros pi pj d n a body dc r it ww pft pfn pt efn eft inl kw tds n' a' body' d' r' i2 H ST BC NV DA.
  eapply rt_function_body_lemma; [exact H|].
  unfold guard_rt_function. rewrite ST, BC, (rt_function_no_return_class _ _ _ _ _ _ NV DA). reflexivity.
Qed.

(* a body ending in `return e` whose return the round trip regenerates as `return e`: verbatim *)
Lemma rt_function_final_return_lemma :
  forall pi pj d n a body dc r it ww pft pfn pt efn eft inl kw tds n' a' body' d' r' i2 pre e,
    rt_function pi pj d (SFunc n a body dc r) it ww pft pfn pt efn eft inl kw tds
    = Ok (SFunc n' a' body' d' r', i2) ->
    same_target_function n a pft pfn efn eft = true ->
    body_stmts body = pre ++ [SReturn e] ->
    rt_function_rv pt d body r it ww = Ok (Some (SReturn e)) ->
    exists text, tds = Ok text /\ n' = n /\ body' = SExpr (set_value (VStr text)) :: body_stmts body.
Proof.
  intros pi pj d n a body dc r it ww pft pfn pt efn eft inl kw tds n' a' body' d' r' i2 pre e H ST Eb Hrv.
  pose proof (body_or_clean_doc_final d body pre _ Eb) as BC.
  destruct (rt_function_structure_lemma _ _ _ _ _ _ _ _ _ _ _ _ _ _ _ _ _ _ _ _ _ _ _ _ H ST BC)
    as (text & rv & Htds & Hn & Hrv' & Hbody).
  rewrite Hrv in Hrv'. injection Hrv' as <-.
  exists text. split; [exact Htds|]. split; [exact Hn|]. subst body'. f_equal.
  rewrite Eb. apply splice_same. reflexivity.
Qed.

Lemma extras_app : forall l1 l2, extras (l1 ++ l2) = extras l1 ++ extras l2.
Proof. intros l1 l2. unfold extras. now rewrite !filter_app. Qed.

Lemma extras_In : forall l x, In x (extras l) ->
    ParseAst.is_argparse_add_argument x = false /\ ParseAst.is_argparse_description x = false.
Proof.
  intros l x H. unfold extras in H. apply filter_In in H. destruct H as [H Hd].
  apply filter_In in H. destruct H as [_ Ha].
  split; [now apply negb_true_iff in Ha | now apply negb_true_iff in Hd].
Qed.

Lemma extras_idem : forall l, extras (extras l) = extras l.
Proof.
  intros l. unfold extras at 1.
  rewrite (filter_all (fun s => negb (ParseAst.is_argparse_add_argument s)) (extras l)).
  - apply filter_all. intros x Hx. apply extras_In in Hx. destruct Hx as [_ Hx]. now rewrite Hx.
  - intros x Hx. apply extras_In in Hx. destruct Hx as [Hx _]. now rewrite Hx.
Qed.

Lemma extras_adds : forall adds, Forall (fun s => ParseAst.is_argparse_add_argument s = true) adds -> extras adds = [].
Proof.
  intros adds H. unfold extras. induction H as [|x r Hx Hr IH]; cbn; [reflexivity|]. rewrite Hx. cbn. exact IH.
Qed.

Lemma extras_description : forall v, extras [description_assign v] = [].
Proof. intros v. reflexivity. Qed.

Lemma extras_return : forall x, is_return x = true -> extras [x] = [x].
Proof. intros x H. destruct x; try discriminate. destruct e as [[]|]; reflexivity. Qed.

Lemma parse_argparse_internal : forall di n a fbody dc r pft pfn i,
    ParseAst.parse_argparse_ast di (SFunc n a fbody dc r) pft pfn = Ok i ->
    ir_name i = ParseAst.fld_of_opt pfn
    /\ ir_type i = Has (argparse_parsed_type a pft)
    /\ ir_internal i = match extras (body_stmts fbody) with
                       | [] => None
                       | s :: rest => Some (mkInternal (s :: rest) (Has n) (Has (L "static")))
                       end.
Proof.
  intros di n a fbody dc r pft pfn i H. unfold ParseAst.parse_argparse_ast in H.
  cbn [ParseAst.is_func_other] in H.
  apply bind_Ok_inv in H. destruct H as [di' [_ H]].
  apply bind_Ok_inv in H. destruct H as [st [_ H]].
  injection H as H. subst i. cbn [ir_name ir_type ir_internal].
  split; [reflexivity|]. split; [reflexivity|].
  unfold extras, body_stmts.
  destruct (filter _ (filter _ _)); reflexivity.
Qed.

Lemma argparse_adds : forall pt ww edd (l : list (str * gparam)) adds,
    map_outcome (fun kv => param2argparse_param pt ww edd (fst kv) (snd kv)) l = Ok adds ->
    Forall (fun s => ParseAst.is_argparse_add_argument s = true) adds.
Proof.
  intros pt ww edd l adds H. apply map_outcome_Forall2 in H.
  induction H as [|kv y l' ys Hy _ IH]; constructor; [|exact IH].
  apply C06Facts.param2argparse_param_shape in Hy. destruct Hy as [kws ->]. reflexivity.
Qed.

Definition one_final_return (inner ret : list stmt) : Prop :=
  (last_is_return inner = true /\ ret = [])
  \/ (last_is_return inner = false /\ exists x, ret = [x] /\ is_return x = true).

Lemma rt_argparse_body_lemma :
  forall di n a fbody dc r pft pfn pt edd efn eft wd ww ds n' a' body' d' r' i2,
    rt_argparse di (SFunc n a fbody dc r) pft pfn pt edd efn eft wd ww ds = Ok (SFunc n' a' body' d' r', i2) ->
    guard_rt_argparse (SFunc n a fbody dc r) pft pfn efn eft = true ->
    exists dtext desc adds ret,
      ds = Ok dtext /\ n' = n
      /\ body' = SExpr (set_value (VStr (indent tab dtext ++ tab))) :: description_assign desc
                       :: adds ++ extras (body_stmts fbody) ++ ret
      /\ Forall (fun s => ParseAst.is_argparse_add_argument s = true) adds
      /\ one_final_return (extras (body_stmts fbody)) ret.
Proof.
  intros di n a fbody dc r pft pfn pt edd efn eft wd ww ds n' a' body' d' r' i2 H G.
  unfold guard_rt_argparse in G. apply andb_true_iff in G. destruct G as [ST AG].
  unfold rt_argparse in H. apply bind_Ok_inv in H. destruct H as [i [Hp He]].
  apply parse_argparse_internal in Hp. destruct Hp as (Hn & Ht & Hint).
  apply emit_argparse_inv in He.
  destruct He as (n0 & ftype & b & dtext & desc & adds & spliced & ret & Hfn & Hft & Hb & Hds & _ & Hadds & Hsp & Hret & _ & Es).
  injection Es as -> _ Hbody _ _. apply argparse_adds in Hadds.
  unfold same_target_argparse in ST. apply same_target_inv in ST. destruct ST as [ST1 ST2].
  rewrite Hn, ST1 in Hfn. injection Hfn as <-.
  rewrite Ht, ST2 in Hft. injection Hft as <-.
  assert (Eb : b = extras (body_stmts fbody)).
  { destruct (extras (body_stmts fbody)) as [|s rest] eqn:Ei; rewrite ?Ei in Hint.
    - rewrite (get_internal_body_none _ _ _ Hint) in Hb. now injection Hb as <-.
    - assert (X : Ok b = Ok (s :: rest)) by (rewrite <- Hb; exact (get_internal_body_same _ _ _ _ _ Hint)).
      now injection X. }
  subst b. rewrite (C16_argparse_partial_lemma _ AG) in Hsp. injection Hsp as <-.
  exists dtext, desc, adds, ret. split; [exact Hds|]. split; [reflexivity|]. split; [exact Hbody|].
  split; [exact Hadds|].
  unfold one_final_return. destruct (last_is_return (extras (body_stmts fbody))).
  - injection Hret as <-. left. split; reflexivity.
  - apply bind_Ok_inv in Hret. destruct Hret as [x [Hx Hret]]. injection Hret as <-.
    right. split; [reflexivity|]. exists x. split; [reflexivity|]. eapply argparse_return_is_return; eauto.
Qed.

(* in source terms: the extra statements of the emitted function are the extra statements of the source,
   in order, followed by the one final return when the source had none *)
Lemma rt_argparse_extras_lemma :
  forall di n a fbody dc r pft pfn pt edd efn eft wd ww ds n' a' body' d' r' i2,
    rt_argparse di (SFunc n a fbody dc r) pft pfn pt edd efn eft wd ww ds = Ok (SFunc n' a' body' d' r', i2) ->
    guard_rt_argparse (SFunc n a fbody dc r) pft pfn efn eft = true ->
    n' = n
    /\ exists ret, extras (body_stmts body') = extras (body_stmts fbody) ++ ret
                   /\ one_final_return (extras (body_stmts fbody)) ret.
Proof.
  intros di n a fbody dc r pft pfn pt edd efn eft wd ww ds n' a' body' d' r' i2 H G.
  destruct (rt_argparse_body_lemma _ _ _ _ _ _ _ _ _ _ _ _ _ _ _ _ _ _ _ _ _ H G)
    as (dtext & desc & adds & ret & _ & Hn & Hbody & Hadds & Hret).
  split; [exact Hn|]. exists ret. split; [|exact Hret].
  subst body'. rewrite body_stmts_docstring.
  change (description_assign desc :: adds ++ extras (body_stmts fbody) ++ ret)
    with ([description_assign desc] ++ adds ++ extras (body_stmts fbody) ++ ret).
  rewrite !extras_app, extras_description, (extras_adds _ Hadds), extras_idem. cbn [app]. f_equal.
  destruct Hret as [[_ ->]|[_ [x [-> Hx]]]]; [reflexivity | now apply extras_return].
Qed.

Lemma parse_class_internal : forall di nm bs cbody dc pn it ww i,
    ParseAst.parse_class di (ParseAst.CStmt (SClass nm bs cbody dc)) pn it ww = Ok i ->
    ir_internal i = Some (mkInternal (class_extras (body_stmts cbody)) (Has nm) (Has (L "cls"))).
Proof.
  intros di nm bs cbody dc pn it ww i H. unfold ParseAst.parse_class in H.
  apply bind_Ok_inv in H. destruct H as [cd [Hcd H]].
  assert (E : cd = SClass nm bs cbody dc).
  { cbn in Hcd. destruct pn as [want|]; [destruct (str_eqb nm want); [|discriminate]|]; now injection Hcd. }
  subst cd. apply bind_Ok_inv in H. destruct H as [[i0 body] [Hr0 H]].
  assert (E : body = body_stmts cbody).
  { unfold body_stmts. destruct (docstring_of cbody).
    - destruct di as [o|]; [|discriminate]. apply bind_Ok_inv in Hr0. destruct Hr0 as [x [_ Hr0]]. now injection Hr0.
    - now injection Hr0. }
  subst body.
  match type of H with (let '(_, _) := ?X in _) = _ => destruct X as [params0 returns0] end.
  apply bind_Ok_inv in H. destruct H as [[params1 returns1] [_ H]].
  apply bind_Ok_inv in H. destruct H as [params2 [_ H]].
  injection H as <-. reflexivity.
Qed.

(* class -> IR -> class with emit_call: every statement of the class body that is not an attribute (its
   methods) is put, in order, INSIDE one generated __call__ - as it stands when the class has no attributes,
   with the attribute names re-homed to self.<name> otherwise (inside guard_C16_call: exactly the scope-aware
   substitution) *)
Lemma rt_class_call_lemma : forall di nm bs cbody dc pn it pww i pt cn bases decos ww tds n' bs' body' dc' i2 s0 rest,
    ParseAst.parse_class di (ParseAst.CStmt (SClass nm bs cbody dc)) pn it pww = Ok i ->
    emit_class pt i true cn bases decos ww tds = Ok (SClass n' bs' body' dc', i2) ->
    class_extras (body_stmts cbody) = s0 :: rest ->
    (ir_params i = [] /\ In (call_meth (s0 :: rest)) body')
    \/ (ir_params i <> []
        /\ (guard_C16_call (od_keys (ir_params i)) (s0 :: rest) = true ->
            In (call_meth (map (subst_stmt (od_keys (ir_params i))) (s0 :: rest))) body')).
Proof.
  intros di nm bs cbody dc pn it pww i pt cn bases decos ww tds n' bs' body' dc' i2 s0 rest Hp He Eb.
  apply parse_class_internal in Hp. rewrite Eb in Hp.
  assert (Hb : match ir_internal i with Some it0 => in_body it0 | None => [] end = s0 :: rest) by now rewrite Hp.
  destruct (emit_class_call_body _ _ _ _ _ _ _ _ _ _ _ _ _ _ He Hb) as [[Hps Hin]|[Hps [b' [Hrw Hin]]]].
  - left. split; assumption.
  - right. split; [assumption|]. intros G. rewrite (C16_call_partial_lemma _ _ G) in Hrw.
    injection Hrw as <-. exact Hin.
Qed.

Definition idp : perm := fun l => l.

Definition wr_inner : stmt :=
  SFunc (L "inner") (mkArguments [mkArg (L "q") None] [] [] [] None None)
        [SReturn (Some (ECall (EName (L "g")) [EName (L "q"); EName (L "b")] []))] [] None.

Definition wr_args : arguments :=
  mkArguments [mkArg (L "a") None; mkArg (L "b") None] [EConst (VInt 2)] [] [] None None.

(* def f(a, b=2): <docstring>; 'a string first'; t = g(a); if t: return a; def inner(q): ...; <ret> *)
Definition wr_body (ret : list stmt) : list stmt :=
  [SExpr (EConst (VStr (L "doc")));
   SExpr (EConst (VStr (L "a string first")));
   SAssign [EName (L "t")] (ECall (EName (L "g")) [EName (L "a")] []);
   SOther (L "If") (L "if t:") [[SReturn (Some (EName (L "a")))]];
   wr_inner] ++ ret.

Definition wr_doc : ir :=
  mkIR Missing Missing (Has (L "doc"))
       [(L "a", mkG (Has (L "the a")) Missing None); (L "b", mkG (Has (L "the b")) Missing None)] FNone None.

Definition wr_fn (ret : list stmt) : stmt := SFunc (L "f") wr_args (wr_body ret) [] None.

Definition wr_run (pt : ptable) (ret : list stmt) : outcome (stmt * ir) :=
  rt_function idp idp (Some wr_doc) (wr_fn ret) false true None None pt None None false false (Ok (L "DOC")).

Definition fn_body_of (o : outcome (stmt * ir)) : option (list stmt) :=
  match o with Ok (SFunc _ _ b _ _, _) => Some b | _ => None end.

Lemma rt_function_nonvacuous_no_return :
  no_value_return (body_stmts (wr_body [SReturn None])) = true
  /\ doc_return_default_absent (Some wr_doc) (wr_body [SReturn None]) = true
  /\ exists b, fn_body_of (wr_run [] [SReturn None]) = Some b.
Proof. split; [reflexivity|]. split; [reflexivity|]. eexists. vm_compute. reflexivity. Qed.

(* function-return-replaced on the round trip: `return 'abc'` comes back as `return abc` (the return default
   is the str value, which the emitter parses as source) *)
Lemma rt_function_return_replaced_witness :
  finding_class_rt_function [] (Some wr_doc) (wr_body [SReturn (Some (EConst (VStr (L "abc"))))]) None false true
  = Some K_fn_return_replaced
  /\ exists b, fn_body_of (wr_run [] [SReturn (Some (EConst (VStr (L "abc"))))]) = Some b
               /\ body_stmts b = body_stmts (wr_body [SReturn (Some (EName (L "abc")))]).
Proof. split; [vm_compute; reflexivity|]. eexists. split; vm_compute; reflexivity. Qed.

(* function-return-appended on the round trip: the last top-level `return t` is not the last statement; its
   value becomes the return default and a second `return t` is appended *)
Definition wr_tail : list stmt := [SReturn (Some (EName (L "t"))); SAssign [EName (L "z")] (EConst (VInt 1))].

Definition rt_function_statement : Prop :=
  forall pi pj d n a body dc r it ww pft pfn pt efn eft inl kw tds n' a' body' d' r' i2,
    rt_function pi pj d (SFunc n a body dc r) it ww pft pfn pt efn eft inl kw tds
    = Ok (SFunc n' a' body' d' r', i2) ->
    same_target_function n a pft pfn efn eft = true ->
    body_stmts body' = body_stmts body.

Lemma rt_function_refuted_lemma : ~ rt_function_statement.
Proof.
  intros H. destruct rt_function_return_replaced_witness as [_ (b & Hb & Hs)].
  unfold fn_body_of in Hb. destruct (wr_run [] _) as [[s i2]|] eqn:E; [|discriminate Hb].
  destruct s; try discriminate Hb. injection Hb as ->.
  unfold wr_run, wr_fn in E. apply H in E. specialize (E eq_refl).
  rewrite Hs in E. vm_compute in E. discriminate E.
Qed.

Definition wa_ap : expr := EName (L "argument_parser").
Definition wa_add1 : stmt :=
  SExpr (ECall (EAttr wa_ap (L "add_argument")) [EConst (VStr (L "--x"))]
               [(Some (L "type"), EName (L "int")); (Some (L "help"), EConst (VStr (L "the x")));
                (Some (L "required"), EConst (VBool true)); (Some (L "default"), EConst (VInt 5))]).
Definition wa_add2 : stmt :=
  SExpr (ECall (EAttr wa_ap (L "add_argument")) [EConst (VStr (L "--name"))]
               [(Some (L "help"), EConst (VStr (L "the name")))]).
Definition wa_descr : stmt := SAssign [EAttr wa_ap (L "description")] (EConst (VStr (L "Summary."))).
Definition wa_note : stmt := SExpr (EConst (VStr (L "note"))).
Definition wa_assign : stmt := SAssign [EName (L "t")] (ECall (EName (L "g")) [EName (L "x")] []).

(* def set_cli_args(argument_parser): <docstring>; description; add --x; <mid>; add --name; t = g(x);
   def inner(q): ...; <ret> *)
Definition wa_fn (mid ret : list stmt) : stmt :=
  SFunc (L "set_cli_args") (mkArguments [mkArg (L "argument_parser") None] [] [] [] None None)
        ([SExpr (EConst (VStr (L "Set CLI arguments"))); wa_descr; wa_add1] ++ mid
         ++ [wa_add2; wa_assign; wr_inner] ++ ret) [] None.

Definition wa_doc : ir := mkIR Missing Missing (Has (L "Set CLI arguments")) [] FNone None.
Definition wa_pt : ptable := [(L "(None)", Some (EConst VNone))].

Definition wa_run (mid ret : list stmt) : outcome (stmt * ir) :=
  rt_argparse (Ok wa_doc) (wa_fn mid ret) None (Some (L "set_cli_args")) wa_pt false None None false false
              (Ok (L "DOC")).

(* argparse-leading-string-dropped on the round trip: a string expression statement that is the first
   non-interface statement - here it stands between the two add_argument calls - is lost *)
Lemma rt_argparse_leading_string_witness :
  finding_class_rt_argparse
    (match wa_fn [wa_note] [SReturn (Some wa_ap)] with SFunc _ _ b _ _ => b | _ => [] end)
  = Some K_ap_leading_string_dropped
  /\ exists b, fn_body_of (wa_run [wa_note] [SReturn (Some wa_ap)]) = Some b
               /\ extras (body_stmts b) = [wa_assign; wr_inner; SReturn (Some wa_ap)].
Proof. split; [vm_compute; reflexivity|]. eexists. split; vm_compute; reflexivity. Qed.

Definition rt_argparse_statement : Prop :=
  forall di n a fbody dc r pft pfn pt edd efn eft wd ww ds n' a' body' d' r' i2,
    rt_argparse di (SFunc n a fbody dc r) pft pfn pt edd efn eft wd ww ds = Ok (SFunc n' a' body' d' r', i2) ->
    same_target_argparse n a pft pfn efn eft = true ->
    exists ret, extras (body_stmts body') = extras (body_stmts fbody) ++ ret.

Lemma rt_argparse_refuted_lemma : ~ rt_argparse_statement.
Proof.
  intros H. destruct rt_argparse_leading_string_witness as [_ (b & Hb & Hs)].
  unfold fn_body_of in Hb. destruct (wa_run _ _) as [[s i2]|] eqn:E; [|discriminate Hb].
  destruct s; try discriminate Hb. injection Hb as ->.
  unfold wa_run, wa_fn in E. apply H in E. destruct (E eq_refl) as [ret Hret].
  rewrite Hs in Hret. vm_compute in Hret. discriminate Hret.
Qed.

Definition wc_meth : stmt :=
  SFunc (L "run") (mkArguments [mkArg (L "self") None] [] [] [] None None)
        [SReturn (Some (EAttr (EName (L "self")) (L "a")))] [] None.

(* class C: <docstring>; a: int = 1; def run(self): return self.a *)
Definition wc_class : stmt :=
  SClass (L "C") [] [SExpr (EConst (VStr (L "doc"))); SAnnAssign (EName (L "a")) (EName (L "int")) (Some (EConst (VInt 1)));
                     wc_meth] [].

Definition wc_doc : ir :=
  mkIR FNone (Has (L "static")) (Has (L "doc")) [(L "a", mkG (Has (L "the a")) Missing None)] FNone None.

Definition wc_run (emit_call : bool) : outcome (stmt * ir) :=
  rt_class (Some (Ok wc_doc)) (ParseAst.CStmt wc_class) None false true [] emit_call (L "C") [] [] false (Ok (L "DOC")).

Definition class_body_of (o : outcome (stmt * ir)) : option (list stmt) :=
  match o with Ok (SClass _ _ b _, _) => Some b | _ => None end.

Definition rt_class_statement : Prop :=
  forall di nm bs cbody dc pn it pww pt ec cn bases decos ww tds n' bs' body' dc' i2,
    rt_class di (ParseAst.CStmt (SClass nm bs cbody dc)) pn it pww pt ec cn bases decos ww tds
    = Ok (SClass n' bs' body' dc', i2) ->
    forall s, In s (class_extras (body_stmts cbody)) -> In s body'.

Lemma rt_class_refuted_lemma : ~ rt_class_statement.
Proof.
  intros H.
  specialize (H (Some (Ok wc_doc)) (L "C") []
                [SExpr (EConst (VStr (L "doc"))); SAnnAssign (EName (L "a")) (EName (L "int")) (Some (EConst (VInt 1)));
                 wc_meth] []
                None false true [] true (L "C") [] [] false (Ok (L "DOC"))).
  vm_compute in H. specialize (H _ _ _ _ _ eq_refl _ (or_introl eq_refl)).
  destruct H as [H|[H|[H|[]]]]; discriminate.
Qed.

(* The return default parse.function stores for a body ending in `return e` is C03Spec.ret_default_of e, taken through
   _set_name_and_type and _infer_default, for every declared return type and every option.  When it is a str that
   the parse table sends back to e, the emitter regenerates `return e`.  Two instances: e a node get_value leaves
   alone (the default is the back-quoted source of e), and e a name (the default is its id). *)
Lemma infer_default_str_default : forall p s it p',
  in_none_types (VStr s) = false ->
  ParseSig.infer_default p (DV (VStr s)) it = Ok p' -> g_default p' = Some (DV (VStr (unquote s))).
Proof.
  intros p s it p' Hn H. unfold ParseSig.infer_default in H. cbn [bind] in H. cbv zeta in H.
  cbn [ParseSig.dval_in_none_types] in H. rewrite Hn in H.
  apply bind_Ok_inv in H. destruct H as [typ3 [_ H]].
  apply bind_Ok_inv in H. destruct H as [[d tn] [Hd4 H]].
  apply bind_Ok_inv in Hd4. destruct Hd4 as [nq [_ Hd4]]. rewrite orb_true_r in Hd4. injection Hd4 as <- <-.
  apply bind_Ok_inv in H. destruct H as [typ5 [_ H]].
  match type of H with (if ?c then _ else _) = _ => destruct c end;
    [destruct typ5 as [| |t]; try discriminate; destruct (contains _ t)|]; injection H as <-; reflexivity.
Qed.

Lemma set_name_and_type_return_str : forall p s it ww x,
    g_default p = Some (DV (VStr s)) -> in_none_types (VStr s) = false ->
    ParseSig.set_name_and_type (L "return_type") p it ww = Ok x ->
    g_default (snd x) = Some (DV (VStr (unquote s))).
Proof.
  intros p s it ww x Hd Hn H. unfold ParseSig.set_name_and_type in H.
  apply bind_Ok_inv in H. destruct H as [p' [Hp H]]. injection H as H. subst x. cbn [snd].
  unfold ParseSig.snt_param in Hp. apply bind_Ok_inv in Hp. destruct Hp as [p1 [Hpre Hpost]].
  unfold ParseSig.snt_pre in Hpre. rewrite ParseSigFacts.return_type_not_kwargs, Hd in Hpre.
  apply snt_post_default in Hpost. rewrite Hpost. eapply infer_default_str_default; eauto.
Qed.

Lemma return_val_of_cons : forall pt q c s e,
    g_default q = Some (DV (VStr (c :: s))) ->
    parse_expr_src pt (strip_chars [bt] (c :: s)) = Ok e ->
    return_val_of pt (Has q) = Ok (Some (SReturn (Some e))).
Proof.
  intros pt q c s e Hd Hp. unfold return_val_of, function_return_val, returns_param. cbn [ir_returns fget].
  rewrite Hd, Hp. reflexivity.
Qed.

Lemma rt_function_final_class : forall pt d body r it ww pre e s c t e',
    body_stmts body = pre ++ [SReturn (Some e)] ->
    C03Spec.ret_default_of e = Ok (DV (VStr s)) -> in_none_types (VStr s) = false -> unquote s = c :: t ->
    parse_expr_src pt (strip_chars [bt] (c :: t)) = Ok e' -> expr_eqb e' e = true ->
    finding_class_rt_function pt d body r it ww = None.
Proof.
  intros pt d body r it ww pre e s c t e' Eb Hd Hn Eu Ep Hq.
  pose proof Hq as Hrefl. apply expr_eqb_eq in Hq. subst e'.
  unfold finding_class_rt_function, rt_function_rv.
  destruct (rt_function_returns d body r it ww) as [rets|err] eqn:E; cbn [bind]; [|reflexivity].
  unfold rt_function_returns in E. apply bind_Ok_inv in E. destruct E as [rets1 [Hir Hfin]].
  apply interpolate_return_default in Hir. rewrite Eb, last_return_final in Hir.
  destruct Hir as (dflt & Hd' & Hir). rewrite Hd in Hd'. injection Hd' as <-.
  destruct rets1 as [| |p]; try discriminate Hir. cbn [default_of] in Hir.
  apply bind_Ok_inv in Hfin. destruct Hfin as [y [Hy Hfin]]. injection Hfin as <-.
  apply (set_name_and_type_return_str _ _ _ _ _ Hir Hn) in Hy. rewrite Eu in Hy.
  rewrite (return_val_of_cons _ _ _ _ _ Hy Ep).
  unfold finding_class_C16_function, ends_with. rewrite Eb, rev_app_distr. cbn [rev app stmt_eqb option_eqb is_return].
  rewrite Hrefl. reflexivity.
Qed.

Lemma unquote_return_text : forall e, unquote (return_text e) = return_text e.
Proof.
  intros e. unfold unquote.
  replace (startswith [dq] (return_text e)) with false by reflexivity.
  replace (startswith [sq] (return_text e)) with false by reflexivity.
  cbn [andb orb]. rewrite andb_false_r. reflexivity.
Qed.

Lemma if_tuple : forall {A} (e : expr) (a b : A),
    match e with ETuple _ => a | _ => b end = if match e with ETuple _ => true | _ => false end then a else b.
Proof. intros A e a b. destruct e; reflexivity. Qed.

Lemma if_const : forall {A} (e : expr) (a b : A),
    match e with EConst _ => a | _ => b end = if match e with EConst _ => true | _ => false end then a else b.
Proof. intros A e a b. destruct e; reflexivity. Qed.

Lemma final_return_reparses_inv : forall pt stmts, final_return_reparses pt stmts = true ->
    exists pre e e', stmts = pre ++ [SReturn (Some e)]
      /\ C03Spec.ret_default_of e = Ok (DV (VStr (return_text e)))
      /\ in_none_types (VStr (return_text e)) = false
      /\ parse_expr_src pt (strip_chars [bt] (return_text e)) = Ok e' /\ expr_eqb e' e = true.
Proof.
  intros pt stmts F. unfold final_return_reparses in F.
  destruct (rev stmts) as [|s0 l] eqn:Er; [discriminate F|].
  destruct s0 as [| | | | |[e|]|]; try discriminate F.
  assert (Eb : stmts = rev l ++ [SReturn (Some e)]) by (rewrite <- (rev_involutive stmts), Er; reflexivity).
  rewrite if_tuple in F. destruct (match e with ETuple _ => true | _ => false end) eqn:Et; [discriminate F|].
  destruct (ParseSig.get_value_expr e) as [[v|x]|] eqn:Hg; try discriminate F.
  rewrite if_const in F. destruct (match x with EConst _ => true | _ => false end) eqn:Ec; [discriminate F|].
  apply andb_true_iff in F. destruct F as [Hn Hp]. apply negb_true_iff in Hn.
  destruct (parse_expr_src pt _) as [e'|] eqn:Ep; [|discriminate Hp].
  exists (rev l), e, e'. split; [exact Eb|]. split; [|auto].
  unfold C03Spec.ret_default_of. rewrite Et, Hg. cbn [andb bind]. destruct x; try discriminate Ec; reflexivity.
Qed.

Lemma rt_function_final_return_class : forall pt d body r it ww,
    final_return_reparses pt (body_stmts body) = true ->
    finding_class_rt_function pt d body r it ww = None.
Proof.
  intros pt d body r it ww F.
  destruct (final_return_reparses_inv _ _ F) as (pre & e & e' & Eb & Hd & Hn & Ep & Hq).
  exact (rt_function_final_class pt d body r it ww pre e _ _ _ e' Eb Hd Hn (unquote_return_text e) Ep Hq).
Qed.

Lemma rt_function_final_return_reparses_lemma :
  forall pi pj d n a body dc r it ww pft pfn pt efn eft inl kw tds n' a' body' d' r' i2,
    rt_function pi pj d (SFunc n a body dc r) it ww pft pfn pt efn eft inl kw tds
    = Ok (SFunc n' a' body' d' r', i2) ->
    same_target_function n a pft pfn efn eft = true ->
    final_return_reparses pt (body_stmts body) = true ->
    exists text, tds = Ok text /\ n' = n /\ body' = SExpr (set_value (VStr text)) :: body_stmts body.
Proof.
  intros pi pj d n a body dc r it ww pft pfn pt efn eft inl kw tds n' a' body' d' r' i2 H ST F.
  eapply rt_function_body_lemma; [exact H|].
  unfold guard_rt_function. rewrite ST, (rt_function_final_return_class _ _ _ _ _ _ F).
  destruct (final_return_reparses_inv _ _ F) as (pre & e & _ & Eb & _).
  rewrite (body_or_clean_doc_final d body pre _ Eb). reflexivity.
Qed.

(* non-vacuity of that route: `return g(t)` under a table that knows `g(t)` *)
Definition wr_call : expr := ECall (EName (L "g")) [EName (L "t")] [].
Definition wr_pt : ptable := [(L "g(t)", Some wr_call)].

Lemma rt_function_nonvacuous_final_return :
  final_return_reparses wr_pt (body_stmts (wr_body [SReturn (Some wr_call)])) = true
  /\ exists b, fn_body_of (wr_run wr_pt [SReturn (Some wr_call)]) = Some b
               /\ body_stmts b = body_stmts (wr_body [SReturn (Some wr_call)]).
Proof. split; [vm_compute; reflexivity|]. eexists. split; vm_compute; reflexivity. Qed.

Lemma final_return_name_reparses_inv : forall pt stmts, final_return_name_reparses pt stmts = true ->
    exists pre id c t e', stmts = pre ++ [SReturn (Some (EName id))]
      /\ in_none_types (VStr id) = false /\ unquote id = c :: t
      /\ parse_expr_src pt (strip_chars [bt] (c :: t)) = Ok e' /\ expr_eqb e' (EName id) = true.
Proof.
  intros pt stmts F. unfold final_return_name_reparses in F.
  destruct (rev stmts) as [|s0 l] eqn:Er; [discriminate F|].
  destruct s0 as [| | | | |[e|]|]; try discriminate F.
  destruct e as [|id| | | | | | | |]; try discriminate F.
  apply andb_true_iff in F. destruct F as [Hn Hp]. apply negb_true_iff in Hn.
  destruct (unquote id) as [|c t] eqn:Eu; [discriminate Hp|].
  destruct (parse_expr_src pt (strip_chars [bt] (c :: t))) as [e'|] eqn:Ep; [|discriminate Hp].
  exists (rev l), id, c, t, e'. split; [rewrite <- (rev_involutive stmts), Er; reflexivity|auto].
Qed.

Lemma rt_function_final_name_class : forall pt d body r it ww,
    final_return_name_reparses pt (body_stmts body) = true ->
    finding_class_rt_function pt d body r it ww = None.
Proof.
  intros pt d body r it ww F.
  destruct (final_return_name_reparses_inv _ _ F) as (pre & id & c & t & e' & Eb & Hn & Eu & Ep & Hq).
  exact (rt_function_final_class pt d body r it ww pre (EName id) id c t e' Eb eq_refl Hn Eu Ep Hq).
Qed.

Lemma rt_function_final_name_lemma :
  forall pi pj d n a body dc r it ww pft pfn pt efn eft inl kw tds n' a' body' d' r' i2,
    rt_function pi pj d (SFunc n a body dc r) it ww pft pfn pt efn eft inl kw tds
    = Ok (SFunc n' a' body' d' r', i2) ->
    same_target_function n a pft pfn efn eft = true ->
    final_return_name_reparses pt (body_stmts body) = true ->
    exists text, tds = Ok text /\ n' = n /\ body' = SExpr (set_value (VStr text)) :: body_stmts body.
Proof.
  intros pi pj d n a body dc r it ww pft pfn pt efn eft inl kw tds n' a' body' d' r' i2 H ST F.
  eapply rt_function_body_lemma; [exact H|].
  unfold guard_rt_function. rewrite ST, (rt_function_final_name_class _ _ _ _ _ _ F).
  destruct (final_return_name_reparses_inv _ _ F) as (pre & id & _ & _ & _ & Eb & _).
  rewrite (body_or_clean_doc_final d body pre _ Eb). reflexivity.
Qed.

(* the non-vacuity example C16_rt_function_nonvacuous (props/C16Ext.v) ends in `return t`: it is inside this condition,
   with the empty table (the model parses a plain name itself) *)
Lemma rt_function_nonvacuous_final_name :
  final_return_name_reparses [] (body_stmts (wr_body [SReturn (Some (EName (L "t")))])) = true.
Proof. vm_compute. reflexivity. Qed.

(* asked for another name, the emitter does not re-attach the body (get_internal_body): only the generated
   return is left; and a body-less function under a docstring IR that carries an `_internal` of the same name
   and kind (never produced by parse.docstring, but a legal input of the model) receives that body *)
Definition wr_doc_internal : ir :=
  mkIR Missing Missing (Has (L "doc")) [] FNone
       (Some (mkInternal [SExpr (EName (L "x"))] (Has (L "f")) (Has (L "static")))).

(* nothing to carry: the emitted class body is the docstring, one annotated assignment per attribute, and no
   other statement - except the __call__ emit.class_ makes from the return entry when emit_call is set and the
   class has attributes and a return_type *)
Lemma class_attrs_assignments : forall pt (l : list (str * gparam)) attrs,
    map_outcome (fun kv => do r <- param2ast pt (fst kv) (snd kv); Ok (fst r)) l = Ok attrs ->
    Forall (fun s => ParseAst.is_assignment s = true) attrs.
Proof.
  intros pt l attrs H. apply map_outcome_Forall2 in H.
  induction H as [|kv y l' ys Hy Hr IH]; constructor; [|exact IH].
  apply bind_Ok_inv in Hy. destruct Hy as [[s g'] [Hp Hy]]. injection Hy as <-.
  apply C06Facts.param2ast_shape in Hp. destruct Hp as [a [v Hs]]. cbn [fst]. subst s. reflexivity.
Qed.

Lemma class_extras_attrs : forall attrs, Forall (fun s => ParseAst.is_assignment s = true) attrs -> class_extras attrs = [].
Proof.
  intros attrs H. unfold class_extras. induction H as [|x r Hx Hr IH]; cbn; [reflexivity|]. rewrite Hx. exact IH.
Qed.

Lemma class_extras_app : forall a b, class_extras (a ++ b) = class_extras a ++ class_extras b.
Proof. intros a b. unfold class_extras. apply filter_app. Qed.

(* the only non-attribute statement emit.class_ can add on its own: the __call__ made from the return entry *)
Definition generated_call (pt : ptable) (i : ir) (emit_call ww : bool) (meth : list stmt) : Prop :=
  meth = []
  \/ (emit_call = true /\ ir_params i <> []
      /\ exists p m, ir_returns i = Has p
                     /\ call_meth_of_dict pt (od_keys (ir_params i)) ww p = Ok m /\ meth = [m]).

Lemma emit_class_nothing_to_carry : forall pt i ec cn bases decos ww tds n' bs' body' dc' i2,
    emit_class pt i ec cn bases decos ww tds = Ok (SClass n' bs' body' dc', i2) ->
    (match ir_internal i with Some it0 => in_body it0 | None => [] end) = [] ->
    exists text attrs meth,
      tds = Ok text
      /\ body' = SExpr (set_value (VStr (class_docstring text))) :: attrs ++ meth
      /\ Forall (fun s => ParseAst.is_assignment s = true) attrs
      /\ generated_call pt i ec ww meth.
Proof.
  intros pt i ec cn bases decos ww tds n' bs' body' dc' i2 H Hb.
  destruct (emit_class_inv _ _ _ _ _ _ _ _ _ _ H) as (ib & text & meth & attrs & Hib & Htds & Hm & Ha & _ & Es).
  injection Es as _ _ -> _. rewrite Hb in Hib.
  exists text, attrs, meth. split; [exact Htds|]. split; [reflexivity|].
  split; [eapply class_attrs_assignments; exact Ha|].
  unfold generated_call. destruct ec; [|injection Hm as <-; now left].
  destruct (ir_params i) as [|[k0 g0] ps] eqn:Ep.
  - cbn [od_keys map] in Hib. injection Hib as <-. injection Hm as <-. now left.
  - cbn [od_keys map fst] in Hib.
    destruct (ir_returns i) as [| |p] eqn:Er; injection Hib as <-; try (injection Hm as <-; now left).
    unfold class_fold_returns in Hm. rewrite Er in Hm. cbn [ir_params] in Hm.
    rewrite MergeFacts.od_get_set_same in Hm.
    destruct (gparam_nonempty p); [|injection Hm as <-; now left].
    apply bind_Ok_inv in Hm. destruct Hm as [m [Hcm Hm]]. injection Hm as <-.
    right. split; [reflexivity|]. split; [discriminate|]. exists p, m.
    split; [reflexivity|]. split; [exact Hcm | reflexivity].
Qed.

Lemma generated_call_extras : forall pt i ec ww meth, generated_call pt i ec ww meth -> class_extras meth = meth.
Proof.
  intros pt i ec ww meth [->|(_ & _ & p & m & _ & Hcm & ->)]; [reflexivity|].
  unfold call_meth_of_dict in Hcm.
  apply bind_Ok_inv in Hcm. destruct Hcm as [ds [_ Hcm]]. apply bind_Ok_inv in Hcm. destruct Hcm as [ret [_ Hcm]].
  injection Hcm as <-. reflexivity.
Qed.

Lemma rt_class_partial_lemma :
  forall di nm bs cbody dc pn it pww pt ec cn bases decos ww tds n' bs' body' dc' i2,
    rt_class di (ParseAst.CStmt (SClass nm bs cbody dc)) pn it pww pt ec cn bases decos ww tds
    = Ok (SClass n' bs' body' dc', i2) ->
    guard_rt_class (SClass nm bs cbody dc) ec = true ->
    exists i text attrs meth,
      ParseAst.parse_class di (ParseAst.CStmt (SClass nm bs cbody dc)) pn it pww = Ok i
      /\ tds = Ok text
      /\ body' = SExpr (set_value (VStr (class_docstring text))) :: attrs ++ meth
      /\ Forall (fun s => ParseAst.is_assignment s = true) attrs
      /\ generated_call pt i ec ww meth
      /\ class_extras (body_stmts body') = class_extras (body_stmts cbody) ++ meth.
Proof.
  intros di nm bs cbody dc pn it pww pt ec cn bases decos ww tds n' bs' body' dc' i2 H G.
  unfold guard_rt_class, finding_class_rt_class in G.
  destruct (class_extras (body_stmts cbody)) as [|s0 rest] eqn:Ee; [|discriminate]. clear G.
  unfold rt_class in H. apply bind_Ok_inv in H. destruct H as [i [Hp He]].
  pose proof (parse_class_internal _ _ _ _ _ _ _ _ _ Hp) as Hint. rewrite Ee in Hint.
  assert (Hb : match ir_internal i with Some it0 => in_body it0 | None => [] end = []) by now rewrite Hint.
  destruct (emit_class_nothing_to_carry _ _ _ _ _ _ _ _ _ _ _ _ _ He Hb) as (text & attrs & meth & Htds & Hbody & Hattrs & Hgen).
  exists i, text, attrs, meth. repeat (split; [assumption|]).
  subst body'. rewrite body_stmts_docstring, class_extras_app, (class_extras_attrs _ Hattrs).
  cbn [app]. eapply generated_call_extras; eauto.
Qed.

Lemma rt_class_partial_no_call_lemma :
  forall di nm bs cbody dc pn it pww pt cn bases decos ww tds n' bs' body' dc' i2,
    rt_class di (ParseAst.CStmt (SClass nm bs cbody dc)) pn it pww pt false cn bases decos ww tds
    = Ok (SClass n' bs' body' dc', i2) ->
    guard_rt_class (SClass nm bs cbody dc) false = true ->
    class_extras (body_stmts body') = class_extras (body_stmts cbody).
Proof.
  intros di nm bs cbody dc pn it pww pt cn bases decos ww tds n' bs' body' dc' i2 H G.
  destruct (rt_class_partial_lemma _ _ _ _ _ _ _ _ _ _ _ _ _ _ _ _ _ _ _ _ H G)
    as (i & text & attrs & meth & _ & _ & _ & _ & Hgen & Hex).
  rewrite Hex. destruct Hgen as [->|(Hec & _)]; [apply app_nil_r | discriminate].
Qed.

(* a class whose only method is __call__: the method is nested inside the generated __call__ all the same *)
Definition wc_call : stmt :=
  SFunc (L "__call__") (mkArguments [mkArg (L "self") None] [] [] [] None None)
        [SReturn (Some (EAttr (EName (L "self")) (L "a")))] [] None.
Definition wc_attr : stmt := SAnnAssign (EName (L "a")) (EName (L "int")) (Some (EConst (VInt 1))).
Definition wc_call_class : stmt := SClass (L "C") [] [SExpr (EConst (VStr (L "doc"))); wc_attr; wc_call] [].

Definition wc_run_of (cls : stmt) (emit_call : bool) : outcome (stmt * ir) :=
  rt_class (Some (Ok wc_doc)) (ParseAst.CStmt cls) None false true [] emit_call (L "C") [] [] false (Ok (L "DOC")).

(* non-vacuity of the guard: attributes only; and with a return_type attribute, where emit_call adds the
   generated __call__ (the second case of generated_call is inhabited) *)
Definition wc_attrs_class : stmt := SClass (L "C") [] [SExpr (EConst (VStr (L "doc"))); wc_attr] [].
Definition wc_ret_class : stmt :=
  SClass (L "C") [] [SExpr (EConst (VStr (L "doc"))); wc_attr;
                     SAnnAssign (EName (L "return_type")) (EName (L "int")) (Some (EConst (VInt 5)))] [].

Lemma rt_class_nonvacuous_lemma :
  guard_rt_class wc_attrs_class true = true /\ guard_rt_class wc_ret_class true = true
  /\ (exists doc, class_body_of (wc_run_of wc_attrs_class true) = Some [doc; wc_attr])
  /\ (exists doc ret, class_body_of (wc_run_of wc_ret_class true)
                      = Some [doc; wc_attr; ret; call_meth [SReturn (Some (EConst (VInt 5)))]])
  /\ (exists doc ret, class_body_of (wc_run_of wc_ret_class false) = Some [doc; wc_attr; ret]).
Proof.
  split; [reflexivity|]. split; [reflexivity|].
  split; [eexists; vm_compute; reflexivity|].
  split; eexists; eexists; vm_compute; reflexivity.
Qed.
