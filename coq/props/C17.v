(* C17: default values through prose.  The lemmas live in proofs/DefaultsFacts.v and, for the str
   and float classes, proofs/C17More.v; the class corollaries apply C17_of_prose_value to them. *)
From Coq Require String.
Import String.StringSyntax.
From DT Require Import PyStr PyVal TyExpr PureUtils Defaults C17Spec DefaultsFacts C17More.

(* completeness of the finding classes: in the domain and outside every class the property holds
   (in the model) *)
Theorem C17_partial : forall a d v t, guard_C17 a d v t = true -> C17_at a d v t.
Proof. exact C17_partial_lemma. Qed.
Print Assumptions C17_partial.

(* prose that announces nothing is never altered, for every flag combination *)
Theorem C17_no_announce : forall line rs typ emit, no_announce line = true ->
    extract_default line rs default_announces typ emit = Ok (line, None).
Proof. exact extract_default_no_announce. Qed.
Print Assumptions C17_no_announce.

Theorem C17_set_default_doc_no_default : forall name p, p_default p = None -> p_doc p <> FNone ->
    set_default_doc name p true = Ok p.
Proof. exact set_default_doc_no_default. Qed.
Print Assumptions C17_set_default_doc_no_default.

Theorem C17_set_default_doc_no_announce : forall name p doc, p_doc p = Has doc -> no_announce doc = true ->
    set_default_doc name p false = Ok p.
Proof. exact set_default_doc_no_announce. Qed.
Print Assumptions C17_set_default_doc_no_announce.

(* the statement over the whole domain is false of the faithful model: prose without terminal
   punctuation gets a full stop that removal does not take back *)
Definition C17_statement : Prop := forall a d v t, C17_domain d = true -> C17_at a d v t.
Theorem C17_refuted : ~ C17_statement.
Proof. exact C17_refuted_lemma. Qed.
Print Assumptions C17_refuted.

(* a second refutation inside the good prose shape: a str value cut at its full stop *)
Theorem C17_refuted_value_cut :
  prose_ok (L "x.") = true /\ ~ C17_at ADefaultsTo (L "x.") (VStr (L "a.b")) (Some (L "str")).
Proof. exact DefaultsFacts.C17_refuted_value_cut. Qed.
Print Assumptions C17_refuted_value_cut.

(* class-free corollaries: whole value classes are inside the guard, for all prose of the good shape *)
Theorem C17_int_untyped : forall a d z, prose_ok d = true -> C17_at a d (VInt z) None.
Proof. intros a d z Hp. exact (C17_of_prose_value a d _ _ Hp (value_ok_int_untyped a z)). Qed.
Print Assumptions C17_int_untyped.

Theorem C17_int_typed : forall a d z, prose_ok d = true -> C17_at a d (VInt z) (Some (L "int")).
Proof. intros a d z Hp. exact (C17_of_prose_value a d _ _ Hp (value_ok_int_typed a z)). Qed.
Print Assumptions C17_int_typed.

Theorem C17_bool : forall a d b, prose_ok d = true ->
    C17_at a d (VBool b) None /\ C17_at a d (VBool b) (Some (L "bool")).
Proof.
  intros a d b Hp. split; apply C17_of_prose_value; try exact Hp.
  - apply value_ok_bool_untyped.
  - apply value_ok_bool_typed.
Qed.
Print Assumptions C17_bool.

Theorem C17_none : forall a d, prose_ok d = true -> C17_at a d VNone None.
Proof. intros a d Hp. exact (C17_of_prose_value a d _ _ Hp (value_ok_none a)). Qed.
Print Assumptions C17_none.

Example C17_nonvacuous :
  guard_C17 ADefaultsTo (L "name of dataset.") (VStr (L "mnist")) (Some (L "str")) = true
  /\ prose_ok (L "name of dataset.") = true.
Proof. split; vm_compute; reflexivity. Qed.
Print Assumptions C17_nonvacuous.

(* ---- further class-free corollaries (proofs/C17More.v) ---- *)

(* declared str: any non-empty text of plain characters (printable ASCII without quote marks,
   backslash, full stop, back-tick, brackets) that contains no announcement phrase; the value is
   written quoted and read back through literal_eval *)
Theorem C17_str_typed : forall a d s, prose_ok d = true -> plain_word s = true ->
    C17_at a d (VStr s) (Some (L "str")).
Proof. intros a d s Hp Hs. exact (C17_of_prose_value a d _ _ Hp (value_ok_str_typed a s Hs)). Qed.
Print Assumptions C17_str_typed.

(* undeclared: plain words that begin with a letter or underscore, do not end with a blank and are
   not True, False or (in any case) inf, infinity, nan *)
Theorem C17_str_untyped : forall a d s, prose_ok d = true -> bare_word s = true ->
    C17_at a d (VStr s) None.
Proof. intros a d s Hp Hs. exact (C17_of_prose_value a d _ _ Hp (value_ok_str_untyped a s Hs)). Qed.
Print Assumptions C17_str_untyped.

(* floats whose repr is plain decimal text that float() maps to itself *)
Theorem C17_float_plain : forall a d r, prose_ok d = true -> canonical_plain_float r = true ->
    C17_at a d (VFloat r) None /\ C17_at a d (VFloat r) (Some (L "float")).
Proof.
  intros a d r Hp Hr. destruct (value_ok_float_plain a r Hr) as [Hu Ht].
  split; apply C17_of_prose_value; assumption.
Qed.
Print Assumptions C17_float_plain.

(* a value text without announcement phrase never moves the search, whatever the phrase used *)
Theorem C17_value_announce_ok : forall a x, no_announce x = true -> value_announce_ok a x = true.
Proof. exact value_announce_ok_no_announce. Qed.
Print Assumptions C17_value_announce_ok.

Example C17_more_nonvacuous :
  plain_word (L "mnist") = true
  /\ plain_word (L "~/tensorflow datasets") = true
  /\ bare_word (L "mnist") = true
  /\ bare_word (L "tensorflow_datasets") = true
  /\ canonical_plain_float (L "0.5") = true
  /\ canonical_plain_float (L "123456.789") = true
  /\ canonical_plain_float (L "-0.001") = true.
Proof. repeat apply conj; vm_compute; reflexivity. Qed.
Print Assumptions C17_more_nonvacuous.
