(* C13: conversions do not interfere through shared inputs.  Lemmas in proofs/C13Facts.v and proofs/DocEmitPure.v.
   Model: EmitAst (the three AST emitters return the IR as they leave it); spec: C13Spec.
   What is assumed about the docstring layer (another builder's model), and nothing else:
   - the TEXT to_docstring / emit.docstring return is arbitrary (parameters td, dsf; the theorems hold for all);
   - that to_docstring leaves the IR it is given as it found it is NOT a hypothesis: it is part of the EmitAst
     model of emit.function / emit.class_ (they return, and read, the IR they were handed) and is compared
     with the caller's IR after every call by the emitast correspondence family;
   - emit.docstring as a fourth call on the shared IR is the abstract doc_op; the full statement needs
     doc_pure doc_op (it does not write into the IR).  It cannot be dropped (C13_doc_pure_needed: a docstring
     layer that writes doc/default into the shared param dicts, as emit_param_str -> set_default_doc once did, changes
     what the next emitter produces); the DocEmit model of emit.docstring has it (C13_with_docemit). *)
From Coq Require Import List.
From Coq Require String.
Import String.StringSyntax.
From DT Require Import PyStr PyVal PyAst IR EmitAst C13Spec C13Facts.
Import ListNotations.

(* the full statement: any sequence, any length, any options, any docstring text *)
Theorem C13 : C13_statement.
Proof. exact C13_lemma. Qed.
Print Assumptions C13.

(* sequences over emit.class_, emit.function and emit.argparse_function: no assumption at all *)
Theorem C13_emitters : C13_emitters_statement.
Proof. exact C13_emitters_lemma. Qed.
Print Assumptions C13_emitters.

(* per IR: it is enough that emit.docstring leaves THIS IR alone (needed only if a docstring call occurs) *)
Theorem C13_partial : forall pt td dsf doc_op ops i,
    (existsb is_docstring ops = true -> doc_stable_on doc_op i) ->
    run_shared pt td dsf doc_op ops i = run_fresh pt td dsf doc_op ops i.
Proof. exact C13_frame_lemma. Qed.
Print Assumptions C13_partial.

Theorem C13_class_writes_nothing : forall pt i ec cn bs ds ww tds s i2,
    emit_class pt i ec cn bs ds ww tds = Ok (s, i2) -> i2 = i.
Proof. exact emit_class_ir. Qed.
Print Assumptions C13_class_writes_nothing.

Theorem C13_function_writes_nothing : forall pt i fn ft it kw tds s i2,
    emit_function pt i fn ft it kw tds = Ok (s, i2) -> i2 = i.
Proof. exact emit_function_ir. Qed.
Print Assumptions C13_function_writes_nothing.

Theorem C13_argparse_writes_nothing : forall pt i edd fn ft wd ww ds s i2,
    emit_argparse pt i edd fn ft wd ww ds = Ok (s, i2) -> i2 = i.
Proof. exact emit_argparse_ir. Qed.
Print Assumptions C13_argparse_writes_nothing.

(* a docstring call that appends a default sentence to the shared prose changes the argparse function
   emitted next: the hypothesis on emit.docstring is needed *)
Theorem C13_doc_pure_needed :
  run_shared [] w_td w_dsf w_doc_op w_ops w_ir <> run_fresh [] w_td w_dsf w_doc_op w_ops w_ir.
Proof. vm_compute. discriminate. Qed.
Print Assumptions C13_doc_pure_needed.

(* run_shared is the fold_left that threads the one IR object *)
Theorem C13_run_shared_is_fold : forall pt td dsf doc_op ops i,
    run_shared pt td dsf doc_op ops i = do r <- run_shared_fold pt td dsf doc_op ops i; Ok (fst r).
Proof. exact run_shared_fold_spec. Qed.
Print Assumptions C13_run_shared_is_fold.

Example C13_nonvacuous :
  exists l, run_shared [] w_td w_dsf w_doc_op w_ops_ok w_ir_ok = Ok l /\ List.length l = 5.
Proof. eexists. split; [vm_compute; reflexivity | reflexivity]. Qed.
Print Assumptions C13_nonvacuous.

(* the docstring premise discharged for the DocEmit model of emit.docstring (any width, any style):
   the full statement with the concrete docstring layer *)
From DT Require DocEmit DocEmitPure.
Theorem C13_with_docemit : forall w st pt td dsf ops i,
    run_shared pt td dsf (DocEmitPure.doc_op_of w st) ops i
    = run_fresh pt td dsf (DocEmitPure.doc_op_of w st) ops i.
Proof. intros w st pt td dsf ops i. exact (C13_lemma pt td dsf _ (DocEmitPure.emit_docstring_doc_pure w st) ops i). Qed.
Print Assumptions C13_with_docemit.
