(* The refined C06 classifier (model/C06Spec2.v) against C06Spec's: old classes and their names are kept; the classes
   K6r_ap_list_default_unusable (argparse) and K6r_cls_bare_dict_default_lost (class) are added only where the old
   classifier is silent, each for one shape of parameter and only for the clauses that shape explains; classified samples
   and unclassified neighbours. *)
From Coq Require Import List Ascii Bool Arith ZArith.
From Coq Require String.
Import String.StringSyntax.
From DT Require Import PyStr PyStrFacts Sexp PyVal TyExpr PureUtils Defaults PyAst IR EmitAst C06Spec C06Values C06Spec2 RefineFacts.
Import ListNotations.

Lemma finding_class_C06_r_adds : forall kind clause i it art entries mode c,
    finding_class_C06_r kind clause i it art entries mode = Some c ->
    (exists k, finding_class_C06 kind clause i it art = Some k /\ c = K6r_old k)
    \/ (finding_class_C06 kind clause i it art = None
        /\ ((kind = KArgparse /\ c = K6r_ap_list_default_unusable)
            \/ (kind = KClass /\ c = K6r_cls_bare_dict_default_lost))).
Proof.
  intros kind clause i it art entries mode c H.
  destruct (refine_adds K6r_old _ _ c H) as [Hold|[Hnone Hnew]]; [left; exact Hold|].
  right. split; [exact Hnone|]. clear H. rename Hnew into H. unfold new_class_C06 in H. destruct kind.
  - discriminate H.
  - right. destruct (cls_bare_dict_default_lost clause i art); [|discriminate H].
    injection H as H. split; [reflexivity|symmetry; exact H].
  - left. destruct (ap_list_default_unusable clause mode entries i); [|discriminate H].
    injection H as H. split; [reflexivity|symmetry; exact H].
Qed.

Lemma finding_class_C06_r_old : forall kind clause i it art entries mode k,
    finding_class_C06 kind clause i it art = Some k ->
    finding_class_C06_r kind clause i it art entries mode = Some (K6r_old k).
Proof. intros kind clause i it art entries mode k. apply (refine_old K6r_old). Qed.

(* a kept class keeps its name, so the KNOWN_FINDINGS lines of the old classes stay valid *)
Lemma c06_class_r_name_old : forall k, c06_class_r_name (K6r_old k) = c06_class_name k.
Proof. reflexivity. Qed.

Lemma guard_C06_clause_r_inside : forall kind clause i it art entries mode,
    guard_C06_clause_r kind clause i it art entries mode = true -> guard_C06_clause kind clause i it art = true.
Proof. intros kind clause i it art entries mode. apply (refine_silent K6r_old). Qed.

(* argparse: some parameter the failing check speaks of has a List type and an explicit sequence / scalar default,
   and the clause is a run clause - for a display of two or more elements and for a scalar a parse clause that RAISED *)
Lemma ap_list_class_shape : forall clause i it art entries mode,
    finding_class_C06_r KArgparse clause i it art entries mode = Some K6r_ap_list_default_unusable ->
    is_run_clause clause = true
    /\ exists n g ld, In (n, g) (ir_params i) /\ In n entries /\ list_default_of g = Some ld
                      /\ list_default_explains clause mode ld = true.
Proof.
  intros clause i it art entries mode H. unfold finding_class_C06_r in H.
  destruct (finding_class_C06 KArgparse clause i it art) as [k|]; [discriminate H|].
  unfold new_class_C06 in H.
  destruct (ap_list_default_unusable clause mode entries i) eqn:E; [|discriminate H].
  unfold ap_list_default_unusable in E. apply existsb_exists in E. destruct E as [[n g] [Hin Hx]].
  cbn [fst snd] in Hx. apply andb_true_iff in Hx. destruct Hx as [He Hl].
  destruct (list_default_of g) as [ld|] eqn:Eld; [|discriminate Hl].
  assert (Hn : In n entries).
  { apply existsb_exists in He. destruct He as [m [Hm Hq]]. apply str_eqb_eq in Hq. subst m. exact Hm. }
  split.
  - unfold list_default_explains in Hl. destruct ld; try exact Hl;
      apply andb_true_iff in Hl; destruct Hl as [Hp _]; unfold is_parse_clause in Hp; unfold is_run_clause;
      apply orb_true_iff in Hp; destruct Hp as [Hp|Hp]; rewrite Hp; repeat rewrite orb_true_r; reflexivity.
  - exists n, g, ld. repeat split; assumption.
Qed.

Lemma list_default_of_shape : forall g ld,
    list_default_of g = Some ld ->
    exists t v, fget (g_typ g) = Some t /\ g_default g = Some (DV v) /\ typ_appends t = true /\ v <> VNone.
Proof.
  intros g ld H. unfold list_default_of in H.
  destruct (fget (g_typ g)) as [t|]; [|discriminate H].
  destruct (g_default g) as [[v|e|o]|]; try discriminate H.
  destruct (typ_appends t) eqn:Ea; [|discriminate H].
  exists t, v. repeat split; try reflexivity; try assumption.
  intro Hv. subst v. discriminate H.
Qed.

Lemma ap_list_class_not_old_clauses : forall clause i entries mode,
    is_run_clause clause = false -> ap_list_default_unusable clause mode entries i = false.
Proof.
  intros clause i entries mode H. unfold ap_list_default_unusable.
  apply not_true_is_false. intro E. apply existsb_exists in E. destruct E as [[n g] [_ Hx]].
  cbn [fst snd] in Hx. apply andb_true_iff in Hx. destruct Hx as [_ Hl].
  destruct (list_default_of g) as [ld|]; [|discriminate Hl].
  unfold list_default_explains in Hl.
  destruct ld; try (rewrite H in Hl; discriminate Hl);
    unfold is_run_clause in H; unfold is_parse_clause in Hl;
    apply andb_true_iff in Hl; destruct Hl as [Hp _];
    apply orb_false_iff in H; destruct H as [H H4]; apply orb_false_iff in H; destruct H as [_ H3];
    rewrite H3, H4 in Hp; discriminate Hp.
Qed.

(* class: the clause is reparse / unparse and some attribute is declared `dict` with a default *)
Lemma cls_bare_dict_class_shape : forall clause i it art entries mode,
    finding_class_C06_r KClass clause i it art entries mode = Some K6r_cls_bare_dict_default_lost ->
    (clause = L "reparse" \/ clause = L "unparse")
    /\ exists n g b, In (n, g) (ir_params i ++ returns_as_param i) /\ bare_dict_default g = Some b.
Proof.
  intros clause i it art entries mode H. unfold finding_class_C06_r in H.
  destruct (finding_class_C06 KClass clause i it art) as [k|]; [discriminate H|].
  unfold new_class_C06 in H.
  destruct (cls_bare_dict_default_lost clause i art) eqn:E; [|discriminate H].
  unfold cls_bare_dict_default_lost in E.
  destruct (str_eqb clause (L "reparse")) eqn:E1.
  - apply str_eqb_eq in E1. split; [left; exact E1|].
    apply andb_true_iff in E. destruct E as [E _]. apply existsb_exists in E. destruct E as [[n g] [Hin Hx]].
    cbn [snd] in Hx. exists n, g, true. split; [exact Hin|].
    destruct (bare_dict_default g) as [[|]|]; try discriminate Hx. reflexivity.
  - destruct (str_eqb clause (L "unparse")) eqn:E3; [|discriminate E].
    apply str_eqb_eq in E3. split; [right; exact E3|].
    apply existsb_exists in E. destruct E as [[n g] [Hin Hx]]. cbn [snd] in Hx.
    exists n, g, false. split; [exact Hin|].
    destruct (bare_dict_default g) as [[|]|]; try discriminate Hx. reflexivity.
Qed.

Lemma bare_dict_default_shape : forall g b,
    bare_dict_default g = Some b -> fget (g_typ g) = Some (L "dict") /\ exists v, g_default g = Some (DV v).
Proof.
  intros g b H. unfold bare_dict_default in H.
  destruct (fget (g_typ g)) as [t|]; [|discriminate H].
  destruct (g_default g) as [[v|e|o]|]; try discriminate H.
  destruct (str_eqb t (L "dict")) eqn:E; [|discriminate H].
  apply str_eqb_eq in E. subst t. split; [reflexivity|exists v; reflexivity].
Qed.

Definition w6 (g : gparam) : ir := mkIR (Has (L "f")) (Has (L "static")) (Has (L "Doc.")) [(L "sizes", g)] FNone None.
Definition PG6 (t : str) (d : pyval) : gparam := mkG (Has (L "the sizes")) (Has t) (Some (DV d)).
Definition code6 (s : str) : pyval := VStr (L "```" ++ s ++ L "```").

(* 1. List[int] with the default [64, 32]: add_argument('--sizes', type=loads, action='append', required=True,
      default='[64, 32]'); parse_args(['--sizes', '[64, 32]']) raises AttributeError *)
Definition w6_seqN : ir := w6 (PG6 (L "List[int]") (code6 (L "[64, 32]"))).

Lemma list_default_seqN_classified :
  finding_class_C06 KArgparse (L "parse_defaults") w6_seqN false None = None
  /\ finding_class_C06_r KArgparse (L "parse_defaults") w6_seqN false None [L "sizes"] FM_raised
     = Some K6r_ap_list_default_unusable
  /\ finding_class_C06_r KArgparse (L "parse_given") w6_seqN false None [L "sizes"] FM_raised
     = Some K6r_ap_list_default_unusable.
Proof. vm_compute. repeat split; reflexivity. Qed.

(* the registered default of that shape does read back as the IR's: the per-option clauses, an exit and a failure that is
   about another option stay unnamed *)
Lemma list_default_seqN_narrow :
  finding_class_C06_r KArgparse (L "registered_default") w6_seqN false None [L "sizes"] FM_other = None
  /\ finding_class_C06_r KArgparse (L "default_accepted") w6_seqN false None [L "sizes"] FM_other = None
  /\ finding_class_C06_r KArgparse (L "parse_defaults") w6_seqN false None [L "sizes"] FM_exited = None
  /\ finding_class_C06_r KArgparse (L "parse_defaults") w6_seqN false None [L "sizes"] FM_value = None
  /\ finding_class_C06_r KArgparse (L "parse_given") w6_seqN false None [L "other"] FM_raised = None
  /\ finding_class_C06_r KArgparse (L "spec_table") w6_seqN false None [L "sizes"] FM_other = None.
Proof. vm_compute. repeat split; reflexivity. Qed.

(* 2. the one-element default [64]: type=int, action='append', required=True, default=64 *)
Definition w6_seq1 : ir := w6 (PG6 (L "List[int]") (code6 (L "[64]"))).

Lemma list_default_seq1_classified :
  finding_class_C06 KArgparse (L "default_accepted") w6_seq1 false None = None
  /\ finding_class_C06_r KArgparse (L "default_accepted") w6_seq1 false None [L "sizes"] FM_other
     = Some K6r_ap_list_default_unusable
  /\ finding_class_C06_r KArgparse (L "registered_default") w6_seq1 false None [L "sizes"] FM_other
     = Some K6r_ap_list_default_unusable
  /\ finding_class_C06_r KArgparse (L "parse_defaults") w6_seq1 false None [L "sizes"] FM_exited
     = Some K6r_ap_list_default_unusable.
Proof. vm_compute. repeat split; reflexivity. Qed.

(* 3. the empty default []: action='append', no default (None where the IR says []) - also under Optional *)
Definition w6_seq0 : ir := w6 (PG6 (L "Optional[List[int]]") (code6 (L "[]"))).

Lemma list_default_seq0_classified :
  finding_class_C06 KArgparse (L "registered_default") w6_seq0 false None = None
  /\ finding_class_C06_r KArgparse (L "registered_default") w6_seq0 false None [L "sizes"] FM_other
     = Some K6r_ap_list_default_unusable
  /\ finding_class_C06_r KArgparse (L "parse_defaults") w6_seq0 false None [L "sizes"] FM_value
     = Some K6r_ap_list_default_unusable.
Proof. vm_compute. repeat split; reflexivity. Qed.

(* 4. a scalar default: inside guard_C06_argparse, the row is the one the spec table says (C06_argparse_partial) -
      type=int, action='append', required=True, default=5 - and giving the option raises AttributeError *)
Definition w6_scalar : ir := w6 (PG6 (L "List[int]") (VInt 5)).

Lemma list_default_scalar_classified :
  guard_C06_argparse false w6_scalar = true
  /\ spec_argparse_table false w6_scalar
     = Some [([EConst (VStr (L "--sizes"))],
              [kw "type" (EName (L "int")); kw "action" (EConst (VStr (L "append")));
               kw "help" (EConst (VStr (L "the sizes"))); kw "required" (EConst (VBool true));
               kw "default" (EConst (VInt 5))])]
  /\ finding_class_C06 KArgparse (L "parse_given") w6_scalar false None = None
  /\ finding_class_C06_r KArgparse (L "parse_given") w6_scalar false None [L "sizes"] FM_raised
     = Some K6r_ap_list_default_unusable
  /\ finding_class_C06_r KArgparse (L "parse_given") w6_scalar false None [L "sizes"] FM_exited = None.
Proof. vm_compute. repeat split; reflexivity. Qed.

(* not the shape: the same defaults under Tuple / a scalar type, None *)
Lemma not_list_shapes_unclassified :
  finding_class_C06_r KArgparse (L "parse_given") (w6 (PG6 (L "Tuple[int, int]") (code6 (L "(64, 32)")))) false None
                      [L "sizes"] FM_raised = None
  /\ finding_class_C06_r KArgparse (L "registered_default") (w6 (PG6 (L "Tuple[str, str]") (code6 (L "('cat', 'dog')"))))
                         false None [L "sizes"] FM_other = None
  /\ finding_class_C06_r KArgparse (L "default_accepted") (w6 (PG6 (L "Union[float, int]") (VFloat (L "0.5")))) false None
                         [L "sizes"] FM_other = None
  /\ finding_class_C06_r KArgparse (L "parse_given") (w6 (PG6 (L "Optional[List[int]]") VNone)) false None
                         [L "sizes"] FM_raised = None.
Proof. vm_compute. repeat split; reflexivity. Qed.

(* the element count is taken outside brackets and quotes *)
Lemma list_display_len_examples :
  list_display_len (L "[]") = Some 0 /\ list_display_len (L "[ ]") = Some 0
  /\ list_display_len (L "[64]") = Some 1 /\ list_display_len (L "['a, b']") = Some 1
  /\ list_display_len (L "[(1, 2)]") = Some 1 /\ list_display_len (L "[64,]") = Some 1
  /\ list_display_len (L "[64, 32]") = Some 2 /\ list_display_len (L "['a', 'b', None]") = Some 3
  /\ list_display_len (L "(64, 32)") = None /\ list_display_len (L "x") = None.
Proof. vm_compute. repeat split; reflexivity. Qed.

(* 5. class: `cfg: dict` with the default {'a': 1}: the emitted node is Dict(keys=[], values=<the nine characters>),
      its text is `sizes: dict = {}` *)
Definition w6_dict : ir := w6 (PG6 (L "dict") (code6 (L "{'a': 1}"))).

Definition w6_dict_art : stmt :=
  SClass (L "C") [EName (L "object")]
         [SExpr (EConst (VStr (L "Doc.")));
          SAnnAssign (EName (L "sizes")) (EName (L "dict"))
                     (Some (EDict [] [EOpaque (L "<non-ast str>"); EOpaque (L "<non-ast str>")]))] [].

Lemma bare_dict_classified :
  finding_class_C06 KClass (L "reparse") w6_dict false (Some w6_dict_art) = None
  /\ finding_class_C06_r KClass (L "reparse") w6_dict false (Some w6_dict_art) [] FM_other
     = Some K6r_cls_bare_dict_default_lost
  /\ finding_class_C06_r KClass (L "attr_value") w6_dict false (Some w6_dict_art) [L "sizes"] FM_other
     = Some (K6r_old K_code_default_is_string)
  /\ finding_class_C06_r KClass (L "unparse") (w6 (PG6 (L "dict") (VInt 5))) false None [] FM_other
     = Some K6r_cls_bare_dict_default_lost.
Proof. vm_compute. repeat split; reflexivity. Qed.

(* not the shape / not a clause it explains: Dict[str, int]; dict without default; a well-formed artefact; exec *)
Lemma bare_dict_narrow :
  finding_class_C06_r KClass (L "reparse") (w6 (PG6 (L "Dict[str, int]") (code6 (L "{'a': 1}")))) false (Some w6_dict_art)
                      [] FM_other = None
  /\ finding_class_C06_r KClass (L "reparse") (w6 (mkG (Has (L "the sizes")) (Has (L "dict")) None)) false
                         (Some w6_dict_art) [] FM_other = None
  /\ finding_class_C06_r KClass (L "reparse") w6_dict false
                         (Some (SClass (L "C") [] [SAnnAssign (EName (L "sizes")) (EName (L "dict")) (Some (EDict [] []))] []))
                         [] FM_other = None
  /\ finding_class_C06_r KClass (L "exec") w6_dict false (Some w6_dict_art) [] FM_other = None
  /\ finding_class_C06_r KClass (L "unparse") w6_dict false None [] FM_other = None.
Proof. vm_compute. repeat split; reflexivity. Qed.
