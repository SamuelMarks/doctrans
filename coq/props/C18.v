(* C18: word-wrap and line length.  The lemmas are in proofs/FillFacts.v, proofs/C18Facts.v and
   (the purity of the emitters) proofs/DocEmitFacts.v. *)
From Coq Require Import List.
From Coq Require String.
Import String.StringSyntax.
From DT Require Import PyStr PyVal PureUtils Defaults IR Fill DocEmit C18Spec FillFacts DocEmitFacts C18Facts.
Import ListNotations.

(* pure_utils.fill (textwrap.fill, break_long_words=False, break_on_hyphens=False) on its fragment (no tab),
   for every width and text of any length: (a) every line fits or is a single word longer than the width,
   (b) the words are those of the input in order, (c) no line ends with a blank and none but the first
   starts with one *)
Theorem C18_fill : forall w s r, fill w s = Ok r -> C18_fill_at w s r.
Proof. exact C18_fill_lemma. Qed.
Print Assumptions C18_fill.

Theorem C18_fill_width : forall w s r, fill w s = Ok r -> lines_le_or_word w r.
Proof. exact fill_width. Qed.
Print Assumptions C18_fill_width.

(* when no word of the input is longer than the width, every line fits *)
Theorem C18_fill_width_strict : forall w s r, fill w s = Ok r ->
    Forall (fun u => List.length u <= w) (words s) -> lines_le w r.
Proof. exact fill_width_strict. Qed.
Print Assumptions C18_fill_width_strict.

Theorem C18_fill_words : forall w s r, fill w s = Ok r -> words r = words s.
Proof. exact fill_words. Qed.
Print Assumptions C18_fill_words.

Theorem C18_fill_edges : forall w s r, fill w s = Ok r -> clean_edges r.
Proof. exact fill_edges. Qed.
Print Assumptions C18_fill_edges.

(* guard form: the boolean guard (positive width, no tab) is exactly the domain on which the model of fill
   answers, and there the property of fill holds *)
Theorem C18_fill_partial : forall w s, fill_guard w s = true -> exists r, fill w s = Ok r /\ C18_fill_at w s r.
Proof. exact C18_fill_partial_lemma. Qed.
Print Assumptions C18_fill_partial.

(* class-free corollary: any words (hyphens, punctuation, any length) separated by single blanks are inside
   the guard; the wrapped text consists of exactly these words; every line fits when every word does *)
Theorem C18_fill_plain_words : forall w ws, 0 < w -> forallb plain_word ws = true ->
    exists r, fill w (join [sp] ws) = Ok r /\ lines_le_or_word w r /\ words r = ws /\ clean_edges r
              /\ (Forall (fun u => List.length u <= w) ws -> lines_le w r).
Proof. exact C18_fill_plain_words_lemma. Qed.
Print Assumptions C18_fill_plain_words.

Theorem C18_fill_guard_exact : forall w s, fill_guard w s = true <-> exists r, fill w s = Ok r.
Proof. intros w s. split; [apply fill_guard_ok|intros [r Hr]; exact (fill_ok_guard w s r Hr)]. Qed.
Print Assumptions C18_fill_guard_exact.

(* text that fits on one line comes back unchanged *)
Theorem C18_fill_fits : forall w s, 0 < w -> one_line_clean s = true -> List.length s <= w -> fill w s = Ok s.
Proof. exact fill_short_id. Qed.
Print Assumptions C18_fill_fits.

(* ReST prose: wrapped, continuation lines indented, re-joined as the parser does: the same words *)
Theorem C18_rest_prose : forall w line, no_exotic_space line = true -> C18_rest_prose_at w line.
Proof. exact C18_rest_prose_lemma. Qed.
Print Assumptions C18_rest_prose.

(* a whole ReST entry (its :param / :type or :returns: / :rtype: lines): wrapping changes only whitespace,
   and the caller's param is not touched, with word_wrap on or off *)
Theorem C18_rest_entry : forall w name p ed et edd ls p' tw p1,
    rest_raw_lines name p ed et edd = Ok (ls, p') ->
    Forall (fun l => no_exotic_space l = true) ls ->
    emit_param_str w name p Rest ed et true edd = Ok (tw, p1) ->
    p1 = p
    /\ words tw = concat (map words ls)
    /\ words (rejoin tw) = concat (map words ls)
    /\ exists tu, emit_param_str w name p Rest ed et false edd = Ok (tu, p)
                  /\ words tu = concat (map words ls).
Proof. exact C18_rest_entry_lemma. Qed.
Print Assumptions C18_rest_entry.

(* the whole docstring, three styles: inside the fragment of fill, emit.docstring with word_wrap on succeeds
   only if it does with word_wrap off, neither writes into the caller's IR, and the two texts have the same
   words in the same order - wrapping changes layout only; no word is lost, merged, split or moved *)
Theorem C18_docstring_words : forall w st edd i tw i1,
    ir_plain st edd i = true ->
    emit_docstring w st true edd i = Ok (tw, i1) ->
    i1 = i /\ exists tu, emit_docstring w st false edd i = Ok (tu, i) /\ words tw = words tu.
Proof. exact C18_docstring_words_pure_lemma. Qed.
Print Assumptions C18_docstring_words.

(* the three docstring-level functions leave their argument as it was (they work on copies of the param dicts) *)
Theorem C18_emit_param_str_pure : forall w name p st ed et ww edd t p',
    emit_param_str w name p st ed et ww edd = Ok (t, p') -> p' = p.
Proof. exact emit_param_str_pure. Qed.
Print Assumptions C18_emit_param_str_pure.

Theorem C18_emit_docstring_pure : forall w st ww edd i t i',
    emit_docstring w st ww edd i = Ok (t, i') -> i' = i.
Proof. exact emit_docstring_pure. Qed.
Print Assumptions C18_emit_docstring_pure.

(* to_docstring works on copies of the param dicts: the caller's IR is left as it was *)
Theorem C18_to_docstring_ir : forall w i edd st il et est ww t i',
    to_docstring w i edd st il et est ww = Ok (t, i') -> i' = i.
Proof. exact to_docstring_pure. Qed.
Print Assumptions C18_to_docstring_ir.

(* where nothing needs wrapping the wrapped and the unwrapped docstring are the same bytes, for the three styles and every width: every parser reads the same interface *)
Theorem C18_nowrap : forall w st edd i,
    guard_nowrap w st edd i = true ->
    emit_docstring w st true edd i = emit_docstring w st false edd i.
Proof. exact C18_nowrap_lemma. Qed.
Print Assumptions C18_nowrap.

(* ReST :type lines are read back verbatim: intact when the line fits ... *)
Theorem C18_type_line_partial : forall w name typ,
    0 < w -> nowrap_line w (rest_typ_line name typ) = true -> C18_type_line_at w name typ.
Proof. exact C18_type_line_partial_lemma. Qed.
Print Assumptions C18_type_line_partial.

(* ... and not in general: the full-strength statement is false of the faithful model *)
Theorem C18_type_line_refuted : ~ C18_type_line_statement.
Proof. exact C18_type_line_refuted_lemma. Qed.
Print Assumptions C18_type_line_refuted.

Example C18_nonvacuous :
  guard_nowrap 79 Rest true sample_ir = true
  /\ guard_nowrap 79 Numpydoc true sample_ir = true
  /\ guard_C18 79 (E_docstring Rest) sample_ir = true
  /\ guard_C18 20 (E_docstring Rest) sample_ir = false
  /\ (exists r, fill 20 (L ":param dataset_name: name of dataset. Defaults to 5") = Ok r
                /\ r <> L ":param dataset_name: name of dataset. Defaults to 5").
Proof.
  split; [vm_compute; reflexivity|]. split; [vm_compute; reflexivity|].
  split; [vm_compute; reflexivity|]. split; [vm_compute; reflexivity|].
  eexists. split; [vm_compute; reflexivity|]. vm_compute. discriminate.
Qed.
Print Assumptions C18_nonvacuous.
