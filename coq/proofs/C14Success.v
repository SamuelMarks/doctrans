(* C14Success: the call of sync_properties SUCCEEDS in the model, with one write of the output file.  One pair, inside
   guard_C14_total': the written tree is the parsed output tree with exactly the addressed node replaced by the input's
   node.  Several pairs: inside guard_C14_multi every pair lands at the position its output address resolves to in the
   original output file (whenever the call writes), and inside guard_C14_multi_total the call does write.
   The file opens with facts about resolve_at, lists and stmt_exists that these proofs need, and ends with the
   witnesses for the guards (sample modules w_in_cls .., inputs x_multi3 ..). *)
From Coq Require Import List Ascii Bool Arith ZArith Lia.
From Coq Require String.
Import String.StringSyntax.
From DT Require Import PyStr Sexp PyVal PureUtils PyAst Locate SyncProps C15Spec C14Spec C14Guard2 PyStrFacts
     ListFacts LocateFacts RewriteFacts C15Facts SyncPropsFacts C14Facts.
Import ListNotations.

Definition shift (root : path) (o : option (path * pnode)) : option (path * pnode) :=
  option_map (fun r => (root ++ fst r, snd r)) o.

Lemma resolve_arg_shift : forall seg root p a, resolve_arg seg (root ++ p) a = shift root (resolve_arg seg p a).
Proof.
  intros seg root p a. unfold resolve_arg.
  destruct (find_plain_arg seg 0 (ar_args a)) as [[k x]|]; simpl; [rewrite <- app_assoc; reflexivity|].
  destruct (find_plain_arg seg 0 (ar_kwonly a)) as [[k x]|]; simpl; [rewrite <- app_assoc|]; reflexivity.
Qed.

Lemma resolve_stmt_shift : forall q root p s, resolve_stmt q (root ++ p) s = shift root (resolve_stmt q p s).
Proof.
  induction q as [|seg q' IH]; intros root p s; [reflexivity|].
  destruct s as [n a b d r|n bs body d|t a v|ts v|e|e|t h bl]; try reflexivity.
  - simpl. destruct q'; [apply resolve_arg_shift | reflexivity].
  - rewrite !resolve_stmt_class. generalize 0. induction body as [|c rest IHb]; intros j; simpl; [reflexivity|].
    destruct (is_member seg c); [rewrite <- app_assoc; apply IH | apply IHb].
Qed.

Lemma resolve_body_shift : forall seg q' root p b j,
    resolve_body seg q' (root ++ p) j b = shift root (resolve_body seg q' p j b).
Proof.
  intros seg q' root p b. induction b as [|c rest IH]; intros j; simpl; [reflexivity|].
  destruct (is_member seg c); [rewrite <- app_assoc; apply resolve_stmt_shift | apply IH].
Qed.

Lemma resolve_at_shift : forall root q m, q <> [] -> resolve_at root q m = shift root (resolve q m).
Proof.
  intros root q m Hq. destruct q as [|seg q']; [contradiction|]. unfold resolve, resolve_at.
  pose proof (resolve_body_shift seg q' root [] m 0) as H. rewrite app_nil_r in H. exact H.
Qed.

Lemma resolve_at_some : forall root q m p n,
    q <> [] -> resolve q m = Some (p, n) -> resolve_at root q m = Some (root ++ p, n).
Proof. intros root q m p n Hq H. rewrite resolve_at_shift by assumption. rewrite H. reflexivity. Qed.

Lemma resolve_at_some_inv : forall root q m p n,
    q <> [] -> resolve_at root q m = Some (p, n) -> exists p', p = root ++ p' /\ resolve q m = Some (p', n).
Proof.
  intros root q m p n Hq H. rewrite resolve_at_shift in H by assumption.
  destruct (resolve q m) as [[p' n']|]; simpl in H; [|discriminate]. inversion H; subst.
  exists p'. split; reflexivity.
Qed.

Lemma existsb_map_Forall2 : forall (A B : Type) (g : A -> B) (f : B -> bool) (f' : A -> bool) bl,
    Forall (Forall (fun x => f (g x) = f' x)) bl ->
    existsb (fun b => existsb f b) (map (map g) bl) = existsb (fun b => existsb f' b) bl.
Proof.
  intros A B g f f' bl H. apply existsb_map_Forall. eapply Forall_impl; [|exact H]. intros b. apply existsb_map_Forall.
Qed.

Lemma forallb_map_Forall2 : forall (A B : Type) (g : A -> B) (f : B -> bool) (f' : A -> bool) bl,
    Forall (Forall (fun x => f (g x) = f' x)) bl ->
    forallb (fun b => forallb f b) (map (map g) bl) = forallb (fun b => forallb f' b) bl.
Proof.
  intros A B g f f' bl H. apply forallb_map_Forall. eapply Forall_impl; [|exact H]. intros b. apply forallb_map_Forall.
Qed.

Lemma map_id_Forall : forall (A : Type) (g : A -> A) l, Forall (fun x => g x = x) l -> map g l = l.
Proof. intros A g l H. transitivity (map (fun x => x) l); [apply map_ext_Forall; exact H | apply map_id]. Qed.

(* used for lists and, one level up, for lists of lists *)
Lemma existsb_false_mono : forall (A : Type) (c f : A -> bool) l,
    Forall (fun x => c x = false -> f x = false) l -> existsb c l = false -> existsb f l = false.
Proof.
  intros A c f l H. induction H as [|x l Hx Hl IH]; simpl; intros Hc; [reflexivity|].
  apply orb_false_iff in Hc. destruct Hc as [H1 H2]. rewrite (Hx H1), (IH H2). reflexivity.
Qed.

Lemma map_id_on : forall (A : Type) (c : A -> bool) (g : A -> A) l,
    Forall (fun x => c x = false -> g x = x) l -> existsb c l = false -> map g l = l.
Proof.
  intros A c g l H. induction H as [|x l Hx Hl IH]; simpl; intros Hc; [reflexivity|].
  apply orb_false_iff in Hc. destruct Hc as [H1 H2]. rewrite (Hx H1), (IH H2). reflexivity.
Qed.

Lemma forallb_true_Forall : forall (A : Type) (f : A -> bool) l,
    forallb f l = true -> Forall (fun x => f x = true) l.
Proof. exact ListFacts.forallb_true_Forall. Qed.

Lemma Forall_and2 : forall (A : Type) (P Q : A -> Prop) l, Forall P l -> Forall Q l -> Forall (fun x => P x /\ Q x) l.
Proof. intros A P Q l HP HQ. apply Forall_and; assumption. Qed.

Lemma Forall2_first_hit_list : forall q l l',
    Forall2 (fun s s' => first_hit q s' = first_hit q s) l l' -> first_hit_list q l' = first_hit_list q l.
Proof. intros q l l' H. induction H as [|x y l l' Hxy Hl IH]; simpl; [reflexivity | rewrite Hxy, IH; reflexivity]. Qed.

Lemma Forall2_first_hit_blocks : forall q bl bl',
    Forall2 (fun b b' => first_hit_list q b' = first_hit_list q b) bl bl' -> first_hit_blocks q bl' = first_hit_blocks q bl.
Proof. intros q bl bl' H. induction H as [|x y l l' Hxy Hl IH]; simpl; [reflexivity | rewrite Hxy, IH; reflexivity]. Qed.

Lemma stmt_exists_func : forall p i l n a b d r,
    stmt_exists p (AFunc i l n a b d r) = p (AFunc i l n a b d r) || existsb (stmt_exists p) b.
Proof. reflexivity. Qed.

Lemma stmt_exists_class : forall p i l n bs b d,
    stmt_exists p (AClass i l n bs b d) = p (AClass i l n bs b d) || existsb (stmt_exists p) b.
Proof. reflexivity. Qed.

Lemma stmt_exists_other : forall p i t h bl,
    stmt_exists p (AOther i t h bl) = p (AOther i t h bl) || existsb (fun b => existsb (stmt_exists p) b) bl.
Proof. reflexivity. Qed.

Lemma stmt_exists_head : forall p s, stmt_exists p s = false -> p s = false.
Proof. intros p s H. destruct s; simpl in H; apply orb_false_iff in H; destruct H; assumption. Qed.

Lemma stmt_exists_weaken : forall (p p' : astmt -> bool),
    (forall s, p' s = false -> p s = false) ->
    forall s, stmt_exists p' s = false -> stmt_exists p s = false.
Proof.
  intros p p' Hw. induction s using astmt_ind2; intros Hs;
    try (simpl in *; apply orb_false_iff in Hs; destruct Hs as [H1 _]; rewrite (Hw _ H1); reflexivity).
  - rewrite stmt_exists_func in *. apply orb_false_iff in Hs. destruct Hs as [H1 H2]. rewrite (Hw _ H1).
    exact (existsb_false_mono _ _ _ b H H2).
  - rewrite stmt_exists_class in *. apply orb_false_iff in Hs. destruct Hs as [H1 H2]. rewrite (Hw _ H1).
    exact (existsb_false_mono _ _ _ b H H2).
  - rewrite stmt_exists_other in *. apply orb_false_iff in Hs. destruct Hs as [H1 H2]. rewrite (Hw _ H1).
    apply (existsb_false_mono _ (fun b => existsb (stmt_exists p') b)); [|exact H2].
    eapply Forall_impl; [|exact H]. intros b. apply existsb_false_mono.
Qed.

Lemma stmt_exists_map_args : forall (p : astmt -> bool) f,
    (forall s, p (map_args_stmt f s) = p s) ->
    forall s, stmt_exists p (map_args_stmt f s) = stmt_exists p s.
Proof.
  intros p f Hp. induction s using astmt_ind2; try reflexivity.
  - specialize (Hp (AFunc i l n a b d r)). simpl map_args_stmt in *. rewrite !stmt_exists_func, Hp. f_equal.
    apply existsb_map_Forall. assumption.
  - specialize (Hp (AClass i l n bs b d)). simpl map_args_stmt in *. rewrite !stmt_exists_class, Hp. f_equal.
    apply existsb_map_Forall. assumption.
  - specialize (Hp (AOther i t h bl)). simpl map_args_stmt in *. rewrite !stmt_exists_other, Hp. f_equal.
    apply existsb_map_Forall2. assumption.
  - specialize (Hp (AArgS a)). simpl in *. rewrite Hp. reflexivity.
Qed.

Lemma exists_apply_dlog : forall (p : astmt -> bool) log m,
    (forall s, p (map_args_stmt (attach_default log) s) = p s) ->
    existsb (stmt_exists p) (apply_dlog log m) = existsb (stmt_exists p) m.
Proof.
  intros p log m Hp. unfold apply_dlog. apply existsb_map_Forall. apply Forall_forall. intros s _.
  apply stmt_exists_map_args. assumption.
Qed.

(* stmt_exists on a freshly annotated tree: Q is what the positions have to satisfy *)
Section ExistsAnnotate.
  Variable bad : astmt -> bool.
  Variable Q : path -> Prop.
  Hypothesis Qapp : forall p l, Q p -> Q (p ++ l).
  Hypothesis Hbad : forall pname p s, Q p -> bad (annotate_stmt pname p s) = false.

  Lemma ex_free_all : forall s pname p, Q p -> stmt_exists bad (annotate_stmt pname p s) = false.
  Proof.
    induction s using stmt_ind2; intros pname p Hq.
    - pose proof (Hbad pname p (SFunc n a b d r) Hq) as Hb. rewrite annotate_func in *.
      rewrite stmt_exists_func, Hb. apply Forall_existsb_false.
      apply (annotate_body_Forall Q (fun x => stmt_exists bad x = false) Qapp b H). apply Qapp. exact Hq.
    - pose proof (Hbad pname p (SClass n bs b d) Hq) as Hb. rewrite annotate_class in *.
      rewrite stmt_exists_class, Hb. apply Forall_existsb_false.
      apply (annotate_body_Forall Q (fun x => stmt_exists bad x = false) Qapp b H). exact Hq.
    - pose proof (Hbad pname p (SAnnAssign t a v) Hq) as Hb. simpl in *. rewrite Hb. reflexivity.
    - pose proof (Hbad pname p (SAssign ts v) Hq) as Hb. simpl in *. rewrite Hb. reflexivity.
    - pose proof (Hbad pname p (SExpr e) Hq) as Hb. simpl in *. rewrite Hb. reflexivity.
    - pose proof (Hbad pname p (SReturn e) Hq) as Hb. simpl in *. rewrite Hb. reflexivity.
    - pose proof (Hbad pname p (SOther t h bl) Hq) as Hb. rewrite annotate_other in *.
      rewrite stmt_exists_other, Hb. apply Forall_existsb_false.
      eapply Forall_impl; [|exact (annotate_blocks_Forall Q (fun x => stmt_exists bad x = false) Qapp bl H p 0 Hq)].
      intros b. apply Forall_existsb_false.
  Qed.

  Lemma ex_free_body : forall b pname p j, Q p ->
      existsb (stmt_exists bad) (annotate_body pname p j b) = false.
  Proof.
    intros b pname p j Hq. apply Forall_existsb_false. apply (annotate_body_Forall Q (fun x => stmt_exists bad x = false) Qapp b); [|exact Hq].
    apply Forall_forall. intros s _. apply ex_free_all.
  Qed.
End ExistsAnnotate.

(* nothing that emit.file rejects is in a parsed tree *)
Definition dirty (s : astmt) : bool :=
  match s with
  | AFunc _ _ _ a _ _ _ => existsb default_is_raw (aar_defaults a) || existsb default_is_arg (aar_defaults a)
  | AArgS _ => true
  | _ => false
  end.

Lemma defaults_DExpr_clean : forall l,
    existsb default_is_raw (map DExpr l) = false /\ existsb default_is_arg (map DExpr l) = false.
Proof. induction l as [|e r [IH1 IH2]]; simpl; split; auto. Qed.

Lemma dirty_annotate : forall pname p s, dirty (annotate_stmt pname p s) = false.
Proof.
  intros pname p s. destruct s; try reflexivity. simpl.
  destruct (defaults_DExpr_clean (ar_defaults args)) as [H1 H2]. rewrite H1, H2. reflexivity.
Qed.

Lemma annotate_clean : forall root m, existsb (stmt_exists dirty) (annotate_at root m) = false.
Proof.
  intros root m. unfold annotate_at.
  apply (ex_free_body dirty (fun _ => True)); auto. intros pname p s _. apply dirty_annotate.
Qed.

Lemma clean_emit : forall t, existsb (stmt_exists dirty) t = false -> emit_file t = Ok [EvWrite FOutput t].
Proof.
  intros t H. unfold emit_file.
  assert (H1 : has_raw_default t = false).
  { unfold has_raw_default. apply (existsb_false_mono _ (stmt_exists dirty)); [|exact H].
    apply Forall_forall. intros s _. apply stmt_exists_weaken.
    intros s0 Hd. destruct s0; try reflexivity. simpl in Hd. apply orb_false_iff in Hd. destruct Hd; assumption. }
  assert (H2 : has_misplaced_arg t = false).
  { unfold has_misplaced_arg. apply (existsb_false_mono _ (stmt_exists dirty)); [|exact H].
    apply Forall_forall. intros s _. apply stmt_exists_weaken.
    intros s0 Hd. destruct s0; try reflexivity; simpl in Hd; [|discriminate].
    apply orb_false_iff in Hd. destruct Hd; assumption. }
  rewrite H1, H2. reflexivity.
Qed.

Lemma dirty_map_args : forall f s, dirty (map_args_stmt f s) = dirty s.
Proof. intros f s. destruct s; reflexivity. Qed.

Lemma parent_map_args : forall q f s, is_parent_func q (map_args_stmt f s) = is_parent_func q s.
Proof. intros q f s. destruct s; reflexivity. Qed.

(* identities: the input tree is annotated from [1], the output tree from [0], so they share none *)
Definition bad_id (i : path) (s : astmt) : bool :=
  match s with
  | AFunc _ _ _ a _ _ _ =>
    existsb (fun x => path_eqb (aa_id x) i) (aar_args a) || existsb (fun x => path_eqb (aa_id x) i) (aar_kwonly a)
  | AAnnAssign j _ _ _ _ => path_eqb j i
  | AArgS a => path_eqb (aa_id a) i
  | _ => false
  end.

Definition starts0 (p : path) : Prop := exists r, p = 0 :: r.

Lemma starts0_app : forall p l, starts0 p -> starts0 (p ++ l).
Proof. intros p l [r H]. subst. exists (r ++ l). reflexivity. Qed.

Lemma starts0_neq : forall p r, starts0 p -> path_eqb p (1 :: r) = false.
Proof. intros p r [r' H]. subst. reflexivity. Qed.

Lemma annotate_args_ids : forall floc p r l k idx, starts0 p ->
    existsb (fun x => path_eqb (aa_id x) (1 :: r)) (annotate_args floc p k idx l) = false.
Proof.
  intros floc p r l. induction l as [|a rest IH]; intros k idx Hp; simpl; [reflexivity|].
  rewrite starts0_neq by (apply starts0_app; assumption). apply IH. assumption.
Qed.

Lemma bad_id_annotate : forall r pname p s, starts0 p -> bad_id (1 :: r) (annotate_stmt pname p s) = false.
Proof.
  intros r pname p s Hp. destruct s; try reflexivity.
  - simpl. rewrite !annotate_args_ids by (apply starts0_app; assumption). reflexivity.
  - simpl. apply starts0_neq. assumption.
Qed.

Lemma annotate0_ids : forall r m, existsb (stmt_exists (bad_id (1 :: r))) (annotate_at [0] m) = false.
Proof.
  intros r m. unfold annotate_at. apply (ex_free_body (bad_id (1 :: r)) starts0).
  - apply starts0_app.
  - apply bad_id_annotate.
  - exists []. reflexivity.
Qed.

Lemma bad_id_map_args : forall i f, (forall a, aa_id (f a) = aa_id a) ->
                                   forall s, bad_id i (map_args_stmt f s) = bad_id i s.
Proof.
  intros i f Hf s. destruct s; try reflexivity.
  - simpl. f_equal; apply existsb_map_Forall; apply Forall_forall; intros x _; rewrite Hf; reflexivity.
  - simpl. rewrite Hf. reflexivity.
Qed.

Lemma set_arg_ann_list_id : forall i e l,
    existsb (fun x => path_eqb (aa_id x) i) l = false -> map (set_arg_ann i e) l = l.
Proof.
  intros i e l H. apply (map_id_on _ (fun x => path_eqb (aa_id x) i)); [|exact H].
  apply Forall_forall. intros a _ Ha. unfold set_arg_ann. rewrite Ha. reflexivity.
Qed.

Lemma set_ann_args_id : forall i e s, stmt_exists (bad_id i) s = false -> map_args_stmt (set_arg_ann i e) s = s.
Proof.
  intros i e. induction s using astmt_ind2; intros Hs; try reflexivity.
  - rewrite stmt_exists_func in Hs. apply orb_false_iff in Hs. destruct Hs as [H1 H2].
    simpl in H1. apply orb_false_iff in H1. destruct H1 as [Ha Hk]. simpl. f_equal.
    + destruct a as [aa ad ak akd av akw]. unfold map_arguments. simpl in *.
      rewrite !set_arg_ann_list_id by assumption. reflexivity.
    + exact (map_id_on _ _ _ b H H2).
  - rewrite stmt_exists_class in Hs. apply orb_false_iff in Hs. destruct Hs as [_ H2]. simpl. f_equal.
    exact (map_id_on _ _ _ b H H2).
  - rewrite stmt_exists_other in Hs. apply orb_false_iff in Hs. destruct Hs as [_ H2]. simpl. f_equal.
    apply (map_id_on _ (fun b => existsb (stmt_exists (bad_id i)) b)); [|exact H2].
    eapply Forall_impl; [|exact H]. intros b. apply map_id_on.
  - simpl in Hs. rewrite orb_false_r in Hs. simpl. unfold set_arg_ann. rewrite Hs. reflexivity.
Qed.

Lemma set_ann_stmts_id : forall i e s, stmt_exists (bad_id i) s = false -> map_stmts (set_stmt_ann i e) s = s.
Proof.
  intros i e. induction s using astmt_ind2; intros Hs; try reflexivity.
  - rewrite stmt_exists_func in Hs. apply orb_false_iff in Hs. destruct Hs as [_ H2]. simpl. f_equal.
    exact (map_id_on _ _ _ b H H2).
  - rewrite stmt_exists_class in Hs. apply orb_false_iff in Hs. destruct Hs as [_ H2]. simpl. f_equal.
    exact (map_id_on _ _ _ b H H2).
  - simpl in Hs. rewrite orb_false_r in Hs. simpl. rewrite Hs. reflexivity.
  - rewrite stmt_exists_other in Hs. apply orb_false_iff in Hs. destruct Hs as [_ H2]. simpl. f_equal.
    apply (map_id_on _ (fun b => existsb (stmt_exists (bad_id i)) b)); [|exact H2].
    eapply Forall_impl; [|exact H]. intros b. apply map_id_on.
Qed.

Lemma set_ann_by_id_absent : forall i e m,
    existsb (stmt_exists (bad_id i)) m = false -> set_ann_by_id i e m = m.
Proof.
  intros i e m H. unfold set_ann_by_id. apply (map_id_on _ (stmt_exists (bad_id i))); [|exact H].
  apply Forall_forall. intros s _ Hs. rewrite set_ann_args_id by assumption. apply set_ann_stmts_id. assumption.
Qed.

Lemma output_ids_after_dlog : forall r log m,
    existsb (stmt_exists (bad_id (1 :: r))) (apply_dlog log (annotate_at [0] m)) = false.
Proof.
  intros r log m. rewrite exists_apply_dlog; [apply annotate0_ids|].
  intros s. apply bad_id_map_args. intros a. apply attach_default_keeps.
Qed.

Lemma stmt_hazard_map_args : forall seg f, (forall a, aa_ann (f a) = aa_ann a) ->
                                           forall s, stmt_hazard seg (map_args_stmt f s) = stmt_hazard seg s.
Proof.
  intros seg f Hf. induction s using astmt_ind2; try reflexivity.
  - simpl. f_equal. apply existsb_map_Forall. assumption.
  - simpl. f_equal. apply existsb_map_Forall2. assumption.
  - simpl. rewrite Hf. reflexivity.
Qed.

Lemma attach_default_ann : forall log a, aa_ann (attach_default log a) = aa_ann a.
Proof.
  intros log a. unfold attach_default.
  destruct (List.find (fun ev => path_eqb (fst ev) (aa_id a)) log); reflexivity.
Qed.

Lemma const_hazard_apply_dlog : forall q log m, const_hazard q (apply_dlog log m) = const_hazard q m.
Proof.
  intros q log m. unfold const_hazard. destruct q as [|x q']; [reflexivity|]. unfold apply_dlog.
  apply existsb_map_Forall. apply Forall_forall. intros s _. apply stmt_hazard_map_args. apply attach_default_ann.
Qed.

Lemma view_arg : forall n p a, node_view n = (p, PArg a) -> exists a', n = NArg a' /\ aa_id a' = p /\ erase_arg a' = a.
Proof.
  intros n p a H. destruct n as [m|s|a']; simpl in H; try discriminate.
  inversion H; subst. exists a'. repeat split.
Qed.

Lemma view_annassign : forall n p t ann v,
    node_view n = (p, PStmt (SAnnAssign t ann v)) -> exists l, n = NStmt (AAnnAssign p l t ann v).
Proof.
  intros n p t ann v H. destruct n as [m|s|a']; simpl in H; try discriminate.
  destruct s; simpl in H; try discriminate. inversion H; subst. eexists. reflexivity.
Qed.

Definition is_leaf_astmt (s : astmt) : bool :=
  match s with AAnnAssign _ _ _ _ _ => true | AAssign _ _ _ _ => true | _ => false end.

Lemma leaf_node_cases : forall n id src, node_view n = (id, src) -> leaf_pnode src = true ->
    (is_parg src = true /\ exists a, n = NArg a /\ aa_id a = id)
    \/ (is_parg src = false /\ exists s0, n = NStmt s0 /\ stmt_id s0 = id /\ is_leaf_astmt s0 = true).
Proof.
  intros n id src Hv Hl. destruct src as [m|s|a]; simpl in Hl; try discriminate.
  - right. split; [reflexivity|]. destruct s; try discriminate.
    + destruct (view_annassign _ _ _ _ _ Hv) as [l E]. subst. eexists. repeat split.
    + destruct n as [m|s0|a']; try discriminate. destruct s0; try discriminate.
      inversion Hv; subst. eexists. repeat split.
  - left. split; [reflexivity|]. destruct (view_arg _ _ _ Hv) as [a' [E [Hid _]]]. exists a'. split; assumption.
Qed.

Lemma expected_node_nowrap : forall x src dst,
    ci_wrap x = None -> leaf_pnode src = true -> leaf_pnode dst = true -> is_parg dst = is_parg src ->
    expected_node x src dst = Some (Ok src).
Proof.
  intros x src dst Hw Hl Hld Hk. unfold expected_node, expected_ann. rewrite Hw.
  destruct src as [m|[]|a]; try discriminate; destruct dst as [dm|ds|da]; try discriminate.
  - destruct target; reflexivity.
  - reflexivity.
  - destruct a; reflexivity.
Qed.

Lemma apply_wrap_leaf : forall env w n i1 o1 k pi src,
    node_view n = (k :: pi, src) -> leaf_pnode src = true ->
    (match w, src with Some _, PStmt (SAssign _ _) => true | _, _ => false end) = false ->
    (forall w0 e, w = Some w0 -> src_ann src = Some e -> is_ok (wrap_annotation env w0 e) = true) ->
    exists repl i2 o2 want,
      apply_wrap env w n i1 o1 = Ok (repl, i2, o2)
      /\ (o2 = o1 \/ exists e, o2 = set_ann_by_id (k :: pi) e o1)
      /\ node_view repl = (k :: pi, want) /\ leaf_pnode want = true /\ is_parg want = is_parg src
      /\ (forall x dst, ci_wrap x = w -> ci_env x = env -> leaf_pnode dst = true -> is_parg dst = is_parg src ->
                        expected_node x src dst = Some (Ok want)).
Proof.
  intros env w n i1 o1 k pi src Hv Hleaf Hnw Hwr. destruct w as [w0|].
  2: { exists n, i1, o1, src. split; [reflexivity|]. split; [left; reflexivity|]. split; [assumption|].
       split; [assumption|]. split; [reflexivity|]. intros x dst Hw _ Hld Hk. apply expected_node_nowrap; assumption. }
  destruct src as [m|s|a]; try discriminate.
  - destruct s as [fn fa fb fd fr|cn cbs cb cd|t ann v|ts v|e|e|tg hd bl]; try discriminate.
    destruct (view_annassign _ _ _ _ _ Hv) as [l Hn]. subst n. unfold apply_wrap.
    pose proof (Hwr w0 ann eq_refl eq_refl) as Hok.
    destruct (wrap_annotation env w0 ann) as [e'|er] eqn:Ew; [|discriminate]. simpl.
    eexists. eexists. eexists. exists (PStmt (SAnnAssign t e' v)).
    split; [reflexivity|]. split; [right; eexists; reflexivity|]. repeat (split; [reflexivity|]).
    intros x dst Hw He Hld Hk. destruct dst as [dm|ds|da]; try discriminate.
    unfold expected_node, expected_ann. rewrite Hw, He. destruct t; simpl; rewrite Ew; reflexivity.
  - destruct (view_arg _ _ _ Hv) as [a' [Hn [Hid Hera]]]. subst n a. unfold apply_wrap.
    destruct (aa_ann a') as [ann|] eqn:Ea.
    + assert (Hann : a_ann (erase_arg a') = Some ann) by exact Ea.
      pose proof (Hwr w0 ann eq_refl Hann) as Hok.
      destruct (wrap_annotation env w0 ann) as [e'|er] eqn:Ew; [|discriminate]. simpl. rewrite Hid.
      eexists. eexists. eexists. exists (PArg (mkArg (aa_name a') (Some e'))).
      split; [reflexivity|]. split; [right; eexists; reflexivity|]. repeat (split; [reflexivity|]).
      intros x dst Hw He Hld Hk. destruct dst as [dm|ds|da]; try discriminate.
      unfold expected_node, expected_ann. cbn [erase_arg a_ann a_name]. rewrite Hw, He, Ea. simpl. rewrite Ew. reflexivity.
    + exists (NArg a'), i1, o1, (PArg (erase_arg a')).
      split; [reflexivity|]. split; [left; reflexivity|]. split; [simpl; rewrite Hid; reflexivity|].
      repeat (split; [reflexivity|]).
      intros x dst Hw He Hld Hk. destruct dst as [dm|ds|da]; try discriminate.
      unfold expected_node, expected_ann, erase_arg. cbn [a_ann a_name]. rewrite Hw, Ea. reflexivity.
Qed.

Lemma run_single : forall x ip op i0 o0 g i2,
    ast_parse [1] (ci_in x) = Ok i0 -> ast_parse [0] (ci_out x) = Ok o0 ->
    ci_ips x = [ip] -> ci_ops x = [op] ->
    (forall e, sync_property (ci_env x) (ci_eval x) ip i0 e op (ci_wrap x) o0 true = Ok (g, i2)) ->
    emit_file g = Ok [EvWrite FOutput g] ->
    run_C14 x = ([EvWrite FOutput g], Ok tt).
Proof.
  intros x ip op i0 o0 g i2 Hi Ho Eips Eops Hsp He.
  unfold run_C14, sync_properties. rewrite Hi, Ho, Eips, Eops. cbn [bind List.length Nat.eqb negb].
  destruct (ci_evs x); cbn [zip3 sync_loop is_empty]; rewrite Hsp; cbn [bind fst snd sync_loop]; rewrite He; reflexivity.
Qed.

Lemma domain_facts : forall x, C14_domain x = true ->
    supported (ci_in x) = true /\ supported (ci_out x) = true
    /\ Nat.eqb (List.length (ci_ips x)) (List.length (ci_ops x)) = true
    /\ negb (Nat.eqb (List.length (ci_ips x)) 0) = true
    /\ forallb (fun o => match o with Some (_, n) => leaf_pnode n | None => true end) (in_nodes x) = true
    /\ forallb (fun op => match resolve (dotted op) (ci_out x) with Some (_, n) => leaf_pnode n | None => true end)
               (ci_ops x) = true.
Proof.
  intros x H. unfold C14_domain in H.
  repeat match goal with
         | [ H0 : _ && _ = true |- _ ] => apply andb_true_iff in H0; destruct H0
         end.
  repeat split; assumption.
Qed.

Lemma erase_apply_dlog_annotate : forall log root m, erase (apply_dlog log (annotate_at root m)) = m.
Proof.
  intros log root m. unfold erase, apply_dlog. rewrite map_map.
  rewrite (map_ext _ erase_stmt); [apply erase_annotate_body|].
  intros s. apply erase_map_args. intros a. apply attach_default_view.
Qed.

(* tree positions as identities: a statement that RewriteAtQuery visits never has the identity of a resolved
   function argument *)
Fixpoint id_free (h : path) (s : astmt) : bool :=
  match s with
  | AFunc _ _ _ _ _ _ _ => true
  | AClass i _ _ _ b _ => negb (path_eqb i h) && forallb (id_free h) b
  | AOther _ _ _ bl => forallb (fun b => forallb (id_free h) b) bl
  | _ => negb (path_eqb (stmt_id s) h)
  end.

Lemma id_free_leaf : forall h s, leafish s = true -> id_free h s = negb (path_eqb (stmt_id s) h).
Proof. intros h s H. destruct s; try discriminate; reflexivity. Qed.

Definition nonprefix (p h : path) : Prop := forall r, h <> p ++ r.

Lemma nonprefix_neq : forall p h, nonprefix p h -> path_eqb p h = false.
Proof.
  intros p h H. destruct (path_eqb p h) eqn:E; [|reflexivity]. apply path_eqb_eq in E. subst.
  exfalso. apply (H []). rewrite app_nil_r. reflexivity.
Qed.

Lemma nonprefix_app : forall p l h, nonprefix p h -> nonprefix (p ++ l) h.
Proof. intros p l h H r E. apply (H (l ++ r)). rewrite app_assoc. exact E. Qed.

Lemma nonprefix_sibling : forall p j k r, j <> k -> nonprefix (p ++ [j]) (p ++ k :: r).
Proof.
  intros p j k r Hjk r' E. rewrite <- app_assoc in E. apply app_inv_head in E. simpl in E. inversion E. congruence.
Qed.

Lemma idf_all : forall c pname p h, nonprefix p h -> id_free h (annotate_stmt pname p c) = true.
Proof.
  induction c using stmt_ind2; intros pname p hh Hn; try (simpl; rewrite (nonprefix_neq _ _ Hn); reflexivity).
  - reflexivity.
  - rewrite annotate_class. simpl. rewrite (nonprefix_neq _ _ Hn). apply Forall_forallb_true.
    apply (annotate_body_Forall (fun p => nonprefix p hh) (fun x => id_free hh x = true) (fun p l => nonprefix_app p l hh));
      [|exact Hn].
    eapply Forall_impl; [|exact H]. intros c Hc pname0 p0. apply Hc.
  - rewrite annotate_other. simpl. apply Forall_forallb_true.
    eapply Forall_impl; [intros b; apply Forall_forallb_true|].
    apply (annotate_blocks_Forall (fun p => nonprefix p hh) (fun x => id_free hh x = true) (fun p l => nonprefix_app p l hh));
      [|exact Hn].
    eapply Forall_impl; [|exact H]. intros b Hb. eapply Forall_impl; [|exact Hb]. intros c Hc pname0 p0. apply Hc.
Qed.

Lemma idf_body_other : forall b pname p j k r,
    (k < j \/ j + List.length b <= k) ->
    forallb (id_free (p ++ k :: r)) (annotate_body pname p j b) = true.
Proof.
  induction b as [|x l IH]; intros pname p j k r Hk; simpl; [reflexivity|].
  rewrite (idf_all x) by (apply nonprefix_sibling; simpl in Hk; lia). apply IH. simpl in Hk. lia.
Qed.

Lemma resolve_stmt_prefix : forall q p0 c pos n, resolve_stmt q p0 c = Some (pos, n) -> exists r, pos = p0 ++ r.
Proof.
  intros q p0 c pos n H. rewrite <- (app_nil_r p0) in H. rewrite resolve_stmt_shift in H.
  destruct (resolve_stmt q [] c) as [[p' n']|]; simpl in H; [|discriminate]. inversion H. eexists. reflexivity.
Qed.

Lemma app_cons_neq_self : forall (p : path) k r, p ++ k :: r <> p.
Proof. intros p k r E. apply (f_equal (@List.length nat)) in E. rewrite app_length in E. simpl in E. lia. Qed.

Definition arg_free_stmt (q : list str) : Prop :=
  forall c pname p0 pos a, resolve_stmt q p0 c = Some (pos, PArg a) -> id_free pos (annotate_stmt pname p0 c) = true.

Lemma arg_free_body : forall q', arg_free_stmt q' ->
    forall seg b pname p pos a, resolve_body seg q' p 0 b = Some (pos, PArg a) ->
                                forallb (id_free pos) (annotate_body pname p 0 b) = true.
Proof.
  intros q' IH seg b pname p pos a H. rewrite resolve_body_split in H.
  destruct (split_member seg b) as [[[pre t] post]|] eqn:Es; [|discriminate].
  destruct (split_member_some _ _ _ _ _ Es) as [Hb _]. subst b. simpl in H.
  destruct (resolve_stmt_prefix _ _ _ _ _ H) as [r Hr]. rewrite <- app_assoc in Hr. simpl in Hr.
  rewrite annotate_body_app, forallb_app. simpl annotate_body. simpl forallb.
  rewrite (IH _ pname _ _ _ H). rewrite Hr.
  rewrite idf_body_other by lia. rewrite idf_body_other by lia. reflexivity.
Qed.

Lemma arg_free_all : forall q, arg_free_stmt q.
Proof.
  induction q as [|seg q' IH]; intros c pname p0 pos a H; [discriminate|].
  destruct c as [n ar b d r|n bs body d|t an v|ts v|e|e|t h bl]; try discriminate.
  - reflexivity.
  - rewrite resolve_stmt_class in H. rewrite annotate_class. simpl.
    rewrite (arg_free_body q' IH _ _ _ _ _ _ H), andb_true_r.
    rewrite resolve_body_split in H. destruct (split_member seg body) as [[[pre t] post]|]; [|discriminate].
    destruct (resolve_stmt_prefix _ _ _ _ _ H) as [r Hr]. rewrite <- app_assoc in Hr. subst pos.
    apply negb_true_iff. destruct (path_eqb p0 (p0 ++ [0 + List.length pre] ++ r)) eqn:E; [|reflexivity].
    apply path_eqb_eq in E. symmetry in E. exfalso. exact (app_cons_neq_self _ _ _ E).
Qed.

Lemma arg_free_module : forall root q m pos a, resolve_at root q m = Some (pos, PArg a) ->
    forallb (id_free pos) (annotate_at root m) = true.
Proof.
  intros root q m pos a H. destruct q as [|seg q']; [discriminate|]. unfold resolve_at in H. unfold annotate_at.
  exact (arg_free_body q' (arg_free_all q') _ _ _ _ _ _ H).
Qed.

Lemma id_free_map_args : forall h f, (forall a, aa_id (f a) = aa_id a) ->
                                     forall s, id_free h (map_args_stmt f s) = id_free h s.
Proof.
  intros h f Hf. induction s using astmt_ind2; try reflexivity.
  - simpl. f_equal. apply forallb_map_Forall. assumption.
  - simpl. apply forallb_map_Forall2. assumption.
  - simpl. rewrite Hf. reflexivity.
Qed.

Lemma id_free_apply_dlog : forall h log m, forallb (id_free h) (apply_dlog log m) = forallb (id_free h) m.
Proof.
  intros h log m. unfold apply_dlog. apply forallb_map_Forall. apply Forall_forall. intros s _.
  apply id_free_map_args. intros a. apply attach_default_keeps.
Qed.

Lemma leaf_astmt_facts : forall s0, is_leaf_astmt s0 = true ->
    stmt_exists dirty s0 = false /\ is_container (NStmt s0) = false
    /\ (forall q', stmt_exists (is_parent_func q') s0 = false)
    /\ (forall h, id_free h s0 = negb (path_eqb (stmt_id s0) h)).
Proof. intros s0 H. destruct s0; try discriminate; repeat split. Qed.

(* the visit when the replacement node is not converted:
   an ast.arg, or no parent function of the address in sight.  It succeeds, keeps its replacement node, and keeps the
   tracked predicates that hold of the replacement node as well.
   tracked f v: f is one of the predicates the loop over the pairs has to keep, and v the value it has to keep *)
Inductive tracked : (astmt -> bool) -> bool -> Prop :=
| tr_id : forall h, tracked (id_free h) true
| tr_parent : forall q', tracked (stmt_exists (is_parent_func q')) false
| tr_hazard : forall seg, tracked (stmt_hazard seg) false
| tr_dirty : tracked (stmt_exists dirty) false.

Section VisitGood.
  Variable q : loc.
  Variable r0 : anode.
  Variable rs0 : astmt.
  Hypothesis Hrs0 : node_as_stmt r0 = Ok rs0.

  (* s' has every tracked value that both s and the replacement node have *)
  Definition vg_rel (s s' : astmt) : Prop := forall f v, tracked f v -> f rs0 = v -> f s = v -> f s' = v.

  Lemma vg_forallb : forall f l l', tracked f true -> Forall2 vg_rel l l' ->
      f rs0 = true -> forallb f l = true -> forallb f l' = true.
  Proof.
    intros f l l' T H Hr. apply Forall2_forallb_keeps. eapply Forall2_impl; [|exact H].
    intros x y Hxy. exact (Hxy f true T Hr).
  Qed.

  Lemma vg_existsb : forall f l l', tracked f false -> Forall2 vg_rel l l' ->
      f rs0 = false -> existsb f l = false -> existsb f l' = false.
  Proof.
    intros f l l' T H Hr. apply Forall2_existsb_keeps. eapply Forall2_impl; [|exact H].
    intros x y Hxy. exact (Hxy f false T Hr).
  Qed.

  Lemma vg_forallb2 : forall f bl bl', tracked f true -> Forall2 (Forall2 vg_rel) bl bl' ->
      f rs0 = true -> forallb (fun b => forallb f b) bl = true -> forallb (fun b => forallb f b) bl' = true.
  Proof.
    intros f bl bl' T H Hr. apply (Forall2_forallb_keeps _ (fun b => forallb f b)). eapply Forall2_impl; [|exact H].
    intros b b' Hb. apply vg_forallb; assumption.
  Qed.

  Lemma vg_existsb2 : forall f bl bl', tracked f false -> Forall2 (Forall2 vg_rel) bl bl' ->
      f rs0 = false -> existsb (fun b => existsb f b) bl = false -> existsb (fun b => existsb f b) bl' = false.
  Proof.
    intros f bl bl' T H Hr. apply (Forall2_existsb_keeps _ (fun b => existsb f b)). eapply Forall2_impl; [|exact H].
    intros b b' Hb. apply vg_existsb; assumption.
  Qed.

  Definition vg_cond (s : astmt) : Prop := is_arg_node r0 = true \/ stmt_exists (is_parent_func q) s = false.

  Lemma vg_cond_list : forall l,
      is_arg_node r0 = true \/ existsb (stmt_exists (is_parent_func q)) l = false -> Forall vg_cond l.
  Proof.
    intros l [Ha|Hp]; [apply Forall_forall; intros x _; left; assumption|].
    apply existsb_false_Forall in Hp. eapply Forall_impl; [|exact Hp]. intros x Hx. right. exact Hx.
  Qed.

  Lemma vg_cond_class : forall i l n bs b d, vg_cond (AClass i l n bs b d) -> Forall vg_cond b.
  Proof.
    intros i l n bs b d [Ha|Hp]; apply vg_cond_list; [left; assumption|].
    rewrite stmt_exists_class in Hp. apply orb_false_iff in Hp. right. apply Hp.
  Qed.

  Lemma vg_cond_other : forall i t h bl, vg_cond (AOther i t h bl) -> Forall (Forall vg_cond) bl.
  Proof.
    intros i t h bl [Ha|Hp].
    - apply Forall_forall. intros b _. apply vg_cond_list. left. assumption.
    - rewrite stmt_exists_other in Hp. apply orb_false_iff in Hp. destruct Hp as [_ Hp].
      apply existsb_false_Forall in Hp. eapply Forall_impl; [|exact Hp]. intros b Hb. apply vg_cond_list. right. exact Hb.
  Qed.

  Lemma vg_all : forall s, step_ok q vg_cond (fun st => rw_node st = r0) vg_rel s.
  Proof.
    apply visit_stmt_inv.
    - exact vg_cond_class.
    - exact vg_cond_other.
    - (* FunctionDef *)
      intros i l n a b d r st s' st' Hc Hn Hv.
      destruct (vfd_shape _ _ _ _ _ _ _ _ _ _ _ Hv)
        as [[_ [Es Est]]|(node' & ds & ra & args1 & b1 & kw1 & b2 & Es & Est & R)]; subst s' st'.
      + split; [assumption|]. intros f v _ _ Hs. exact Hs.
      + destruct Hc as [Ha|Hp];
          [|apply stmt_exists_head in Hp; simpl in Hp; rewrite (vr_parent R) in Hp; discriminate].
        destruct (vr_conv R) as [[En Ed]|[Hna _]]; [|rewrite Hn, Ha in Hna; discriminate]. subst node' ds.
        split; [exact Hn|]. intros f v T _ Hs.
        (* only the argument lists changed: id_free and stmt_hazard do not look into a FunctionDef, the other two look at
           its _location, defaults and body *)
        destruct T; [reflexivity | exact Hs | reflexivity | exact Hs].
    - (* a statement replaced by the node *)
      intros s st rs _ _ _ Hn _ En. rewrite Hn, Hrs0 in En. inversion En; subst rs.
      split; [exact Hn|]. intros f v _ Hr _. exact Hr.
    - (* reflexive *)
      intros s f v _ _ Hs. exact Hs.
    - (* through a ClassDef *)
      intros i l n bs b b' d Hb f v T Hr Hs. destruct T as [h|q'|seg|].
      + simpl in *. apply andb_true_iff in Hs. destruct Hs as [Hs1 Hs2].
        rewrite Hs1. exact (vg_forallb _ b b' (tr_id h) Hb Hr Hs2).
      + rewrite stmt_exists_class in *. apply orb_false_iff in Hs. destruct Hs as [_ Hs2].
        exact (vg_existsb _ b b' (tr_parent q') Hb Hr Hs2).
      + simpl in *. apply orb_false_iff in Hs. destruct Hs as [Hs1 Hs2].
        rewrite Hs1. exact (vg_existsb _ b b' (tr_hazard seg) Hb Hr Hs2).
      + rewrite stmt_exists_class in *. apply orb_false_iff in Hs. destruct Hs as [_ Hs2].
        exact (vg_existsb _ b b' tr_dirty Hb Hr Hs2).
    - (* through blocks *)
      intros i t h bl bl' Hb f v T Hr Hs. destruct T as [hh|q'|seg|].
      + exact (vg_forallb2 _ bl bl' (tr_id hh) Hb Hr Hs).
      + rewrite stmt_exists_other in *. apply orb_false_iff in Hs. destruct Hs as [_ Hs2].
        exact (vg_existsb2 _ bl bl' (tr_parent q') Hb Hr Hs2).
      + simpl in *. apply orb_false_iff in Hs. destruct Hs as [Hs1 Hs2].
        rewrite Hs1. exact (vg_existsb2 _ bl bl' (tr_hazard seg) Hb Hr Hs2).
      + rewrite stmt_exists_other in *. apply orb_false_iff in Hs. destruct Hs as [_ Hs2].
        exact (vg_existsb2 _ bl bl' tr_dirty Hb Hr Hs2).
  Qed.

  Lemma vg_list_node : forall l st l' st',
      Forall vg_cond l -> rw_node st = r0 -> visit_list q st l = Ok (l', st') -> rw_node st' = r0.
  Proof.
    intros l st l' st' Hc Hn Hv.
    apply (visit_list_inv q vg_cond (fun st => rw_node st = r0) vg_rel l
                          (proj2 (Forall_forall _ _) (fun s _ => vg_all s)) st l' st' Hc Hn Hv).
  Qed.

  (* the visit raises nothing: an ast.arg passes visit_FunctionDef unconverted, another node never reaches the conversion *)
  Definition total_ok (s : astmt) : Prop :=
    forall st, vg_cond s -> rw_node st = r0 -> exists s' st', visit_stmt q st s = Ok (s', st').

  Lemma total_list : forall l, Forall total_ok l ->
      forall st, Forall vg_cond l -> rw_node st = r0 -> exists l' st', visit_list q st l = Ok (l', st').
  Proof.
    intros l H. induction H as [|x l Hx Hl IH]; intros st Hc Hn; [eexists; eexists; reflexivity|].
    inversion Hc as [|x0 l0 Hcx Hcl]; subst.
    destruct (Hx st Hcx Hn) as [x' [st1 E1]].
    destruct (IH st1 Hcl (proj1 (vg_all x st x' st1 Hcx Hn E1))) as [l' [st2 E2]].
    exists (x' :: l'), st2. simpl. rewrite E1. simpl. rewrite E2. reflexivity.
  Qed.

  Lemma total_blocks : forall bl, Forall (Forall total_ok) bl ->
      forall st, Forall (Forall vg_cond) bl -> rw_node st = r0 -> exists bl' st', visit_blocks q st bl = Ok (bl', st').
  Proof.
    intros bl H. induction H as [|b bl Hb Hbl IH]; intros st Hc Hn; [eexists; eexists; reflexivity|].
    inversion Hc as [|b0 bl0 Hcb Hcbl]; subst.
    destruct (total_list b Hb st Hcb Hn) as [b' [st1 E1]].
    destruct (IH st1 Hcbl (vg_list_node b st b' st1 Hcb Hn E1)) as [bl' [st2 E2]].
    exists (b' :: bl'), st2. simpl. rewrite E1. simpl. rewrite E2. reflexivity.
  Qed.

  Lemma total_all : forall s, total_ok s.
  Proof.
    induction s using astmt_ind2; intros st Hc Hn;
      try (rewrite visit_leaf_eq by reflexivity;
           destruct (negb (rw_replaced st) && _); [rewrite Hn, Hrs0|]; eexists; eexists; reflexivity).
    - apply vfd_total. destruct Hc as [Ha|Hp]; [left; rewrite Hn; exact Ha | right].
      apply stmt_exists_head in Hp. exact Hp.
    - rewrite visit_stmt_class. destruct (negb (rw_replaced st) && oloc_eqb l q).
      + rewrite Hn, Hrs0. eexists; eexists; reflexivity.
      + destruct (total_list b H st (vg_cond_class _ _ _ _ _ _ Hc) Hn) as [b' [st1 E]]. rewrite E.
        eexists; eexists; reflexivity.
    - rewrite visit_stmt_other.
      destruct (total_blocks bl H st (vg_cond_other _ _ _ _ Hc) Hn) as [bl' [st1 E]]. rewrite E.
      eexists; eexists; reflexivity.
  Qed.

  (* an ast.arg as replacement: the first node the visit finds addressed is the one it replaces, so when that is no
     visited statement, no statement becomes an ast.arg *)
  Section ArgNode.
    Hypothesis Harg : is_arg_node r0 = true.

    Definition arg_ok (s : astmt) : Prop :=
      forall st s' st', rw_replaced st = false -> rw_node st = r0 -> visit_stmt q st s = Ok (s', st') ->
        (forall h, first_hit q s = Some h -> id_free h s = true) ->
        stmt_exists dirty s = false -> stmt_exists dirty s' = false.

    Lemma arg_list : forall l, Forall arg_ok l ->
        forall st l' st', rw_replaced st = false -> rw_node st = r0 -> visit_list q st l = Ok (l', st') ->
          (forall h, first_hit_list q l = Some h -> forallb (id_free h) l = true) ->
          existsb (stmt_exists dirty) l = false -> existsb (stmt_exists dirty) l' = false.
    Proof.
      intros l H. induction H as [|x l Hx Hl IH]; intros st l' st' Hu Hn Hv Hh Hd; simpl in Hv.
      - inversion Hv; subst. reflexivity.
      - destruct (visit_stmt q st x) as [[x' st1]|e] eqn:Ex; simpl in Hv; [|discriminate].
        destruct (visit_list q st1 l) as [[l1 st2]|e] eqn:El; simpl in Hv; [|discriminate]. inversion Hv; subst.
        simpl in Hd. apply orb_false_iff in Hd. destruct Hd as [Hd1 Hd2].
        assert (Hhx : forall h, first_hit q x = Some h -> id_free h x = true).
        { intros h E. specialize (Hh h). simpl in Hh. rewrite E in Hh. specialize (Hh eq_refl).
          apply andb_true_iff in Hh. apply Hh. }
        simpl. rewrite (Hx st x' st1 Hu Hn Ex Hhx Hd1). simpl.
        destruct (frame_stmt_all q x st x' st1 Hu Ex) as [[R1 [F1 _]]|[R1 _]].
        + apply (IH st1 l1 st' R1 (proj1 (vg_all x st x' st1 (or_introl Harg) Hn Ex)) El); [|assumption].
          intros h E. specialize (Hh h). simpl in Hh. rewrite F1 in Hh. specialize (Hh E).
          apply andb_true_iff in Hh. apply Hh.
        + rewrite (visit_list_id q l st1 R1) in El. inversion El; subst. assumption.
    Qed.

    Lemma arg_blocks : forall bl, Forall (Forall arg_ok) bl ->
        forall st bl' st', rw_replaced st = false -> rw_node st = r0 -> visit_blocks q st bl = Ok (bl', st') ->
          (forall h, first_hit_blocks q bl = Some h -> forallb (fun b => forallb (id_free h) b) bl = true) ->
          existsb (fun b => existsb (stmt_exists dirty) b) bl = false ->
          existsb (fun b => existsb (stmt_exists dirty) b) bl' = false.
    Proof.
      intros bl H. induction H as [|b bl Hb Hbl IH]; intros st bl' st' Hu Hn Hv Hh Hd; simpl in Hv.
      - inversion Hv; subst. reflexivity.
      - destruct (visit_list q st b) as [[b' st1]|e] eqn:Eb; simpl in Hv; [|discriminate].
        destruct (visit_blocks q st1 bl) as [[bl1 st2]|e] eqn:El; simpl in Hv; [|discriminate]. inversion Hv; subst.
        simpl in Hd. apply orb_false_iff in Hd. destruct Hd as [Hd1 Hd2].
        assert (Hhb : forall h, first_hit_list q b = Some h -> forallb (id_free h) b = true).
        { intros h E. specialize (Hh h). simpl in Hh. rewrite E in Hh. specialize (Hh eq_refl).
          apply andb_true_iff in Hh. apply Hh. }
        simpl. rewrite (arg_list b Hb st b' st1 Hu Hn Eb Hhb Hd1). simpl.
        destruct (frame_list q b st b' st1 Hu Eb) as [[R1 [F1 _]]|[R1 _]].
        + apply (IH st1 bl1 st' R1 (vg_list_node b st b' st1 (vg_cond_list b (or_introl Harg)) Hn Eb) El); [|assumption].
          intros h E. specialize (Hh h). simpl in Hh. rewrite F1 in Hh. specialize (Hh E).
          apply andb_true_iff in Hh. apply Hh.
        + rewrite (visit_blocks_id q bl st1 R1) in El. inversion El; subst. assumption.
    Qed.

    Lemma arg_leaf : forall s, leafish s = true -> arg_ok s.
    Proof.
      intros s Hl st s' st' Hu Hn Hv Hh Hd. rewrite visit_leaf_eq, Hu in Hv by assumption. simpl in Hv.
      rewrite first_hit_leaf in Hh by assumption. destruct (oloc_eqb (stmt_loc s) q).
      - specialize (Hh _ eq_refl). rewrite id_free_leaf, path_eqb_refl in Hh by assumption. discriminate.
      - inversion Hv; subst. assumption.
    Qed.

    Lemma arg_all : forall s, arg_ok s.
    Proof.
      induction s using astmt_ind2; try (apply arg_leaf; reflexivity); intros st s' st' Hu Hn Hv Hh Hd.
      - destruct (vfd_shape _ _ _ _ _ _ _ _ _ _ _ Hv)
          as [[_ [Es _]]|(node' & ds & ra & args1 & b1 & kw1 & b2 & Es & _ & R)]; subst s'; [assumption|].
        destruct (vr_conv R) as [[_ Ed]|[Hna _]]; [|rewrite Hn, Harg in Hna; discriminate]. subst ds. exact Hd.
      - rewrite visit_stmt_class, Hu in Hv. simpl in Hv. rewrite first_hit_class in Hh.
        destruct (oloc_eqb l q).
        + specialize (Hh i eq_refl). simpl in Hh. rewrite path_eqb_refl in Hh. discriminate.
        + destruct (visit_list q st b) as [[b' st1]|e] eqn:Eb; simpl in Hv; [|discriminate]. inversion Hv; subst.
          rewrite stmt_exists_class in *. apply orb_false_iff in Hd. destruct Hd as [_ Hd]. simpl.
          apply (arg_list b H st b' st' Hu Hn Eb); [|assumption].
          intros h E. specialize (Hh h E). simpl in Hh. apply andb_true_iff in Hh. apply Hh.
      - rewrite visit_stmt_other in Hv. rewrite first_hit_other in Hh.
        destruct (visit_blocks q st bl) as [[bl' st1]|e] eqn:Eb; simpl in Hv; [|discriminate]. inversion Hv; subst.
        rewrite stmt_exists_other in *. apply orb_false_iff in Hd. destruct Hd as [_ Hd]. simpl.
        exact (arg_blocks bl H st bl' st' Hu Hn Eb Hh Hd).
    Qed.
  End ArgNode.

  Lemma rewrite_ok : forall t p,
      q <> [] -> first_hit_list q t = Some p -> existsb (stmt_exists dirty) t = false ->
      (is_arg_node r0 = true /\ forallb (id_free p) t = true)
      \/ (stmt_exists dirty rs0 = false /\ existsb (stmt_exists (is_parent_func q)) t = false) ->
      exists g st, rewrite_visit q r0 t = Ok (NMod g, st) /\ rw_replaced st = true /\ rw_node st = r0
                   /\ existsb (stmt_exists dirty) g = false /\ Forall2 vg_rel t g.
  Proof.
    intros t p Hq Hf Hcl Hk.
    assert (Hc : Forall vg_cond t).
    { apply vg_cond_list. destruct Hk as [[Ha _]|[_ Hp]]; [left | right]; assumption. }
    destruct (total_list t (proj2 (Forall_forall _ _) (fun s _ => total_all s)) (mkRw false r0) Hc eq_refl) as [g [st E]].
    assert (Hv : rewrite_visit q r0 t = Ok (NMod g, st)).
    { rewrite rewrite_visit_eq, E by assumption. reflexivity. }
    destruct (rewrite_visit_inv _ _ _ _ vg_all r0 t g st Hq Hc eq_refl Hv) as [Hn Hrel].
    exists g, st. split; [assumption|].
    split; [rewrite (C15_rewrite_position q r0 t g st Hq Hv), Hf; reflexivity|].
    split; [assumption|]. split; [|assumption].
    destruct Hk as [[Ha Hid]|[Hd _]].
    - apply (arg_list Ha t (proj2 (Forall_forall _ _) (fun s _ => arg_all Ha s)) (mkRw false r0) g st eq_refl eq_refl E);
        [|assumption].
      intros h Eh. rewrite Hf in Eh. inversion Eh; subst. assumption.
    - exact (vg_existsb _ t g tr_dirty Hrel Hd Hcl).
  Qed.
End VisitGood.

Lemma rewrite_leaf : forall q n id src t p,
    node_view n = (id, src) -> leaf_pnode src = true ->
    q <> [] -> first_hit_list q t = Some p -> existsb (stmt_exists dirty) t = false ->
    (is_parg src = true -> forallb (id_free p) t = true) ->
    (is_parg src = false -> existsb (stmt_exists (is_parent_func q)) t = false) ->
    exists rs0 g st,
      node_as_stmt n = Ok rs0 /\ is_container n = false
      /\ rewrite_visit q n t = Ok (NMod g, st) /\ rw_replaced st = true /\ rw_node st = n
      /\ existsb (stmt_exists dirty) g = false /\ Forall2 (vg_rel rs0) t g
      /\ (forall h, id_free h rs0 = negb (path_eqb id h))
      /\ (forall q', stmt_exists (is_parent_func q') rs0 = false).
Proof.
  intros q n id src t p Hview Hleaf Hq Hfh Hclean Hidf Hpar.
  destruct (leaf_node_cases _ _ _ Hview Hleaf) as [[Hpa [a [En Ea]]]|[Hps [s0 [En [Es Hl0]]]]]; subst n.
  - destruct (rewrite_ok q (NArg a) (AArgS a) eq_refl t p Hq Hfh Hclean (or_introl (conj eq_refl (Hidf Hpa))))
      as [g [st [Hrv [Hrep [Hn [Hcg Hrel]]]]]].
    exists (AArgS a), g, st.
    refine (conj eq_refl (conj eq_refl (conj Hrv (conj Hrep (conj Hn (conj Hcg (conj Hrel (conj _ (fun _ => eq_refl))))))))).
    intros h. simpl. rewrite Ea. reflexivity.
  - destruct (leaf_astmt_facts s0 Hl0) as [Hd0 [Hc0 [Hp0 Hi0]]].
    destruct (rewrite_ok q (NStmt s0) s0 eq_refl t p Hq Hfh Hclean (or_intror (conj Hd0 (Hpar Hps))))
      as [g [st [Hrv [Hrep [Hn [Hcg Hrel]]]]]].
    exists s0, g, st.
    refine (conj eq_refl (conj Hc0 (conj Hrv (conj Hrep (conj Hn (conj Hcg (conj Hrel (conj _ Hp0)))))))).
    intros h. rewrite Hi0. simpl in Es. rewrite Es. reflexivity.
Qed.

Lemma guard_total_inv : forall x, guard_C14_total' x = true ->
    exists ip op p0 dst pi0 src,
      ci_eval x = false /\ supported (ci_in x) = true /\ supported (ci_out x) = true
      /\ ci_ips x = [ip] /\ ci_ops x = [op] /\ pair_class x ip op = None
      /\ resolve (dotted op) (ci_out x) = Some (p0, dst) /\ resolve (dotted ip) (ci_in x) = Some (pi0, src)
      /\ leaf_pnode src = true /\ leaf_pnode dst = true
      /\ (forall w0 e, ci_wrap x = Some w0 -> src_ann src = Some e -> is_ok (wrap_annotation (ci_env x) w0 e) = true).
Proof.
  intros x Hg. unfold guard_C14_total' in Hg.
  apply andb_true_iff in Hg. destruct Hg as [Hg Hwr].
  apply andb_true_iff in Hg. destruct Hg as [Hg Hres].
  unfold guard_C14 in Hg. apply andb_true_iff in Hg. destruct Hg as [Hdom Hcls].
  destruct (finding_class_C14 x) eqn:Ec; [discriminate|]. clear Hcls. unfold finding_class_C14 in Ec.
  destruct (ci_eval x) eqn:Hev; [discriminate|].
  destruct (first_pair_class x (ci_ips x) (ci_ops x)) eqn:Efp; [discriminate|].
  destruct (Nat.ltb 1 (List.length (ci_ips x))) eqn:Elen; [discriminate|]. clear Ec.
  destruct (domain_facts x Hdom) as [Hsi [Hso [Hleq [Hne [Hleafin Hleafout]]]]].
  unfold addresses_resolve, out_positions in Hres. rewrite Hev in Hres. unfold wrap_ready in Hwr. unfold in_nodes in *.
  destruct (ci_ips x) as [|ip [|ip2 r]]; [discriminate | | discriminate].
  destruct (ci_ops x) as [|op [|op2 r']]; [discriminate | | discriminate].
  simpl in Efp, Hres, Hwr, Hleafin, Hleafout.
  destruct (resolve (dotted op) (ci_out x)) as [[p0 dst]|] eqn:Ero; simpl in Hres; [|discriminate].
  destruct (resolve (dotted ip) (ci_in x)) as [[pi0 src]|] eqn:Eri; simpl in Hres; [|discriminate].
  destruct (pair_class x ip op) eqn:Epc; [discriminate|]. rewrite andb_true_r in *.
  exists ip, op, p0, dst, pi0, src.
  refine (conj eq_refl (conj Hsi (conj Hso (conj eq_refl (conj eq_refl (conj Epc (conj Ero (conj Eri
            (conj Hleafin (conj Hleafout _)))))))))).
  intros w0 e Hw0 Hsa. rewrite Hw0, Hsa, andb_true_r in Hwr. exact Hwr.
Qed.

Theorem C14_total_lemma' : forall x, guard_C14_total' x = true -> C14_total_holds x.
Proof.
  intros x Hg.
  destruct (guard_total_inv x Hg)
    as (ip & op & p0 & dst & pi0 & src & Hev & Hsi & Hso & Eips & Eops & Epc & Ero & Eri & Hlsrc & Hldst & Hwr).
  (* stages: what "in no finding class" gives; the input node is found; the template step; the rewrite succeeds at the
     resolved position (frame theorem); the run writes once; the written node is the expected one *)
  pose proof (resolve_at_some [0] _ _ _ _ (dotted_nonempty op) Ero) as Hro.
  pose proof (resolve_at_some [1] _ _ _ _ (dotted_nonempty ip) Eri) as Hri.
  simpl app in Hro, Hri.
  destruct (pair_class_lookup x ip op Hev Epc) as [Hin Hout]. rewrite Hro in Hout. simpl in Hout.
  destruct (pair_class_none x ip op _ _ _ _ Hev Epc Hri Hro) as [Ehz [Hpd [Hnw Hpar]]].
  destruct (found_of_resolve [1] _ _ _ _ Hsi Hin Hri) as [n [log [Efind Hview]]].
  (* the template step leaves the output tree as find_in_ast left it: no node of it has the identity of an input node *)
  set (i0 := annotate_at [1] (ci_in x)) in *. set (o0 := annotate_at [0] (ci_out x)) in *.
  destruct (apply_wrap_leaf (ci_env x) (ci_wrap x) n (apply_dlog log i0) (apply_dlog log o0) 1 pi0 src
                            Hview Hlsrc Hnw Hwr)
    as [repl [i2 [o2 [want [Hw [Ho2 [Hrv [Hlw [Hkw Hexp]]]]]]]]].
  set (t := apply_dlog log o0) in *.
  assert (Ho2' : o2 = t).
  { destruct Ho2 as [E|[e E]]; [assumption|]. subst o2. apply set_ann_by_id_absent. apply output_ids_after_dlog. }
  subst o2.
  assert (T1 : const_hazard (dotted op) t = false) by (unfold t; rewrite const_hazard_apply_dlog; assumption).
  assert (T2 : first_hit_list (dotted op) t = Some (0 :: p0)).
  { unfold t, apply_dlog. rewrite first_hit_list_map_all; [exact Hout|].
    intros s. apply first_hit_map_args. apply attach_default_keeps. }
  assert (T3 : existsb (stmt_exists dirty) t = false).
  { unfold t. rewrite exists_apply_dlog; [apply annotate_clean | intros s; apply dirty_map_args]. }
  (* the rewrite: an argument goes to an argument, an assignment meets no parent function *)
  destruct (rewrite_leaf (dotted op) repl _ _ t (0 :: p0) Hrv Hlw (dotted_nonempty op) T2 T3)
    as (rs0 & g & st & _ & Hcont & Hrv' & Hrep & Hnode & Hclean & _).
  { intros Hpa. rewrite Hkw, <- Hpd in Hpa. destruct dst as [dm|ds|da]; try discriminate.
    unfold t. rewrite id_free_apply_dlog. exact (arg_free_module _ _ _ _ _ Hro). }
  { intros Hps. rewrite Hkw, <- Hpd in Hps. unfold t.
    rewrite exists_apply_dlog; [exact (Hpar Hps) | intros s; apply parent_map_args]. }
  destruct (C15_rewrite_frame_lemma (dotted op) repl t g st (dotted_nonempty op) Hrv') as [[Hf _]|[_ [p' [Hfh Hrf]]]];
    [congruence|].
  rewrite T2 in Hfh. inversion Hfh; subst p'. rewrite Hnode in Hrf.
  exists ip, op, g, (0 :: p0), dst, (1 :: pi0), src, log, repl, want.
  split; [assumption|]. split; [assumption|]. split.
  { apply (run_single x ip op i0 o0 g i2); try assumption.
    - unfold ast_parse. rewrite Hsi. reflexivity.
    - unfold ast_parse. rewrite Hso. reflexivity.
    - intros e. rewrite Hev. apply sync_property_of_prepare with (repl := repl) (o2 := t) (st := st); try assumption.
      rewrite (sp_prepare_found _ _ _ _ _ _ _ _ _ Efind). exact Hw.
    - apply clean_emit. assumption. }
  split; [assumption|]. split; [assumption|]. split; [apply erase_apply_dlog_annotate|].
  split; [assumption|]. split; [assumption|].
  apply Hexp; try reflexivity; assumption.
Qed.

Theorem C14_success_lemma' : forall x, guard_C14_total' x = true ->
    exists tree, run_C14 x = ([EvWrite FOutput tree], Ok tt).
Proof.
  intros x H. destruct (C14_total_lemma' x H) as [ip [op [tree [p [dst [pi [src [log [repl [want [_ [_ [Hr _]]]]]]]]]]]]].
  exists tree. exact Hr.
Qed.

Theorem C14_partial_total_lemma' : forall x, guard_C14_total' x = true -> C14_total_holds x /\ C14_holds x.
Proof.
  intros x H. split; [apply C14_total_lemma'; assumption|]. apply C14_partial_lemma.
  unfold guard_C14_total' in H. do 2 (apply andb_true_iff in H; destruct H as [H _]). exact H.
Qed.

(* target_unshadowed is a redundant conjunct of guard_C14_total *)
Lemma guard_total_total' : forall x, guard_C14_total x = true -> guard_C14_total' x = true.
Proof. intros x H. unfold guard_C14_total in H. apply andb_true_iff in H. exact (proj1 H). Qed.

Lemma oloc_eqb_other : forall o q q', oloc_eqb o q = true -> q' <> q -> oloc_eqb o q' = false.
Proof.
  intros o q q' H Hne. destruct o as [l|]; simpl in *; [|reflexivity].
  apply loc_eqb_eq in H. subst. apply loc_eqb_neq. intros E. apply Hne. symmetry. assumption.
Qed.

Lemma first_arg_hit_replace : forall q q' ra l l' b,
    q' <> q -> oloc_eqb (aa_loc ra) q' = false -> replace_first_arg q ra l = (l', b) ->
    first_arg_hit q' l' = first_arg_hit q' l.
Proof.
  intros q q' ra l. induction l as [|a rest IH]; intros l' b Hne Hra H; simpl in H.
  - inversion H. reflexivity.
  - destruct (oloc_eqb (aa_loc a) q) eqn:E.
    + inversion H; subst. unfold first_arg_hit. simpl. rewrite Hra, (oloc_eqb_other _ _ _ E Hne). reflexivity.
    + destruct (replace_first_arg q ra rest) as [rest' b0] eqn:E2. inversion H; subst.
      specialize (IH rest' b Hne Hra eq_refl). unfold first_arg_hit in *. simpl.
      destruct (oloc_eqb (aa_loc a) q'); [reflexivity | exact IH].
Qed.

Lemma node_quiet_fresh_arg : forall Q a, aa_loc a = None -> node_quiet Q (NArg a) = true.
Proof. intros Q a H. unfold node_quiet. simpl. rewrite H. apply forallb_forall. reflexivity. Qed.

Lemma node_quiet_loc : forall Q r q', node_quiet Q r = true -> In q' Q -> oloc_eqb (anode_loc r) q' = false.
Proof.
  intros Q r q' H Hin. unfold node_quiet in H. apply andb_true_iff in H. destruct H as [_ H].
  rewrite forallb_forall in H. specialize (H q' Hin). apply negb_true_iff in H. exact H.
Qed.

Lemma quiet_as_stmt : forall Q r rs, node_quiet Q r = true -> node_as_stmt r = Ok rs ->
    (forall q', In q' Q -> first_hit q' rs = None) /\ (forall q'', class_loc_free q'' rs = true).
Proof.
  intros Q r rs H Hs. split.
  - intros q' Hin. pose proof (node_quiet_loc Q r q' H Hin) as Hl.
    unfold node_quiet in H. apply andb_true_iff in H. destruct H as [Hk _].
    destruct r as [m|s|a]; simpl in Hs; try discriminate; inversion Hs; subst.
    + destruct rs; try discriminate; simpl in *; rewrite Hl; reflexivity.
    + simpl in *. rewrite Hl. reflexivity.
  - intros q''. unfold node_quiet in H. apply andb_true_iff in H. destruct H as [Hk _].
    destruct r as [m|s|a]; simpl in Hs; try discriminate; inversion Hs; subst; [|reflexivity].
    destruct rs; try discriminate; reflexivity.
Qed.

Lemma emit_arg_loc : forall r ra, is_arg_node r = true -> emit_arg r = Ok ra -> anode_loc r = aa_loc ra.
Proof.
  intros r ra H He. destruct r as [m|s|a]; simpl in H; try discriminate.
  - destruct s; try discriminate. simpl in He. inversion He. reflexivity.
  - simpl in He. inversion He. reflexivity.
Qed.

Section VisitPreserves.
  Variable q : loc.
  Variable Q : list loc.
  Hypothesis HqQ : forall q', In q' Q -> q' <> q.

  Definition vp_rel (s s' : astmt) : Prop :=
    (forall q', In q' Q -> first_hit q' s' = first_hit q' s)
    /\ (forall q'', class_loc_free q'' s' = class_loc_free q'' s).

  Lemma vp_list : forall l l', Forall2 vp_rel l l' ->
      (forall q', In q' Q -> first_hit_list q' l' = first_hit_list q' l)
      /\ (forall q'', forallb (class_loc_free q'') l' = forallb (class_loc_free q'') l).
  Proof.
    intros l l' H. split.
    - intros q' Hin. apply Forall2_first_hit_list. eapply Forall2_impl; [|exact H]. intros s s' [F _]. exact (F q' Hin).
    - intros q''. apply Forall2_forallb_eq. eapply Forall2_impl; [|exact H]. intros s s' [_ C]. apply C.
  Qed.

  Lemma vp_blocks : forall bl bl', Forall2 (Forall2 vp_rel) bl bl' ->
      (forall q', In q' Q -> first_hit_blocks q' bl' = first_hit_blocks q' bl)
      /\ (forall q'', forallb (fun b => forallb (class_loc_free q'') b) bl'
                      = forallb (fun b => forallb (class_loc_free q'') b) bl).
  Proof.
    intros bl bl' H. split.
    - intros q' Hin. apply Forall2_first_hit_blocks. eapply Forall2_impl; [|exact H].
      intros b b' Hb. apply (vp_list b b' Hb). assumption.
    - intros q''. apply (Forall2_forallb_eq _ (fun b => forallb (class_loc_free q'') b)). eapply Forall2_impl; [|exact H].
      intros b b' Hb. apply (vp_list b b' Hb).
  Qed.

  Lemma vp_all : forall s,
      step_ok q (fun s => class_loc_free q s = true) (fun st => node_quiet Q (rw_node st) = true) vp_rel s.
  Proof.
    apply visit_stmt_inv.
    - (* class_loc_free passes to the children *)
      intros i l n bs b d Hc. simpl in Hc. apply andb_true_iff in Hc. apply forallb_true_Forall. apply Hc.
    - intros i t h bl Hc. simpl in Hc. apply forallb_true_Forall in Hc.
      eapply Forall_impl; [|exact Hc]. intros b. apply forallb_true_Forall.
    - (* FunctionDef: the node put into its argument lists is quiet for the later addresses *)
      intros i l n a b d r st s' st' _ Hq Hv.
      destruct (vfd_shape _ _ _ _ _ _ _ _ _ _ _ Hv)
        as [[_ [Es Est]]|(node' & ds & ra & args1 & b1 & kw1 & b2 & Es & Est & R)]; subst s' st'.
      + split; [assumption|]. split; reflexivity.
      + assert (Hq' : node_quiet Q node' = true).
        { destruct (vr_conv R) as [[E _]|[_ [a0 [E Hl]]]]; rewrite E;
            [assumption | apply node_quiet_fresh_arg; assumption]. }
        split; [assumption|]. split; [|reflexivity].
        intros q' Hin. simpl.
        pose proof (node_quiet_loc Q _ q' Hq' Hin) as Hl. rewrite (emit_arg_loc _ _ (vr_is_arg R) (vr_emit R)) in Hl.
        rewrite (first_arg_hit_replace q q' ra _ _ _ (HqQ q' Hin) Hl (vr_args R)).
        rewrite (first_arg_hit_replace q q' ra _ _ _ (HqQ q' Hin) Hl (vr_kwonly R)). reflexivity.
    - (* a visited ClassDef does not carry q, so the statement replaced is an assignment or an ast.arg *)
      intros s st rs Hnf Hloc Hc Hq _ En. split; [assumption|].
      assert (Hleaf : leafish s = true).
      { destruct s; try reflexivity; [exfalso; eapply Hnf; reflexivity | | discriminate].
        simpl in Hc, Hloc. rewrite Hloc in Hc. discriminate. }
      destruct (quiet_as_stmt Q _ _ Hq En) as [F C]. split.
      + intros q' Hin.
        rewrite (F q' Hin), first_hit_leaf, (oloc_eqb_other _ _ _ Hloc (HqQ q' Hin)) by assumption. reflexivity.
      + intros q''. rewrite C. destruct s; try discriminate; reflexivity.
    - (* reflexive, then through a ClassDef and through blocks *)
      intros s. split; reflexivity.
    - intros i l n bs b b' d Hb. destruct (vp_list b b' Hb) as [F C]. split.
      + intros q' Hin. rewrite !first_hit_class, (F q' Hin). reflexivity.
      + intros q''. simpl. rewrite C. reflexivity.
    - intros i t h bl bl' Hb. destruct (vp_blocks bl bl' Hb) as [F C]. split.
      + intros q' Hin. rewrite !first_hit_other. apply F. assumption.
      + intros q''. apply C.
  Qed.

  Lemma rewrite_preserves : forall repl t g st,
      q <> [] -> rewrite_visit q repl t = Ok (NMod g, st) ->
      node_quiet Q repl = true -> forallb (class_loc_free q) t = true ->
      (forall q', In q' Q -> first_hit_list q' g = first_hit_list q' t)
      /\ (forall q'', forallb (class_loc_free q'') g = forallb (class_loc_free q'') t).
  Proof.
    intros repl t g st Hq Hv Hr Hc. apply vp_list.
    apply (rewrite_visit_inv _ _ _ _ vp_all repl t g st Hq (forallb_true_Forall _ _ _ Hc) Hr Hv).
  Qed.
End VisitPreserves.

Lemma clf_map_args : forall q f s, class_loc_free q (map_args_stmt f s) = class_loc_free q s.
Proof.
  intros q f. induction s using astmt_ind2; try reflexivity.
  - simpl. f_equal. apply forallb_map_Forall. assumption.
  - simpl. apply forallb_map_Forall2. assumption.
Qed.

Lemma clf_map_stmts : forall q i e s, class_loc_free q (map_stmts (set_stmt_ann i e) s) = class_loc_free q s.
Proof.
  intros q i e. induction s using astmt_ind2; try reflexivity.
  - simpl. f_equal. apply forallb_map_Forall. assumption.
  - simpl. destruct (path_eqb i0 i); reflexivity.
  - simpl. apply forallb_map_Forall2. assumption.
Qed.

Lemma clf_mid : forall q o o_mid, is_mid o o_mid ->
    forallb (class_loc_free q) o_mid = forallb (class_loc_free q) o.
Proof.
  intros q o o_mid [t0 [Ht0 Hmid]].
  assert (H0 : forallb (class_loc_free q) t0 = forallb (class_loc_free q) o).
  { destruct Ht0 as [E|[log E]]; subst; [reflexivity|]. unfold apply_dlog.
    apply forallb_map_Forall. apply Forall_forall. intros s _. apply clf_map_args. }
  destruct Hmid as [E|[i [e E]]]; subst; [assumption|]. rewrite <- H0. unfold set_ann_by_id.
  apply forallb_map_Forall. apply Forall_forall. intros s _. rewrite clf_map_stmts. apply clf_map_args.
Qed.

Definition q_of (pr : str * str * evald) : loc := dotted (snd (fst pr)).

(* one turn of the loop, for the pairs still to come: the node moved is quiet for their addresses, which differ from
   this one, so the rewrite leaves their first hits and class_loc_free as they were *)
Lemma loop_head : forall env w ip op e rest i o repl i2 o2 o1 i1 st,
    sp_prepare env false ip i e op w o = Ok (repl, i2, o2) ->
    sync_property env false ip i e op w o (is_empty rest) = Ok (o1, i1) ->
    rewrite_visit (dotted op) repl o2 = Ok (NMod o1, st) ->
    quiet_loop env false w ((ip, op, e) :: rest) i o = true ->
    locs_distinct (map q_of ((ip, op, e) :: rest)) = true ->
    forallb (class_loc_free (dotted op)) o2 = true ->
    quiet_loop env false w rest i1 o1 = true /\ locs_distinct (map q_of rest) = true
    /\ (forall pr, In pr rest -> first_hit_list (q_of pr) o1 = first_hit_list (q_of pr) o2)
    /\ (forall q'', forallb (class_loc_free q'') o1 = forallb (class_loc_free q'') o2).
Proof.
  intros env w ip op e rest i o repl i2 o2 o1 i1 st Hp Hs Hrv Hq Hd Hc.
  simpl in Hq. rewrite Hp, Hs in Hq. apply andb_true_iff in Hq. destruct Hq as [Hnq Hq'].
  simpl in Hd. apply andb_true_iff in Hd. destruct Hd as [Hnotin Hd']. apply negb_true_iff in Hnotin.
  assert (HqQ : forall q', In q' (map q_of rest) -> q' <> dotted op).
  { intros q' Hin E. subst q'. pose proof (existsb_false_In _ _ _ _ Hnotin Hin) as Hf.
    unfold q_of in Hf. simpl in Hf. rewrite loc_eqb_refl in Hf. discriminate. }
  destruct (rewrite_preserves (dotted op) (map q_of rest) HqQ repl o2 o1 st (dotted_nonempty op) Hrv Hnq Hc) as [F C].
  refine (conj Hq' (conj Hd' (conj _ C))). intros pr Hin. apply F. apply in_map. assumption.
Qed.

Lemma multi_loop : forall om env w pairs i o o' i',
    sync_loop env false w pairs i o = Ok (o', i') ->
    quiet_loop env false w pairs i o = true ->
    locs_distinct (map q_of pairs) = true ->
    Forall (fun pr => first_hit_list (q_of pr) (annotate_at [0] om)
                      = option_map fst (resolve_at [0] (q_of pr) om)) pairs ->
    Forall (fun pr => first_hit_list (q_of pr) o = first_hit_list (q_of pr) (annotate_at [0] om)
                      /\ forallb (class_loc_free (q_of pr)) o = true) pairs ->
    placed om (map (fun pr => snd (fst pr)) pairs) o o'.
Proof.
  intros om env w pairs. induction pairs as [|[[ip op] e] rest IH]; intros i o o' i' Hl Hq Hd Hres Hinv.
  - simpl in Hl. inversion Hl; subst. constructor.
  - simpl in Hl.
    destruct (sync_property env false ip i e op w o (is_empty rest)) as [[o1 i1]|er] eqn:Es; simpl in Hl; [|discriminate].
    destruct (sync_property_inv _ _ _ _ _ _ _ _ _ _ _ Es) as [repl [o2 [st [Hp [Hrv Hrep]]]]].
    destruct (sp_prepare_mid _ _ _ _ _ _ _ _ _ _ _ Hp) as [Hmid _].
    inversion Hres as [|pr0 l0 Hr1 Hres']; subst. inversion Hinv as [|pr1 l1 [Hi1 Hi2] Hinv']; subst.
    unfold q_of in Hi1, Hi2, Hr1. simpl in Hi1, Hi2, Hr1.
    assert (Hc2 : forallb (class_loc_free (dotted op)) o2 = true) by (rewrite (clf_mid _ _ _ Hmid); exact Hi2).
    destruct (loop_head _ _ _ _ _ _ _ _ _ _ _ _ _ _ Hp Es Hrv Hq Hd Hc2) as [Hq' [Hd' [F C]]].
    destruct (C15_rewrite_frame_lemma (dotted op) repl o2 o1 st (dotted_nonempty op) Hrv) as [[Hf _]|[_ [p [Hfh Hrf]]]];
      [congruence|].
    rewrite (first_hit_mid _ _ _ Hmid), Hi1, Hr1 in Hfh.
    destruct (resolve_at [0] (dotted op) om) as [[p' n]|] eqn:Er; simpl in Hfh; [|discriminate]. inversion Hfh; subst p'.
    simpl map. eapply pl_cons; [exact Er | exact Hmid | exact Hrf |].
    apply (IH i1 o1 o' i' Hl Hq' Hd' Hres').
    rewrite Forall_forall in *. intros pr Hin. destruct (Hinv' pr Hin) as [A B]. split.
    + rewrite (F pr Hin), (first_hit_mid _ _ _ Hmid). exact A.
    + rewrite C, (clf_mid _ _ _ Hmid). exact B.
Qed.

Lemma zip3_ops : forall ips ops evs, List.length ips = List.length ops ->
    map (fun pr : str * str * evald => snd (fst pr)) (zip3 ips ops evs) = ops.
Proof.
  induction ips as [|ip ips IH]; intros ops evs Hl; destruct ops as [|op ops]; simpl in Hl; try discriminate; [reflexivity|].
  simpl. destruct evs as [|ev evs]; simpl; rewrite IH by lia; reflexivity.
Qed.

Lemma zip3_clean : forall x ips ops evs, ci_eval x = false -> all_pairs_clean x ips ops = true ->
    Forall (fun pr => first_hit_list (q_of pr) (annotate_at [0] (ci_out x))
                      = option_map fst (resolve_at [0] (q_of pr) (ci_out x))) (zip3 ips ops evs).
Proof.
  intros x ips. induction ips as [|ip ips IH]; intros ops evs Hev Hc; [constructor|].
  destruct ops as [|op ops]; [constructor|]. simpl in Hc.
  destruct (pair_class x ip op) eqn:Epc; [discriminate|].
  destruct (pair_class_lookup x ip op Hev Epc) as [_ Hout].
  simpl. destruct evs as [|ev evs]; constructor; try (apply IH; assumption); exact Hout.
Qed.

Lemma guard_multi_inv : forall x, guard_C14_multi x = true ->
    C14_domain x = true /\ ci_eval x = false /\ List.length (ci_ips x) = List.length (ci_ops x)
    /\ all_pairs_clean x (ci_ips x) (ci_ops x) = true
    /\ locs_distinct (map q_of (zip3 (ci_ips x) (ci_ops x) (ci_evs x))) = true
    /\ forallb (fun op => forallb (class_loc_free (dotted op)) (annotate_at [0] (ci_out x))) (ci_ops x) = true
    /\ quiet_loop (ci_env x) false (ci_wrap x) (zip3 (ci_ips x) (ci_ops x) (ci_evs x))
                  (annotate_at [1] (ci_in x)) (annotate_at [0] (ci_out x)) = true.
Proof.
  intros x Hg. unfold guard_C14_multi in Hg.
  apply andb_true_iff in Hg. destruct Hg as [Hg Hquiet].
  apply andb_true_iff in Hg. destruct Hg as [Hg Hclf].
  apply andb_true_iff in Hg. destruct Hg as [Hg Hdist].
  apply andb_true_iff in Hg. destruct Hg as [Hg Hclean].
  apply andb_true_iff in Hg. destruct Hg as [Hdom Hev]. apply negb_true_iff in Hev.
  destruct (domain_facts x Hdom) as [_ [_ [Hleq _]]]. apply Nat.eqb_eq in Hleq.
  refine (conj Hdom (conj Hev (conj Hleq (conj Hclean (conj _ (conj Hclf Hquiet)))))).
  replace (map q_of (zip3 (ci_ips x) (ci_ops x) (ci_evs x))) with (map dotted (ci_ops x)); [assumption|].
  rewrite <- (zip3_ops (ci_ips x) (ci_ops x) (ci_evs x) Hleq) at 1. rewrite map_map. reflexivity.
Qed.

Theorem C14_multi_lemma : forall x, guard_C14_multi x = true ->
    forall tree, fst (run_C14 x) = [EvWrite FOutput tree] ->
                 placed (ci_out x) (ci_ops x) (annotate_at [0] (ci_out x)) tree.
Proof.
  intros x Hg tree Hw. destruct (guard_multi_inv x Hg) as (_ & Hev & Hlen & Hclean & Hdist & Hclf & Hquiet).
  destruct (run_C14 x) as [evts stt] eqn:Er. simpl in Hw.
  destruct (run_ok_inv x evts stt Er) as [[e0 [H1 H2]]|[i0 [o0 [tree0 [i' [Hi [Ho [_ [Hs [He Hst]]]]]]]]]];
    [rewrite H1 in Hw; discriminate|]. rewrite He in Hw. inversion Hw; subst tree0.
  apply ast_parse_ok in Hi. apply ast_parse_ok in Ho. subst i0 o0.
  unfold loop_pairs in Hs. rewrite Hev in Hs.
  rewrite <- (zip3_ops (ci_ips x) (ci_ops x) (ci_evs x) Hlen) at 1.
  apply (multi_loop (ci_out x) (ci_env x) (ci_wrap x) _ _ _ _ _ Hs Hquiet Hdist).
  - apply zip3_clean; assumption.
  - apply Forall_forall. intros pr Hin. split; [reflexivity|].
    rewrite forallb_forall in Hclf. apply (Hclf (snd (fst pr))).
    rewrite <- (zip3_ops (ci_ips x) (ci_ops x) (ci_evs x) Hlen).
    apply (in_map (fun pr0 : str * str * evald => snd (fst pr0))). assumption.
Qed.

Lemma map_args_stmt_id : forall f, (forall a, f a = a) -> forall s, map_args_stmt f s = s.
Proof.
  intros f Hf. induction s using astmt_ind2; try reflexivity.
  - simpl. f_equal.
    + destruct a as [aa ad ak akd av akw]. unfold map_arguments. simpl.
      rewrite !map_id_Forall by (apply Forall_forall; intros; apply Hf). reflexivity.
    + apply map_id_Forall. assumption.
  - simpl. f_equal. apply map_id_Forall. assumption.
  - simpl. f_equal. apply map_id_Forall. eapply Forall_impl; [|exact H]. intros b. apply map_id_Forall.
  - simpl. rewrite Hf. reflexivity.
Qed.

Lemma apply_dlog_nil : forall m, apply_dlog [] m = m.
Proof.
  intros m. unfold apply_dlog. apply map_id_Forall. apply Forall_forall. intros s _.
  apply map_args_stmt_id. intros a. destruct a; reflexivity.
Qed.

Lemma const_hazard_nonempty : forall q m, q <> [] -> const_hazard q m = existsb (stmt_hazard (last q [])) m.
Proof. intros q m H. destruct q; [contradiction | reflexivity]. Qed.

(* what the loop keeps of a pair still to come, on the current output tree o: its input node is a leaf found without
   attaching a default; its output address first hits an identity of the output file, on no visited ClassDef and with
   no constant hazard; an argument finds no visited statement of that identity, an assignment no parent function *)
Definition pair_inv (i0 o : amodule) (pr : str * str * evald) : Prop :=
  exists n pi src p,
    find_in_ast_log (dotted (fst (fst pr))) i0 = Ok (Some n, [])
    /\ node_view n = (1 :: pi, src) /\ leaf_pnode src = true
    /\ first_hit_list (q_of pr) o = Some (0 :: p)
    /\ forallb (class_loc_free (q_of pr)) o = true
    /\ const_hazard (q_of pr) o = false
    /\ (is_parg src = true -> forallb (id_free (0 :: p)) o = true)
    /\ (is_parg src = false -> existsb (stmt_exists (is_parent_func (q_of pr))) o = false).

Fixpoint hz_pairs (i0 : amodule) (pairs : list (str * str * evald)) : bool :=
  match pairs with
  | [] => true
  | pr :: rest =>
    match find_in_ast_log (dotted (fst (fst pr))) i0 with
    | Ok (Some n, _) =>
      match node_as_stmt n with
      | Ok s => forallb (fun pr' => negb (stmt_hazard (last (q_of pr') []) s)) rest
      | Err _ => true
      end
    | _ => true
    end && hz_pairs i0 rest
  end.

Lemma multi_success_loop : forall env i0 pairs o,
    Forall (pair_inv i0 o) pairs ->
    existsb (stmt_exists dirty) o = false ->
    locs_distinct (map q_of pairs) = true ->
    quiet_loop env false None pairs i0 o = true ->
    hz_pairs i0 pairs = true ->
    exists o', sync_loop env false None pairs i0 o = Ok (o', i0) /\ existsb (stmt_exists dirty) o' = false.
Proof.
  intros env i0 pairs. induction pairs as [|[[ip op] e] rest IH]; intros o Hinv Hclean Hd Hq Hhz.
  - exists o. split; [reflexivity | assumption].
  - inversion Hinv as [|pr0 l0 Hinv1 Hinvr]; subst.
    destruct Hinv1 as (n & pi & src & p & Hfind & Hview & Hleaf & Hfh & Hclf & Hhaz & Hidf & Hpar).
    unfold q_of in Hfh, Hclf, Hhaz, Hpar. simpl in Hfind, Hfh, Hclf, Hhaz, Hpar.
    (* this pair: the rewrite succeeds, hence sync_property *)
    destruct (rewrite_leaf (dotted op) n _ _ o (0 :: p) Hview Hleaf (dotted_nonempty op) Hfh Hclean Hidf Hpar)
      as (rs0 & g & st & Hrs0 & Hcont & Hrv & Hrep & _ & Hcg & Hrel & Hid0 & Hpar0).
    assert (Hprep : sp_prepare env false ip i0 e op None o = Ok (n, i0, o)).
    { rewrite (sp_prepare_found _ _ _ _ _ _ _ _ _ Hfind), !apply_dlog_nil. reflexivity. }
    pose proof (sync_property_of_prepare _ _ _ _ _ _ _ _ (is_empty rest) _ _ _ _ _ Hprep Hcont Hhaz Hrv Hrep) as Hsp.
    destruct (loop_head _ _ _ _ _ _ _ _ _ _ _ _ _ _ Hprep Hsp Hrv Hq Hd Hclf) as [Hq' [Hd' [F C]]].
    simpl in Hhz. rewrite Hfind, Hrs0 in Hhz. apply andb_true_iff in Hhz. destruct Hhz as [Hhz1 Hhz'].
    (* the pairs still to come keep their invariant on the rewritten tree g: first hits and class_loc_free by loop_head,
       the rest because the moved node has them too (vg_rel) *)
    assert (Hinv' : Forall (pair_inv i0 g) rest).
    { rewrite Forall_forall in *. intros pr Hin.
      destruct (Hinvr pr Hin) as (n' & pi' & src' & p' & Hf' & Hv' & Hl' & Hfh' & Hclf' & Hhaz' & Hidf' & Hpar').
      exists n', pi', src', p'.
      split; [exact Hf'|]. split; [exact Hv'|]. split; [exact Hl'|].
      split; [rewrite (F pr Hin); exact Hfh'|]. split; [rewrite C; exact Hclf'|]. split; [|split].
      - rewrite const_hazard_nonempty in * by apply dotted_nonempty.
        apply (vg_existsb rs0 _ o g (tr_hazard _) Hrel); [|assumption].
        rewrite forallb_forall in Hhz1. specialize (Hhz1 pr Hin). apply negb_true_iff in Hhz1. exact Hhz1.
      - intros Hs. apply (vg_forallb rs0 _ o g (tr_id _) Hrel (Hid0 (0 :: p'))). apply Hidf'. assumption.
      - intros Hs. apply (vg_existsb rs0 _ o g (tr_parent _) Hrel (Hpar0 _)). apply Hpar'. assumption. }
    destruct (IH g Hinv' Hcg Hd' Hq' Hhz') as [o' [Hl' Hc']].
    exists o'. simpl. rewrite Hsp. simpl. split; assumption.
Qed.

Lemma pair_inv_init : forall x ip op e p0 dst pi0 src,
    ci_eval x = false -> supported (ci_in x) = true ->
    pair_class x ip op = None ->
    resolve (dotted op) (ci_out x) = Some (p0, dst) -> resolve (dotted ip) (ci_in x) = Some (pi0, src) ->
    leaf_pnode src = true ->
    (match find_in_ast_log (dotted ip) (annotate_at [1] (ci_in x)) with Ok (_, []) => true | _ => false end) = true ->
    forallb (class_loc_free (dotted op)) (annotate_at [0] (ci_out x)) = true ->
    pair_inv (annotate_at [1] (ci_in x)) (annotate_at [0] (ci_out x)) (ip, op, e).
Proof.
  intros x ip op e p0 dst pi0 src Hev Hsi Epc Ero Eri Hleaf Hlog Hclf.
  pose proof (resolve_at_some [0] _ _ _ _ (dotted_nonempty op) Ero) as Hro.
  pose proof (resolve_at_some [1] _ _ _ _ (dotted_nonempty ip) Eri) as Hri.
  simpl app in Hro, Hri.
  destruct (pair_class_lookup x ip op Hev Epc) as [Hin Hout]. rewrite Hro in Hout. simpl in Hout.
  destruct (pair_class_none x ip op _ _ _ _ Hev Epc Hri Hro) as [Ehz [Hpd [_ Hpar]]].
  destruct (found_of_resolve [1] _ _ _ _ Hsi Hin Hri) as [n [log [Efind Hview]]].
  rewrite Efind in Hlog. destruct log as [|lg lgs]; [|discriminate].
  exists n, pi0, src, p0. unfold q_of. simpl.
  split; [exact Efind|]. split; [exact Hview|]. split; [exact Hleaf|]. split; [exact Hout|]. split; [exact Hclf|].
  split; [exact Ehz|]. split.
  - intros Hpa. rewrite Hpa in Hpd. destruct dst as [dm|ds|da]; try discriminate.
    exact (arg_free_module _ _ _ _ _ Hro).
  - intros Hps. rewrite Hps in Hpd. exact (Hpar Hpd).
Qed.

Lemma pair_inv_all : forall x, ci_eval x = false -> supported (ci_in x) = true ->
    forall ips ops evs,
      all_pairs_clean x ips ops = true ->
      all_some (map (fun op => option_map fst (resolve (dotted op) (ci_out x))) ops) = true ->
      all_some (map (fun ip => resolve (dotted ip) (ci_in x)) ips) = true ->
      forallb (fun o => match o with Some (_, n) => leaf_pnode n | None => true end)
              (map (fun ip => resolve (dotted ip) (ci_in x)) ips) = true ->
      forallb (fun ip => match find_in_ast_log (dotted ip) (annotate_at [1] (ci_in x)) with
                         | Ok (_, []) => true | _ => false end) ips = true ->
      forallb (fun op => forallb (class_loc_free (dotted op)) (annotate_at [0] (ci_out x))) ops = true ->
      Forall (pair_inv (annotate_at [1] (ci_in x)) (annotate_at [0] (ci_out x))) (zip3 ips ops evs).
Proof.
  intros x Hev Hsi ips. induction ips as [|ip ips IH]; intros ops evs Hc Hro Hri Hlf Hlg Hcl; [constructor|].
  destruct ops as [|op ops]; [constructor|].
  simpl in Hc. destruct (pair_class x ip op) eqn:Epc; [discriminate|].
  unfold all_some in Hro, Hri. simpl in Hro, Hri, Hlf, Hlg, Hcl.
  apply andb_true_iff in Hro. destruct Hro as [Hro1 Hro2].
  apply andb_true_iff in Hri. destruct Hri as [Hri1 Hri2].
  apply andb_true_iff in Hlf. destruct Hlf as [Hlf1 Hlf2].
  apply andb_true_iff in Hlg. destruct Hlg as [Hlg1 Hlg2].
  apply andb_true_iff in Hcl. destruct Hcl as [Hcl1 Hcl2].
  destruct (resolve (dotted op) (ci_out x)) as [[p0 dst]|] eqn:Ero; simpl in Hro1; [|discriminate].
  destruct (resolve (dotted ip) (ci_in x)) as [[pi0 src]|] eqn:Eri; [|discriminate].
  assert (Hrest : Forall (pair_inv (annotate_at [1] (ci_in x)) (annotate_at [0] (ci_out x))) (zip3 ips ops (tl evs))).
  { apply IH; assumption. }
  simpl. destruct evs as [|ev evs]; constructor; try exact Hrest;
    exact (pair_inv_init x ip op _ p0 dst pi0 src Hev Hsi Epc Ero Eri Hlf1 Hlg1 Hcl1).
Qed.

Lemma zip3_forallb : forall (P : loc -> bool) ips ops evs,
    forallb (fun op' => P (dotted op')) ops = true -> forallb (fun pr' => P (q_of pr')) (zip3 ips ops evs) = true.
Proof.
  intros P ips. induction ips as [|ip ips IH]; intros ops evs H; [reflexivity|].
  destruct ops as [|op ops]; [reflexivity|]. simpl in H. apply andb_true_iff in H. destruct H as [H1 H2].
  simpl. destruct evs as [|ev evs]; simpl; unfold q_of at 1; simpl; rewrite H1; apply IH; assumption.
Qed.

Lemma hz_of_hazard_free : forall x ips ops evs, hazard_free_pairs x ips ops = true ->
    hz_pairs (annotate_at [1] (ci_in x)) (zip3 ips ops evs) = true.
Proof.
  intros x ips. induction ips as [|ip ips IH]; intros ops evs H; [reflexivity|].
  destruct ops as [|op ops]; [reflexivity|]. simpl in H. apply andb_true_iff in H. destruct H as [H1 H2].
  assert (Hhead : forall rest' : list (str * str * evald), rest' = zip3 ips ops (tl evs) ->
             match find_in_ast_log (dotted ip) (annotate_at [1] (ci_in x)) with
             | Ok (Some n, _) =>
               match node_as_stmt n with
               | Ok s => forallb (fun pr' => negb (stmt_hazard (last (q_of pr') []) s)) rest'
               | Err _ => true
               end
             | _ => true
             end = true).
  { intros rest' E. subst rest'. unfold in_stmt in H1.
    destruct (find_in_ast_log (dotted ip) (annotate_at [1] (ci_in x))) as [[[n|] lg]|er]; try reflexivity.
    destruct (node_as_stmt n) as [s|er]; [|reflexivity].
    apply (zip3_forallb (fun q => negb (stmt_hazard (last q []) s))). exact H1. }
  simpl. destruct evs as [|ev evs]; simpl.
  - rewrite (Hhead (zip3 ips ops []) eq_refl). simpl. apply IH. assumption.
  - rewrite (Hhead (zip3 ips ops evs) eq_refl). simpl. apply IH. assumption.
Qed.

Lemma run_multi : forall x i0 o0 o' i',
    ast_parse [1] (ci_in x) = Ok i0 -> ast_parse [0] (ci_out x) = Ok o0 ->
    Nat.eqb (List.length (ci_ips x)) (List.length (ci_ops x)) = true ->
    sync_loop (ci_env x) (ci_eval x) (ci_wrap x) (zip3 (ci_ips x) (ci_ops x) (ci_evs x)) i0 o0 = Ok (o', i') ->
    emit_file o' = Ok [EvWrite FOutput o'] ->
    run_C14 x = ([EvWrite FOutput o'], Ok tt).
Proof.
  intros x i0 o0 o' i' Hi Ho Hl Hs He. unfold run_C14, sync_properties. rewrite Hi, Ho. cbn [bind].
  rewrite Hl. cbn [negb]. rewrite Hs. cbn [bind fst]. rewrite He. reflexivity.
Qed.

Theorem C14_multi_total_lemma : forall x, guard_C14_multi_total x = true -> C14_multi_total_holds x.
Proof.
  intros x Hg. unfold guard_C14_multi_total in Hg.
  apply andb_true_iff in Hg. destruct Hg as [Hg Hhzf].
  apply andb_true_iff in Hg. destruct Hg as [Hg Hlogs].
  apply andb_true_iff in Hg. destruct Hg as [Hg Hnw].
  apply andb_true_iff in Hg. destruct Hg as [Hgm Hres].
  destruct (guard_multi_inv x Hgm) as (Hdom & Hev & Hlen & Hclean & Hd & Hclf & Hquiet).
  destruct (domain_facts x Hdom) as [Hsi [Hso [Hleq [_ [Hleafin _]]]]].
  unfold no_wrap in Hnw. destruct (ci_wrap x) as [w|] eqn:Ew; [discriminate|].
  unfold addresses_resolve in Hres. rewrite Hev in Hres. simpl in Hres.
  apply andb_true_iff in Hres. destruct Hres as [Hres1 Hres2].
  pose proof (pair_inv_all x Hev Hsi (ci_ips x) (ci_ops x) (ci_evs x) Hclean Hres1 Hres2 Hleafin Hlogs Hclf) as Hinv.
  destruct (multi_success_loop (ci_env x) _ _ _ Hinv (annotate_clean [0] (ci_out x)) Hd Hquiet
                               (hz_of_hazard_free x _ _ _ Hhzf)) as [o' [Hl Hc]].
  assert (Hrun : run_C14 x = ([EvWrite FOutput o'], Ok tt)).
  { apply (run_multi x (annotate_at [1] (ci_in x)) (annotate_at [0] (ci_out x)) o' (annotate_at [1] (ci_in x))).
    - unfold ast_parse. rewrite Hsi. reflexivity.
    - unfold ast_parse. rewrite Hso. reflexivity.
    - assumption.
    - rewrite Hev, Ew. exact Hl.
    - apply clean_emit. assumption. }
  exists o'. split; [assumption|]. apply C14_multi_lemma; [assumption|]. rewrite Hrun. reflexivity.
Qed.

(* input:  class K:  lr: int = 3 ;  def m(self, a: int, b=4, *, k: int = 1): pass *)
Definition w_in_cls : module :=
  [SClass (L "K") []
          [SAnnAssign (EName (L "lr")) (EName (L "int")) (Some (EConst (VInt 3)));
           w_fn (L "m") [w_arg (L "self") None; w_arg (L "a") (Some (L "int")); w_arg (L "b") None] [EConst (VInt 4)]
                [w_arg (L "k") (Some (L "int"))] [Some (EConst (VInt 1))]] []].
(* output: a docstring ;  class Cfg:  lr: float = 5 ; q = 0 ;  def train(x, y: int = 2, *, opt): pass ;  return *)
Definition w_out_cls : module :=
  [SExpr (EConst (VStr (L "Doc.")));
   SClass (L "Cfg") [] [SAnnAssign (EName (L "lr")) (EName (L "float")) (Some (EConst (VInt 5)));
                        SAssign [EName (L "q")] (EConst (VInt 0))] [];
   w_fn (L "train") [w_arg (L "x") None; w_arg (L "y") (Some (L "int"))] [EConst (VInt 2)] [w_arg (L "opt") None] [None];
   SReturn None].
Definition w_opt : option str := Some (L "Optional[{output_param}]").

(* the side conditions of guard_C14_total beyond guard_C14 *)
Definition x_no_tables : c14_input := mkC14 (mkEnv [] []) false w_in [L "f.a"] w_out [L "g.x"] w_opt [].
Definition w_out_shadow : module :=
  [w_fn (L "C") [w_arg (L "z") None] [] [] []; SClass (L "C") [] [SAssign [EName (L "z")] (EConst (VInt 1))] []].

Definition x_multi3 (w : option str) : c14_input :=
  w_call w_in_cls [L "K.lr"; L "K.m.a"; L "K.m.k"] w_out_cls [L "Cfg.lr"; L "train.x"; L "train.opt"] w.
Definition w_in_ff : module := [w_fn (L "f") [w_arg (L "a") (Some (L "int")); w_arg (L "b") (Some (L "int"))] [] [] []].
Definition w_out_ff : module := [w_fn (L "f") [w_arg (L "a") None; w_arg (L "b") None] [] [] []].
Definition is_write (r : list event * outcome unit) : bool :=
  match r with ([EvWrite FOutput _], Ok _) => true | _ => false end.

Definition x_mt_mixed : c14_input :=
  w_call w_in_cls [L "K.lr"; L "K.m.a"; L "K.m.b"] w_out_cls [L "Cfg.q"; L "train.opt"; L "train.y"] None.
Definition w_in_hz : module :=
  [SClass (L "K") [] [SAnnAssign (EName (L "lr")) (EName (L "str")) (Some (EConst (VStr (L "x"))));
                      SAnnAssign (EName (L "m")) (EName (L "int")) None] []].
Definition w_out_hz : module :=
  [SClass (L "Cfg") [] [SAnnAssign (EName (L "lr")) (EName (L "float")) None;
                        SAnnAssign (EName (L "x")) (EName (L "float")) None] []].
Definition x_hz : c14_input := w_call w_in_hz [L "K.lr"; L "K.m"] w_out_hz [L "Cfg.lr"; L "Cfg.x"] None.

Lemma C14_multi_total_nonvacuous_lemma :
  guard_C14_multi_total x_mt_mixed = true /\ C14_at_b x_mt_mixed = true
  /\ guard_C14_multi_total (w_call w_in_ff [L "f.a"; L "f.b"] w_out_ff [L "f.a"; L "f.b"] None) = true
  /\ guard_C14_multi_total (w_call w_in_cls [L "K.lr"; L "K.m.a"] w_out_cls [L "Cfg.lr"; L "train.x"] None) = true.
Proof. repeat apply conj; vm_compute; reflexivity. Qed.

Lemma guard_multi_total_multi : forall x, guard_C14_multi_total x = true -> guard_C14_multi x = true.
Proof.
  intros x H. unfold guard_C14_multi_total in H. do 4 (apply andb_true_iff in H; destruct H as [H _]). exact H.
Qed.

Lemma C14_multi_nonvacuous_lemma :
  guard_C14_multi (x_multi3 None) = true /\ is_write (run_C14 (x_multi3 None)) = true /\ C14_at_b (x_multi3 None) = true
  /\ guard_C14_multi (x_multi3 w_opt) = true /\ is_write (run_C14 (x_multi3 w_opt)) = true
  /\ C14_at_b (x_multi3 w_opt) = true
  (* the same input parameter for two outputs, no template *)
  /\ guard_C14_multi (w_call w_in [L "f.a"; L "f.a"] w_out [L "g.x"; L "g.y"] None) = true
  (* the same names in both files *)
  /\ guard_C14_multi (w_call w_in_ff [L "f.a"; L "f.b"] w_out_ff [L "f.a"; L "f.b"] None) = true
  /\ C14_at_b (w_call w_in_ff [L "f.a"; L "f.b"] w_out_ff [L "f.a"; L "f.b"] None) = true.
Proof.
  destruct C14_multi_total_nonvacuous_lemma as (_ & _ & Hff & _). rewrite (guard_multi_total_multi _ Hff).
  repeat apply conj; vm_compute; reflexivity.
Qed.

(* three inputs outside guard_C14_multi on which several-pairs-on-unreannotated-tree shows *)
Definition w_in_g : module := [w_fn (L "g") [w_arg (L "y") (Some (L "int"))] [] [] []].
Definition w_out_g : module := [w_fn (L "g") [w_arg (L "x") None; w_arg (L "y") None] [] [] []].
Definition x_same_output : c14_input := w_call w_in [L "f.a"; L "f.a"] w_out [L "g.x"; L "g.x"] None.
Definition x_moved_hit : c14_input := w_call w_in_g [L "g.y"; L "g.y"] w_out_g [L "g.x"; L "g.y"] None.
Definition x_swap : c14_input := w_call w_in_ff [L "f.b"; L "f.a"] w_out_ff [L "f.a"; L "f.b"] None.

Lemma C14_multi_total_side_conditions :
  (* a moved node holding a string constant equal to the last segment of a later address: the model declines *)
  (guard_C14_multi x_hz = true /\ addresses_resolve x_hz = true /\ logs_empty x_hz = true
   /\ hazard_free_pairs x_hz (ci_ips x_hz) (ci_ops x_hz) = false /\ run_C14 x_hz = ([], Err Unmodelled))
  (* logs_empty (and no_wrap) restrict the PROOF, not the truth: an input argument with a default still succeeds *)
  /\ (guard_C14_multi (x_multi3 None) = true /\ logs_empty (x_multi3 None) = false
      /\ is_write (run_C14 (x_multi3 None)) = true).
Proof.
  destruct C14_multi_nonvacuous_lemma as (G3 & W3 & _). rewrite G3, W3.
  repeat apply conj; vm_compute; reflexivity.
Qed.
