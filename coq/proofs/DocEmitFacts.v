(* DocEmitFacts: structural lemmas about model/DocEmit.v.
   - the exact shape of emit.docstring(ir, "rest", word_wrap=False): [emit_docstring_rest_off];
   - what the blocks are for the usual parameter shapes; indent_all_but_first on one-line text;
   - word_wrap is irrelevant where the code does not consult it (Google parameter lines);
   - emit_param_str, to_docstring and emit.docstring return the caller's param / IR as it was. *)
From Coq Require Import List Ascii Bool Arith Lia.
From Coq Require String.
Import String.StringSyntax.
From DT Require Import PyStr Sexp PyVal TyExpr Extracted PureUtils Defaults PyAst IR Fill DocEmit C17Spec
     PyStrFacts SplitFacts DefaultsFacts FillFacts.
Import ListNotations.

Lemma bind_Ok : forall {A B} (a : A) (f : A -> outcome B), bind (Ok a) f = f a.
Proof. reflexivity. Qed.

Lemma bind_Err : forall {A B} e (f : A -> outcome B), bind (Err e) f = Err e.
Proof. reflexivity. Qed.

(* H : do a <- x; ... = Ok _ : every outcome bound on the way is an Ok *)
Ltac bind_chain H :=
  repeat match type of H with
         | bind ?x _ = _ => destruct x; [cbn [bind] in H|discriminate H]
         end.

Lemma mapM_id : forall w ls, mapM (fill_or_id false w) ls = Ok ls.
Proof.
  intros w ls. induction ls as [|x r IH]; [reflexivity|].
  cbn [mapM fill_or_id bind]. rewrite IH. reflexivity.
Qed.

Lemma truthy_fld_Some : forall f s, truthy_fld f = Some s -> f = Has s /\ s <> [].
Proof.
  intros f s H. destruct f as [| |a]; try discriminate. destruct a as [|c r]; [discriminate|].
  inversion H; subst. split; [reflexivity|discriminate].
Qed.

Lemma truthy_fld_Has : forall c r, truthy_fld (Has (c :: r)) = Some (c :: r).
Proof. reflexivity. Qed.

Lemma set_default_doc_typ : forall name p edd p', set_default_doc name p edd = Ok p' -> p_typ p' = p_typ p.
Proof.
  intros name p edd p' H. unfold set_default_doc in H.
  destruct (p_doc p) as [| |doc]; [now inversion H|discriminate|].
  destruct ((contains (L "Defaults") doc || contains (L "defaults") doc) && negb edd).
  - destruct (extract_default doc true default_announces None false) as [r|e]; [|discriminate].
    cbn [bind] in H. now inversion H.
  - destruct (p_default p) as [dflt|]; [|now inversion H].
    destruct (negb (contains (L "Defaults") doc || contains (L "defaults") doc) && edd); [|now inversion H].
    match type of H with context [if ?c then _ else _] => destruct c end; [|now inversion H].
    destruct (last_c doc); [|discriminate].
    match type of H with context [shown_default ?a ?b] => destruct (shown_default a b) as [sv|e] end;
      [|discriminate].
    cbn [bind] in H. now inversion H.
Qed.

Lemma sdd_doc_typ : forall name p edd d p', sdd_doc name p edd = Ok (d, p') -> p_typ p' = p_typ p /\ p_doc p' = Has d.
Proof.
  intros name p edd d p' H. unfold sdd_doc in H.
  destruct (set_default_doc name p edd) as [q|e] eqn:E; [|discriminate]. cbn [bind] in H.
  destruct (p_doc q) as [| |dq] eqn:Eq; try discriminate. inversion H; subst.
  split; [now apply (set_default_doc_typ name p edd)|assumption].
Qed.

Lemma rest_raw_lines_block : forall name p edd,
    rest_raw_lines name p true true edd =
    do bp <- rest_block_of edd name p; Ok (block_lines (fst bp), snd bp).
Proof.
  intros name p edd. unfold rest_raw_lines, rest_block_of.
  destruct (truthy_fld (p_doc p)) as [d|].
  - destruct (sdd_doc name p edd) as [[d' p']|e]; [|reflexivity].
    cbn [bind fst snd]. unfold block_lines. cbn [rb_name rb_doc rb_typ option_map].
    destruct (truthy_fld (p_typ p')); reflexivity.
  - cbn [bind fst snd]. unfold block_lines. cbn [rb_name rb_doc rb_typ option_map].
    destruct (truthy_fld (p_typ p)); reflexivity.
Qed.

(* emit_param_str works on a copy of the param: the caller's param comes back as it was *)
Lemma emit_param_str_pure : forall w name p st ed et ww edd t p',
    emit_param_str w name p st ed et ww edd = Ok (t, p') -> p' = p.
Proof.
  intros w name p st ed et ww edd t p' H. unfold emit_param_str in H. destruct st.
  - destruct (rest_raw_lines name p ed et edd) as [lp|e]; [|discriminate]. cbn [bind] in H.
    destruct (mapM (fill_or_id ww w) (fst lp)) as [f|e]; [|discriminate]. cbn [bind] in H. now inversion H.
  - bind_chain H. now inversion H.
  - bind_chain H. now inversion H.
Qed.

Lemma emit_items_pure : forall {A} (f : str -> param -> outcome (A * param)) ps xs ps',
    (forall k p t p', f k p = Ok (t, p') -> p' = p) ->
    emit_items f ps = Ok (xs, ps') -> ps' = ps.
Proof.
  intros A f ps. induction ps as [|[k p] r IH]; intros xs ps' Hf H.
  - cbn [emit_items] in H. now inversion H.
  - cbn [emit_items] in H. destruct (f k p) as [[t p1]|e] eqn:E1; [|discriminate]. cbn [bind fst snd] in H.
    destruct (emit_items f r) as [[ts r1]|e] eqn:E2; [|discriminate]. cbn [bind fst snd] in H.
    inversion H; subst. rewrite (Hf k p t p1 E1). now rewrite (IH ts r1 Hf eq_refl).
Qed.

Lemma emit_param_str_rest_off : forall w name p edd,
    emit_param_str w name p Rest true true false edd =
    do bp <- rest_block_of edd name p; Ok (rest_entry_text (fst bp), p).
Proof.
  intros w name p edd. unfold emit_param_str. rewrite rest_raw_lines_block.
  destruct (rest_block_of edd name p) as [[b p']|e]; [|reflexivity].
  cbn [bind fst snd]. rewrite mapM_id. reflexivity.
Qed.

Lemma emit_items_rest_off : forall w edd ps,
    emit_items (fun k p => emit_param_str w k p Rest true true false edd) ps =
    do r <- emit_items (rest_block_of edd) ps; Ok (map rest_entry_text (fst r), ps).
Proof.
  intros w edd ps. induction ps as [|[k p] r IH]; [reflexivity|].
  cbn [emit_items]. rewrite emit_param_str_rest_off.
  destruct (rest_block_of edd k p) as [[b p']|e]; [|reflexivity].
  cbn [bind fst snd]. rewrite IH.
  destruct (emit_items (rest_block_of edd) r) as [[bs ps']|e]; reflexivity.
Qed.

(* emit.docstring(ir, "rest", word_wrap=False) is the text of the IR's blocks; a doc of None is
   printed as "None" *)
Theorem emit_docstring_rest_off : forall w edd i,
    emit_docstring w Rest false edd i =
    do b <- rest_blocks_of_ir edd i;
    Ok (text_of_blocks (fst (fst (fst b))) (snd (fst (fst b))) (snd (fst b)), snd b).
Proof.
  intros w edd i. unfold emit_docstring, rest_blocks_of_ir.
  destruct (params_of (ir_params i)) as [ps|]; [|reflexivity].
  destruct (ir_doc i) as [| |d]; try reflexivity.
  all: cbn [bind fill_or_id]; rewrite emit_items_rest_off.
  all: destruct (emit_items (rest_block_of edd) ps) as [[bs ps']|e]; [|reflexivity].
  all: cbn [bind fst snd]; destruct (ir_returns i) as [| |g].
  all: try (cbn [bind fst snd]; unfold text_of_blocks; destruct (map rest_entry_text bs); reflexivity).
  all: destruct (param_of_gparam g) as [p|]; [|reflexivity].
  all: rewrite emit_param_str_rest_off.
  all: destruct (rest_block_of edd (L "return_type") p) as [[rb p']|e]; [|reflexivity].
  all: cbn [bind fst snd]; unfold text_of_blocks; destruct (map rest_entry_text bs); reflexivity.
Qed.

Lemma indent_all_but_first_one_line : forall c r n,
    ~ In nl (c :: r) -> isspace c = false -> indent_all_but_first (c :: r) n false = c :: r.
Proof.
  intros c r n Hn Hc. destruct (iabf_eq (c :: r) n) as [l0 [rest [El E]]]. rewrite E.
  rewrite (split_c_no_sep_id nl (c :: r) Hn) in El. cbn [indent_lines forallb] in El.
  rewrite Hc in El. cbn [andb] in El. injection El as El0 Erest. subst l0 rest. cbn [join].
  unfold lstrip, lstrip_by. rewrite dropwhile_app_all by (apply repeat_str_forallb; reflexivity).
  cbn [dropwhile]. rewrite Hc. reflexivity.
Qed.

Lemma colon_not_space : isspace (ch 58) = false.
Proof. reflexivity. Qed.

Lemma rest_doc_line_head : forall name d, exists r, rest_doc_line name d = ch 58 :: r.
Proof. intros name d. unfold rest_doc_line. eexists. reflexivity. Qed.

Lemma rest_typ_line_head : forall name t, exists r, rest_typ_line name t = ch 58 :: r.
Proof. intros name t. unfold rest_typ_line. eexists. reflexivity. Qed.

Lemma iabf_rest_doc_line : forall name d, ~ In nl (rest_doc_line name d) ->
    indent_all_but_first (rest_doc_line name d) 1 false = rest_doc_line name d.
Proof.
  intros name d H. destruct (rest_doc_line_head name d) as [r E]. rewrite E in *.
  apply indent_all_but_first_one_line; [assumption|reflexivity].
Qed.

Lemma iabf_rest_typ_line : forall name t, ~ In nl (rest_typ_line name t) ->
    indent_all_but_first (rest_typ_line name t) 1 false = rest_typ_line name t.
Proof.
  intros name t H. destruct (rest_typ_line_head name t) as [r E]. rewrite E in *.
  apply indent_all_but_first_one_line; [assumption|reflexivity].
Qed.

Lemma rest_entry_text_two_lines : forall name d t,
    ~ In nl (rest_doc_line name d) -> ~ In nl (rest_typ_line name t) ->
    rest_entry_text (mkBlock name (Some d) (Some t)) = rest_doc_line name d ++ [nl] ++ rest_typ_line name t.
Proof.
  intros name d t Hd Ht. unfold rest_entry_text, block_lines.
  cbn [rb_name rb_doc rb_typ option_map cat_options map].
  rewrite iabf_rest_doc_line, iabf_rest_typ_line by assumption. reflexivity.
Qed.

Lemma rest_entry_text_doc_only : forall name d,
    ~ In nl (rest_doc_line name d) ->
    rest_entry_text (mkBlock name (Some d) None) = rest_doc_line name d.
Proof.
  intros name d Hd. unfold rest_entry_text, block_lines.
  cbn [rb_name rb_doc rb_typ option_map cat_options map].
  rewrite iabf_rest_doc_line by assumption. reflexivity.
Qed.

Lemma rest_entry_text_typ_only : forall name t,
    ~ In nl (rest_typ_line name t) ->
    rest_entry_text (mkBlock name None (Some t)) = rest_typ_line name t.
Proof.
  intros name t Ht. unfold rest_entry_text, block_lines.
  cbn [rb_name rb_doc rb_typ option_map cat_options map].
  rewrite iabf_rest_typ_line by assumption. reflexivity.
Qed.

Lemma rest_entry_text_empty : forall name, rest_entry_text (mkBlock name None None) = [].
Proof. reflexivity. Qed.

(* no default: the prose is written as it is (emit_default_doc on) *)
Lemma rest_block_of_no_default : forall name c r t,
    rest_block_of true name (mkParam (Has (c :: r)) t None) =
    Ok (mkBlock name (Some (c :: r)) (truthy_fld t), mkParam (Has (c :: r)) t None).
Proof.
  intros name c r t. unfold rest_block_of. cbn [p_doc truthy_fld].
  unfold sdd_doc. rewrite set_default_doc_no_default by (cbn; congruence || discriminate).
  reflexivity.
Qed.

(* a default and prose that does not mention defaults: the sentence is appended *)
Lemma rest_block_of_default : forall name d l t v sv,
    last_c d = Some l ->
    contains (L "Defaults") d || contains (L "defaults") d = false ->
    (let v' := if pyval_eqb v (VStr NoneStr) then VNone else v in
     negb (pyval_eqb v' VNone) || negb (endswith (L "kwargs") name) = true
     /\ shown_default v' t = Ok sv) ->
    rest_block_of true name (mkParam (Has d) (fld_of_opt t) (Some v)) =
    let d' := (if ascii_eqb l (ch 46) || ascii_eqb l (ch 44) then d else d ++ [ch 46])
              ++ L " Defaults to " ++ py_str sv in
    Ok (mkBlock name (Some d') (truthy_fld (fld_of_opt t)),
        mkParam (Has d') (fld_of_opt t) (Some (if pyval_eqb v (VStr NoneStr) then VNone else v))).
Proof.
  intros name d l t v sv Hl Hdef Hv. unfold rest_block_of. cbn [p_doc].
  destruct d as [|c r]; [discriminate|]. cbn [truthy_fld].
  unfold sdd_doc. rewrite (set_default_doc_writes name (c :: r) l t v sv Hl Hdef Hv).
  reflexivity.
Qed.

(* emit_default_doc off and prose that announces nothing: written as it is, whatever the default *)
Lemma rest_block_of_edd_off : forall name c r t v,
    no_announce (c :: r) = true ->
    rest_block_of false name (mkParam (Has (c :: r)) t v) =
    Ok (mkBlock name (Some (c :: r)) (truthy_fld t), mkParam (Has (c :: r)) t v).
Proof.
  intros name c r t v Hno. unfold rest_block_of. cbn [p_doc truthy_fld].
  unfold sdd_doc. rewrite (set_default_doc_no_announce name _ (c :: r)) by (reflexivity || assumption).
  reflexivity.
Qed.

(* no prose: only the type line; the entry is returned untouched *)
Lemma rest_block_of_no_doc : forall edd name p,
    truthy_fld (p_doc p) = None ->
    rest_block_of edd name p = Ok (mkBlock name None (truthy_fld (p_typ p)), p).
Proof. intros edd name p H. unfold rest_block_of. rewrite H. reflexivity. Qed.

Lemma emit_param_str_google_wrap_irrelevant : forall w name p ed et edd,
    emit_param_str w name p Google ed et true edd = emit_param_str w name p Google ed et false edd.
Proof. reflexivity. Qed.

Lemma emit_items_ext : forall {A} (f g : str -> param -> outcome (A * param)) ps,
    (forall k p, In (k, p) ps -> f k p = g k p) -> emit_items f ps = emit_items g ps.
Proof.
  intros A f g ps. induction ps as [|[k p] r IH]; intros H; [reflexivity|].
  cbn [emit_items]. rewrite (H k p) by now left.
  destruct (g k p) as [sp|e]; [|reflexivity]. cbn [bind].
  rewrite IH; [reflexivity|]. intros k' p' Hin. apply H. now right.
Qed.

Lemma to_docstring_pure : forall w i edd st il et est ww t i',
    to_docstring w i edd st il et est ww = Ok (t, i') -> i' = i.
Proof.
  intros w i edd st il et est ww t i' H. unfold to_docstring in H.
  destruct st; try discriminate.
  destruct (params_of (ir_params i)) as [ps|]; [|discriminate].
  match type of H with context [match ?x with Some _ => _ | None => _ end] => destruct x as [ret|] end;
    [|discriminate].
  bind_chain H. now inversion H.
Qed.

(* plain form of the premise [doc_pure] of props/C13.v (proofs/DocEmitPure.v states it in that shape) *)
Theorem emit_docstring_pure : forall w st ww edd i t i',
    emit_docstring w st ww edd i = Ok (t, i') -> i' = i.
Proof.
  intros w st ww edd i t i' H. unfold emit_docstring in H.
  destruct (params_of (ir_params i)) as [ps|]; [|discriminate].
  bind_chain H. now inversion H.
Qed.

Lemma rest_blocks_of_ir_pure : forall edd i d bs rb i',
    rest_blocks_of_ir edd i = Ok (d, bs, rb, i') -> i' = i.
Proof.
  intros edd i d bs rb i' H. unfold rest_blocks_of_ir in H.
  destruct (params_of (ir_params i)) as [ps|]; [|discriminate].
  bind_chain H. now inversion H.
Qed.
