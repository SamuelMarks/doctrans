(* C07: parsing source code is faithful to Python's own view of it.  The lemmas live in
   proofs/ParseSigFacts.v, proofs/MergeFacts.v and proofs/C07Facts.v.  Model of /repo after fixes cc5b15e
   (signature order), 14f8a19 (AST defaults first), e642f10 (get_value Not).
   The full statement is still FALSE of the faithful model (C07_refuted): an undocumented ** parameter
   is dropped (def f(a, **kwargs) parses to a).  What is proved:
   - C07_names: the exact list of names of the result - the signature's positional and keyword-only
     names in source order, then a documented ** parameter - for every set order, every docstring
     (all / some / none documented, in any order), unbounded in the number of parameters; each name once
     (C07_nodup); equal to Python's names in source order IFF an existing ** parameter is documented
     (C07_order_exact); the only name that can be missing is an undocumented ** one (C07_missing_only_kwarg);
     the old order witness now holds (C07_old_order_witness_holds);
   - C07_partial: inside the boolean guard (complement = the named finding classes of C07Spec) the
     whole property holds: names, order, prose attached, documented default/type win, signature
     defaults and annotations fill the gaps. *)
From Coq Require Import List Permutation.
From Coq Require String.
Import String.StringSyntax.
From DT Require Import PyStr PyVal PyAst IR Merge ParseSig C12Spec C07Spec MergeFacts ParseSigFacts C07Facts.
Import ListNotations.

Theorem C07_refuted : ~ C07_statement.
Proof. exact C07_refuted_lemma. Qed.
Print Assumptions C07_refuted.

Theorem C07_partial : forall pi pj d fd, perm_ok pi -> perm_ok pj -> guard_C07 d fd = true -> C07_at pi pj d fd.
Proof. exact C07_partial_lemma. Qed.
Print Assumptions C07_partial.

Theorem C07_names : forall pi pj d fd it ww ft fnm r, C07_domain d fd = true ->
  parse_function pi pj d fd it ww ft fnm = Ok r -> od_keys (ir_params r) = expected_names d fd.
Proof. exact parse_function_names. Qed.
Print Assumptions C07_names.

Theorem C07_nodup : forall pi pj d fd it ww ft fnm r, C07_domain d fd = true ->
  parse_function pi pj d fd it ww ft fnm = Ok r -> NoDup (od_keys (ir_params r)).
Proof. exact parse_function_names_NoDup. Qed.
Print Assumptions C07_nodup.

Theorem C07_order_exact : forall d fd, C07_domain d fd = true ->
  (expected_names d fd = sig_names fd <-> order_guard d fd = true).
Proof. exact order_guard_iff. Qed.
Print Assumptions C07_order_exact.

(* names and source order for every function, every docstring: only the ** parameter is conditional *)
Theorem C07_names_in_source_order : forall pi pj d fd it ww ft fnm r, C07_domain d fd = true ->
  order_guard d fd = true ->
  parse_function pi pj d fd it ww ft fnm = Ok r -> od_keys (ir_params r) = sig_names fd.
Proof. exact C07_names_lemma. Qed.
Print Assumptions C07_names_in_source_order.

Theorem C07_no_kwarg : forall pi pj d fd it ww ft fnm r a, C07_domain d fd = true ->
  fd_arguments fd = Some a -> kwarg_name a = None ->
  parse_function pi pj d fd it ww ft fnm = Ok r -> od_keys (ir_params r) = sig_names fd.
Proof. exact C07_names_no_kwarg. Qed.
Print Assumptions C07_no_kwarg.

Theorem C07_kwarg_documented : forall pi pj d fd it ww ft fnm r a, C07_domain d fd = true ->
  fd_arguments fd = Some a -> kwarg_documented d a fd = true ->
  parse_function pi pj d fd it ww ft fnm = Ok r -> od_keys (ir_params r) = sig_names fd.
Proof. exact C07_names_kwarg_documented. Qed.
Print Assumptions C07_kwarg_documented.

Theorem C07_missing_only_kwarg : forall pi pj d fd it ww ft fnm r a, C07_domain d fd = true ->
  fd_arguments fd = Some a -> parse_function pi pj d fd it ww ft fnm = Ok r ->
  od_keys (ir_params r) = sig_names fd
  \/ (exists k, kwarg_name a = Some k /\ sig_names fd = od_keys (ir_params r) ++ [k]).
Proof. exact C07Facts.C07_missing_only_kwarg. Qed.
Print Assumptions C07_missing_only_kwarg.

Theorem C07_undocumented : forall pi pj d fd it ww ft fnm r, C07_domain d fd = true ->
  doc_names d fd = nil -> (match fd_arguments fd with Some a => kwarg_name a = None | None => False end) ->
  parse_function pi pj d fd it ww ft fnm = Ok r -> od_keys (ir_params r) = sig_names fd.
Proof. exact C07_names_undocumented. Qed.
Print Assumptions C07_undocumented.

(* def f(a, b) documenting only b: refuted the statement before fix cc5b15e, inside the guard now *)
Theorem C07_old_order_witness_holds : guard_C07 old_wit_doc old_wit_fd = true
  /\ exists r, parse_default id_perm id_perm old_wit_doc old_wit_fd = Ok r /\ od_keys (ir_params r) = [L "a"; L "b"].
Proof. split; [vm_compute; reflexivity|]. eexists. split; vm_compute; reflexivity. Qed.
Print Assumptions C07_old_order_witness_holds.

(* what Python sees: positional and keyword-only names in source order, then the ** one *)
Theorem C07_py_signature_names : forall n a b dc r, fd_facts a ->
  sig_names (SFunc n a b dc r) = sig_pos_names a ++ opt_list (kwarg_name a).
Proof. exact sig_names_spec. Qed.
Print Assumptions C07_py_signature_names.

(* a class merged with its __init__: names of the merged interface; the __init__ parameters keep their
   order when the class attributes shared with it are, in class order, a prefix of them *)
Theorem C07_class_merge_names : forall pi pj t inner r, NoDup (od_keys (ir_params inner)) ->
  ir_merge pi pj t inner = Ok r ->
  od_keys (ir_params r) = class_merged_names (od_keys (ir_params t)) (od_keys (ir_params inner)).
Proof.
  intros pi pj t inner r Hnd H. apply ir_merge_params in H.
  unfold class_merged_names. apply (merge_params_keys pi _ _ _ Hnd H).
Qed.
Print Assumptions C07_class_merge_names.

Theorem C07_class_order : forall tnames inames, NoDup inames ->
  class_order_guard tnames inames = true -> init_names_in_merged tnames inames = inames.
Proof. exact class_order_lemma. Qed.
Print Assumptions C07_class_order.

Example C07_witness_class : finding_class_C07 wit_doc wit_fd = Some K_kwargs_undocumented.
Proof. vm_compute. reflexivity. Qed.
Print Assumptions C07_witness_class.

Example C07_nonvacuous :
  guard_C07 nv_doc nv_fd = true /\ List.length (sig_names nv_fd) = 4 /\ List.length (doc_names nv_doc nv_fd) = 3.
Proof. split; [vm_compute; reflexivity|]. split; vm_compute; reflexivity. Qed.
Print Assumptions C07_nonvacuous.
