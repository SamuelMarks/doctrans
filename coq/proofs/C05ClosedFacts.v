(* C05ClosedFacts: C05 (any chain preserves the interface) and C08 (one pass normalises) over the concrete converters
   of model/C05Closed.v, on executable domains, with NO per-kind law hypothesis: the five kinds ReST, numpydoc,
   google, class, argparse on closed_dom; all seven kinds on closed_dom7; a typed return entry over rest / function /
   method on closed_dom_ret.
   The argument, for each domain: on complete descriptions [preserved] determines summary and parameters (and the
   return entry) exactly; the domain looks at a description only through those fields and the shape of the carried
   body; so a conversion stays in the domain as soon as what its parser writes into the other fields (name, type,
   return entry, carried body) is harmless.  For the five kinds each conversion is given in closed form (out_model),
   from the round trips of C01 / C01Ext / C02Ext / C04, and law, chains and the C08 fixed point follow from the
   closed form.  The carried body  return argument_parser  that parse.argparse_ast records is harmless for emit.class_
   and emit.argparse_function (guard_C02_ast / guard_C04_ast alone are NOT closed under the argparse conversion), and
   for emit.function when the argparse function is not named f.  The function / method conversion is proved once, on
   a description that shows only summary, parameters and return entry (conv_fn_on_view), and used for both domains.
   Witnesses: the domains are inhabited; why each conjunct is there; which kind blocks which enlargement. *)
From Coq Require Import List Ascii Bool Arith ZArith Lia.
From Coq Require String.
Import String.StringSyntax.
From DT Require Import PyStr Sexp PyVal TyExpr PureUtils Defaults PyAst IR Extracted C17Spec DocParse C01Spec C05Spec.
From DT Require Import EmitAst ParseAst C02Spec C02Codec C02DocLinkDefs C04Spec C04Codec C05Closed.
From DT Require Import PyStrFacts ParseAstFacts.
From DT Require DefaultsFacts DocParseNG C01SpecNG NGScanLink C02Compose C02DocLink C04Compose C05Facts C08Facts.
From DT Require C03Spec C03Compose C03DocLinkDefs C03DocLinkMain.
Import ListNotations.

Definition no_ret (i : ir) : Prop := forall g, ir_returns i <> Has g.

Lemma no_ret_fld_opt : forall i, no_ret i <-> fld_opt (ir_returns i) = None.
Proof.
  intros i. unfold no_ret. split; intros H.
  - destruct (ir_returns i) as [| |g]; try reflexivity. exfalso. apply (H g). reflexivity.
  - intros g E. rewrite E in H. discriminate H.
Qed.

Lemma fld_str_Has : forall f x, fld_str f = Some x -> f = Has x.
Proof. intros [| |[|c r]] x H; cbn in H; try discriminate. injection H as H. subst. reflexivity. Qed.

Lemma opt_eqb_str_Some : forall x o, opt_eqb str_eqb (Some x) o = true -> o = Some x.
Proof. intros x [y|] H; cbn in H; [|discriminate]. apply str_eqb_eq in H. subst. reflexivity. Qed.

(* an entry with prose, a declared type and a proper default (a parameter of the domain) or none (its return entry):
   preserved_entry leaves no freedom *)
Lemma entry_determined : forall g g', complete_entry g = true \/ complete_return g = true ->
    preserved_entry g g' = true -> g' = g.
Proof.
  intros [gd gt gdef] [gd' gt' gdef'] Hc Hp. unfold complete_entry, complete_return in Hc. cbn [g_doc g_typ g_default] in Hc.
  destruct (fld_str gd) as [x|] eqn:Ed; [|destruct Hc; discriminate].
  destruct (fld_str gt) as [t|] eqn:Et; [|destruct Hc; discriminate].
  apply C05Facts.preserved_entry_split in Hp. destruct Hp as [Ht [Hd Hv]].
  unfold C01Spec.same_typ in Ht. unfold C01Spec.same_prose in Hd. cbn [g_doc g_typ g_default] in *.
  rewrite Et in Ht. rewrite Ed in Hd. apply opt_eqb_str_Some in Ht. apply opt_eqb_str_Some in Hd.
  rewrite (fld_str_Has _ _ Ed), (fld_str_Has _ _ Et), (fld_str_Has _ _ Ht), (fld_str_Has _ _ Hd).
  destruct gdef as [[v|e|r]|], gdef' as [y|]; try discriminate Hv; try (destruct Hc; discriminate); [|reflexivity].
  destruct Hc as [Hc|Hc]; [|discriminate Hc]. apply negb_true_iff in Hc. cbn [same_default_ir] in Hv.
  assert (Hn : none_like_d (DV v) = false) by exact Hc. rewrite Hn in Hv. cbn [andb] in Hv. rewrite orb_false_r in Hv.
  apply C05Facts.dval_eqb_eq in Hv. subst y. reflexivity.
Qed.

Lemma complete_params_eq : forall ps ps',
    forallb (fun kv => complete_entry (snd kv)) ps = true -> preserved_params ps ps' = true -> ps' = ps.
Proof.
  induction ps as [|[n g] ps IH]; intros [|[n' g'] ps'] Hc Hp; try discriminate; [reflexivity|].
  cbn [forallb snd] in Hc. apply andb_true_iff in Hc. destruct Hc as [Hg Hc].
  apply C05Facts.preserved_params_cons in Hp. destruct Hp as [Hn [He Hr]]. subst n'. rewrite (entry_determined g g' (or_introl Hg) He), (IH ps' Hc Hr). reflexivity.
Qed.

Lemma complete_inv : forall i, complete i = true ->
    (exists d, ir_doc i = Has d)
    /\ forallb (fun kv => complete_entry (snd kv)) (ir_params i) = true /\ no_ret i.
Proof.
  intros i H. unfold complete in H.
  apply andb_true_iff in H. destruct H as [H Hr]. apply andb_true_iff in H. destruct H as [H Hf].
  apply andb_true_iff in H. destruct H as [Hd _].
  split; [destruct (ir_doc i) as [| |d]; try discriminate; exists d; reflexivity|]. split; [exact Hf|].
  intros g E. rewrite E in Hr. discriminate.
Qed.

Lemma same_summary_Has : forall i i' d, ir_doc i = Has d -> same_summary i i' = true -> ir_doc i' = Has d.
Proof.
  intros i i' d Hd Hs. unfold same_summary in Hs. rewrite Hd in Hs. cbn [fld_opt] in Hs. apply opt_eqb_str_Some in Hs.
  destruct (ir_doc i') as [| |d']; try discriminate Hs. cbn [fld_opt] in Hs. injection Hs as Hs. subst d'. reflexivity.
Qed.

Theorem complete_preserved_eq : forall i i', complete i = true -> preserved i i' = true ->
    ir_doc i' = ir_doc i /\ ir_params i' = ir_params i /\ no_ret i'.
Proof.
  intros i i' Hc Hp. destruct (complete_inv i Hc) as [[d Hd] [Hf Hnr]].
  apply C05Facts.preserved_split in Hp. destruct Hp as [Hs [Hps Hr]]. split; [|split].
  - rewrite Hd. exact (same_summary_Has i i' d Hd Hs).
  - apply complete_params_eq; assumption.
  - apply no_ret_fld_opt. apply no_ret_fld_opt in Hnr. unfold preserved_returns in Hr. rewrite Hnr in Hr.
    destruct (fld_opt (ir_returns i')); [discriminate|reflexivity].
Qed.

Definition core (i : ir) : ir := mkIR FNone FNone (ir_doc i) (ir_params i) FNone None.

Definition dom_static (o : cenv) (i : ir) : bool :=
  chain_safe closed_kinds i && complete i && guard_C01_rest false i
  && C01SpecNG.guard_C01_ng DocParseNG.SNumpydoc i && C01SpecNG.guard_C01_ng DocParseNG.SGoogle i
  && guard_C02_ast (clear_internal i) && doc_link_ok (ce_w o) (ce_edd o) (ce_ww o) i && guard_C04_ast (clear_internal i).

Lemma closed_dom_split : forall o i, closed_dom o i = dom_static o i && internal_ok i.
Proof. reflexivity. Qed.

Lemma dom_static_core : forall o i, no_ret i -> dom_static o i = dom_static o (core i).
Proof. intros o [n t d ps [| |g] b] H; [reflexivity|reflexivity|]. exfalso. apply (H g). reflexivity. Qed.

Record core_eq (i i' : ir) : Prop := mkCoreEq {
  ce_doc : ir_doc i' = ir_doc i;
  ce_params : ir_params i' = ir_params i;
  ce_ret : no_ret i';
  ce_int : internal_ok i' = true
}.

Lemma core_eq_core : forall i i', core_eq i i' -> core i' = core i.
Proof. intros i i' [Hd Hp _ _]. unfold core. rewrite Hd, Hp. reflexivity. Qed.

Lemma closed_dom_inv : forall o i, closed_dom o i = true ->
    chain_safe closed_kinds i = true /\ complete i = true /\ guard_C01_rest false i = true
    /\ C01SpecNG.guard_C01_ng DocParseNG.SNumpydoc i = true /\ C01SpecNG.guard_C01_ng DocParseNG.SGoogle i = true
    /\ guard_C02_ast (clear_internal i) = true /\ doc_link_ok (ce_w o) (ce_edd o) (ce_ww o) i = true
    /\ guard_C04_ast (clear_internal i) = true /\ internal_ok i = true.
Proof.
  intros o i H. unfold closed_dom in H. do 8 (apply andb_true_iff in H; destruct H as [H ?]). repeat split; assumption.
Qed.

Lemma closed_dom_complete : forall o i, closed_dom o i = true -> complete i = true.
Proof. intros o i H. destruct (closed_dom_inv o i H) as [_ [Hc _]]. exact Hc. Qed.

Lemma closed_dom_internal : forall o i, closed_dom o i = true -> internal_ok i = true.
Proof. intros o i H. destruct (closed_dom_inv o i H) as [_ [_ [_ [_ [_ [_ [_ [_ Hi]]]]]]]]. exact Hi. Qed.

Lemma closed_dom_no_ret : forall o i, closed_dom o i = true -> no_ret i.
Proof. intros o i H. apply (complete_inv i (closed_dom_complete o i H)). Qed.

Lemma closed_dom_preserved_exact : forall o i i', closed_dom o i = true -> preserved i i' = true ->
    ir_doc i' = ir_doc i /\ ir_params i' = ir_params i /\ no_ret i'.
Proof. intros o i i' H Hp. exact (complete_preserved_eq i i' (closed_dom_complete o i H) Hp). Qed.

(* the closure argument, once: a description with the same summary and parameters, no return entry and a harmless
   carried body is in the domain again *)
Theorem closed_dom_core_eq : forall o i i', closed_dom o i = true -> core_eq i i' -> closed_dom o i' = true.
Proof.
  intros o i i' H Hce. pose proof (closed_dom_no_ret o i H) as Hnr. rewrite closed_dom_split in *.
  apply andb_true_iff in H. destruct H as [Hs _]. apply andb_true_iff. split; [|exact (ce_int _ _ Hce)].
  rewrite (dom_static_core o i' (ce_ret _ _ Hce)), (core_eq_core i i' Hce), <- (dom_static_core o i Hnr). exact Hs.
Qed.

Lemma core_eq_preserved : forall o i i', closed_dom o i = true -> core_eq i i' -> preserved i i' = true.
Proof.
  intros o i i' H [Hd Hp Hr _]. apply C05Facts.preserved_of_fields; [exact Hd|exact Hp|].
  apply no_ret_fld_opt in Hr. rewrite Hr. symmetry. apply no_ret_fld_opt. exact (closed_dom_no_ret o i H).
Qed.

Definition argparse_out (o : cenv) (i : ir) : ir :=
  mkIR (fld_of_opt (ce_afn o))
       (Has (match truthy_opt_str (ce_aft o) with Some t => t | None => L "static" end))
       (ir_doc i) (ir_params i) Missing
       (Some (mkInternal argparse_remnant (Has (ce_fn o)) (Has (L "static")))).

Definition docstring_out (i : ir) : ir := mkIR FNone (Has (L "static")) (ir_doc i) (ir_params i) FNone None.

Definition class_out (o : cenv) (i : ir) : ir :=
  mkIR FNone (Has (L "static")) (ir_doc i) (ir_params i) FNone
       (Some (mkInternal [] (Has (ce_cn o)) (Has (L "cls")))).

(* N_k: what one pass of kind k returns on the domain *)
Definition out_model (o : cenv) (k : kind) (i : ir) : ir :=
  match k with
  | KRest | KNumpydoc | KGoogle => docstring_out i
  | KClass => class_out o i
  | KArgparse => argparse_out o i
  | KFunction | KMethod => i
  end.

Lemma out_model_core_eq : forall o k i, closed_kind k = true -> core_eq i (out_model o k i).
Proof.
  intros o k i Hk. destruct k; try discriminate Hk; constructor; try reflexivity; intros g E; discriminate E.
Qed.

Theorem out_model_closed : forall o k i, closed_kind k = true -> closed_dom o i = true ->
    closed_dom o (out_model o k i) = true.
Proof. intros o k i Hk H. exact (closed_dom_core_eq o i _ H (out_model_core_eq o k i Hk)). Qed.

Theorem out_model_idem : forall o k i, out_model o k (out_model o k i) = out_model o k i.
Proof. intros o k i. destruct k; reflexivity. Qed.

Theorem out_model_preserved : forall o k i, closed_kind k = true -> closed_dom o i = true ->
    preserved i (out_model o k i) = true.
Proof. intros o k i Hk H. exact (core_eq_preserved o i _ H (out_model_core_eq o k i Hk)). Qed.

Lemma law_of_closed_form : forall o k i, closed_kind k = true -> closed_dom o i = true ->
    conv_model o k i = Ok (out_model o k i) ->
    exists i', conv_model o k i = Ok i' /\ preserved i i' = true /\ closed_dom o i' = true.
Proof.
  intros o k i Hk H Hc. exists (out_model o k i). split; [exact Hc|].
  split; [exact (out_model_preserved o k i Hk H)|exact (out_model_closed o k i Hk H)].
Qed.

Definition doc_shape (i' : ir) : Prop :=
  ir_name i' = FNone /\ ir_type i' = Has (L "static") /\ ir_internal i' = None
  /\ (ir_returns i' = FNone \/ exists g, ir_returns i' = Has g).

Lemma doc_shape_internal : forall i, doc_shape i -> ir_internal i = None.
Proof. intros i H. apply H. Qed.

Lemma parse_dot_shape : forall t a b c i', parse_dot_docstring ng_unmodelled t a b c = Ok i' -> doc_shape i'.
Proof.
  intros t a b c i' H. unfold parse_dot_docstring, parse_docstring in H.
  destruct t as [|ch0 t]; [injection H as H; subst i'; repeat split; left; reflexivity|].
  match type of H with match ?x with Rest => _ | Google => _ | Numpydoc => _ end = _ => destruct x end.
  - unfold parse_rest in H. binv H. binv H. binv H. apply DefaultsFacts.bind_Ok_inv in H as [pr [_ H]]. injection H as H. subst i'.
    unfold ir_of_parts. repeat split. cbn [ir_returns]. destruct (snd pr); [right; eexists; reflexivity|left; reflexivity].
  - unfold ng_unmodelled in H. cbn [bind] in H. discriminate H.
  - unfold ng_unmodelled in H. cbn [bind] in H. discriminate H.
Qed.

Lemma internal_ok_None : forall i, ir_internal i = None -> internal_ok i = true.
Proof. intros i H. unfold internal_ok. rewrite H. reflexivity. Qed.

Lemma parse_phase_ng_ret : forall style fl sc doc params returns,
    DocParseNG.parse_phase_ng style fl sc = Ok (doc, params, returns) ->
    returns = FNone \/ exists p, returns = Has p.
Proof.
  intros style fl sc doc params returns H. unfold DocParseNG.parse_phase_ng in H.
  destruct (DocParseNG.afterward_index (DocParseNG.sc_args sc) 0) as [[|k]|]; cbv zeta in H;
    (apply DefaultsFacts.bind_Ok_inv in H as [[pairs req] [_ H]];
     destruct (DocParseNG.retv_truthy (DocParseNG.sc_ret sc));
     [apply DefaultsFacts.bind_Ok_inv in H as [[rp is_list] [_ H]]; binv H; binv H; injection H as _ _ H; right; eexists; symmetry; exact H
     |injection H as _ _ H; left; symmetry; exact H]).
Qed.

Lemma parse_ng_shape : forall style t i', DocParseNG.parse_ng style C01SpecNG.rt_flags t = Ok i' -> doc_shape i'.
Proof.
  intros style t i' H. unfold DocParseNG.parse_ng in H.
  revert H. destruct (negb (forallb DocParseNG.in_alphabet t)); intros H; [discriminate H|].
  revert H. destruct (DocParseNG.is_empty t); intros H; [injection H as H; subst i'; repeat split; left; reflexivity|].
  binv H. apply DefaultsFacts.bind_Ok_inv in H as [[[doc params] returns] [Hph H]].
  cbn [C01SpecNG.rt_flags DocParseNG.f_emit_default_prop bind] in H. injection H as H. subst i'.
  repeat split. cbn [ir_returns].
  destruct (parse_phase_ng_ret _ _ _ _ _ _ Hph) as [E|[p E]]; subst returns; [left|right; eexists]; reflexivity.
Qed.

Lemma conv_rest_shape : forall i i', conv_rest i = Ok i' -> doc_shape i'.
Proof. intros i i' H. unfold conv_rest in H. binv H. exact (parse_dot_shape _ _ _ _ _ H). Qed.

Lemma conv_ng_shape : forall style i i', conv_ng style i = Ok i' -> doc_shape i'.
Proof. intros style i i' H. unfold conv_ng in H. binv H. exact (parse_ng_shape _ _ _ H). Qed.

Lemma class_docstring_ir_shape : forall text d, class_docstring_ir text = Ok d -> doc_shape d.
Proof. intros text d H. unfold class_docstring_ir in H. binv H. exact (parse_dot_shape _ _ _ _ _ H). Qed.

Lemma function_docstring_ir_shape : forall text d, C03DocLinkDefs.function_docstring_ir text = Ok d -> doc_shape d.
Proof. intros text d H. unfold C03DocLinkDefs.function_docstring_ir in H. binv H. exact (parse_dot_shape _ _ _ _ _ H). Qed.

Lemma doc_shape_preserved_is_out : forall o i i',
    closed_dom o i = true -> preserved i i' = true -> doc_shape i' -> i' = docstring_out i.
Proof.
  intros o i [n t d ps r b] H Hp [Hn [Ht [Hb Hr]]].
  destruct (closed_dom_preserved_exact o i _ H Hp) as [Hd [Hps Hnr]].
  cbn [ir_name ir_type ir_doc ir_params ir_returns ir_internal] in *. subst n t b d ps. unfold docstring_out. f_equal.
  destruct Hr as [E|[g E]]; [exact E|]. exfalso. apply (Hnr g). exact E.
Qed.

Theorem conv_rest_closed : forall o i, closed_dom o i = true -> conv_rest i = Ok (docstring_out i).
Proof.
  intros o i H. destruct (closed_dom_inv o i H) as [_ [_ [Hg _]]].
  destruct (C05Facts.RT_rest_roundtrip i Hg) as [i' [Hc Hp]]. rewrite Hc. f_equal.
  exact (doc_shape_preserved_is_out o i i' H Hp (conv_rest_shape i i' Hc)).
Qed.

Lemma conv_ng_roundtrip : forall style i, C01SpecNG.guard_C01_ng style i = true ->
    exists i', conv_ng style i = Ok i' /\ preserved i i' = true.
Proof.
  intros style i Hg. destruct (NGScanLink.C01_ng_partial style i Hg) as [text [i' [Ht [_ [Hp Hs]]]]].
  exists i'. split; [unfold conv_ng; rewrite Ht; exact Hp|]. apply C05Facts.ng_same_interface_preserved. exact Hs.
Qed.

Lemma closed_dom_ng : forall o style i, closed_dom o i = true -> C01SpecNG.guard_C01_ng style i = true.
Proof. intros o style i H. destruct (closed_dom_inv o i H) as [_ [_ [_ [Hn [Hg _]]]]]. destruct style; [exact Hg|exact Hn]. Qed.

Theorem conv_ng_closed : forall o style i, closed_dom o i = true -> conv_ng style i = Ok (docstring_out i).
Proof.
  intros o style i H. destruct (conv_ng_roundtrip style i (closed_dom_ng o style i H)) as [i' [Hc Hp]]. rewrite Hc. f_equal.
  exact (doc_shape_preserved_is_out o i i' H Hp (conv_ng_shape style i i' Hc)).
Qed.

Theorem law_rest : forall o, kind_law (conv_model o) (closed_dom o) KRest.
Proof. intros o i H. exact (law_of_closed_form o KRest i eq_refl H (conv_rest_closed o i H)). Qed.

Theorem law_numpydoc : forall o, kind_law (conv_model o) (closed_dom o) KNumpydoc.
Proof. intros o i H. exact (law_of_closed_form o KNumpydoc i eq_refl H (conv_ng_closed o _ i H)). Qed.

Theorem law_google : forall o, kind_law (conv_model o) (closed_dom o) KGoogle.
Proof. intros o i H. exact (law_of_closed_form o KGoogle i eq_refl H (conv_ng_closed o _ i H)). Qed.

Lemma remnant_eq : forall b, stmts_eqb_remnant b = true -> b = argparse_remnant.
Proof.
  intros b H. unfold stmts_eqb_remnant in H.
  destruct b as [|s b']; [discriminate H|]. destruct s; try discriminate H.
  destruct e as [e|]; [|discriminate H]. destruct e; try discriminate H.
  destruct b'; [|discriminate H].
  apply str_eqb_eq in H. subst. reflexivity.
Qed.

Lemma internal_ok_cases : forall i, internal_ok i = true ->
    (match ir_internal i with Some it => in_body it | None => [] end) = []
    \/ exists it fnm, ir_internal i = Some it /\ in_body it = argparse_remnant
                      /\ in_from_name it = Has fnm /\ in_from_type it = Has (L "static").
Proof.
  intros i H. unfold internal_ok in H. destruct (ir_internal i) as [it|]; [|left; reflexivity].
  destruct (in_body it) as [|s b] eqn:Eb; [left; reflexivity|]. right.
  apply andb_true_iff in H. destruct H as [H Ht]. apply andb_true_iff in H. destruct H as [Hb Hn].
  apply remnant_eq in Hb. destruct (in_from_name it) as [| |fnm] eqn:En; try discriminate Hn.
  destruct (in_from_type it) as [| |ft] eqn:Et; try discriminate Ht. apply str_eqb_eq in Ht. subst ft.
  rewrite Hb in Eb. exists it, fnm. repeat split; try assumption; reflexivity.
Qed.

Lemma get_internal_body_cases : forall tn tt i, internal_ok i = true ->
    get_internal_body tn tt i = Ok [] \/ get_internal_body tn tt i = Ok argparse_remnant.
Proof.
  intros tn tt i H. unfold get_internal_body. destruct (internal_ok_cases i H) as [E|[it [fnm [Ei [Eb [En Et]]]]]].
  - left. destruct (ir_internal i) as [it|]; [|reflexivity]. rewrite E. reflexivity.
  - rewrite Ei, Eb, En, Et. unfold argparse_remnant at 1.
    destruct (fld_eq_opt (Has fnm) tn); [|left; reflexivity].
    destruct (fld_eq_opt (Has (L "static")) tt); [right|left]; reflexivity.
Qed.

(* the argparse conversion in closed form, with or without the remnant as carried body *)
Theorem argparse_full : forall pt i edd fc fr tc tr ds di ft' fnm,
    internal_ok i = true -> guard_C04_ast (clear_internal i) = true ->
    exists s,
      emit_argparse pt i edd (Some (fc :: fr)) (Some (tc :: tr)) false false (Ok ds) = Ok (s, i)
      /\ parse_argparse_ast (Ok di) s ft' fnm
         = Ok (mkIR (fld_of_opt fnm) (Has (match truthy_opt_str ft' with Some t => t | None => L "static" end))
                    (ir_doc i) (norm_params_C04 false (ir_params i)) Missing
                    (Some (mkInternal argparse_remnant (Has (fc :: fr)) (Has (L "static"))))).
Proof.
  intros pt i edd fc fr tc tr ds di ft' fnm Hint Hg.
  destruct (C04Compose.guard_C04_ast_inv (clear_internal i) Hg) as [Hnd [Hpok [Hret [_ [[d [Hdoc Hsv]] _]]]]].
  exact (C04Compose.C04_ast_full pt i edd fc fr tc tr ds di ft' fnm d Hnd Hpok Hret Hdoc Hsv
                                 (get_internal_body_cases _ _ i Hint)).
Qed.

Lemma complete_entry_shape : forall g, complete_entry g = true ->
    exists c r t v, g = mkG (Has (c :: r)) (Has t) (Some (DV v)) /\ in_none_types v = false.
Proof.
  intros [gd gt gdef] H. unfold complete_entry in H. cbn [g_doc g_typ g_default] in H.
  destruct gd as [| |[|c r]]; try discriminate H. destruct gt as [| |[|tc tr]]; try discriminate H.
  cbn [fld_str] in H. destruct gdef as [[v|e|r0]|]; try discriminate H. apply negb_true_iff in H.
  exists c, r, (tc :: tr), v. split; [reflexivity|exact H].
Qed.

Lemma norm_param_C04_complete : forall rd g, complete_entry g = true -> norm_param_C04 rd g = g.
Proof.
  intros rd g H. destruct (complete_entry_shape g H) as [c [r [t [v [E _]]]]]. subst g.
  unfold norm_param_C04. cbn [g_typ g_default]. destruct (shape_of_typ t); reflexivity.
Qed.

Lemma norm_params_C04_complete : forall ps rd,
    forallb (fun kv => complete_entry (snd kv)) ps = true -> norm_params_C04 rd ps = ps.
Proof.
  induction ps as [|[n g] ps IH]; intros rd H; [reflexivity|].
  cbn [forallb snd] in H. apply andb_true_iff in H. destruct H as [Hg H].
  cbn [norm_params_C04]. rewrite (norm_param_C04_complete rd g Hg), (IH _ H). reflexivity.
Qed.

Theorem conv_argparse_closed : forall o i, env_ok o = true -> closed_dom o i = true ->
    conv_argparse o i = Ok (argparse_out o i).
Proof.
  intros o i He H. destruct (closed_dom_inv o i H) as [_ [Hc [_ [_ [_ [_ [_ [Hg Hi]]]]]]]].
  destruct (complete_inv i Hc) as [_ [Hf _]].
  unfold env_ok in He. destruct (ce_fn o) as [|fc fr] eqn:Efn; [discriminate He|].
  (* L "static" in the shape c :: r that argparse_full asks of the function type *)
  destruct (argparse_full (ce_pt o) i (ce_aedd o) fc fr "s"%char (L "tatic") (ce_ads o i) (ce_adi o i) (ce_aft o) (ce_afn o) Hi Hg)
    as [s [Hem Hpa]].
  assert (Hem' : emit_argparse (ce_pt o) i (ce_aedd o) (@Some str (fc :: fr)) (@Some str (L "static")) false false (Ok (ce_ads o i))
                 = Ok (s, i)) by exact Hem.
  unfold conv_argparse. rewrite Efn, Hem'. cbn [bind fst]. rewrite Hpa.
  rewrite (norm_params_C04_complete _ false Hf). unfold argparse_out. rewrite Efn. reflexivity.
Qed.

Theorem law_argparse : forall o, env_ok o = true -> kind_law (conv_model o) (closed_dom o) KArgparse.
Proof. intros o He i H. exact (law_of_closed_form o KArgparse i eq_refl H (conv_argparse_closed o i He H)). Qed.

Lemma fold_params_clear : forall i, ir_params (class_fold_returns (clear_internal i)) = ir_params (class_fold_returns i).
Proof. intros [n t d ps r b]. unfold class_fold_returns, clear_internal. cbn [ir_returns]. destruct r; reflexivity. Qed.

(* with emit_call off, emit.class_ writes the same class for a description that carries the remnant (the body is
   rewritten by RewriteName, which succeeds, and then dropped) *)
Lemma emit_class_remnant : forall pt i cn bs ds ww tds s,
    internal_ok i = true ->
    emit_class pt (clear_internal i) false cn bs ds ww tds = Ok (s, clear_internal i) ->
    emit_class pt i false cn bs ds ww tds = Ok (s, i).
Proof.
  intros pt i cn bs ds ww tds s Hint H. unfold emit_class in *.
  rewrite fold_params_clear in H. cbn [clear_internal ir_internal ir_returns ir_params] in H.
  (* either way the carried body costs nothing: there is none, or it is the remnant, which RewriteName accepts *)
  destruct (internal_ok_cases i Hint) as [E|[it [fnm [Ei [Eb _]]]]];
    [rewrite E
    |rewrite Ei, Eb; unfold argparse_remnant, rewrite_body;
     cbn [forallb rewritable_stmt rewritable_opt rewritable_expr andb]];
    (destruct (od_keys (ir_params i)) as [|k ks]; cbn [bind] in *; destruct tds as [text|e]; cbn [bind] in *; try discriminate H;
     destruct (map_outcome _ (ir_params (class_fold_returns i))) as [attrs|e]; cbn [bind] in *; try discriminate H;
     injection H as H; subst s; reflexivity).
Qed.

Lemma norm_params_C02_complete : forall ps,
    forallb (fun kv => complete_entry (snd kv)) ps = true -> norm_params_C02 ps = ps.
Proof.
  induction ps as [|[n g] ps IH]; intros H; [reflexivity|].
  cbn [forallb snd] in H. apply andb_true_iff in H. destruct H as [Hg H].
  unfold norm_params_C02 in *. cbn [map fst snd]. rewrite (IH H). f_equal. f_equal.
  destruct (complete_entry_shape g Hg) as [c [r [t [v [E Hv]]]]]. subst g.
  unfold norm_param_C02, prose_fld, prose_fld_of, prose_of, canon_default, zero_default_norm_param.
  cbn [g_doc g_typ g_default]. rewrite Hv. reflexivity.
Qed.

Lemma doc_link_ok_clear : forall w e ww i, doc_link_ok w e ww (clear_internal i) = doc_link_ok w e ww i.
Proof. intros w e ww [n t d ps [| |g] b]; reflexivity. Qed.

Lemma class_text_clear : forall w e ww i,
    class_docstring_text w e ww (clear_internal i) = class_docstring_text w e ww i.
Proof.
  intros w e ww i. unfold class_docstring_text.
  rewrite !C08Facts.bind_fst_text_of. apply C08Facts.to_docstring_text_lemma; destruct i as [n t d ps r b];
    unfold class_fold_returns, clear_internal; cbn [ir_returns ir_name ir_type ir_doc ir_params ir_internal];
    destruct r; reflexivity.
Qed.

Theorem conv_class_closed : forall o i, closed_dom o i = true -> conv_class o i = Ok (class_out o i).
Proof.
  intros o i H. destruct (closed_dom_inv o i H) as [_ [Hc [_ [_ [_ [Hg [Hl [_ Hi]]]]]]]].
  destruct (complete_inv i Hc) as [_ [Hf Hnr]].
  set (i0 := clear_internal i) in *.
  assert (Hl0 : doc_link_ok (ce_w o) (ce_edd o) (ce_ww o) i0 = true).
  { unfold i0. rewrite doc_link_ok_clear. exact Hl. }
  destruct (C02DocLink.doc_link_sum _ _ _ i0 Hg Hl0) as [text [d [Ht [Hd [Ha Hsum]]]]].
  destruct (C02Compose.C02_ast_full (ce_pt o) i0 (ce_cn o) (ce_bases o) (ce_decos o) (ce_ww o) text d (ce_it o) (ce_pww o) Hg Ha)
    as [s [Hem Hpa]].
  destruct (class_docstring_ir_shape text d Hd) as [Hn [Hty _]].
  (* the same text and the same class are written for i, with its carried body, as for i0 *)
  unfold conv_class. rewrite <- (class_text_clear _ _ _ i). fold i0. rewrite Ht. cbn [bind].
  rewrite (emit_class_remnant _ i _ _ _ _ _ _ Hi Hem). cbn [bind fst]. rewrite Hd, Hpa. f_equal.
  rewrite Hn, Hty, Hsum. unfold class_out, norm_returns_C02, i0.
  cbn [clear_internal ir_doc ir_params ir_returns]. rewrite (norm_params_C02_complete _ Hf).
  destruct (ir_returns i) as [| |g0] eqn:Er; [reflexivity|reflexivity|]. exfalso. apply (Hnr g0). exact Er.
Qed.

Theorem law_class : forall o, kind_law (conv_model o) (closed_dom o) KClass.
Proof. intros o i H. exact (law_of_closed_form o KClass i eq_refl H (conv_class_closed o i H)). Qed.

Theorem conv_model_closed : forall o k i, env_ok o = true -> closed_kind k = true -> closed_dom o i = true ->
    conv_model o k i = Ok (out_model o k i).
Proof.
  intros o k i He Hk H. destruct k; try discriminate Hk; cbn [conv_model out_model].
  - exact (conv_rest_closed o i H).
  - exact (conv_ng_closed o _ i H).
  - exact (conv_ng_closed o _ i H).
  - exact (conv_class_closed o i H).
  - exact (conv_argparse_closed o i He H).
Qed.

Lemma closed_kind_law : forall o k, env_ok o = true -> closed_kind k = true -> kind_law (conv_model o) (closed_dom o) k.
Proof. intros o k He Hk i H. exact (law_of_closed_form o k i Hk H (conv_model_closed o k i He Hk H)). Qed.

Theorem chain_closed : forall o cs, env_ok o = true -> forallb closed_kind cs = true ->
    forall i, closed_dom o i = true ->
    exists i', chain (conv_model o) cs i = Ok i' /\ preserved i i' = true /\ closed_dom o i' = true.
Proof.
  intros o cs He Hcs.
  apply (C05Facts.chain_preserved ir kind preserved (conv_model o) (closed_dom o)
                                  C05Facts.preserved_refl C05Facts.preserved_trans cs).
  intros k Hk. rewrite forallb_forall in Hcs. exact (closed_kind_law o k He (Hcs k Hk)).
Qed.

Lemma closed_kind_incl : forall cs, incl cs closed_kinds -> forallb closed_kind cs = true.
Proof.
  intros cs H. apply forallb_forall. intros k Hk. apply H in Hk.
  unfold closed_kinds in Hk. cbn [In] in Hk. destruct Hk as [E|[E|[E|[E|[E|[]]]]]]; subst k; reflexivity.
Qed.

(* in the shape of C05.C05_chain_preserved: chains drawn from closed_kinds *)
Corollary chain_closed_incl : forall o cs, env_ok o = true -> incl cs closed_kinds ->
    forall i, closed_dom o i = true ->
    exists i', chain (conv_model o) cs i = Ok i' /\ preserved i i' = true /\ closed_dom o i' = true.
Proof. intros o cs He Hcs. apply chain_closed; [exact He|apply closed_kind_incl; exact Hcs]. Qed.

Corollary chain_closed_no_swap : forall o cs, env_ok o = true -> forallb closed_kind cs = true ->
    forall i, closed_dom o i = true ->
    exists i', chain (conv_model o) cs i = Ok i'
               /\ List.length (ir_params i) = List.length (ir_params i')
               /\ forall k n g, nth_error (ir_params i) k = Some (n, g) ->
                  exists g', nth_error (ir_params i') k = Some (n, g')
                             /\ C01Spec.same_typ g g' = true /\ C01Spec.same_prose g g' = true
                             /\ same_default_ir (g_default g) (g_default g') = true.
Proof.
  intros o cs He Hcs i Hi. destruct (chain_closed o cs He Hcs i Hi) as [i' [Hc [Hp _]]].
  exists i'. split; [exact Hc|]. exact (C05Facts.preserved_no_swap i i' Hp).
Qed.

Corollary chain_closed_exact : forall o cs, env_ok o = true -> forallb closed_kind cs = true ->
    forall i, closed_dom o i = true ->
    exists i', chain (conv_model o) cs i = Ok i' /\ ir_doc i' = ir_doc i /\ ir_params i' = ir_params i
               /\ (forall g, ir_returns i' <> Has g).
Proof.
  intros o cs He Hcs i Hi. destruct (chain_closed o cs He Hcs i Hi) as [i' [Hc [Hp _]]].
  exists i'. split; [exact Hc|exact (closed_dom_preserved_exact o i i' Hi Hp)].
Qed.

Lemma closed_dom_in_region : forall o i, closed_dom o i = true -> chain_safe closed_kinds i = true.
Proof. intros o i H. destruct (closed_dom_inv o i H) as [Hcs _]. exact Hcs. Qed.

Theorem conv_model_fixpoint : forall o k i i1, env_ok o = true -> closed_kind k = true -> closed_dom o i = true ->
    conv_model o k i = Ok i1 -> conv_model o k i1 = Ok i1.
Proof.
  intros o k i i1 He Hk H Hc. rewrite (conv_model_closed o k i He Hk H) in Hc. injection Hc as Hc. subst i1.
  rewrite (conv_model_closed o k _ He Hk (out_model_closed o k i Hk H)). rewrite out_model_idem. reflexivity.
Qed.

Lemma conv_Ok_emit_Ok : forall o k i i', conv_model o k i = Ok i' -> exists t, emit_model o k i = Ok t.
Proof.
  intros o k i i' H. destruct k; cbn [conv_model emit_model] in *; try discriminate H.
  - unfold conv_rest in H. apply DefaultsFacts.bind_Ok_inv in H as [x [Hx _]]. rewrite Hx. eexists. reflexivity.
  - unfold conv_numpydoc, conv_ng in H. apply DefaultsFacts.bind_Ok_inv in H as [x [Hx _]]. rewrite Hx. eexists. reflexivity.
  - unfold conv_google, conv_ng in H. apply DefaultsFacts.bind_Ok_inv in H as [x [Hx _]]. rewrite Hx. eexists. reflexivity.
  - unfold conv_class in H. apply DefaultsFacts.bind_Ok_inv in H as [text [Ht H]]. apply DefaultsFacts.bind_Ok_inv in H as [x [Hx _]].
    rewrite Ht. cbn [bind]. rewrite Hx. eexists. reflexivity.
  - unfold conv_argparse in H. apply DefaultsFacts.bind_Ok_inv in H as [x [Hx _]]. rewrite Hx. eexists. reflexivity.
Qed.

(* C08 for the closed kinds: the three emissions exist; second and third are the same artefact *)
Theorem C08_closed_lemma : forall o k i, env_ok o = true -> closed_kind k = true -> closed_dom o i = true ->
    C08_at o k i.
Proof.
  intros o k i He Hk H. pose proof (conv_model_closed o k i He Hk H) as H1.
  pose proof (conv_model_fixpoint o k i _ He Hk H H1) as H2.
  destruct (conv_Ok_emit_Ok o k i _ H1) as [t1 E1]. destruct (conv_Ok_emit_Ok o k _ _ H2) as [t2 E2].
  exists t1, (out_model o k i), t2, (out_model o k i), t2. repeat split; assumption.
Qed.

(* along a chain: after any chain over the closed kinds, one more pass of any closed kind is already a fixed point *)
Corollary C08_after_chain : forall o cs k i, env_ok o = true -> forallb closed_kind cs = true -> closed_kind k = true ->
    closed_dom o i = true ->
    exists i', chain (conv_model o) cs i = Ok i' /\ C08_at o k i'.
Proof.
  intros o cs k i He Hcs Hk H. destruct (chain_closed o cs He Hcs i H) as [i' [Hc [_ Hd]]].
  exists i'. split; [exact Hc|]. exact (C08_closed_lemma o k i' He Hk Hd).
Qed.

(* for the docstring kinds and the class kind the first emission is already the fixed text: the emitters do not look at
   what the description was parsed from *)
Lemma rest_text_view : forall i j, ir_doc i = ir_doc j -> ir_params i = ir_params j ->
    fld_opt (ir_returns i) = fld_opt (ir_returns j) -> rest_text_of i = rest_text_of j.
Proof.
  intros i j Hd Hp Hr. unfold rest_text_of. rewrite Hd, Hp.
  destruct (ir_returns i) as [| |g], (ir_returns j) as [| |g']; try discriminate Hr; try reflexivity.
  injection Hr as Hr. subst g'. reflexivity.
Qed.

Lemma ng_text_view : forall style i j, ir_doc i = ir_doc j -> ir_params i = ir_params j ->
    fld_opt (ir_returns i) = fld_opt (ir_returns j) -> C01SpecNG.text_of_o style i = C01SpecNG.text_of_o style j.
Proof.
  intros style i j Hd Hp Hr. unfold C01SpecNG.text_of_o. rewrite Hd, Hp.
  destruct (ir_returns i) as [| |g], (ir_returns j) as [| |g']; try discriminate Hr; try reflexivity.
  injection Hr as Hr. subst g'. reflexivity.
Qed.

Theorem docstring_text_fixed : forall o k i, env_ok o = true -> closed_dom o i = true ->
    is_doc_kind k = true -> emit_model o k (out_model o k i) = emit_model o k i.
Proof.
  intros o k i He H Hk.
  assert (Hr : fld_opt (ir_returns (docstring_out i)) = fld_opt (ir_returns i)).
  { symmetry. apply no_ret_fld_opt. exact (closed_dom_no_ret o i H). }
  destruct k; try discriminate Hk; cbn [emit_model out_model].
  - rewrite (rest_text_view (docstring_out i) i eq_refl eq_refl Hr). reflexivity.
  - rewrite (ng_text_view _ (docstring_out i) i eq_refl eq_refl Hr). reflexivity.
  - rewrite (ng_text_view _ (docstring_out i) i eq_refl eq_refl Hr). reflexivity.
Qed.

Lemma w_closed_dom : closed_dom default_env w_closed = true.
Proof. vm_compute. reflexivity. Qed.

Lemma w_closed_in_dom : closed_dom default_env w_closed = true /\ List.length (ir_params w_closed) = 5.
Proof. split; [exact w_closed_dom|reflexivity]. Qed.

Lemma closed_dom_env : forall o o' i, closed_dom o i = true ->
    doc_link_ok (ce_w o') (ce_edd o') (ce_ww o') i = true -> closed_dom o' i = true.
Proof.
  intros o o' i H Hl. destruct (closed_dom_inv o i H) as [H1 [H2 [H3 [H4 [H5 [H6 [_ [H8 H9]]]]]]]].
  unfold closed_dom. rewrite H1, H2, H3, H4, H5, H6, Hl, H8, H9. reflexivity.
Qed.

Definition env_edd : cenv :=
  mkCE 100 true true [] (L "ConfigClass") [L "object"] [] false false
       true (L "set_cli_args") (fun _ => L "Doc.") (fun _ => C04Codec.empty_doc_ir) None None.

Lemma w_closed_in_dom_edd : closed_dom env_edd w_closed = true.
Proof. apply (closed_dom_env default_env); [exact w_closed_dom|]. vm_compute. reflexivity. Qed.

Definition sample_chain : list kind := [KClass; KGoogle; KArgparse; KRest; KClass; KArgparse; KArgparse; KNumpydoc].

Lemma chain_runs_of : forall (conv : kind -> ir -> outcome ir) (D : ir -> bool) cs i,
    (exists i', chain conv cs i = Ok i' /\ preserved i i' = true /\ D i' = true) ->
    match chain conv cs i with Ok i' => preserved i i' && D i' | Err _ => false end = true.
Proof. intros conv D cs i [i' [Hc [Hp Hd]]]. rewrite Hc, Hp, Hd. reflexivity. Qed.

Lemma sample_chain_runs :
  match chain (conv_model default_env) sample_chain w_closed with
  | Ok i' => preserved w_closed i' && closed_dom default_env i'
  | Err _ => false
  end = true.
Proof. apply chain_runs_of. apply chain_closed; [reflexivity|reflexivity|exact w_closed_dom]. Qed.

Lemma clear_internal_None : forall i, ir_internal i = None -> clear_internal i = i.
Proof. intros [n t d ps r b] H. cbn [ir_internal] in H. subst b. reflexivity. Qed.

(* after the argparse conversion the description carries the remnant: it is outside guard_C02_ast and guard_C04_ast,
   the guards of C02_partial_closed and C04_partial, although the next class / argparse conversion succeeds *)
Lemma guards_not_closed_under_argparse :
  match conv_argparse default_env w_closed with
  | Ok i' => negb (guard_C02_ast i') && negb (guard_C04_ast i') && guard_C02_ast w_closed && guard_C04_ast w_closed
             && internal_ok i' && closed_dom default_env i'
  | Err _ => false
  end = true.
Proof.
  rewrite (conv_argparse_closed default_env w_closed eq_refl w_closed_dom).
  (* the two guards on w_closed and the domain of the result follow from w_closed being in the domain *)
  destruct (closed_dom_inv _ _ w_closed_dom) as [_ [_ [_ [_ [_ [H2 [_ [H4 _]]]]]]]].
  rewrite (clear_internal_None w_closed eq_refl) in H2, H4. rewrite H2, H4.
  pose proof (out_model_closed default_env KArgparse w_closed eq_refl w_closed_dom) as Hd. cbn [out_model] in Hd.
  rewrite Hd. vm_compute. reflexivity.
Qed.

(* why the guards of the per-kind theorems are conjuncts of closed_dom and chain_safe alone is not enough:
   inside chain_safe closed_kinds (class None for the one-hop chain) the conversion of the faithful model does NOT
   preserve the interface; the real emitters and parsers behave the same *)
Definition w1p (s : str) (g : gparam) : ir := mkIR FNone (Has (L "static")) (Has s) [(L "x", g)] FNone None.

(* float default -0.0 through emit.class_ / parse.class_ comes back as 0.0 *)
Definition w_negzero : ir := w1p (L "Sum.") (cg (L "first.") (L "float") (VFloat (L "-0.0"))).

Lemma region_hole_negzero :
  chain_safe closed_kinds w_negzero = true /\ complete w_negzero = true
  /\ c05_class_of [KClass] w_negzero = None
  /\ guard_C02_ast w_negzero = false
  /\ match conv_class default_env w_negzero with Ok i' => preserved w_negzero i' | Err _ => true end = false.
Proof. vm_compute. repeat split; reflexivity. Qed.

(* a summary wrapped in quote marks loses them through emit.argparse_function / parse.argparse_ast *)
Definition w_quoted_summary : ir := w1p (L "'quoted'") (cg (L "first.") (L "int") (VInt 1)).

Lemma region_hole_quoted_summary :
  chain_safe closed_kinds w_quoted_summary = true /\ complete w_quoted_summary = true
  /\ c05_class_of [KArgparse] w_quoted_summary = None
  /\ guard_C04_ast w_quoted_summary = false
  /\ match conv_argparse default_env w_quoted_summary with Ok i' => preserved w_quoted_summary i' | Err _ => true end = false.
Proof. vm_compute. repeat split; reflexivity. Qed.

(* a float default in exponent notation: inside chain_safe, outside the guards of the C01 theorems (the numpydoc / google
   model declines the text, the ReST model round-trips it): these conjuncts bound what is PROVED, not what holds *)
Definition w_exp_float : ir := w1p (L "Sum.") (cg (L "first.") (L "float") (VFloat (L "1e+20"))).

Lemma guard_conjuncts_docstring :
  chain_safe closed_kinds w_exp_float = true /\ complete w_exp_float = true
  /\ guard_C01_rest false w_exp_float = false
  /\ C01SpecNG.guard_C01_ng DocParseNG.SGoogle w_exp_float = false
  /\ C01SpecNG.guard_C01_ng DocParseNG.SNumpydoc w_exp_float = false
  /\ conv_google w_exp_float = Err Unmodelled
  /\ match conv_rest w_exp_float with Ok i' => preserved w_exp_float i' | Err _ => false end = true.
Proof. vm_compute. repeat split; reflexivity. Qed.

(* the conjunct complete: without an explicit default the class kind invents one (already outside chain_safe) *)
Definition w_no_default : ir := w1p (L "Sum.") (mkG (Has (L "first.")) (Has (L "int")) None).

Lemma complete_needed :
  complete w_no_default = false /\ chain_safe closed_kinds w_no_default = false
  /\ guard_C02_ast w_no_default = true
  /\ match conv_class default_env w_no_default with Ok i' => preserved w_no_default i' | Err _ => true end = false.
Proof. vm_compute. repeat split; reflexivity. Qed.

Lemma closed_dom_fields : forall o i i',
    closed_dom o i = true ->
    ir_doc i' = ir_doc i -> ir_params i' = ir_params i -> (forall g, ir_returns i' <> Has g) ->
    internal_ok i' = true ->
    closed_dom o i' = true.
Proof. intros o i i' H Hd Hp Hr Hi. exact (closed_dom_core_eq o i i' H (mkCoreEq i i' Hd Hp Hr Hi)). Qed.

Lemma core_view_core : forall i, core_view i = core i.
Proof. reflexivity. Qed.

Lemma get_internal_body_fn : forall k i, internal_ok i = true -> internal_ok7 i = true ->
    get_internal_body (Some C03Spec.fname) (Some k) i = Ok [].
Proof.
  intros k i H H7. unfold get_internal_body. unfold internal_ok7 in H7.
  destruct (internal_ok_cases i H) as [E|[it [fnm [Ei [Eb [En Et]]]]]].
  - destruct (ir_internal i) as [it|]; [|reflexivity]. rewrite E. reflexivity.
  - rewrite Ei in *. rewrite Eb, En in *. unfold argparse_remnant in *. rewrite Et.
    apply negb_true_iff in H7. unfold fld_eq_opt. rewrite H7. reflexivity.
Qed.

Lemma internal_ok7_None : forall i, ir_internal i = None -> internal_ok7 i = true.
Proof. intros i H. unfold internal_ok7. rewrite H. reflexivity. Qed.

Lemma emit_fn_view : forall fo i j tds c r, C03Spec.fo_kind fo = c :: r ->
    internal_ok i = true -> internal_ok7 i = true -> ir_internal j = None ->
    ir_params i = ir_params j -> fld_opt (ir_returns i) = fld_opt (ir_returns j) ->
    C03Spec.emit_fn fo i tds = C03Spec.emit_fn fo j tds.
Proof.
  intros fo i j tds c r Hk H H7 Hj Hp Hr. unfold C03Spec.emit_fn, emit_function.
  assert (Hf : forall x, py_or (Some C03Spec.fname) x = Ok (Some C03Spec.fname)) by reflexivity.
  assert (Hkd : forall x, py_or (Some (C03Spec.fo_kind fo)) x = Ok (Some (C03Spec.fo_kind fo))) by (rewrite Hk; reflexivity).
  rewrite !Hf, !Hkd. cbn [bind].
  rewrite (get_internal_body_fn _ i H H7), (get_internal_body_fn _ j (internal_ok_None j Hj) (internal_ok7_None j Hj)).
  unfold function_return_val, returns_param. change (@fget gparam) with (@fld_opt gparam). rewrite Hp, Hr.
  repeat match goal with
         | |- bind (bind ?x _) _ = bind (bind ?x _) _ => destruct x; cbn [bind]
         end; reflexivity.
Qed.

Lemma conv_fn_view : forall o f c r i j, internal_ok i = true -> internal_ok7 i = true -> ir_internal j = None ->
    ir_doc i = ir_doc j -> ir_params i = ir_params j -> fld_opt (ir_returns i) = fld_opt (ir_returns j) ->
    conv_fn o f (c :: r) i = conv_fn o f (c :: r) j.
Proof.
  intros o f c r i j H H7 Hj Hd Hp Hr. unfold conv_fn.
  assert (Et : C03DocLinkDefs.function_docstring_text (ce_w o) (fn_opts o f (c :: r)) i
               = C03DocLinkDefs.function_docstring_text (ce_w o) (fn_opts o f (c :: r)) j).
  { unfold C03DocLinkDefs.function_docstring_text. rewrite !C08Facts.bind_fst_text_of.
    apply C08Facts.to_docstring_text_entry; assumption. }
  rewrite Et. destruct (C03DocLinkDefs.function_docstring_text _ _ j) as [text|e]; cbn [bind]; [|reflexivity].
  destruct (C03DocLinkDefs.function_docstring_ir text) as [d|e]; cbn [bind]; [|reflexivity].
  unfold C03Spec.round_trip_fn. rewrite (emit_fn_view (fn_opts o f (c :: r)) i j (Ok text) c r eq_refl H H7 Hj Hp Hr). reflexivity.
Qed.

Lemma conv_fn_core : forall o f c r i, internal_ok i = true -> internal_ok7 i = true -> no_ret i ->
    conv_fn o f (c :: r) i = conv_fn o f (c :: r) (core i).
Proof.
  intros o f c r i H H7 Hnr. apply conv_fn_view; try assumption; try reflexivity. apply no_ret_fld_opt. exact Hnr.
Qed.

Lemma same_param_fn_determined : forall g g', complete_entry g = true \/ complete_return g = true ->
    C03Spec.same_param_fn g g' = true -> g' = g.
Proof.
  intros [gd gt gdef] [gd' gt' gdef'] Hc H. unfold complete_entry, complete_return in Hc. cbn [g_doc g_typ g_default] in Hc.
  destruct gd as [| |[|c r]]; try (destruct Hc; discriminate). destruct gt as [| |[|tc tr]]; try (destruct Hc; discriminate).
  cbn [fld_str] in Hc.
  unfold C03Spec.same_param_fn in H. apply andb_true_iff in H. destruct H as [H Hd]. apply andb_true_iff in H. destruct H as [Ht Hp].
  unfold C02Spec.same_typ in Ht. unfold C02Spec.same_prose, C02Spec.prose_of in Hp. unfold C02Spec.default_same in Hd.
  cbn [g_doc g_typ g_default fget] in *.
  destruct gt' as [| |t']; cbn [fget C02Spec.opt_str_eqb] in Ht; try discriminate Ht. apply str_eqb_eq in Ht. subst t'.
  destruct gd' as [| |[|c' r']]; cbn [C02Spec.opt_str_eqb] in Hp; try discriminate Hp. apply str_eqb_eq in Hp. rewrite <- Hp.
  destruct gdef as [[v|e|r0]|], gdef' as [w|]; try discriminate Hd; try (destruct Hc; discriminate); [|reflexivity].
  destruct Hc as [Hc|Hc]; [|discriminate Hc]. apply negb_true_iff in Hc. unfold C02Spec.same_default in Hd.
  assert (Hn : C02Spec.d_none_like (DV v) = false) by exact Hc. rewrite Hn in Hd. cbn [andb orb] in Hd.
  apply C05Facts.dval_eqb_eq in Hd. subst w. reflexivity.
Qed.

Lemma od_get_skip : forall (k n : str) (g : gparam) b, k <> n -> od_get k ((n, g) :: b) = od_get k b.
Proof.
  intros k n g b H. cbn [od_get]. destruct (str_eqb k n) eqn:E; [apply str_eqb_eq in E; contradiction|reflexivity].
Qed.

Lemma same_params_fn_complete : forall a b, NoDup (map fst a) ->
    forallb (fun kv => complete_entry (snd kv)) a = true -> C03Spec.same_params_fn a b = true -> b = a.
Proof.
  intros a b Hnd Hc H. unfold C03Spec.same_params_fn in H. apply andb_true_iff in H. destruct H as [Hk Hf].
  apply C03Compose.list_eqb_str_eq in Hk. unfold od_keys in Hk.
  revert b Hnd Hc Hk Hf. induction a as [|[n g] a IH]; intros [|[n' g'] b] Hnd Hc Hk Hf; cbn [map fst] in Hk; try discriminate Hk.
  - reflexivity.
  - injection Hk as Hn Hk. subst n'. inversion Hnd as [|x l Hnotin Hnd']; subst x l.
    cbn [forallb snd fst] in Hc, Hf. apply andb_true_iff in Hc. destruct Hc as [Hg Hc].
    apply andb_true_iff in Hf. destruct Hf as [Hh Hf].
    cbn [od_get] in Hh. rewrite str_eqb_refl in Hh.
    rewrite (same_param_fn_determined g g' (or_introl Hg) Hh). f_equal. apply (IH b Hnd' Hc Hk).
    apply forallb_forall. intros kv Hin. rewrite forallb_forall in Hf. specialize (Hf kv Hin).
    rewrite od_get_skip in Hf; [exact Hf|]. intros E. apply Hnotin. rewrite <- E. apply in_map. exact Hin.
Qed.

Lemma chain_safe_summary : forall ks i, chain_safe ks i = true -> exists d0, ir_doc i = Has d0 /\ d0 <> [].
Proof.
  intros ks i H. unfold chain_safe in H. apply andb_true_iff in H. destruct H as [_ H].
  unfold c05_class_of, summary_class in H. destruct (ir_doc i) as [| |d0]; try discriminate H.
  exists d0. split; [reflexivity|]. intros E. subst d0. discriminate H.
Qed.

(* the function / method conversion of a description that is its own view: a summary, complete parameters, a complete
   return entry or none *)
Theorem conv_fn_on_view : forall o f c r v,
    C03Spec.guard_C03 (fn_opts o f (c :: r)) v = true ->
    C03DocLinkDefs.doc_link_ok (ce_w o) (fn_opts o f (c :: r)) v = true ->
    (exists d0, ir_doc v = Has d0 /\ d0 <> []) ->
    forallb (fun kv => complete_entry (snd kv)) (ir_params v) = true ->
    (forall g, ir_returns v = Has g -> complete_return g = true) ->
    exists i', conv_fn o f (c :: r) v = Ok i' /\ ir_doc i' = ir_doc v /\ ir_params i' = ir_params v
               /\ fld_opt (ir_returns i') = fld_opt (ir_returns v) /\ ir_internal i' = None.
Proof.
  intros o f c r v Hg Hl [d0 [Ed0 Hne0]] Hf Hret. set (fo := fn_opts o f (c :: r)) in *.
  (* the docstring link gives the text and the description d read back from it, summary included; the C03 round trip
     on (text, d) gives i' up to same_interface_fn; completeness of the entries turns that relation into equalities *)
  destruct (C03DocLinkMain.fn_doc_link_sum (ce_w o) fo v Hg Hl) as [text [d [Ht [Hdd [Ha Hsum]]]]].
  pose proof (doc_shape_internal d (function_docstring_ir_shape text d Hdd)) as Hdint.
  assert (Hnod : forall g, ir_returns v = Has g -> g_default g = None).
  { intros g E. pose proof (Hret g E) as Hcg. unfold complete_return in Hcg.
    destruct (fld_str (g_doc g)); [|discriminate]. destruct (fld_str (g_typ g)); [|discriminate].
    destruct (g_default g); [discriminate|reflexivity]. }
  destruct (C03Compose.C03_partial_fields C03Spec.fname fo v text d C03Compose.fname_identifier Hg Ha)
    as (a & b & ret & s' & i' & He & Hre & Hp & Hsame & _ & Hdoc & Hint).
  specialize (Hint Hnod). rewrite Hdint in Hint.
  exists i'. split.
  { unfold conv_fn. fold fo. rewrite Ht. cbn [bind]. rewrite Hdd. cbn [bind].
    unfold C03Spec.round_trip_fn, C03Spec.emit_fn. rewrite He. cbn [bind fst]. rewrite Hre. exact Hp. }
  unfold C03Spec.same_interface_fn in Hsame. apply andb_true_iff in Hsame. destruct Hsame as [Hsame _].
  apply andb_true_iff in Hsame. destruct Hsame as [Hps Hrs].
  split; [rewrite Hdoc, Ed0; exact (Hsum d0 Ed0 Hne0)|]. split; [|split; [|exact Hint]].
  - apply same_params_fn_complete; [|exact Hf|exact Hps].
    exact (C03Compose.gf_nodup _ _ (C03Compose.guard_inv fo v Hg)).
  - unfold C03Spec.same_returns_fn in Hrs. change (@fget gparam) with (@fld_opt gparam) in Hrs.
    destruct (ir_returns v) as [| |g] eqn:Eg, (fld_opt (ir_returns i')) as [g'|]; cbn [fld_opt] in *;
      try discriminate Hrs; try reflexivity.
    rewrite (same_param_fn_determined g g' (or_intror (Hret g eq_refl)) Hrs). reflexivity.
Qed.

Lemma closed_dom7_inv : forall o f i, closed_dom7 o f i = true ->
    closed_dom o i = true /\ internal_ok7 i = true /\ fn_guard o f kind_static i = true /\ fn_guard o f kind_self i = true.
Proof.
  intros o f i H. unfold closed_dom7 in H. do 3 (apply andb_true_iff in H; destruct H as [H ?]). repeat split; assumption.
Qed.

Lemma fn_guard_core : forall o f k i i', core i' = core i -> fn_guard o f k i' = fn_guard o f k i.
Proof. intros o f k i i' E. unfold fn_guard. rewrite !core_view_core, E. reflexivity. Qed.

Theorem closed_dom7_core_eq : forall o f i i', closed_dom7 o f i = true -> core_eq i i' -> internal_ok7 i' = true ->
    closed_dom7 o f i' = true.
Proof.
  intros o f i i' H Hce H7. destruct (closed_dom7_inv o f i H) as [Hd [_ [Hs Hm]]].
  unfold closed_dom7. rewrite (closed_dom_core_eq o i i' Hd Hce), H7.
  rewrite (fn_guard_core o f _ i i' (core_eq_core i i' Hce)), (fn_guard_core o f _ i i' (core_eq_core i i' Hce)), Hs, Hm.
  reflexivity.
Qed.

Theorem conv_fn_closed : forall o f c r i, closed_dom7 o f i = true -> fn_guard o f (c :: r) i = true ->
    exists i', conv_fn o f (c :: r) i = Ok i' /\ core_eq i i' /\ ir_internal i' = None.
Proof.
  intros o f c r i H Hg. destruct (closed_dom7_inv o f i H) as [Hd [H7 _]].
  destruct (closed_dom_inv o i Hd) as [Hcs [Hc [_ [_ [_ [_ [_ [_ Hi]]]]]]]].
  destruct (complete_inv i Hc) as [_ [Hf Hnr]].
  rewrite (conv_fn_core o f c r i Hi H7 Hnr).
  unfold fn_guard in Hg. rewrite core_view_core in Hg. apply andb_true_iff in Hg. destruct Hg as [Hg Hl].
  destruct (conv_fn_on_view o f c r (core i) Hg Hl (chain_safe_summary _ i Hcs) Hf) as [i' [Hc' [Hdoc [Hps [Hrs Hint]]]]];
    [intros g E; discriminate E|].
  exists i'. split; [exact Hc'|]. split; [|exact Hint].
  constructor; [exact Hdoc|exact Hps|apply no_ret_fld_opt; exact Hrs|exact (internal_ok_None i' Hint)].
Qed.

Lemma internal_ok7_out : forall o k i, env_ok7 o = true -> closed_kind k = true -> internal_ok7 (out_model o k i) = true.
Proof.
  intros o k i He Hk. unfold env_ok7 in He. apply andb_true_iff in He. destruct He as [_ He].
  destruct k; try discriminate Hk; try reflexivity.
  unfold internal_ok7. cbn [out_model argparse_out ir_internal in_body in_from_name argparse_remnant]. exact He.
Qed.

Lemma env_ok7_env_ok : forall o, env_ok7 o = true -> env_ok o = true.
Proof. intros o H. unfold env_ok7 in H. apply andb_true_iff in H. apply H. Qed.

Theorem law7 : forall o f k, env_ok7 o = true -> kind_law (conv_model7 o f) (closed_dom7 o f) k.
Proof.
  intros o f k He i H. destruct (closed_dom7_inv o f i H) as [Hd [_ [Hs Hm]]].
  pose proof (env_ok7_env_ok o He) as He5.
  assert (Hold : closed_kind k = true -> conv_model7 o f k i = conv_model o k i ->
                 exists i', conv_model7 o f k i = Ok i' /\ preserved i i' = true /\ closed_dom7 o f i' = true).
  { intros Hk Hcm. exists (out_model o k i). split; [rewrite Hcm; exact (conv_model_closed o k i He5 Hk Hd)|].
    split; [exact (out_model_preserved o k i Hk Hd)|].
    exact (closed_dom7_core_eq o f i _ H (out_model_core_eq o k i Hk) (internal_ok7_out o k i He Hk)). }
  assert (Hfn : forall c r, fn_guard o f (c :: r) i = true ->
                exists i', conv_fn o f (c :: r) i = Ok i' /\ preserved i i' = true /\ closed_dom7 o f i' = true).
  { intros c r Hg. destruct (conv_fn_closed o f c r i H Hg) as [i' [Hc [Hce Hint]]]. exists i'. split; [exact Hc|].
    split; [exact (core_eq_preserved o i i' Hd Hce)|].
    exact (closed_dom7_core_eq o f i i' H Hce (internal_ok7_None i' Hint)). }
  destruct k; try (apply Hold; reflexivity).
  - exact (Hfn _ _ Hs).
  - exact (Hfn _ _ Hm).
Qed.

Theorem chain_closed7 : forall o f cs, env_ok7 o = true ->
    forall i, closed_dom7 o f i = true ->
    exists i', chain (conv_model7 o f) cs i = Ok i' /\ preserved i i' = true /\ closed_dom7 o f i' = true.
Proof.
  intros o f cs He.
  apply (C05Facts.chain_preserved ir kind preserved (conv_model7 o f) (closed_dom7 o f)
                                  C05Facts.preserved_refl C05Facts.preserved_trans cs).
  intros k _. exact (law7 o f k He).
Qed.

Corollary chain_closed7_no_swap : forall o f cs, env_ok7 o = true ->
    forall i, closed_dom7 o f i = true ->
    exists i', chain (conv_model7 o f) cs i = Ok i'
               /\ List.length (ir_params i) = List.length (ir_params i')
               /\ forall k n g, nth_error (ir_params i) k = Some (n, g) ->
                  exists g', nth_error (ir_params i') k = Some (n, g')
                             /\ C01Spec.same_typ g g' = true /\ C01Spec.same_prose g g' = true
                             /\ same_default_ir (g_default g) (g_default g') = true.
Proof.
  intros o f cs He i Hi. destruct (chain_closed7 o f cs He i Hi) as [i' [Hc [Hp _]]].
  exists i'. split; [exact Hc|]. exact (C05Facts.preserved_no_swap i i' Hp).
Qed.

Corollary chain_closed7_exact : forall o f cs, env_ok7 o = true ->
    forall i, closed_dom7 o f i = true ->
    exists i', chain (conv_model7 o f) cs i = Ok i' /\ ir_doc i' = ir_doc i /\ ir_params i' = ir_params i
               /\ (forall g, ir_returns i' <> Has g).
Proof.
  intros o f cs He i Hi. destruct (chain_closed7 o f cs He i Hi) as [i' [Hc [Hp _]]].
  exists i'. split; [exact Hc|]. destruct (closed_dom7_inv o f i Hi) as [Hd _].
  exact (closed_dom_preserved_exact o i i' Hd Hp).
Qed.

Lemma closed_dom7_in_closed_dom : forall o f i, closed_dom7 o f i = true -> closed_dom o i = true.
Proof. intros o f i H. destruct (closed_dom7_inv o f i H) as [Hd _]. exact Hd. Qed.

Theorem conv_model7_fixpoint : forall o f k i i1, env_ok7 o = true -> closed_dom7 o f i = true ->
    conv_model7 o f k i = Ok i1 -> conv_model7 o f k i1 = Ok i1.
Proof.
  intros o f k i i1 He H Hc. destruct (closed_dom7_inv o f i H) as [Hd [_ [Hs Hm]]].
  pose proof (env_ok7_env_ok o He) as He5.
  assert (Hfn : forall c r, fn_guard o f (c :: r) i = true -> conv_fn o f (c :: r) i = Ok i1 -> conv_fn o f (c :: r) i1 = Ok i1).
  { intros c r Hg Hcf. destruct (conv_fn_closed o f c r i H Hg) as [i' [Hc' [Hce Hint]]].
    rewrite Hcf in Hc'. injection Hc' as Hc'. subst i'.
    destruct (closed_dom7_inv o f i H) as [_ [H7 _]].
    (* converting i1 is converting core i1 = core i, that is converting i *)
    rewrite (conv_fn_core o f c r i1 (internal_ok_None i1 Hint) (internal_ok7_None i1 Hint) (ce_ret _ _ Hce)).
    rewrite (core_eq_core i i1 Hce).
    rewrite <- (conv_fn_core o f c r i (closed_dom_internal o i Hd) H7 (closed_dom_no_ret o i Hd)). exact Hcf. }
  destruct k;
    try (match goal with |- conv_model7 _ _ ?k _ = _ => exact (conv_model_fixpoint o k i i1 He5 eq_refl Hd Hc) end).
  - exact (Hfn _ _ Hs Hc).
  - exact (Hfn _ _ Hm Hc).
Qed.

Lemma conv7_Ok_emit_Ok : forall o f k i i', conv_model7 o f k i = Ok i' -> exists t, emit_model7 o f k i = Ok t.
Proof.
  intros o f k i i' H.
  assert (Hfn : forall kd, conv_fn o f kd i = Ok i' ->
                exists t, (do text <- C03DocLinkDefs.function_docstring_text (ce_w o) (fn_opts o f kd) i;
                           do s <- C03Spec.emit_fn (fn_opts o f kd) i (Ok text); Ok (AStmt s)) = Ok t).
  { intros kd Hc. unfold conv_fn in Hc. apply DefaultsFacts.bind_Ok_inv in Hc as [text [Ht Hc]]. binv Hc.
    unfold C03Spec.round_trip_fn in Hc. apply DefaultsFacts.bind_Ok_inv in Hc as [s [Hs _]].
    rewrite Ht. cbn [bind]. rewrite Hs. eexists. reflexivity. }
  destruct k;
    try (match goal with |- exists t, emit_model7 _ _ ?k _ = _ => exact (conv_Ok_emit_Ok o k i i' H) end).
  - exact (Hfn _ H).
  - exact (Hfn _ H).
Qed.

Theorem C08_closed7_lemma : forall o f k i, env_ok7 o = true -> closed_dom7 o f i = true -> C08_at7 o f k i.
Proof.
  intros o f k i He H. destruct (law7 o f k He i H) as [i1 [H1 _]].
  pose proof (conv_model7_fixpoint o f k i i1 He H H1) as H2.
  destruct (conv7_Ok_emit_Ok o f k i _ H1) as [t1 E1]. destruct (conv7_Ok_emit_Ok o f k _ _ H2) as [t2 E2].
  exists t1, i1, t2, i1, t2. repeat split; assumption.
Qed.

Corollary C08_after_chain7 : forall o f cs k i, env_ok7 o = true -> closed_dom7 o f i = true ->
    exists i', chain (conv_model7 o f) cs i = Ok i' /\ C08_at7 o f k i'.
Proof.
  intros o f cs k i He H. destruct (chain_closed7 o f cs He i H) as [i' [Hc [_ Hd]]].
  exists i'. split; [exact Hc|]. exact (C08_closed7_lemma o f k i' He Hd).
Qed.

Lemma w_closed_in_dom7 :
  env_ok7 default_env = true /\ closed_dom7 default_env default_fenv w_closed = true
  /\ closed_dom7 default_env (mkFE false false 1 false false) w_closed = true.
Proof. unfold closed_dom7. rewrite w_closed_dom. vm_compute. repeat split; reflexivity. Qed.

Definition sample_chain7 : list kind :=
  [KClass; KFunction; KArgparse; KMethod; KRest; KFunction; KGoogle; KArgparse; KClass; KMethod; KMethod; KNumpydoc].

Lemma sample_chain7_runs :
  match chain (conv_model7 default_env default_fenv) sample_chain7 w_closed with
  | Ok i' => preserved w_closed i' && closed_dom7 default_env default_fenv i'
  | Err _ => false
  end = true.
Proof. apply chain_runs_of. apply chain_closed7; [reflexivity|exact (proj1 (proj2 w_closed_in_dom7))]. Qed.

(* env_ok7 is needed: when the argparse function is also named f, emit.function splices the carried
   return argument_parser  into f and parse.function invents a return entry (so does the real code) *)
Definition env_fname_f : cenv :=
  mkCE 100 false false [] (L "ConfigClass") [L "object"] [] false false
       false (L "f") (fun _ => L "Doc.") (fun _ => C04Codec.empty_doc_ir) None None.

Lemma closed_dom7_env : forall o o' f i,
    ce_w o = ce_w o' -> ce_edd o = ce_edd o' -> ce_ww o = ce_ww o' -> ce_pt o = ce_pt o' ->
    closed_dom7 o f i = closed_dom7 o' f i.
Proof.
  intros o o' f i Hw He Hww Hpt. unfold closed_dom7, closed_dom, fn_guard, fn_opts. rewrite Hw, He, Hww, Hpt. reflexivity.
Qed.

Lemma env_ok7_needed :
  env_ok env_fname_f = true /\ env_ok7 env_fname_f = false
  /\ closed_dom7 env_fname_f default_fenv w_closed = true
  /\ match chain (conv_model7 env_fname_f default_fenv) [KArgparse; KFunction] w_closed with
     | Ok i' => negb (preserved w_closed i') && match ir_returns i' with Has _ => true | _ => false end
     | Err _ => false
     end = true.
Proof.
  split; [reflexivity|]. split; [reflexivity|]. split.
  - rewrite (closed_dom7_env env_fname_f default_env) by reflexivity. exact (proj1 (proj2 w_closed_in_dom7)).
  - vm_compute. reflexivity.
Qed.

Definition passes (k : kind) (i : ir) : bool :=
  match conv_model7 default_env default_fenv k i with Ok i' => preserved i i' | Err _ => false end.

(* a typed return entry with prose (no default): carried by rest, function, method; numpydoc / google / class give it
   the default 0, argparse drops it *)
Definition w_ret : ir :=
  mkIR FNone (Has (L "static")) (ir_doc w_closed) (ir_params w_closed)
       (Has (mkG (Has (L "the result.")) (Has (L "int")) None)) None.

(* the default None under Optional[...]: only argparse loses it (the default disappears); every other kind returns it
   as the spelling NoneStr -- which [preserved] identifies with None, so [preserved] no longer determines the
   parameters and the closure argument of this file (closed_dom_core_eq) does not apply as it stands *)
Definition w_none : ir :=
  mkIR FNone (Has (L "static")) (Has (L "Sum."))
       [(L "x", mkG (Has (L "first.")) (Has (L "Optional[int]")) (Some (DV VNone)));
        (L "y", cg (L "second.") (L "int") (VInt 2))] FNone None.

(* per kind: whether the conversion preserves w_none, and the default of x in what it returns *)
Definition none_row (k : kind) : bool * option dval :=
  match conv_model7 default_env default_fenv k w_none with
  | Ok i' => (preserved w_none i', match ir_params i' with (_, g) :: _ => g_default g | [] => None end)
  | Err _ => (false, None)
  end.

Lemma none_rows :
  map none_row all_kinds
  = [(true, Some (DV (VStr PureUtils.NoneStr))); (true, Some (DV (VStr PureUtils.NoneStr)));
     (true, Some (DV (VStr PureUtils.NoneStr))); (true, Some (DV (VStr PureUtils.NoneStr)));
     (true, Some (DV (VStr PureUtils.NoneStr))); (true, Some (DV (VStr PureUtils.NoneStr))); (false, None)].
Proof. vm_compute. reflexivity. Qed.

Lemma none_default_blockers :
  map (fun k => passes k w_none) all_kinds = [true; true; true; true; true; true; false]
  /\ map (fun k => chain_safe [k] w_none) all_kinds = [true; true; true; true; true; true; false]
  /\ map (fun k => match conv_model7 default_env default_fenv k w_none with
                   | Ok i' => match ir_params i' with (_, g) :: _ => g_default g | [] => None end
                   | Err _ => None
                   end) all_kinds
     = [Some (DV (VStr PureUtils.NoneStr)); Some (DV (VStr PureUtils.NoneStr)); Some (DV (VStr PureUtils.NoneStr));
        Some (DV (VStr PureUtils.NoneStr)); Some (DV (VStr PureUtils.NoneStr)); Some (DV (VStr PureUtils.NoneStr)); None].
Proof.
  split; [|split].
  - rewrite (map_ext _ (fun k => fst (none_row k))), <- map_map, none_rows; [reflexivity|].
    intros k. unfold passes, none_row. destruct (conv_model7 _ _ k w_none); reflexivity.
  - vm_compute. reflexivity.
  - rewrite (map_ext _ (fun k => snd (none_row k))), <- map_map, none_rows; [reflexivity|].
    intros k. unfold none_row. destruct (conv_model7 _ _ k w_none); reflexivity.
Qed.

Lemma complete_ret_inv : forall i, complete_ret i = true ->
    (exists d, ir_doc i = Has d) /\ forallb (fun kv => complete_entry (snd kv)) (ir_params i) = true
    /\ exists g, ir_returns i = Has g /\ complete_return g = true.
Proof.
  intros i H. unfold complete_ret in H. do 3 (apply andb_true_iff in H; destruct H as [H ?]).
  split; [destruct (ir_doc i) as [| |d]; try discriminate; exists d; reflexivity|]. split; [assumption|].
  destruct (ir_returns i) as [| |g]; try discriminate. exists g. split; [reflexivity|assumption].
Qed.

Record ret_eq (i i' : ir) : Prop := mkRetEq {
  re_doc : ir_doc i' = ir_doc i;
  re_params : ir_params i' = ir_params i;
  re_ret : ir_returns i' = ir_returns i;
  re_int : ir_internal i' = None
}.

Theorem complete_ret_preserved_eq : forall i i', complete_ret i = true -> preserved i i' = true ->
    ir_doc i' = ir_doc i /\ ir_params i' = ir_params i /\ ir_returns i' = ir_returns i.
Proof.
  intros i i' Hc Hp. destruct (complete_ret_inv i Hc) as [[d Hd] [Hf [g [Hg Hcg]]]].
  apply C05Facts.preserved_split in Hp. destruct Hp as [Hs [Hps Hr]]. split; [|split].
  - rewrite Hd. exact (same_summary_Has i i' d Hd Hs).
  - apply complete_params_eq; assumption.
  - unfold preserved_returns in Hr. rewrite Hg in *. cbn [fld_opt C01Spec.opt_eqb] in Hr.
    destruct (ir_returns i') as [| |g']; cbn [fld_opt] in Hr; try discriminate Hr.
    rewrite (entry_determined g g' (or_intror Hcg) Hr). reflexivity.
Qed.

Lemma ret_view_eq : forall i i', ret_eq i i' -> ret_view i' = ret_view i.
Proof. intros i i' [Hd Hp Hr _]. unfold ret_view. rewrite Hd, Hp, Hr. reflexivity. Qed.

Lemma closed_dom_ret_inv : forall o f i, closed_dom_ret o f i = true ->
    chain_safe ret_kinds i = true /\ complete_ret i = true /\ guard_C01_rest false i = true
    /\ internal_ok i = true /\ internal_ok7 i = true
    /\ fn_guard_ret o f kind_static i = true /\ fn_guard_ret o f kind_self i = true.
Proof.
  intros o f i H. unfold closed_dom_ret in H. do 6 (apply andb_true_iff in H; destruct H as [H ?]). repeat split; assumption.
Qed.

Definition ret_static (o : cenv) (f : fenv) (i : ir) : bool :=
  chain_safe ret_kinds i && complete_ret i && guard_C01_rest false i
  && fn_guard_ret o f kind_static i && fn_guard_ret o f kind_self i.

Lemma closed_dom_ret_split : forall o f i,
    closed_dom_ret o f i = true <-> ret_static o f i = true /\ internal_ok i = true /\ internal_ok7 i = true.
Proof. intros o f i. unfold closed_dom_ret, ret_static. rewrite !andb_true_iff. tauto. Qed.

Lemma ret_static_view : forall o f i, ret_static o f i = ret_static o f (ret_view i).
Proof. intros o f [n t d ps r b]. reflexivity. Qed.

Theorem closed_dom_ret_eq : forall o f i i', closed_dom_ret o f i = true -> ret_eq i i' -> closed_dom_ret o f i' = true.
Proof.
  intros o f i i' H Hre. apply closed_dom_ret_split in H. destruct H as [Hs _]. apply closed_dom_ret_split.
  split; [|split; [exact (internal_ok_None i' (re_int _ _ Hre))|exact (internal_ok7_None i' (re_int _ _ Hre))]].
  rewrite ret_static_view, (ret_view_eq i i' Hre), <- ret_static_view. exact Hs.
Qed.

Lemma ret_eq_of_preserved : forall o f i i', closed_dom_ret o f i = true -> preserved i i' = true ->
    ir_internal i' = None -> ret_eq i i'.
Proof.
  intros o f i i' H Hp Hi. destruct (closed_dom_ret_inv o f i H) as [_ [Hc _]].
  destruct (complete_ret_preserved_eq i i' Hc Hp) as [Hd [Hps Hr]]. constructor; assumption.
Qed.

Lemma ret_eq_preserved : forall i i', ret_eq i i' -> preserved i i' = true.
Proof.
  intros i i' [Hd Hp Hr _]. apply C05Facts.preserved_of_fields; [exact Hd|exact Hp|rewrite Hr; reflexivity].
Qed.

Theorem law_rest_ret : forall o f i, closed_dom_ret o f i = true ->
    exists i', conv_rest i = Ok i' /\ preserved i i' = true /\ closed_dom_ret o f i' = true.
Proof.
  intros o f i H. destruct (closed_dom_ret_inv o f i H) as [_ [_ [Hg _]]].
  destruct (C05Facts.RT_rest_roundtrip i Hg) as [i' [Hc Hp]].
  exists i'. split; [exact Hc|]. split; [exact Hp|].
  apply (closed_dom_ret_eq o f i i' H). apply (ret_eq_of_preserved o f i i' H Hp).
  exact (doc_shape_internal i' (conv_rest_shape i i' Hc)).
Qed.

Theorem conv_fn_ret_closed : forall o f c r i, closed_dom_ret o f i = true -> fn_guard_ret o f (c :: r) i = true ->
    exists i', conv_fn o f (c :: r) i = Ok i' /\ ret_eq i i'.
Proof.
  intros o f c r i H Hg. destruct (closed_dom_ret_inv o f i H) as [Hcs [Hc [_ [Hi [H7 _]]]]].
  destruct (complete_ret_inv i Hc) as [_ [Hf [g [Eg Hcg]]]].
  rewrite (conv_fn_view o f c r i (ret_view i) Hi H7 eq_refl eq_refl eq_refl eq_refl).
  unfold fn_guard_ret in Hg. apply andb_true_iff in Hg. destruct Hg as [Hg Hl].
  destruct (conv_fn_on_view o f c r (ret_view i) Hg Hl (chain_safe_summary _ i Hcs) Hf) as [i' [Hc' [Hdoc [Hps [Hrs Hint]]]]].
  { intros g0 E. cbn [ret_view ir_returns] in E. rewrite Eg in E. injection E as E. subst g0. exact Hcg. }
  exists i'. split; [exact Hc'|]. constructor; [exact Hdoc|exact Hps| |exact Hint].
  cbn [ret_view ir_returns] in Hrs. rewrite Eg in *. destruct (ir_returns i') as [| |g']; try discriminate Hrs.
  injection Hrs as Hrs. subst g'. reflexivity.
Qed.

Theorem law_ret : forall o f k, ret_kind k = true -> kind_law (conv_model7 o f) (closed_dom_ret o f) k.
Proof.
  intros o f k Hk i H. destruct (closed_dom_ret_inv o f i H) as [_ [_ [_ [_ [_ [Hs Hm]]]]]].
  assert (Hfn : forall c r, fn_guard_ret o f (c :: r) i = true ->
                exists i', conv_fn o f (c :: r) i = Ok i' /\ preserved i i' = true /\ closed_dom_ret o f i' = true).
  { intros c r Hg. destruct (conv_fn_ret_closed o f c r i H Hg) as [i' [Hc Hre]]. exists i'. split; [exact Hc|].
    split; [exact (ret_eq_preserved i i' Hre)|exact (closed_dom_ret_eq o f i i' H Hre)]. }
  destruct k; try discriminate Hk.
  - exact (law_rest_ret o f i H).
  - exact (Hfn _ _ Hs).
  - exact (Hfn _ _ Hm).
Qed.

Theorem chain_closed_ret : forall o f cs, forallb ret_kind cs = true ->
    forall i, closed_dom_ret o f i = true ->
    exists i', chain (conv_model7 o f) cs i = Ok i' /\ preserved i i' = true /\ closed_dom_ret o f i' = true.
Proof.
  intros o f cs Hcs.
  apply (C05Facts.chain_preserved ir kind preserved (conv_model7 o f) (closed_dom_ret o f)
                                  C05Facts.preserved_refl C05Facts.preserved_trans cs).
  intros k Hk. rewrite forallb_forall in Hcs. exact (law_ret o f k (Hcs k Hk)).
Qed.

Lemma closed_dom_ret_env : forall o f o' f' i, closed_dom_ret o f i = true ->
    fn_guard_ret o' f' kind_static i = true -> fn_guard_ret o' f' kind_self i = true -> closed_dom_ret o' f' i = true.
Proof.
  intros o f o' f' i H Hs Hm. destruct (closed_dom_ret_inv o f i H) as [H1 [H2 [H3 [H4 [H5 _]]]]].
  unfold closed_dom_ret. rewrite H1, H2, H3, H4, H5, Hs, Hm. reflexivity.
Qed.

Lemma w_ret_closed_dom : closed_dom_ret default_env default_fenv w_ret_closed = true.
Proof. vm_compute. reflexivity. Qed.

Lemma w_ret_closed_in_dom :
  closed_dom_ret default_env default_fenv w_ret_closed = true
  /\ closed_dom_ret default_env (mkFE false false 1 false false) w_ret_closed = true
  /\ match chain (conv_model7 default_env default_fenv) [KFunction; KRest; KMethod; KMethod; KRest; KFunction] w_ret_closed with
     | Ok i' => preserved w_ret_closed i' && closed_dom_ret default_env default_fenv i'
     | Err _ => false
     end = true.
Proof.
  split; [exact w_ret_closed_dom|]. split.
  - apply (closed_dom_ret_env default_env default_fenv); [exact w_ret_closed_dom| |]; vm_compute; reflexivity.
  - apply chain_runs_of. apply chain_closed_ret; [reflexivity|exact w_ret_closed_dom].
Qed.

Lemma passes_of_law : forall D k i, kind_law (conv_model7 default_env default_fenv) D k -> D i = true -> passes k i = true.
Proof. intros D k i Hl Hd. destruct (Hl i Hd) as [i' [Hc [Hp _]]]. unfold passes. rewrite Hc. exact Hp. Qed.

Lemma closed_dom_ret_in_region : forall o f i k, closed_dom_ret o f i = true -> ret_kind k = true -> chain_safe [k] i = true.
Proof.
  intros o f i k H Hk. destruct (closed_dom_ret_inv o f i H) as [Hcs _].
  apply (C05Facts.chain_safe_mono [k] ret_kinds); [|exact Hcs].
  intros k' [E|[]]. subst k'. destruct k; try discriminate Hk; cbn [ret_kinds In]; auto.
Qed.

Lemma return_entry_blockers :
  map (fun k => passes k w_ret) all_kinds = [true; false; false; false; true; true; false]
  /\ map (fun k => chain_safe [k] w_ret) all_kinds = [true; false; false; false; true; true; false].
Proof.
  (* the three kinds that carry the entry: by their law on closed_dom_ret; the four that do not: by running them *)
  assert (H : closed_dom_ret default_env default_fenv w_ret = true) by exact w_ret_closed_dom.
  cbn [map all_kinds]. split.
  - rewrite (passes_of_law _ KRest w_ret (law_ret _ _ KRest eq_refl) H),
            (passes_of_law _ KFunction w_ret (law_ret _ _ KFunction eq_refl) H),
            (passes_of_law _ KMethod w_ret (law_ret _ _ KMethod eq_refl) H).
    vm_compute. reflexivity.
  - rewrite (closed_dom_ret_in_region _ _ w_ret KRest H eq_refl), (closed_dom_ret_in_region _ _ w_ret KFunction H eq_refl),
            (closed_dom_ret_in_region _ _ w_ret KMethod H eq_refl).
    vm_compute. reflexivity.
Qed.
