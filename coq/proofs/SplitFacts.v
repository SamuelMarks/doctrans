(* SplitFacts: s.split(c) / sep.join(l) for a one-character separator as structural functions, and the
   inverse laws between them; characters of the pieces.  split_c is defined here. *)
From Coq Require Import List Ascii Bool Arith Lia.
From Coq Require String.
Import String.StringSyntax.
From DT Require Import PyStr PyStrFacts.
Import ListNotations.

Fixpoint split_c (c : ascii) (s : str) : list str :=
  match s with
  | [] => [[]]
  | x :: r =>
    if ascii_eqb c x then [] :: split_c c r
    else match split_c c r with
         | h :: t => (x :: h) :: t
         | [] => [[x]]
         end
  end.

Lemma split_c_nonnil : forall c s, split_c c s <> [].
Proof.
  intros c s. destruct s as [|x r]; cbn [split_c].
  - discriminate.
  - destruct (ascii_eqb c x); [discriminate|].
    destruct (split_c c r); discriminate.
Qed.

Lemma split_c_cons_sep : forall c r, split_c c (c :: r) = [] :: split_c c r.
Proof. intros c r. cbn [split_c]. now rewrite ascii_eqb_refl. Qed.

Lemma split_c_cons_other : forall c x r h t,
    ascii_eqb c x = false -> split_c c r = h :: t -> split_c c (x :: r) = (x :: h) :: t.
Proof. intros c x r h t Hx Hr. cbn [split_c]. now rewrite Hx, Hr. Qed.

Lemma startswith_single_cons : forall c x r, startswith [c] (x :: r) = ascii_eqb c x.
Proof. intros c x r. cbn [startswith]. now rewrite andb_true_r. Qed.

Lemma split_aux_nonnil : forall fuel sep s cur, split_aux fuel sep s cur <> [].
Proof.
  induction fuel as [|f IHf]; intros sep s cur; cbn [split_aux]; [discriminate|].
  destruct s as [|c r]; [discriminate|].
  destruct (startswith sep (c :: r)); [discriminate|apply IHf].
Qed.

Lemma split_nonnil : forall sep s, split sep s <> [].
Proof. intros sep s. unfold split. apply split_aux_nonnil. Qed.

Lemma split_aux_single : forall c fuel s cur,
    List.length s < fuel ->
    split_aux fuel [c] s cur =
    match split_c c s with
    | h :: t => (rev cur ++ h) :: t
    | [] => [rev cur]
    end.
Proof.
  intros c fuel. induction fuel as [|f IH]; intros s cur Hlen; [lia|].
  destruct s as [|x r].
  - cbn [split_aux split_c]. now rewrite app_nil_r.
  - cbn [split_aux]. rewrite startswith_single_cons.
    cbn [List.length] in Hlen.
    destruct (ascii_eqb c x) eqn:Ex.
    + apply ascii_eqb_eq in Ex. subst x. rewrite split_c_cons_sep.
      cbn [skipn List.length]. rewrite IH by lia. cbn [rev app].
      rewrite app_nil_r.
      destruct (split_c c r) as [|h t] eqn:Er; [now apply split_c_nonnil in Er|reflexivity].
    + rewrite IH by lia. cbn [split_c]. rewrite Ex.
      destruct (split_c c r) as [|h t] eqn:Er; [now apply split_c_nonnil in Er|].
      cbn [rev]. now rewrite <- app_assoc.
Qed.

Lemma split_single : forall c s, split [c] s = split_c c s.
Proof.
  intros c s. unfold split. rewrite split_aux_single by lia. cbn [rev app].
  destruct (split_c c s) as [|h t] eqn:E; [now apply split_c_nonnil in E|reflexivity].
Qed.

Lemma split_nl_eq : forall s, split_nl s = split_c nl s.
Proof. intros s. apply split_single. Qed.

Lemma join_cons_cons : forall sep x y r, join sep (x :: y :: r) = x ++ sep ++ join sep (y :: r).
Proof. reflexivity. Qed.

Lemma join_single : forall sep x, join sep [x] = x.
Proof. reflexivity. Qed.

Lemma join_cons_nonnil : forall sep x r, r <> [] -> join sep (x :: r) = x ++ sep ++ join sep r.
Proof. intros sep x r Hr. destruct r as [|y r']; [congruence|reflexivity]. Qed.

Lemma join_split_c : forall c s, join [c] (split_c c s) = s.
Proof.
  intros c s. induction s as [|x r IH]; [reflexivity|].
  cbn [split_c]. destruct (ascii_eqb c x) eqn:Ex.
  - apply ascii_eqb_eq in Ex. subst x.
    rewrite join_cons_nonnil by apply split_c_nonnil. cbn [app]. now rewrite IH.
  - destruct (split_c c r) as [|h t] eqn:Er; [now apply split_c_nonnil in Er|].
    destruct t as [|h2 t2].
    + cbn [join] in *. now rewrite IH.
    + rewrite join_cons_cons. rewrite join_cons_cons in IH. rewrite <- IH. reflexivity.
Qed.

Lemma split_c_no_sep_id : forall c s, ~ In c s -> split_c c s = [s].
Proof.
  intros c s. induction s as [|x r IH]; intros Hn; [reflexivity|].
  cbn [split_c]. destruct (ascii_eqb c x) eqn:Ex.
  - apply ascii_eqb_eq in Ex. subst x. exfalso. apply Hn. now left.
  - rewrite IH; [reflexivity|]. intros Hin. apply Hn. now right.
Qed.

Lemma split_nl_one : forall s, mem_c nl s = false -> split_nl s = [s].
Proof.
  intros s H. rewrite split_nl_eq. apply split_c_no_sep_id. apply mem_c_false_notin. exact H.
Qed.

Lemma splitlines_one : forall c r, mem_c nl (c :: r) = false -> splitlines (c :: r) = [c :: r].
Proof. intros c r H. unfold splitlines. rewrite (split_nl_one _ H). reflexivity. Qed.

Lemma split_c_app_sep : forall c a b, ~ In c a -> split_c c (a ++ c :: b) = a :: split_c c b.
Proof.
  intros c a b. induction a as [|x r IH]; intros Hn.
  - cbn [app]. apply split_c_cons_sep.
  - cbn [app split_c]. destruct (ascii_eqb c x) eqn:Ex.
    + apply ascii_eqb_eq in Ex. subst x. exfalso. apply Hn. now left.
    + rewrite IH; [reflexivity|]. intros Hin. apply Hn. now right.
Qed.

Lemma split_c_join : forall c ls,
    ls <> [] -> Forall (fun l => ~ In c l) ls -> split_c c (join [c] ls) = ls.
Proof.
  intros c ls. induction ls as [|x r IH]; intros Hne Hall; [congruence|].
  inversion Hall as [|x' r' Hx Hr]; subst.
  destruct r as [|y r2].
  - cbn [join]. now apply split_c_no_sep_id.
  - rewrite join_cons_cons. change ([c] ++ join [c] (y :: r2)) with (c :: join [c] (y :: r2)).
    rewrite split_c_app_sep by assumption. f_equal. apply IH; [discriminate|assumption].
Qed.

Lemma split_c_pieces_no_sep : forall c s, Forall (fun l => ~ In c l) (split_c c s).
Proof.
  intros c s. induction s as [|x r IH].
  - cbn [split_c]. constructor; [intros []|constructor].
  - cbn [split_c]. destruct (ascii_eqb c x) eqn:Ex.
    + constructor; [intros []|assumption].
    + destruct (split_c c r) as [|h t] eqn:Er; [now apply split_c_nonnil in Er|].
      inversion IH as [|h' t' Hh Ht]; subst.
      constructor; [|assumption].
      intros [Hx|Hin]; [|now apply Hh].
      subst x. now rewrite ascii_eqb_refl in Ex.
Qed.

Lemma split_c_pieces_chars : forall c s l x, In l (split_c c s) -> In x l -> In x s.
Proof.
  intros c s. induction s as [|y r IH]; intros l x Hl Hx.
  - cbn [split_c] in Hl. destruct Hl as [Hl|[]]. subst l. destruct Hx.
  - cbn [split_c] in Hl. destruct (ascii_eqb c y) eqn:Ey.
    + destruct Hl as [Hl|Hl]; [subst l; destruct Hx|]. right. now apply (IH l).
    + destruct (split_c c r) as [|h t] eqn:Er; [now apply split_c_nonnil in Er|].
      destruct Hl as [Hl|Hl].
      * subst l. destruct Hx as [Hx|Hx]; [now left|]. right. apply (IH h); [now left|assumption].
      * right. apply (IH l); [now right|assumption].
Qed.

Lemma join_chars : forall sep ls x, In x (join sep ls) -> In x sep \/ exists l, In l ls /\ In x l.
Proof.
  intros sep ls. induction ls as [|a r IH]; intros x Hx; [destruct Hx|].
  destruct r as [|b r2].
  - cbn [join] in Hx. right. exists a. split; [now left|assumption].
  - rewrite join_cons_cons in Hx. apply in_app_or in Hx. destruct Hx as [Hx|Hx].
    + right. exists a. split; [now left|assumption].
    + apply in_app_or in Hx. destruct Hx as [Hx|Hx]; [now left|].
      destruct (IH x Hx) as [Hs|[l [Hl Hxl]]]; [now left|].
      right. exists l. split; [now right|assumption].
Qed.

Lemma split_c_pieces_forallb : forall (P : ascii -> bool) c s,
    forallb P s = true -> Forall (fun l => forallb P l = true) (split_c c s).
Proof.
  intros P c s Hs. apply Forall_forall. intros l Hl. apply forallb_forall. intros x Hx.
  rewrite forallb_forall in Hs. apply Hs. eapply split_c_pieces_chars; eassumption.
Qed.
