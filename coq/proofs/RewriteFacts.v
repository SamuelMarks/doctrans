(* RewriteFacts: RewriteAtQuery (Locate.visit_stmt / rewrite_visit): what visit_FunctionDef does, a rule for proving
   invariants of the visit, and the frame theorem, by induction on the tree. *)
From Coq Require Import List Ascii Bool Arith ZArith Lia.
From Coq Require String.
Import String.StringSyntax.
From DT Require Import PyStr Sexp PyVal PureUtils PyAst Locate C15Spec PyStrFacts LocateFacts.
Import ListNotations.

(* the block loop of visit_stmt as a top-level function *)
Fixpoint visit_blocks (search : loc) (st : rw_state) (bl : list (list astmt))
  : outcome (list (list astmt) * rw_state) :=
  match bl with
  | [] => Ok ([], st)
  | b :: rest =>
    do b' <- visit_list search st b;
    do r' <- visit_blocks search (snd b') rest;
    Ok (fst b' :: fst r', snd r')
  end.

Lemma visit_go_eq : forall search b st,
    (fix go (st : rw_state) (b : list astmt) : outcome (list astmt * rw_state) :=
       match b with
       | [] => Ok ([], st)
       | x :: rest =>
         do x' <- visit_stmt search st x;
         do r' <- go (snd x') rest;
         Ok (fst x' :: fst r', snd r')
       end) st b = visit_list search st b.
Proof.
  intros search b. induction b as [|x rest IH]; intros st; simpl; [reflexivity|].
  destruct (visit_stmt search st x) as [x'|e]; simpl; [rewrite IH|]; reflexivity.
Qed.

Lemma visit_stmt_class : forall search st i l n bs body d,
    visit_stmt search st (AClass i l n bs body d)
    = if negb (rw_replaced st) && oloc_eqb l search then
        (do r <- node_as_stmt (rw_node st); Ok (r, mkRw true (rw_node st)))
      else
        (do r <- visit_list search st body; Ok (AClass i l n bs (fst r) d, snd r)).
Proof.
  intros. simpl. destruct (negb (rw_replaced st) && oloc_eqb l search); [reflexivity|].
  rewrite visit_go_eq. reflexivity.
Qed.

Lemma visit_stmt_other : forall search st i t h bl,
    visit_stmt search st (AOther i t h bl)
    = (do r <- visit_blocks search st bl; Ok (AOther i t h (fst r), snd r)).
Proof.
  intros. simpl. rewrite andb_false_r. f_equal. revert st.
  induction bl as [|b rest IH]; intros st; simpl; [reflexivity|].
  rewrite visit_go_eq. destruct (visit_list search st b) as [b'|e]; simpl; [rewrite IH|]; reflexivity.
Qed.

Lemma first_hit_go_eq : forall search b,
    (fix go (b : list astmt) : option path :=
       match b with
       | [] => None
       | x :: r => match first_hit search x with Some p => Some p | None => go r end
       end) b = first_hit_list search b.
Proof. intros search b. induction b as [|x r IH]; simpl; [reflexivity | rewrite IH; reflexivity]. Qed.

Lemma first_hit_class : forall search i l n bs body d,
    first_hit search (AClass i l n bs body d)
    = if oloc_eqb l search then Some i else first_hit_list search body.
Proof. intros. simpl. rewrite first_hit_go_eq. reflexivity. Qed.

Lemma first_hit_other : forall search i t h bl,
    first_hit search (AOther i t h bl) = first_hit_blocks search bl.
Proof.
  intros. simpl. induction bl as [|b r IH]; simpl; [reflexivity|]. rewrite first_hit_go_eq, IH. reflexivity.
Qed.

Lemma rewrite_visit_eq : forall search repl m, search <> [] ->
    rewrite_visit search repl m = (do r <- visit_list search (mkRw false repl) m; Ok (NMod (fst r), snd r)).
Proof. intros [|x q] repl m H; [contradiction | reflexivity]. Qed.

(* statements below which the visit does not look *)
Definition leafish (s : astmt) : bool :=
  match s with AFunc _ _ _ _ _ _ _ | AClass _ _ _ _ _ _ | AOther _ _ _ _ => false | _ => true end.

Lemma visit_leaf_eq : forall search s st, leafish s = true ->
    visit_stmt search st s
    = if negb (rw_replaced st) && oloc_eqb (stmt_loc s) search
      then (do r <- node_as_stmt (rw_node st); Ok (r, mkRw true (rw_node st))) else Ok (s, st).
Proof.
  intros search s st H. destruct s; try discriminate; try reflexivity; simpl; rewrite andb_false_r; reflexivity.
Qed.

Lemma first_hit_leaf : forall search s, leafish s = true ->
    first_hit search s = if oloc_eqb (stmt_loc s) search then Some (stmt_id s) else None.
Proof. intros search s H. destruct s; try discriminate; reflexivity. Qed.

Lemma leafish_not_func : forall s, leafish s = true -> forall i l n a b d x, s <> AFunc i l n a b d x.
Proof. intros s H i l n a b d x E. subst s. discriminate. Qed.

Lemma set_nth_length : forall (A : Type) n (x : A) l, List.length (set_nth n x l) = List.length l.
Proof.
  intros A n x l. revert n. induction l as [|y r IH]; intros n; destruct n; simpl; try reflexivity.
  rewrite IH. reflexivity.
Qed.

Lemma update_defaults_length : forall idx nd ds ds',
    update_defaults idx nd ds = Ok ds' -> List.length ds' = List.length ds.
Proof.
  intros idx nd ds ds' H. unfold update_defaults in H.
  destruct idx as [z|]; [|inversion H; reflexivity].
  destruct nd as [d|]; [|inversion H; reflexivity].
  destruct (z <? Z.of_nat (List.length ds))%Z; [|inversion H; reflexivity].
  destruct ((if (z <? 0)%Z then (z + Z.of_nat (List.length ds))%Z else z) <? 0)%Z; [discriminate|].
  inversion H. apply set_nth_length.
Qed.

(* visit_FunctionDef at the parent function of the address, nothing replaced yet: node' is the replacement node, or its
   conversion to an ast.arg when that is an assignment (vr_conv); ra, the ast.arg emitted from it, replaces the first
   addressed argument of each list; ds are the positional defaults after the conversion *)
Record vfd_replaced (search : loc) (st : rw_state) (l : option loc) (a : aarguments)
       (node' : anode) (ds : list adefault) (ra : aarg) (args1 : list aarg) (b1 : bool) (kw1 : list aarg) (b2 : bool)
  : Prop := {
  vr_parent : oloc_eqb l (removelast search) = true;
  vr_is_arg : is_arg_node node' = true;
  vr_emit : emit_arg node' = Ok ra;
  vr_args : replace_first_arg search ra (aar_args a) = (args1, b1);
  vr_kwonly : replace_first_arg search ra (aar_kwonly a) = (kw1, b2);
  vr_defaults_length : List.length ds = List.length (aar_defaults a);
  vr_conv : (node' = rw_node st /\ ds = aar_defaults a)
            \/ (is_arg_node (rw_node st) = false /\ exists a0, node' = NArg a0 /\ aa_loc a0 = None)
}.
Arguments vr_parent {search st l a node' ds ra args1 b1 kw1 b2} _.
Arguments vr_is_arg {search st l a node' ds ra args1 b1 kw1 b2} _.
Arguments vr_emit {search st l a node' ds ra args1 b1 kw1 b2} _.
Arguments vr_args {search st l a node' ds ra args1 b1 kw1 b2} _.
Arguments vr_kwonly {search st l a node' ds ra args1 b1 kw1 b2} _.
Arguments vr_defaults_length {search st l a node' ds ra args1 b1 kw1 b2} _.
Arguments vr_conv {search st l a node' ds ra args1 b1 kw1 b2} _.

(* what visit_FunctionDef does: nothing, or the above *)
Lemma vfd_shape : forall search st i l n a b d r s' st',
    visit_stmt search st (AFunc i l n a b d r) = Ok (s', st') ->
    (negb (rw_replaced st) && oloc_eqb l (removelast search) = false /\ s' = AFunc i l n a b d r /\ st' = st)
    \/ exists node' ds ra args1 b1 kw1 b2,
        s' = AFunc i l n (mkAArguments args1 ds kw1 (aar_kw_defaults a) (aar_vararg a) (aar_kwarg a)) b d r
        /\ st' = mkRw (b1 || b2) node'
        /\ vfd_replaced search st l a node' ds ra args1 b1 kw1 b2.
Proof.
  intros search st i l n a b d r s' st' Hv.
  change (visit_FunctionDef search st (AFunc i l n a b d r) = Ok (s', st')) in Hv. unfold visit_FunctionDef in Hv.
  destruct (negb (rw_replaced st) && oloc_eqb l (removelast search)) eqn:Ec;
    [|inversion Hv; left; repeat split; reflexivity].
  right. apply andb_true_iff in Ec. destruct Ec as [Hst El]. apply negb_true_iff in Hst. rewrite Hst in Hv.
  match type of Hv with (do conv <- ?c; _) = _ => destruct c as [[node' ds]|er] eqn:Ec end; simpl in Hv; [|discriminate].
  assert (Hconv : List.length ds = List.length (aar_defaults a)
                  /\ ((node' = rw_node st /\ ds = aar_defaults a)
                      \/ (is_arg_node (rw_node st) = false /\ exists a0, node' = NArg a0 /\ aa_loc a0 = None))).
  { destruct (rw_node st) as [m|s0|a0]; try (inversion Ec; split; [|left; split]; reflexivity).
    destruct s0; try (inversion Ec; split; [|left; split]; reflexivity).
    - destruct (idx_for_annassign target (aar_args a)) as [idx|er]; simpl in Ec; [|discriminate].
      destruct (update_defaults idx _ (aar_defaults a)) as [ds0|er] eqn:Eu; simpl in Ec; [|discriminate].
      destruct (name_id target) as [ti|]; simpl in Ec; [|discriminate].
      inversion Ec; subst. split; [eapply update_defaults_length; eassumption|].
      right. split; [reflexivity|]. eexists. split; reflexivity.
    - destruct (idx_for_assign targets (aar_args a)) as [idx|er]; simpl in Ec; [|discriminate].
      match type of Ec with (do r1 <- ?c; _) = _ => destruct c as [r1|er] eqn:Er1 end; simpl in Ec; [|discriminate].
      destruct (update_defaults idx _ (aar_defaults a)) as [ds0|er] eqn:Eu; simpl in Ec; [|discriminate].
      inversion Ec; subst. split; [eapply update_defaults_length; eassumption|].
      right. split; [reflexivity|]. exists r1. split; [reflexivity|].
      destruct targets as [|t0 tr]; [discriminate|]. destruct (name_id t0); inversion Er1. reflexivity. }
  destruct (is_arg_node node') eqn:Ea; simpl in Hv; [|discriminate].
  destruct (emit_arg node') as [ra|er] eqn:Er; simpl in Hv; [|discriminate].
  destruct (replace_first_arg search ra (aar_args a)) as [args1 b1] eqn:E1.
  destruct (replace_first_arg search ra (aar_kwonly a)) as [kw1 b2] eqn:E2.
  inversion Hv; subst. exists node', ds, ra, args1, b1, kw1, b2.
  split; [reflexivity|]. split; [reflexivity|]. constructor; try assumption; apply Hconv.
Qed.

(* visit_FunctionDef raises only in the conversion of an assignment *)
Lemma vfd_total : forall search st i l n a b d r,
    is_arg_node (rw_node st) = true \/ oloc_eqb l (removelast search) = false ->
    exists s' st', visit_stmt search st (AFunc i l n a b d r) = Ok (s', st').
Proof.
  intros search st i l n a b d r H.
  change (visit_stmt search st (AFunc i l n a b d r)) with (visit_FunctionDef search st (AFunc i l n a b d r)).
  unfold visit_FunctionDef.
  destruct (negb (rw_replaced st) && oloc_eqb l (removelast search)) eqn:Ec; [|eexists; eexists; reflexivity].
  destruct H as [Ha|Hl]; [|rewrite Hl, andb_false_r in Ec; discriminate].
  assert (Hn : exists a0, rw_node st = NArg a0 \/ rw_node st = NStmt (AArgS a0)).
  { destruct (rw_node st) as [m|s0|a0]; try discriminate; [destruct s0; try discriminate|]; eexists; eauto. }
  destruct Hn as [a0 [Hn|Hn]]; rewrite Hn; simpl;
    destruct (replace_first_arg search a0 (aar_args a)); destruct (replace_first_arg search a0 (aar_kwonly a));
    eexists; eexists; reflexivity.
Qed.

Definition visit_id (search : loc) (s : astmt) : Prop :=
  forall st, rw_replaced st = true -> visit_stmt search st s = Ok (s, st).

Lemma visit_list_id_of : forall search l, Forall (visit_id search) l ->
    forall st, rw_replaced st = true -> visit_list search st l = Ok (l, st).
Proof.
  intros search l H. induction H as [|x l Hx Hl IH]; intros st Hst; simpl; [reflexivity|].
  rewrite (Hx st Hst). simpl. rewrite (IH st Hst). reflexivity.
Qed.

Lemma visit_blocks_id_of : forall search bl, Forall (Forall (visit_id search)) bl ->
    forall st, rw_replaced st = true -> visit_blocks search st bl = Ok (bl, st).
Proof.
  intros search bl H. induction H as [|b bl Hb Hbl IH]; intros st Hst; simpl; [reflexivity|].
  rewrite (visit_list_id_of search b Hb st Hst). simpl. rewrite (IH st Hst). reflexivity.
Qed.

Lemma visit_stmt_id : forall search s, visit_id search s.
Proof.
  intros search s. induction s using astmt_ind2; intros st Hst;
    try (rewrite visit_leaf_eq, Hst by reflexivity; reflexivity).
  - simpl. rewrite Hst. reflexivity.
  - rewrite visit_stmt_class, Hst. simpl. rewrite (visit_list_id_of search b H st Hst). reflexivity.
  - rewrite visit_stmt_other. rewrite (visit_blocks_id_of search bl H st Hst). reflexivity.
Qed.

Lemma visit_list_id : forall search l st, rw_replaced st = true -> visit_list search st l = Ok (l, st).
Proof.
  intros search l. apply visit_list_id_of. apply Forall_forall. intros x _. apply visit_stmt_id.
Qed.

Lemma visit_blocks_id : forall search bl st, rw_replaced st = true -> visit_blocks search st bl = Ok (bl, st).
Proof.
  intros search bl. apply visit_blocks_id_of. apply Forall_forall. intros b _.
  apply Forall_forall. intros x _. apply visit_stmt_id.
Qed.

(* a rule for the visit: on statements that satisfy C
   (which their children inherit) it keeps the invariant I of the state and relates each statement to what it becomes by
   R, once that is shown for a FunctionDef and for a statement that is replaced, R is reflexive and passes through
   ClassDef and blocks *)
Section VisitInv.
  Variable search : loc.
  Variable C : astmt -> Prop.
  Variable I : rw_state -> Prop.
  Variable R : astmt -> astmt -> Prop.

  Definition step_ok (s : astmt) : Prop :=
    forall st s' st', C s -> I st -> visit_stmt search st s = Ok (s', st') -> I st' /\ R s s'.

  Lemma visit_list_inv : forall l, Forall step_ok l ->
      forall st l' st', Forall C l -> I st -> visit_list search st l = Ok (l', st') -> I st' /\ Forall2 R l l'.
  Proof.
    intros l H. induction H as [|x l Hx Hl IH]; intros st l' st' Hc Hi Hv; simpl in Hv.
    - inversion Hv; subst. split; [assumption | constructor].
    - destruct (visit_stmt search st x) as [[x' st1]|e] eqn:Ex; simpl in Hv; [|discriminate].
      destruct (visit_list search st1 l) as [[l1 st2]|e] eqn:El; simpl in Hv; [|discriminate].
      inversion Hv; subst. inversion Hc as [|x0 l0 Hcx Hcl]; subst.
      destruct (Hx _ _ _ Hcx Hi Ex) as [I1 R1]. destruct (IH _ _ _ Hcl I1 El) as [I2 R2].
      split; [assumption | constructor; assumption].
  Qed.

  Lemma visit_blocks_inv : forall bl, Forall (Forall step_ok) bl ->
      forall st bl' st', Forall (Forall C) bl -> I st -> visit_blocks search st bl = Ok (bl', st') ->
                         I st' /\ Forall2 (Forall2 R) bl bl'.
  Proof.
    intros bl H. induction H as [|b bl Hb Hbl IH]; intros st bl' st' Hc Hi Hv; simpl in Hv.
    - inversion Hv; subst. split; [assumption | constructor].
    - destruct (visit_list search st b) as [[b' st1]|e] eqn:Eb; simpl in Hv; [|discriminate].
      destruct (visit_blocks search st1 bl) as [[bl1 st2]|e] eqn:El; simpl in Hv; [|discriminate].
      inversion Hv; subst. inversion Hc as [|b0 bl0 Hcb Hcbl]; subst.
      destruct (visit_list_inv b Hb _ _ _ Hcb Hi Eb) as [I1 R1]. destruct (IH _ _ _ Hcbl I1 El) as [I2 R2].
      split; [assumption | constructor; assumption].
  Qed.

  Lemma rewrite_visit_inv : (forall s, step_ok s) -> forall repl t g st,
      search <> [] -> Forall C t -> I (mkRw false repl) -> rewrite_visit search repl t = Ok (NMod g, st) ->
      I st /\ Forall2 R t g.
  Proof.
    intros Hall repl t g st Hs Hc Hi Hv. rewrite rewrite_visit_eq in Hv by assumption.
    destruct (visit_list search (mkRw false repl) t) as [[l st1]|er] eqn:E; simpl in Hv; [|discriminate].
    inversion Hv; subst l st1. apply (visit_list_inv t) with (st := mkRw false repl); try assumption.
    apply Forall_forall. intros y _. apply Hall.
  Qed.

  Hypothesis Cclass : forall i l n bs b d, C (AClass i l n bs b d) -> Forall C b.
  Hypothesis Cother : forall i t h bl, C (AOther i t h bl) -> Forall (Forall C) bl.
  Hypothesis Hfunc : forall i l n a b d r, step_ok (AFunc i l n a b d r).
  Hypothesis Hhit : forall s st rs,
      (forall i l n a b d r, s <> AFunc i l n a b d r) -> oloc_eqb (stmt_loc s) search = true ->
      C s -> I st -> rw_replaced st = false -> node_as_stmt (rw_node st) = Ok rs ->
      I (mkRw true (rw_node st)) /\ R s rs.
  Hypothesis Hrefl : forall s, R s s.
  Hypothesis Hclass : forall i l n bs b b' d, Forall2 R b b' -> R (AClass i l n bs b d) (AClass i l n bs b' d).
  Hypothesis Hother : forall i t h bl bl', Forall2 (Forall2 R) bl bl' -> R (AOther i t h bl) (AOther i t h bl').

  Lemma step_hit_or_refl : forall s st s' st',
      (forall i l n a b d r, s <> AFunc i l n a b d r) -> C s -> I st ->
      (if negb (rw_replaced st) && oloc_eqb (stmt_loc s) search
       then (do r <- node_as_stmt (rw_node st); Ok (r, mkRw true (rw_node st))) else Ok (s, st)) = Ok (s', st') ->
      I st' /\ R s s'.
  Proof.
    intros s st s' st' Hnf Hc Hi Hv.
    destruct (rw_replaced st) eqn:Er; [|destruct (oloc_eqb (stmt_loc s) search) eqn:El]; simpl in Hv.
    - inversion Hv; subst. split; [assumption | apply Hrefl].
    - destruct (node_as_stmt (rw_node st)) as [rs|e] eqn:En; simpl in Hv; [|discriminate].
      inversion Hv; subst. apply Hhit; assumption.
    - inversion Hv; subst. split; [assumption | apply Hrefl].
  Qed.

  Theorem visit_stmt_inv : forall s, step_ok s.
  Proof.
    induction s using astmt_ind2; intros st s' st' Hc Hi Hv;
      try (rewrite visit_leaf_eq in Hv by reflexivity;
           apply (step_hit_or_refl _ st); [apply leafish_not_func; reflexivity | assumption | assumption | assumption]).
    - exact (Hfunc _ _ _ _ _ _ _ _ _ _ Hc Hi Hv).
    - rewrite visit_stmt_class in Hv.
      destruct (negb (rw_replaced st) && oloc_eqb l search) eqn:Ec.
      + apply (step_hit_or_refl (AClass i l n bs b d) st); [intros; discriminate | assumption | assumption|].
        simpl stmt_loc. rewrite Ec. exact Hv.
      + destruct (visit_list search st b) as [[b' st1]|e] eqn:Eb; simpl in Hv; [|discriminate]. inversion Hv; subst.
        destruct (visit_list_inv b H _ _ _ (Cclass _ _ _ _ _ _ Hc) Hi Eb). split; [assumption | apply Hclass; assumption].
    - rewrite visit_stmt_other in Hv.
      destruct (visit_blocks search st bl) as [[bl' st1]|e] eqn:Eb; simpl in Hv; [|discriminate]. inversion Hv; subst.
      destruct (visit_blocks_inv bl H _ _ _ (Cother _ _ _ _ Hc) Hi Eb). split; [assumption | apply Hother; assumption].
  Qed.
End VisitInv.

Lemma replace_first_arg_spec : forall search r l l' b,
    replace_first_arg search r l = (l', b) ->
    (b = false /\ l' = l /\ first_arg_hit search l = None)
    \/ (b = true /\ exists p, first_arg_hit search l = Some p /\ arg_replaced search r p l l').
Proof.
  intros search r l. induction l as [|a rest IH]; intros l' b H; simpl in H.
  - inversion H; subst. left. repeat split; reflexivity.
  - unfold first_arg_hit. simpl. destruct (oloc_eqb (aa_loc a) search) eqn:E.
    + inversion H; subst. right. split; [reflexivity|]. exists (aa_id a). split; [reflexivity|].
      apply ar_here; [assumption | reflexivity].
    + destruct (replace_first_arg search r rest) as [rest' b0] eqn:E2. inversion H; subst.
      destruct (IH rest' b eq_refl) as [[H1 [H2 H3]]|[H1 [p [H2 H3]]]].
      * left. subst. repeat split; try reflexivity. exact H3.
      * right. split; [assumption|]. exists p. split; [exact H2|]. apply ar_later; assumption.
Qed.

Definition frame_stmt (search : loc) (s : astmt) : Prop :=
  forall st s' st',
    rw_replaced st = false -> visit_stmt search st s = Ok (s', st') ->
    (rw_replaced st' = false /\ first_hit search s = None /\ same_mod_defaults search s s')
    \/ (rw_replaced st' = true /\ exists p, first_hit search s = Some p /\ replaced_in search (rw_node st') p s s').

Definition frame_list_at (search : loc) (l : list astmt) : Prop :=
  forall st l' st',
    rw_replaced st = false -> visit_list search st l = Ok (l', st') ->
    (rw_replaced st' = false /\ first_hit_list search l = None /\ Forall2 (same_mod_defaults search) l l')
    \/ (rw_replaced st' = true /\ exists p, first_hit_list search l = Some p
                                           /\ replaced_first search (rw_node st') p l l').

Lemma Forall2_refl_smd : forall search l, Forall2 (same_mod_defaults search) l l.
Proof. intros search l. induction l; constructor; [apply smd_refl | assumption]. Qed.

Lemma frame_list_of : forall search l, Forall (frame_stmt search) l -> frame_list_at search l.
Proof.
  intros search l H. induction H as [|x l Hx Hl IH]; intros st l' st' Hst Hv; simpl in Hv.
  - inversion Hv; subst. left. repeat split; [assumption | constructor].
  - destruct (visit_stmt search st x) as [[x' st1]|e] eqn:Ex; simpl in Hv; [|discriminate].
    destruct (Hx st x' st1 Hst Ex) as [[H1 [H2 H3]]|[H1 [p [H2 H3]]]].
    + destruct (visit_list search st1 l) as [[l1 st2]|e] eqn:El; simpl in Hv; [|discriminate].
      inversion Hv; subst.
      destruct (IH st1 l1 st' H1 El) as [[K1 [K2 K3]]|[K1 [p [K2 K3]]]].
      * left. simpl. rewrite H2. repeat split; [assumption | assumption | constructor; assumption].
      * right. split; [assumption|]. exists p. simpl. rewrite H2. split; [assumption|].
        apply rf_skip; assumption.
    + rewrite (visit_list_id search l st1 H1) in Hv. simpl in Hv. inversion Hv; subst.
      right. split; [assumption|]. exists p. simpl. rewrite H2. split; [reflexivity|].
      apply rf_head. assumption.
Qed.

Definition frame_blocks_at (search : loc) (bl : list (list astmt)) : Prop :=
  forall st bl' st',
    rw_replaced st = false -> visit_blocks search st bl = Ok (bl', st') ->
    (rw_replaced st' = false /\ first_hit_blocks search bl = None
     /\ Forall2 (Forall2 (same_mod_defaults search)) bl bl')
    \/ (rw_replaced st' = true /\ exists p, first_hit_blocks search bl = Some p
                                           /\ replaced_first_blocks search (rw_node st') p bl bl').

Lemma frame_blocks_of : forall search bl, Forall (Forall (frame_stmt search)) bl -> frame_blocks_at search bl.
Proof.
  intros search bl H. induction H as [|b bl Hb Hbl IH]; intros st bl' st' Hst Hv; simpl in Hv.
  - inversion Hv; subst. left. repeat split; [assumption | constructor].
  - destruct (visit_list search st b) as [[b' st1]|e] eqn:Eb; simpl in Hv; [|discriminate].
    destruct (frame_list_of search b Hb st b' st1 Hst Eb) as [[H1 [H2 H3]]|[H1 [p [H2 H3]]]].
    + destruct (visit_blocks search st1 bl) as [[bl1 st2]|e] eqn:El; simpl in Hv; [|discriminate].
      inversion Hv; subst.
      destruct (IH st1 bl1 st' H1 El) as [[K1 [K2 K3]]|[K1 [p [K2 K3]]]].
      * left. simpl. rewrite H2. repeat split; [assumption | assumption | constructor; assumption].
      * right. split; [assumption|]. exists p. simpl. rewrite H2. split; [assumption|].
        apply rfb_skip; assumption.
    + rewrite (visit_blocks_id search bl st1 H1) in Hv. simpl in Hv. inversion Hv; subst.
      right. split; [assumption|]. exists p. simpl. rewrite H2. split; [reflexivity|].
      apply rfb_head. assumption.
Qed.

Lemma frame_hit : forall search st s s' st',
    (forall i l n a b d x, s <> AFunc i l n a b d x) -> oloc_eqb (stmt_loc s) search = true ->
    (do r <- node_as_stmt (rw_node st); Ok (r, mkRw true (rw_node st))) = Ok (s', st') ->
    rw_replaced st' = true /\ replaced_in search (rw_node st') (stmt_id s) s s'.
Proof.
  intros search st s s' st' Hnf Hloc Hv.
  destruct (node_as_stmt (rw_node st)) as [r|e] eqn:En; simpl in Hv; [|discriminate].
  inversion Hv; subst. simpl. split; [reflexivity|]. apply ri_here; try assumption. reflexivity.
Qed.

Lemma frame_leaf : forall search s, leafish s = true -> frame_stmt search s.
Proof.
  intros search s Hl st s' st' Hst Hv. rewrite visit_leaf_eq, Hst in Hv by assumption. simpl in Hv.
  rewrite first_hit_leaf by assumption. destruct (oloc_eqb (stmt_loc s) search) eqn:El.
  - right. destruct (frame_hit search st s s' st' (leafish_not_func s Hl) El Hv) as [H1 H2].
    split; [assumption|]. exists (stmt_id s). split; [reflexivity | assumption].
  - inversion Hv; subst. left. repeat split; [assumption | apply smd_refl].
Qed.

Lemma frame_FunctionDef : forall search i l n a b d r, frame_stmt search (AFunc i l n a b d r).
Proof.
  intros search i l n a b d r st s' st' Hst Hv.
  destruct (vfd_shape _ _ _ _ _ _ _ _ _ _ _ Hv)
    as [[Hc [Es Est]]|(node' & ds & ra & args1 & b1 & kw1 & b2 & Es & Est & R)]; subst s' st'.
  - rewrite Hst in Hc. simpl in Hc. left. simpl. rewrite Hc. repeat split; [assumption | apply smd_refl].
  - simpl. pose proof (vr_parent R) as El. pose proof (vr_emit R) as Er. pose proof (vr_defaults_length R) as Hlen.
    destruct (replace_first_arg_spec _ _ _ _ _ (vr_args R)) as [[B1 [A1 F1]]|[B1 [p1 [F1 R1]]]];
      destruct (replace_first_arg_spec _ _ _ _ _ (vr_kwonly R)) as [[B2 [A2 F2]]|[B2 [p2 [F2 R2]]]]; subst.
    + left. rewrite El, F1, F2. repeat split.
      apply smd_func; [assumption|]. unfold same_args. simpl. repeat split. symmetry. assumption.
    + right. split; [reflexivity|]. exists p2. rewrite El, F1, F2. split; [reflexivity|].
      eapply ri_func_kw; simpl; try eassumption; reflexivity.
    + right. split; [reflexivity|]. exists p1. rewrite El, F1. split; [reflexivity|].
      eapply ri_func_pos; simpl; try eassumption; try reflexivity.
      right. split; [assumption | reflexivity].
    + right. split; [reflexivity|]. exists p1. rewrite El, F1. split; [reflexivity|].
      eapply ri_func_pos; simpl; try eassumption; try reflexivity.
      left. exists p2. assumption.
Qed.

Lemma frame_stmt_all : forall search s, frame_stmt search s.
Proof.
  intros search s. induction s using astmt_ind2; try (apply frame_leaf; reflexivity).
  - apply frame_FunctionDef.
  - intros st s' st' Hst Hv. rewrite visit_stmt_class in Hv. rewrite Hst in Hv. simpl negb in Hv. rewrite andb_true_l in Hv.
    rewrite first_hit_class.
    destruct (oloc_eqb l search) eqn:El.
    + right. destruct (frame_hit search st (AClass i l n bs b d) s' st') as [H1 H2];
        [intros; discriminate | assumption | assumption|].
      split; [assumption|]. exists i. split; [reflexivity | assumption].
    + destruct (visit_list search st b) as [[b' st1]|e] eqn:Eb; simpl in Hv; [|discriminate].
      inversion Hv; subst.
      destruct (frame_list_of search b H st b' st' Hst Eb) as [[H1 [H2 H3]]|[H1 [p [H2 H3]]]].
      * left. repeat split; [assumption | assumption | apply smd_class; assumption].
      * right. split; [assumption|]. exists p. split; [assumption|]. apply ri_class; assumption.
  - intros st s' st' Hst Hv. rewrite visit_stmt_other in Hv. rewrite first_hit_other.
    destruct (visit_blocks search st bl) as [[bl' st1]|e] eqn:Eb; simpl in Hv; [|discriminate].
    inversion Hv; subst.
    destruct (frame_blocks_of search bl H st bl' st' Hst Eb) as [[H1 [H2 H3]]|[H1 [p [H2 H3]]]].
    + left. repeat split; [assumption | assumption | apply smd_other; assumption].
    + right. split; [assumption|]. exists p. split; [assumption|]. apply ri_other; assumption.
Qed.

Lemma frame_list : forall search l, frame_list_at search l.
Proof.
  intros search l. apply frame_list_of. apply Forall_forall. intros x _. apply frame_stmt_all.
Qed.

Theorem C15_rewrite_frame_lemma : C15_rewrite_frame.
Proof.
  unfold C15_rewrite_frame. intros search repl m m' st Hs Hv.
  rewrite rewrite_visit_eq in Hv by assumption.
  destruct (visit_list search (mkRw false repl) m) as [[l st1]|e] eqn:E; simpl in Hv; [|discriminate].
  inversion Hv; subst.
  exact (frame_list search m (mkRw false repl) m' st eq_refl E).
Qed.

(* something was replaced exactly when something was addressed *)
Lemma C15_rewrite_position : forall search repl m m' st,
    search <> [] -> rewrite_visit search repl m = Ok (NMod m', st) ->
    rw_replaced st = match first_hit_list search m with Some _ => true | None => false end.
Proof.
  intros search repl m m' st Hs Hv.
  destruct (C15_rewrite_frame_lemma search repl m m' st Hs Hv) as [[H1 [H2 _]]|[H1 [p [H2 _]]]];
    rewrite H1, H2; reflexivity.
Qed.
