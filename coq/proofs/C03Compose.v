(* C03Compose: composition of the emit.function model (EmitAst), the unparse / re-parse step (C03Spec.reparse_stmt)
   and the parse.function model (ParseSig + Merge) - property C03, function / method round trip.

   The docstring layer is decoupled exactly as the models are: the emitter takes the text [text] that
   to_docstring returned, the parser takes the docstring-derived IR [d]; every theorem quantifies over both and
   assumes only the named hypothesis doc_agrees (C03Spec).  All statements are unbounded in the number of
   parameters.

   doc_agrees is a hypothesis here; that the text to_docstring produces has it, inside doc_link_ok, is
   C03DocLinkMain.C03_doc_link_lemma (props/C03Ext.v, C03_doc_link and C03_partial_closed).
   Trusted: that reparse_stmt is what CPython does (a model; correspondence family c03).
   The prose conditions of the guard that concern the docstring layer only (prose_safe, the summary token test, the
   default-sentence test) are not used by the proofs of this file: they make the classifier exact on the real code. *)
From Coq Require Import List Ascii Bool Arith ZArith Lia Permutation.
From Coq Require String.
Import String.StringSyntax.
From DT Require Import PyStr Sexp PyVal TyExpr Extracted PureUtils Defaults PyAst IR Merge ParseSig C12Spec C07Spec.
From DT Require Import ListFacts PyStrFacts PureUtilsFacts MergeFacts C12Facts ParseSigFacts C07Facts.
From DT Require EmitAst C06Spec C02Spec DefaultsFacts EmitAstFacts C06Facts.
From DT Require Import C03Spec.
Import ListNotations.

Lemma mapM_ok_forall : forall {A B} (f : A -> outcome B) l,
  (forall x, In x l -> exists y, f x = Ok y) -> exists l', mapM f l = Ok l'.
Proof.
  intros A B f l; induction l as [|x r IH]; intros H; cbn [mapM]; [eexists; reflexivity|].
  destruct (H x (or_introl eq_refl)) as [y Hy]. rewrite Hy. cbn [bind].
  destruct IH as [l' Hl']; [intros z Hz; apply H; right; exact Hz|]. rewrite Hl'. cbn [bind]. eexists; reflexivity.
Qed.

Lemma mapM_map_ok : forall {A B} (f : A -> outcome B) (g : A -> B) l,
  (forall x, In x l -> f x = Ok (g x)) -> mapM f l = Ok (map g l).
Proof.
  intros A B f g l; induction l as [|x r IH]; intros H; cbn [mapM map]; [reflexivity|].
  rewrite (H x (or_introl eq_refl)). cbn [bind]. rewrite IH by (intros z Hz; apply H; right; exact Hz). reflexivity.
Qed.

(* EmitAst.map_outcome is ParseSig.mapM under another name *)
Lemma map_outcome_map_ok : forall {A B} (f : A -> outcome B) (g : A -> B) l,
  (forall x, In x l -> f x = Ok (g x)) -> EmitAst.map_outcome f l = Ok (map g l).
Proof. exact @mapM_map_ok. Qed.

Lemma mapM_app : forall {A B} (f : A -> outcome B) l1 l2,
  mapM f (l1 ++ l2) = (do r1 <- mapM f l1; do r2 <- mapM f l2; Ok (r1 ++ r2)).
Proof.
  intros A B f l1 l2; induction l1 as [|x l1 IH]; cbn [mapM app bind].
  - destruct (mapM f l2); reflexivity.
  - rewrite IH. destruct (f x); [|reflexivity]. destruct (mapM f l1); [|reflexivity]. destruct (mapM f l2); reflexivity.
Qed.

Lemma kind_cases : forall k, kind_in_domain k = true -> k = L "static" \/ k = L "self" \/ k = L "cls".
Proof.
  intros k H. unfold kind_in_domain in H. apply orb_true_iff in H. destruct H as [H|H].
  - apply orb_true_iff in H. destruct H as [H|H]; apply str_eqb_eq in H; auto.
  - apply str_eqb_eq in H; auto.
Qed.

Lemma py_or_given : forall s b, s <> [] -> EmitAst.py_or (Some s) b = Ok (Some s).
Proof. intros [|c s] b H; [congruence|reflexivity]. Qed.

Lemma kind_nonempty : forall k, kind_in_domain k = true -> k <> [].
Proof. intros k H. destruct (kind_cases k H) as [-> | [-> | ->]]; discriminate. Qed.

(* ast.parse on type strings: inside TyExpr's fragment the table is not consulted *)
Lemma parse_expr_src_nil : forall pt s e,
  EmitAst.parse_expr_src [] s = Ok e -> EmitAst.parse_expr_src pt s = Ok e.
Proof.
  intros pt s e H. unfold EmitAst.parse_expr_src in *.
  destruct (strip s) as [|cs ss]; [discriminate|].
  destruct (mem_c bt s && negb (mem_c sq s) && negb (mem_c dq s)); [discriminate|].
  destruct s as [|c0 sr]; [discriminate|].
  destruct (ascii_eqb c0 sp || ascii_eqb c0 tabch); [discriminate|].
  cbn [EmitAst.pt_lookup] in H.
  destruct (forallb EmitAst.printable (c0 :: sr) && negb (EmitAst.comma_before_rb (c0 :: sr) false)); [|discriminate].
  destruct (parse_ty (c0 :: sr)) as [t|]; [|discriminate].
  destruct (EmitAst.ty2expr t) as [e0|]; [exact H|discriminate].
Qed.

Lemma ast_parse_fix_nil : forall pt s e,
  EmitAst.ast_parse_fix [] s = Ok e -> EmitAst.ast_parse_fix pt s = Ok e.
Proof. intros pt s e H. unfold EmitAst.ast_parse_fix in *. apply parse_expr_src_nil; exact H. Qed.

Definition nkp (i : ir) : list (str * gparam) := filter EmitAst.no_kwargs (ir_params i).
Definition kwp (i : ir) : list (str * gparam) := filter (fun kv => negb (EmitAst.no_kwargs kv)) (ir_params i).

(* the annotation emit.function writes for a parameter *)
Definition ann_of (o : fopts) (g : gparam) : option expr :=
  if fo_inline o then
    match g_typ g with
    | Has t => if in_simple_types t then Some (EName t)
               else match EmitAst.ast_parse_fix [] t with Ok e => Some e | Err _ => None end
    | _ => None
    end
  else None.

(* the default node emit.function writes for a parameter *)
Definition dflt_of (g : gparam) : expr :=
  match g_default g with
  | Some (DV v) => if in_none_types v then EmitAst.set_value VNone else EmitAst.set_value v
  | _ => EmitAst.set_value VNone
  end.

Definition typ_fits (o : fopts) (g : gparam) : Prop :=
  match g_typ g with
  | Has t => fo_inline o = true -> typ_inline_ok t = true
  | Missing => True
  | FNone => False
  end.

Lemma arg_of_param_fits : forall o n g, typ_fits o g ->
  EmitAst.arg_of_param (fo_pt o) (fo_inline o) (n, g) = Ok (mkArg n (ann_of o g)).
Proof.
  intros o n g H. unfold EmitAst.arg_of_param, ann_of, typ_fits in *. destruct (fo_inline o); [|reflexivity].
  destruct (g_typ g) as [| |t]; [reflexivity|contradiction|].
  specialize (H eq_refl). unfold typ_inline_ok in H.
  destruct (in_simple_types t); [reflexivity|]. cbn [orb] in H.
  destruct (EmitAst.ast_parse_fix [] t) as [e|] eqn:E; [|discriminate].
  rewrite (ast_parse_fix_nil _ _ _ E). reflexivity.
Qed.

Definition default_scalar (g : gparam) : Prop :=
  match g_default g with None => True | Some (DV _) => True | Some _ => False end.

Lemma default_of_param_scalar : forall n g, default_scalar g ->
  EmitAst.default_of_param (n, g) = Ok (dflt_of g).
Proof.
  intros n g H. unfold EmitAst.default_of_param, dflt_of, default_scalar in *. cbn [snd].
  destruct (g_default g) as [[v|e|r]|]; try contradiction; [|reflexivity].
  destruct (in_none_types v); reflexivity.
Qed.

Definition args0 (k : str) : list arg := if str_eqb k (L "static") then [] else [mkArg k None].

Definition kwarg_of (i : ir) : option arg :=
  match kwp i with kv :: _ => Some (mkArg (fst kv) None) | [] => None end.

Definition afp_of (o : fopts) (i : ir) : list arg := map (fun kv => mkArg (fst kv) (ann_of o (snd kv))) (nkp i).
Definition dfp_of (i : ir) : list expr := map (fun kv => dflt_of (snd kv)) (nkp i).

(* the argument list emit.function builds, in its two layouts *)
Definition layout (kw : bool) (k : str) (afp : list arg) (dfp : list expr) (kwarg : option arg) : arguments :=
  if kw then mkArguments (args0 k) [] afp (map Some dfp) None kwarg
  else mkArguments (args0 k ++ afp) dfp [] [] None kwarg.

Definition emitted_arguments (o : fopts) (i : ir) : arguments :=
  layout (fo_kwonly o) (fo_kind o) (afp_of o i) (dfp_of i) (kwarg_of i).

(* the `-> annotation` computation of emit.function *)
Definition ret_ann_o (o : fopts) (i : ir) : outcome (option expr) :=
  if fo_inline o then
    match EmitAst.returns_param i with
    | Some p => match fget (g_typ p) with
                | Some (c :: t) => do e <- EmitAst.parse_expr_src (fo_pt o) (c :: t); Ok (Some e)
                | _ => Ok None
                end
    | None => Ok None
    end
  else Ok None.

Definition emitted_body (text : str) (rv : option stmt) : list stmt :=
  SExpr (EmitAst.set_value (VStr text)) :: opt_list rv.

(* the default node as it comes back *)
Definition rdflt (g : gparam) : expr :=
  match reparse_expr (dflt_of g) with Ok e => e | Err _ => dflt_of g end.

Definition ann_stable (o : fopts) (g : gparam) : Prop := reparse_opt (ann_of o g) = Ok (ann_of o g).
Definition dflt_reparses (g : gparam) : Prop := exists e, reparse_expr (dflt_of g) = Ok e.

Record emitted_param_facts (o : fopts) (g : gparam) : Prop := mkEPF {
  epf_fits : typ_fits o g;
  epf_scalar : default_scalar g;
  epf_stable : ann_stable o g;
  epf_reparses : dflt_reparses g;
  epf_ann_ok : forall e, ann_of o g = Some e -> expr_ok e = true;
  epf_dflt_ok : expr_ok (rdflt g) = true
}.

Lemma emit_function_shape : forall (nm : str) o i text rv ann,
  nm <> [] -> kind_in_domain (fo_kind o) = true -> ir_internal i = None ->
  (forall kv, In kv (nkp i) -> emitted_param_facts o (snd kv)) ->
  EmitAst.function_return_val (fo_pt o) i = Ok rv ->
  ret_ann_o o i = Ok ann ->
  EmitAst.emit_function (fo_pt o) i (Some nm) (Some (fo_kind o)) (fo_inline o) (fo_kwonly o) (Ok text)
  = Ok (SFunc nm (emitted_arguments o i) (emitted_body text rv) [] ann, i).
Proof.
  intros nm o i text rv ann Hnm Hk Hint Hps Hrv Hann. unfold EmitAst.emit_function.
  rewrite (py_or_given nm _ Hnm), (py_or_given _ _ (kind_nonempty _ Hk)). cbn [bind]. fold (nkp i).
  rewrite (map_outcome_map_ok (EmitAst.arg_of_param (fo_pt o) (fo_inline o))
                              (fun kv => mkArg (fst kv) (ann_of o (snd kv))) (nkp i)).
  2:{ intros [n g] Hin. apply arg_of_param_fits. apply (epf_fits _ _ (Hps _ Hin)). }
  rewrite (map_outcome_map_ok EmitAst.default_of_param (fun kv => dflt_of (snd kv)) (nkp i)).
  2:{ intros [n g] Hin. apply default_of_param_scalar. apply (epf_scalar _ _ (Hps _ Hin)). }
  unfold EmitAst.get_internal_body. rewrite Hint, Hrv. unfold ret_ann_o in Hann. rewrite Hann. cbn [bind].
  destruct rv; reflexivity.
Qed.

Definition nk_names (i : ir) : list str := map fst (nkp i).

Lemma emit_fn_inv : forall o i tds s, kind_in_domain (fo_kind o) = true -> emit_fn o i tds = Ok s ->
  exists afp dfp text rest ret,
    s = SFunc fname (layout (fo_kwonly o) (fo_kind o) afp dfp (kwarg_of i)) (SExpr (EConst (VStr text)) :: rest) [] ret
    /\ map a_name afp = nk_names i /\ List.length dfp = List.length afp.
Proof.
  intros o i tds s Hk H. unfold emit_fn in H. apply DefaultsFacts.bind_Ok_inv in H. destruct H as [[s0 i0] [H E]].
  inversion E; subst s0.
  destruct (EmitAstFacts.emit_function_inv _ _ _ _ _ _ _ _ _ H)
    as (n & ftype & afp & dfp & ib & rv & text & ret & Hn & Hft & Hafp & Hdfp & _ & _ & _ & _ & -> & _).
  rewrite (py_or_given _ _ (kind_nonempty _ Hk)) in Hft. inversion Hft; subst ftype. inversion Hn; subst n.
  exists afp, dfp, (EmitAst.set_value_str text). eexists. exists ret. split.
  - unfold layout. destruct (fo_kwonly o); reflexivity.
  - split; [apply (C06Facts.map_outcome_arg_names _ _ _ _ Hafp)|].
    rewrite (EmitAstFacts.map_outcome_length _ _ _ Hdfp), (EmitAstFacts.map_outcome_length _ _ _ Hafp). reflexivity.
Qed.

Definition rdfp_of (i : ir) : list expr := map (fun kv => rdflt (snd kv)) (nkp i).

Definition reparsed_arguments (o : fopts) (i : ir) : arguments :=
  layout (fo_kwonly o) (fo_kind o) (afp_of o i) (rdfp_of i) (kwarg_of i).

Lemma reparse_args0 : forall k, mapM reparse_arg (args0 k) = Ok (args0 k).
Proof. intros k. unfold args0. destruct (str_eqb k (L "static")); reflexivity. Qed.

Lemma mapM_reparse_opt_Some : forall l,
  mapM reparse_opt (map Some l) = (do l' <- mapM reparse_expr l; Ok (map Some l')).
Proof.
  induction l as [|x l IH]; cbn [map mapM reparse_opt bind]; [reflexivity|]. rewrite IH.
  destruct (reparse_expr x); [|reflexivity]. destruct (mapM reparse_expr l); reflexivity.
Qed.

Lemma reparse_layout_eq : forall kw k afp dfp kwarg,
  reparse_arguments (layout kw k afp dfp kwarg)
  = (do afp' <- mapM reparse_arg afp; do dfp' <- mapM reparse_expr dfp; do kwarg' <- reparse_opt_arg kwarg;
     Ok (layout kw k afp' dfp' kwarg')).
Proof.
  intros kw k afp dfp kwarg. unfold reparse_arguments, layout.
  destruct kw; cbn [ar_args ar_defaults ar_kwonly ar_kw_defaults ar_vararg ar_kwarg].
  - rewrite reparse_args0, mapM_reparse_opt_Some. cbn [mapM bind].
    destruct (mapM reparse_arg afp); [|reflexivity]. destruct (mapM reparse_expr dfp); [|reflexivity].
    cbn [bind reparse_opt_arg]. destruct (reparse_opt_arg kwarg); reflexivity.
  - rewrite mapM_app, reparse_args0. cbn [mapM bind].
    destruct (mapM reparse_arg afp); [|reflexivity]. destruct (mapM reparse_expr dfp); [|reflexivity].
    cbn [bind reparse_opt_arg]. destruct (reparse_opt_arg kwarg); reflexivity.
Qed.

Lemma reparse_args_names : forall l l', mapM reparse_arg l = Ok l' -> map a_name l' = map a_name l.
Proof.
  intros l l' H. apply mapM_Forall2 in H. induction H as [|x y l l' Hxy _ IH]; [reflexivity|]. cbn [map]. f_equal; [|exact IH].
  unfold reparse_arg in Hxy. destruct (reparse_opt (a_ann x)); cbn [bind] in Hxy; [|discriminate]. inversion Hxy; reflexivity.
Qed.

(* the unparse / re-parse step keeps the layout, the names and the pairing of arguments and defaults *)
Lemma reparse_layout : forall kw k afp dfp kwarg a',
  reparse_arguments (layout kw k afp dfp kwarg) = Ok a' ->
  exists afp' dfp' kwarg', a' = layout kw k afp' dfp' kwarg'
    /\ map a_name afp' = map a_name afp /\ List.length dfp' = List.length dfp
    /\ option_map a_name kwarg' = option_map a_name kwarg.
Proof.
  intros kw k afp dfp kwarg a' H. rewrite reparse_layout_eq in H.
  apply DefaultsFacts.bind_Ok_inv in H. destruct H as [afp' [Ha H]].
  apply DefaultsFacts.bind_Ok_inv in H. destruct H as [dfp' [Hd H]].
  apply DefaultsFacts.bind_Ok_inv in H. destruct H as [kwarg' [Hk H]]. inversion H; subst a'.
  exists afp', dfp', kwarg'. split; [reflexivity|]. split; [apply reparse_args_names; exact Ha|].
  split; [apply (EmitAstFacts.map_outcome_length _ _ _ Hd)|].
  destruct kwarg as [x|]; [|inversion Hk; reflexivity]. cbn [reparse_opt_arg] in Hk. unfold reparse_arg in Hk.
  destruct (reparse_opt (a_ann x)); cbn [bind] in Hk; [|discriminate]. inversion Hk; reflexivity.
Qed.

Lemma reparse_emitted_arguments : forall o i,
  (forall kv, In kv (nkp i) -> emitted_param_facts o (snd kv)) ->
  reparse_arguments (emitted_arguments o i) = Ok (reparsed_arguments o i).
Proof.
  intros o i H. unfold emitted_arguments, reparsed_arguments. rewrite reparse_layout_eq.
  assert (Ha : mapM reparse_arg (afp_of o i) = Ok (afp_of o i)).
  { unfold afp_of. rewrite <- (map_id (map _ (nkp i))) at 2. apply mapM_map_ok. intros x Hx.
    apply in_map_iff in Hx. destruct Hx as [kv [<- Hkv]]. unfold reparse_arg. cbn [a_ann a_name].
    rewrite (epf_stable _ _ (H kv Hkv)). reflexivity. }
  assert (Hd : mapM reparse_expr (dfp_of i) = Ok (rdfp_of i)).
  { unfold dfp_of, rdfp_of. induction (nkp i) as [|kv l IH]; cbn [map mapM]; [reflexivity|].
    destruct (epf_reparses _ _ (H kv (or_introl eq_refl))) as [e He]. unfold rdflt at 1. rewrite He. cbn [bind].
    rewrite IH by (intros kv' Hkv'; apply H; right; exact Hkv'). reflexivity. }
  rewrite Ha, Hd. cbn [bind]. unfold kwarg_of. destruct (kwp i); reflexivity.
Qed.

Lemma fname_identifier : C06Spec.is_identifier fname = true.
Proof. vm_compute. reflexivity. Qed.

Lemma reparse_function_emitted : forall nm o i text rv rv' ann ann',
  C06Spec.is_identifier nm = true ->
  (forall kv, In kv (nkp i) -> emitted_param_facts o (snd kv)) ->
  mapM reparse_body_stmt (opt_list rv) = Ok (opt_list rv') ->
  reparse_opt ann = Ok ann' ->
  reparse_stmt (SFunc nm (emitted_arguments o i) (emitted_body text rv) [] ann)
  = Ok (SFunc nm (reparsed_arguments o i) (emitted_body text rv') [] ann').
Proof.
  intros nm o i text rv rv' ann ann' Hid Hps Hrv Hann. unfold reparse_stmt. rewrite Hid. cbn [negb].
  rewrite (reparse_emitted_arguments o i Hps). cbn [bind].
  unfold emitted_body. cbn [mapM]. unfold EmitAst.set_value at 1. cbn [reparse_body_stmt bind].
  rewrite Hrv. cbn [bind mapM]. rewrite Hann. cbn [bind]. reflexivity.
Qed.

Lemma reparse_stmt_inv : forall n a b dc r s', reparse_stmt (SFunc n a b dc r) = Ok s' ->
  exists a' b' dc' r', reparse_arguments a = Ok a' /\ mapM reparse_body_stmt b = Ok b'
    /\ s' = SFunc n a' b' dc' r'.
Proof.
  intros n a b dc r s' H. unfold reparse_stmt in H. destruct (negb (C06Spec.is_identifier n)); [discriminate|].
  apply DefaultsFacts.bind_Ok_inv in H. destruct H as [a' [Ha H]].
  apply DefaultsFacts.bind_Ok_inv in H. destruct H as [b' [Hb H]].
  apply DefaultsFacts.bind_Ok_inv in H. destruct H as [dc' [_ H]].
  apply DefaultsFacts.bind_Ok_inv in H. destruct H as [r' [_ H]]. inversion H. exists a', b', dc', r'. auto.
Qed.

Definition not_self_cls (n : str) : bool := negb (str_eqb n (L "self") || str_eqb n (L "cls")).

Lemma args0_cases : forall k, kind_in_domain k = true ->
  (k = L "static" /\ args0 k = [])
  \/ (str_eqb k (L "static") = false /\ (k = L "self" \/ k = L "cls") /\ args0 k = [mkArg k None]).
Proof. intros k Hk. destruct (kind_cases k Hk) as [-> | [-> | ->]]; [left|right|right]; repeat split; auto. Qed.

Lemma layout_ar_args : forall kw k afp dfp kwarg,
  ar_args (layout kw k afp dfp kwarg) = args0 k ++ (if kw then [] else afp).
Proof. intros kw k afp dfp kwarg. unfold layout. destruct kw; [symmetry; apply app_nil_r|reflexivity]. Qed.

Lemma layout_kind : forall kw k afp dfp kwarg,
  kind_in_domain k = true -> forallb not_self_cls (map a_name afp) = true ->
  get_function_type (layout kw k afp dfp kwarg) = k.
Proof.
  intros kw k afp dfp kwarg Hk Hn. unfold get_function_type. rewrite layout_ar_args.
  destruct (args0_cases k Hk) as [[-> ->] | (_ & Hsc & ->)].
  - cbn [app]. destruct kw; [reflexivity|]. destruct afp as [|x l]; [reflexivity|].
    cbn [map forallb] in Hn. apply andb_true_iff in Hn. destruct Hn as [Hn _].
    unfold not_self_cls in Hn. apply negb_true_iff in Hn. rewrite Hn. reflexivity.
  - destruct Hsc as [-> | ->]; reflexivity.
Qed.

Lemma layout_pos_args : forall kw k afp dfp kwarg,
  kind_in_domain k = true -> forallb not_self_cls (map a_name afp) = true ->
  pos_args (layout kw k afp dfp kwarg) = if kw then [] else afp.
Proof.
  intros kw k afp dfp kwarg Hk Hn. unfold pos_args. rewrite (layout_kind kw k afp dfp kwarg Hk Hn), layout_ar_args.
  destruct (args0_cases k Hk) as [[-> ->] | (Hns & _ & ->)]; [reflexivity|]. rewrite Hns. reflexivity.
Qed.

Lemma layout_sig_pos_names : forall kw k afp dfp kwarg,
  kind_in_domain k = true -> forallb not_self_cls (map a_name afp) = true ->
  sig_pos_names (layout kw k afp dfp kwarg) = map a_name afp.
Proof.
  intros kw k afp dfp kwarg Hk Hn. unfold sig_pos_names. rewrite (layout_pos_args kw k afp dfp kwarg Hk Hn).
  unfold layout. destruct kw; [reflexivity|apply app_nil_r].
Qed.

Lemma layout_ar_kwarg : forall kw k afp dfp kwarg, ar_kwarg (layout kw k afp dfp kwarg) = kwarg.
Proof. intros [] k afp dfp kwarg; reflexivity. Qed.

Lemma layout_exprs_ok : forall kw k afp dfp kwarg,
  forallb (fun x => match a_ann x with Some e => expr_ok e | None => true end) afp = true ->
  forallb expr_ok dfp = true -> arg_exprs_ok (layout kw k afp dfp kwarg) = true.
Proof.
  intros kw k afp dfp kwarg Ha Hd. unfold arg_exprs_ok.
  assert (Ha0 : forallb (fun x => match a_ann x with Some e => expr_ok e | None => true end) (args0 k) = true).
  { unfold args0. destruct (str_eqb k (L "static")); reflexivity. }
  assert (Hdo : forallb (fun d => match d with Some e => expr_ok e | None => true end) (map Some dfp) = true).
  { clear - Hd. induction dfp as [|e l IH]; [reflexivity|]. cbn [forallb map] in *. apply andb_true_iff in Hd. rewrite (proj1 Hd). tauto. }
  unfold layout. destruct kw; cbn [ar_args ar_kwonly ar_defaults ar_kw_defaults];
    rewrite ?forallb_app, ?Ha0, ?Ha, ?Hd, ?Hdo; reflexivity.
Qed.

(* POSITIONAL vs KEYWORD-ONLY default alignment: in both layouts parse.function pairs the k-th parameter with the
   k-th default node (every parameter carries one: len defaults = len parameters) *)
Theorem C03_default_alignment_lemma : forall kw k afp dfp kwarg,
  kind_in_domain k = true -> forallb not_self_cls (map a_name afp) = true -> List.length dfp = List.length afp ->
  sig_pairs (layout kw k afp dfp kwarg) (pos_args (layout kw k afp dfp kwarg))
  = map2 func_arg2param afp (map Some dfp).
Proof.
  intros kw k afp dfp kwarg Hk Hn Hl. unfold sig_pairs. rewrite (layout_pos_args kw k afp dfp kwarg Hk Hn).
  unfold layout. destruct kw; cbn [ar_defaults ar_kw_defaults ar_kwonly map map2 app List.length].
  - rewrite pad_defaults_exact by (rewrite map_length; symmetry; exact Hl). reflexivity.
  - rewrite app_nil_r. rewrite pad_defaults_exact by (rewrite map_length; symmetry; exact Hl). reflexivity.
Qed.

(* parse.function on a function whose body starts with a docstring, its stages made explicit *)
Definition doc_returns_in (d : ir) : fld gparam := match ir_returns d with Has t => Has t | _ => FNone end.

Definition finish_returns (rets : fld gparam) : outcome (fld gparam) :=
  match rets with
  | Has p => do x <- set_name_and_type (L "return_type") p false true; Ok (Has (snd x))
  | y => Ok y
  end.

Lemma parse_fn_stages : forall d n a text rest r T app m params2 rets rets',
  arg_exprs_ok a = true ->
  kw_split a (ir_params d) = Ok (T, app) ->
  params_modelled T = true -> params_modelled (od_of_pairs (sig_pairs a (pos_args a))) = true ->
  merge_params id_perm T (od_of_pairs (sig_pairs a (pos_args a))) = Ok m ->
  set_names_and_types (append_kw app (sort_by_sig (sig_pos_names a) m)) false true = Ok params2 ->
  interpolate_return rest r (doc_returns_in d) = Ok rets ->
  finish_returns rets = Ok rets' ->
  parse_fn (Some d) (SFunc n a (SExpr (EConst (VStr text)) :: rest) [] r)
  = Ok (mkIR (Has n) (Has (get_function_type a)) (ir_doc d) params2 rets'
             (match rest with
              | [] => ir_internal d
              | _ :: _ => Some (mkInternal rest (Has n) (Has (get_function_type a)))
              end)).
Proof.
  intros d n a text rest r T app m params2 rets rets' Hok Hkw HmT HmO Hm Hsnt Hir Hfin.
  unfold parse_fn, parse_function, pf_prepare. rewrite Hok. cbn [negb docstring_of bind tl].
  change (match ar_kwarg a with
          | Some k =>
            match od_get (a_name k) (ir_params d) with
            | Some p => if fld_present (g_typ p)
                        then Ok (od_pop (a_name k) (ir_params d),
                                 [(a_name k, mkG (g_doc p) (g_typ p) (Some (DV (VStr NoneStr))))])
                        else Err AssertionError
            | None => Ok (ir_params d, [])
            end
          | None => Ok (ir_params d, [])
          end) with (kw_split a (ir_params d)).
  rewrite Hkw. cbn [bind fst snd].
  unfold ir_merge. cbn [pp_target pp_other ir_params ir_returns ir_internal ir_name ir_type ir_doc].
  change (if str_eqb (get_function_type a) (L "static") then ar_args a else tl (ar_args a)) with (pos_args a).
  rewrite HmT, HmO. cbn [andb negb].
  rewrite Hm. cbn [bind].
  assert (Hmr : merge_returns id_perm (ir_returns d) FNone = Ok (doc_returns_in d)).
  { unfold merge_returns, doc_returns_in. destruct (ir_returns d); reflexivity. }
  rewrite Hmr. cbn [bind].
  unfold pf_finish. cbn [pp_append pp_sig pp_body pp_returns ir_params ir_returns ir_name ir_type ir_doc ir_internal].
  fold (sig_pos_names a). fold (append_kw app (sort_by_sig (sig_pos_names a) m)).
  rewrite Hsnt. cbn [bind]. rewrite Hir. cbn [bind].
  unfold finish_returns in Hfin.
  destruct rets as [| |p]; [inversion Hfin; reflexivity..|].
  destruct (set_name_and_type (L "return_type") p false true) as [x|]; cbn [bind] in *; [|discriminate].
  inversion Hfin; reflexivity.
Qed.

(* the default an entry comes back with *)
Definition back (v : pyval) : dval := if in_none_types v then DV (VStr NoneStr) else DV v.

(* value texts of the domain *)
Definition value_ok (v : pyval) : bool :=
  match v with
  | VStr s => ascii_only s
  | VFloat r => negb (contains (L "nan") r) && negb (startswith (L "--") r) && negb (str_eqb r (L "-"))
  | _ => true
  end.

Definition str_ok (v : pyval) : bool :=
  match v with VStr s => in_none_types (VStr s) || str_keeps_quotes s | _ => true end.

(* the default node emit.function writes for a scalar default, and that node after unparse / re-parse *)
Definition dflt_node (v : pyval) : expr := if in_none_types v then EmitAst.set_value VNone else EmitAst.set_value v.
Definition rdv (v : pyval) : expr := match reparse_expr (dflt_node v) with Ok e => e | Err _ => dflt_node v end.

Lemma rdflt_DV : forall g v, g_default g = Some (DV v) -> rdflt g = rdv v.
Proof. intros g v H. unfold rdflt, dflt_of. rewrite H. reflexivity. Qed.

Lemma rdv_spec : forall v, value_ok v = true -> str_ok v = true ->
  reparse_expr (dflt_node v) = Ok (rdv v)
  /\ rdv v = if in_none_types v then EConst VNone
             else match v with
                  | VInt z => if (z <? 0)%Z then EUnary usub (EConst (VInt (- z))) else EConst v
                  | VFloat (c :: r') => if ascii_eqb c (ch 45) then EUnary usub (EConst (VFloat r')) else EConst v
                  | _ => EConst v
                  end.
Proof.
  intros v Hv Hs. unfold rdv, dflt_node. destruct (in_none_types v) eqn:En; [split; reflexivity|].
  destruct v as [|b|z|r|s]; cbn [EmitAst.set_value reparse_expr]; try (split; reflexivity).
  - cbn [value_ok] in Hv. apply andb_true_iff in Hv. destruct Hv as [Hv _]. apply andb_true_iff in Hv. destruct Hv as [Hv _].
    apply negb_true_iff in Hv. rewrite Hv. split; [reflexivity|]. destruct r; reflexivity.
  - cbn [str_ok] in Hs. rewrite En in Hs. unfold str_keeps_quotes in Hs.
    apply andb_true_iff in Hs. destruct Hs as [Hs _]. apply str_eqb_eq in Hs. rewrite Hs.
    cbn [value_ok] in Hv. rewrite Hv. split; reflexivity.
Qed.

Lemma known_usub : known_unop usub = true.
Proof. vm_compute. reflexivity. Qed.

Lemma rdv_expr_ok : forall v, value_ok v = true -> str_ok v = true -> expr_ok (rdv v) = true.
Proof.
  intros v Hv Hs. destruct (rdv_spec v Hv Hs) as [_ E]. rewrite E. destruct (in_none_types v); [reflexivity|].
  destruct v as [|b|z|[|c r']|s]; try reflexivity.
  - destruct (z <? 0)%Z; [|reflexivity]. cbn [expr_ok]. rewrite known_usub. reflexivity.
  - destruct (ascii_eqb c (ch 45)); [|reflexivity]. cbn [expr_ok]. rewrite known_usub. reflexivity.
  - exact Hv.
Qed.

(* the type an entry has after _infer_default, inside the guard *)
Definition rtyp (qt : fld str) (v : pyval) : fld str :=
  match qt with
  | Has t => Has t
  | x => if in_none_types v then x else Missing
  end.

Definition code_val (v : pyval) : bool :=
  match v with VStr s => code_quoted s && negb (str_eqb s NoneStr) | _ => false end.

Lemma unquote_keeps : forall s, str_keeps_quotes s = true -> unquote s = s.
Proof. intros s H. unfold str_keeps_quotes in H. apply andb_true_iff in H. destruct H as [_ H]. apply str_eqb_eq in H. exact H. Qed.

Lemma usub_is : str_eqb usub (L "USub") = true.
Proof. vm_compute. reflexivity. Qed.

Lemma neg_float_back : forall r', r' <> [] -> startswith [ch 45] r' = false -> neg_float_repr r' = ch 45 :: r'.
Proof.
  intros r' Hne H. unfold neg_float_repr. destruct r' as [|c x]; [congruence|].
  cbn [startswith] in H. rewrite andb_true_r in H. unfold ascii_eqb in *. rewrite Ascii.eqb_sym in H. rewrite H. reflexivity.
Qed.

(* _infer_default (infer_type = False) in two steps: the default is normalised, C07Facts.infer_tail does the rest *)
Lemma infer_default_DV_tail : forall q v nq, needs_quoting (fget (g_typ q)) = Ok nq ->
  infer_default q (DV v) false = infer_tail q (norm_scalar v) None.
Proof.
  intros q v nq Hnq. unfold infer_default, norm_scalar. cbn [bind dval_in_none_types andb]. rewrite Hnq. cbn [bind].
  destruct (in_none_types v).
  - rewrite orb_true_r, unquote_NoneStr. reflexivity.
  - destruct v; [destruct nq; reflexivity..|]. rewrite orb_true_r. reflexivity.
Qed.

Lemma infer_default_usub_tail : forall q c lv, expr_ok (EConst c) = true ->
  lit_eval (EUnary usub (EConst c)) = Ok lv ->
  infer_default q (DE (EUnary usub (EConst c))) false = infer_tail q (dval_of_lval lv) (Some (lval_type_name lv)).
Proof.
  intros q c lv Hok Hlv. unfold infer_default. cbn [bind dval_in_none_types andb]. cbn [expr_ok] in *.
  rewrite known_usub, Hok, Hlv. reflexivity.
Qed.

Lemma infer_tail_type_name : forall q d tn, dval_type_name d = Some tn -> infer_tail q d (Some tn) = infer_tail q d None.
Proof. intros q d tn H. unfold infer_tail. rewrite H. reflexivity. Qed.

Lemma infer_default_DV_codec : forall q v nq,
  str_ok v = true -> needs_quoting (fget (g_typ q)) = Ok nq ->
  (forall t, g_typ q = Has t -> code_val v = true -> contains [ch 91] t = true) ->
  (fld_is_none (g_typ q) = true -> in_none_types v || code_val v = true) ->
  infer_default q (DV v) false = Ok (mkG (g_doc q) (rtyp (g_typ q) v) (Some (back v))).
Proof.
  intros q v nq Hs Hnq Hcode Hunt. rewrite (infer_default_DV_tail q v nq Hnq). unfold infer_tail, norm_scalar, back.
  destruct (in_none_types v) eqn:En.
  - (* None, "None", NoneStr: all read as NoneStr; the type is left alone *)
    cbn [dval_is_NoneStr]. rewrite str_eqb_refl, andb_false_r. cbn [negb andb bind].
    unfold rtyp. rewrite En. destruct (g_typ q); reflexivity.
  - destruct v as [|b|z|r|s]; [rewrite in_none_types_VNone in En; discriminate| | | |].
    1-3: (* bool, int, float: the entry is typed *)
      destruct (g_typ q) as [| |t]; [specialize (Hunt eq_refl); discriminate..|reflexivity].
    (* str: the quotes stay; a code default keeps a type with brackets only *)
    cbn [str_ok] in Hs. rewrite En in Hs. cbn [orb] in Hs. rewrite (unquote_keeps s Hs).
    cbn [dval_is_NoneStr]. rewrite (in_none_types_not_NoneStr s En). cbn [negb andb code_quoted_dval dval_type_name type_name].
    destruct (g_typ q) as [| |t] eqn:Et; cbn [fld_is_none andb bind rtyp].
    1-2: specialize (Hunt eq_refl); apply andb_true_iff in Hunt; destruct Hunt as [Hc _]; rewrite Hc, En; reflexivity.
    destruct (code_quoted s) eqn:Ec; [|reflexivity].
    rewrite (Hcode t eq_refl); [reflexivity|]. cbn [code_val]. rewrite Ec, (in_none_types_not_NoneStr s En). reflexivity.
Qed.

(* the re-parsed default node is read like the value it was written from: a negative number through literal_eval *)
Lemma infer_default_rdv : forall q v nq,
  value_ok v = true -> str_ok v = true -> needs_quoting (fget (g_typ q)) = Ok nq ->
  infer_default q (DE (rdv v)) false = infer_default q (DV v) false.
Proof.
  intros q v nq Hv Hs Hnq. destruct (rdv_spec v Hv Hs) as [_ E]. rewrite E. clear E.
  assert (Hneg : forall c w, expr_ok (EConst c) = true -> lit_eval (EUnary usub (EConst c)) = Ok (LV w) ->
                   in_none_types w = false -> (forall s, w <> VStr s) ->
                   infer_default q (DE (EUnary usub (EConst c))) false = infer_default q (DV w) false).
  { intros c w Hok Hlv Hn Hns. rewrite (infer_default_usub_tail q c _ Hok Hlv), (infer_default_DV_tail q w nq Hnq).
    cbn [dval_of_lval lval_type_name]. unfold norm_scalar. rewrite Hn.
    destruct w; try (apply infer_tail_type_name; reflexivity). destruct (Hns s eq_refl). }
  destruct (in_none_types v) eqn:En.
  - rewrite infer_default_DE_const, !(infer_default_DV_tail q _ nq Hnq). unfold norm_scalar.
    cbn [none_to_NoneStr]. rewrite En, in_none_types_NoneStr. reflexivity.
  - destruct v as [|b|z|[|c r']|s]; try apply infer_default_DE_const.
    + destruct (z <? 0)%Z; [|apply infer_default_DE_const].
      apply Hneg; [reflexivity| |exact En|discriminate]. cbn [lit_eval]. rewrite usub_is, Z.opp_involutive. reflexivity.
    + destruct (ascii_eqb c (ch 45)) eqn:Ec; [|apply infer_default_DE_const]. apply ascii_eqb_eq in Ec. subst c.
      cbn [value_ok] in Hv. apply andb_true_iff in Hv. destruct Hv as [Hv Hdash]. apply andb_true_iff in Hv. destruct Hv as [_ Hmm].
      apply negb_true_iff in Hmm. apply negb_true_iff in Hdash.
      apply Hneg; [reflexivity| |exact En|discriminate]. cbn [lit_eval]. rewrite usub_is.
      rewrite neg_float_back; [reflexivity| |exact Hmm]. intros ->. discriminate Hdash.
Qed.

Definition rdoc (qd : fld str) : fld str :=
  match qd with Has (c :: r) => Has (reflow (c :: r)) | _ => Missing end.

Definition starts_optional (s : str) : bool := startswith (L "(Optional)") s || startswith (L "Optional") s.

(* the second half leaves the type [qt] alone next to the prose block [qd]: no ", optional" suffix, and prose that
   starts with Optional only next to no type or an Optional[...] type *)
Definition typ_survives (qd qt : fld str) : Prop :=
  (forall t, qt = Has t -> endswith google_opt t = false)
  /\ (forall c r, qd = Has (c :: r) -> starts_optional (reflow (c :: r)) = true ->
        qt = Missing \/ exists t, qt = Has t /\ startswith (L "Optional[") t = true).

Lemma snt_post_codec : forall qd rt dflt, typ_survives qd rt ->
  snt_post (mkG qd rt dflt) true = Ok (mkG (rdoc qd) rt dflt).
Proof.
  intros qd rt dflt [Hg Ho]. unfold snt_post. cbn [g_typ g_doc g_default].
  (* no ", optional" suffix to rewrite; the return clauses are spelt as in snt_post so that rewrite finds the term *)
  assert (Ht : match rt return fld str with
               | Has t => if endswith google_opt t return fld str
                          then Has (L "Optional[" ++ firstn (List.length t - List.length google_opt) t ++ L "]") else Has t
               | Missing => Missing
               | FNone => FNone
               end = rt).
  { destruct rt as [| |t]; [reflexivity..|]. rewrite (Hg t eq_refl). reflexivity. }
  rewrite Ht. destruct qd as [| |[|c r]]; try reflexivity.
  change (rstrip (join [sp] (map strip (split [nl] (c :: r))))) with (reflow (c :: r)). cbn [rdoc].
  fold (starts_optional (reflow (c :: r))). destruct (starts_optional (reflow (c :: r))) eqn:Eo; [|reflexivity].
  destruct (Ho c r eq_refl Eo) as [-> |[t [-> Hs]]]; [reflexivity|]. rewrite Hs. reflexivity.
Qed.

Lemma typ_survives_rtyp : forall qd qt v, typ_survives qd qt -> typ_survives qd (rtyp qt v).
Proof.
  intros qd qt v [Hg Ho]. unfold rtyp.
  destruct qt as [| |t]; [| |split; assumption]; destruct (in_none_types v); try (split; assumption).
  split; [discriminate|left; reflexivity].
Qed.

Lemma snt_param_no_default : forall n qd qt, kwargs_like n = false -> typ_survives qd qt ->
  snt_param n (mkG qd qt None) false true = Ok (mkG (rdoc qd) qt None).
Proof. intros n qd qt Hk H. unfold snt_param, snt_pre. rewrite Hk. apply snt_post_codec. exact H. Qed.

(* an entry whose default [d] is read like the scalar [v] through _set_name_and_type *)
Lemma snt_param_codec : forall n q d v nq,
  kwargs_like n = false -> g_default q = Some d ->
  infer_default q d false = infer_default q (DV v) false -> str_ok v = true ->
  needs_quoting (fget (g_typ q)) = Ok nq ->
  (forall t, g_typ q = Has t -> code_val v = true -> contains [ch 91] t = true) ->
  (fld_is_none (g_typ q) = true -> in_none_types v || code_val v = true) ->
  typ_survives (g_doc q) (g_typ q) ->
  snt_param n q false true = Ok (mkG (rdoc (g_doc q)) (rtyp (g_typ q) v) (Some (back v))).
Proof.
  intros n q d v nq Hk Hq Hd Hs Hnq Hcode Hunt Hts. unfold snt_param, snt_pre.
  rewrite Hk, Hq, Hd, (infer_default_DV_codec q v nq Hs Hnq Hcode Hunt). cbn [bind].
  apply snt_post_codec. apply typ_survives_rtyp. exact Hts.
Qed.

Lemma afp_names : forall o i, map a_name (afp_of o i) = nk_names i.
Proof. intros o i. unfold afp_of, nk_names. rewrite map_map. reflexivity. Qed.

Lemma found_type_kind : forall o i,
  kind_in_domain (fo_kind o) = true -> forallb not_self_cls (nk_names i) = true ->
  get_function_type (reparsed_arguments o i) = fo_kind o.
Proof. intros o i Hk Hn. apply layout_kind; [exact Hk|rewrite afp_names; exact Hn]. Qed.

Lemma sig_pos_names_reparsed : forall o i,
  kind_in_domain (fo_kind o) = true -> forallb not_self_cls (nk_names i) = true ->
  sig_pos_names (reparsed_arguments o i) = nk_names i.
Proof.
  intros o i Hk Hn. unfold reparsed_arguments. rewrite layout_sig_pos_names by (try rewrite afp_names; assumption).
  apply afp_names.
Qed.

Definition sig_entry_of (o : fopts) (kv : str * gparam) : str * gparam :=
  func_arg2param (mkArg (fst kv) (ann_of o (snd kv))) (Some (rdflt (snd kv))).

Lemma sig_pairs_reparsed : forall o i,
  kind_in_domain (fo_kind o) = true -> forallb not_self_cls (nk_names i) = true ->
  sig_pairs (reparsed_arguments o i) (pos_args (reparsed_arguments o i)) = map (sig_entry_of o) (nkp i).
Proof.
  intros o i Hk Hn. unfold reparsed_arguments. rewrite C03_default_alignment_lemma.
  - unfold afp_of, rdfp_of. induction (nkp i) as [|kv l IH]; cbn [map map2]; [reflexivity|]. rewrite IH. reflexivity.
  - exact Hk.
  - rewrite afp_names. exact Hn.
  - unfold afp_of, rdfp_of. rewrite !map_length. reflexivity.
Qed.

Lemma sig_entries_keys : forall o l, od_keys (map (sig_entry_of o) l) = map fst l.
Proof. intros o l. unfold od_keys. rewrite map_map. reflexivity. Qed.

Definition no_DO (ps : list (str * gparam)) : Prop :=
  forall k o, od_get k ps = Some o -> forall r, g_default o <> Some (DO r).

Lemma merge_param_total : forall t o, (forall r, g_default o <> Some (DO r)) -> exists q, merge_param t o = Ok q.
Proof.
  intros t o H. unfold merge_param.
  match goal with |- context [if default_in_none_types ?d then _ else _] => destruct (default_in_none_types d) end;
    [|eexists; reflexivity].
  destruct (g_default o) as [[v|e|r]|]; try (eexists; reflexivity).
  - destruct v; cbn [not_in_none_frozenset bind]; eexists; reflexivity.
  - exfalso. apply (H r). reflexivity.
Qed.

Lemma inter_loop_ok : forall op l tp, no_DO op ->
  (forall k, In k l -> In k (od_keys tp) /\ In k (od_keys op)) ->
  exists tp', fold_outcome (inter_step op) l tp = Ok tp'.
Proof.
  intros op l; induction l as [|x l IH]; intros tp Hno H; cbn [fold_outcome]; [eexists; reflexivity|].
  destruct (H x (or_introl eq_refl)) as [Ht Ho].
  destruct (od_get_In_keys _ _ Ht) as [t Hgt]. destruct (od_get_In_keys _ _ Ho) as [o Hgo].
  destruct (merge_param_total t o (Hno x o Hgo)) as [q Hq].
  assert (Hs : inter_step op x tp = Ok (od_set x q tp)).
  { unfold inter_step. rewrite Hgt, Hgo, Hq. reflexivity. }
  rewrite Hs. cbn [bind]. apply IH; [exact Hno|].
  intros k Hk. destruct (H k (or_intror Hk)) as [Hkt Hko]. split; [|exact Hko].
  rewrite od_keys_set_present by exact Ht. exact Hkt.
Qed.

Lemma merge_params_ok : forall tp op, no_DO op -> exists m, merge_params id_perm tp op = Ok m.
Proof.
  intros tp op Hno. unfold merge_params.
  destruct tp as [|t0 tr]; [eexists; reflexivity|]. destruct op as [|o0 orr]; [eexists; reflexivity|].
  destruct (inter_loop_ok (o0 :: orr) (id_perm (inter_keys (o0 :: orr) (t0 :: tr))) (t0 :: tr) Hno) as [tp' Htp'].
  - intros k Hk. unfold id_perm in Hk. apply inter_keys_spec in Hk. tauto.
  - unfold inter_loop. rewrite Htp'. cbn [bind]. eexists; reflexivity.
Qed.

Definition sig_typ (x : arg) : fld str :=
  match a_ann x with None => FNone | Some e => Has (rstrip_chars [nl] (show_expr e)) end.

Definition mtyp (tt : fld str) (x : arg) : fld str :=
  if fld_is_none tt && fld_truthy (sig_typ x) then sig_typ x else tt.

Lemma default_in_none_types_None : default_in_none_types None = true.
Proof. vm_compute. reflexivity. Qed.

Lemma merge_doc_sig : forall t x e, g_default t = None ->
  merge_param t (sig_gparam x (Some e)) = Ok (mkG (g_doc t) (mtyp (g_typ t) x) (Some (DE e))).
Proof.
  intros t x e Hd. unfold merge_param, sig_gparam, func_arg2param, mtyp.
  cbn [snd g_doc g_typ g_default option_map fld_truthy]. rewrite andb_false_r. fold (sig_typ x).
  destruct (fld_is_none (g_typ t) && fld_truthy (sig_typ x)); cbn [g_doc g_typ g_default];
    rewrite Hd, default_in_none_types_None; reflexivity.
Qed.

Lemma In_fst_unique : forall (P : list (str * gparam)) n g g',
  NoDup (map fst P) -> In (n, g) P -> In (n, g') P -> g = g'.
Proof.
  intros P n g g' Hnd H1 H2.
  assert (E1 : od_get n P = Some g) by (apply In_od_get; assumption).
  assert (E2 : od_get n P = Some g') by (apply In_od_get; assumption).
  congruence.
Qed.

Lemma list_eqb_str_eq : forall a b : list str, list_eqb str_eqb a b = true -> a = b.
Proof. intros a b H. apply (EmitAstFacts.list_eqb_eq_simple str_eqb); [|exact H]. intros x y E. apply str_eqb_eq; exact E. Qed.

Lemma kwargs_split : forall P : list (str * gparam),
  kwargs_last (map fst P) = true ->
  P = filter EmitAst.no_kwargs P ++ filter (fun kv => negb (EmitAst.no_kwargs kv)) P
  /\ (filter (fun kv => negb (EmitAst.no_kwargs kv)) P = []
      \/ exists kv, filter (fun kv => negb (EmitAst.no_kwargs kv)) P = [kv]).
Proof.
  induction P as [|x P IH]; intros H; [split; [reflexivity|left; reflexivity]|].
  destruct P as [|y P'].
  - cbn [filter]. destruct (EmitAst.no_kwargs x); cbn [negb app]; split; try reflexivity; [left|right; exists x]; reflexivity.
  - assert (Hx : EmitAst.no_kwargs x = true /\ kwargs_last (map fst (y :: P')) = true).
    { unfold kwargs_last in *. cbn [map removelast] in H.
      change (removelast (fst x :: fst y :: map fst P')) with (fst x :: removelast (fst y :: map fst P')) in H.
      cbn [forallb] in H. apply andb_true_iff in H. destruct H as [H1 H2]. split; [exact H1|exact H2]. }
    destruct Hx as [Hx Hr]. destruct (IH Hr) as [IH1 IH2].
    cbn [filter]. rewrite Hx. cbn [negb app].
    split; [f_equal; exact IH1|exact IH2].
Qed.

Lemma first_class_None : forall f ps, first_class f ps = None -> forall n g, In (n, g) ps -> f n g = None.
Proof.
  intros f ps; induction ps as [|[n0 g0] ps IH]; intros H n g Hin; [destruct Hin|].
  cbn [first_class] in H. destruct (f n0 g0) eqn:E; [discriminate|].
  destruct Hin as [Hin|Hin]; [inversion Hin; subst; exact E|apply IH; assumption].
Qed.

Record guard_facts (o : fopts) (i : ir) : Prop := mkGF {
  gf_kind : kind_in_domain (fo_kind o) = true;
  gf_nodup : NoDup (map fst (ir_params i));
  gf_names : forall n, In n (map fst (ir_params i)) -> name_in_domain n = true;
  gf_kwlast : kwargs_last (map fst (ir_params i)) = true;
  gf_entries : forall n g, In (n, g) (ir_params i) -> entry_in_domain g = true;
  gf_ret_dom : match ir_returns i with Has g => entry_in_domain g = true | Missing => False | FNone => True end;
  gf_internal : ir_internal i = None;
  gf_params : forall n g, In (n, g) (ir_params i) -> C03Spec.param_class o n g = None;
  gf_ret : forall g, ir_returns i = Has g -> C03Spec.return_class o g = None
}.

Lemma guard_inv : forall o i, guard_C03 o i = true -> guard_facts o i.
Proof.
  intros o i H. unfold guard_C03 in H. apply andb_true_iff in H. destruct H as [Hd Hc].
  unfold C03_domain in Hd.
  apply andb_true_iff in Hd. destruct Hd as [Hd Hint]. apply andb_true_iff in Hd. destruct Hd as [Hd Hret].
  apply andb_true_iff in Hd. destruct Hd as [Hd Hent]. apply andb_true_iff in Hd. destruct Hd as [Hd Hkwl].
  apply andb_true_iff in Hd. destruct Hd as [Hd Hnames]. apply andb_true_iff in Hd. destruct Hd as [Hd Hdist].
  apply andb_true_iff in Hd. destruct Hd as [Hkind _].
  destruct (finding_class_C03 o i) eqn:Ef; [discriminate|]. unfold finding_class_C03 in Ef.
  destruct (fo_edd o && _); [discriminate|]. destruct (match ir_doc i with Has d => _ | _ => false end); [discriminate|].
  destruct (first_class (C03Spec.param_class o) (ir_params i)) eqn:Efc; [discriminate|].
  constructor.
  - exact Hkind.
  - apply strs_distinct_NoDup. exact Hdist.
  - intros n Hn. rewrite forallb_forall in Hnames. apply Hnames. exact Hn.
  - exact Hkwl.
  - intros n g Hin. rewrite forallb_forall in Hent. apply (Hent (n, g) Hin).
  - destruct (ir_returns i); [discriminate|exact I|exact Hret].
  - destruct (ir_internal i); [discriminate|reflexivity].
  - intros n g Hin. eapply first_class_None; eassumption.
  - intros g Hg. rewrite Hg in Ef. exact Ef.
Qed.

Lemma first_class_all_None : forall f ps, (forall n g, In (n, g) ps -> f n g = None) -> first_class f ps = None.
Proof.
  intros f ps; induction ps as [|[n g] ps IH]; intros H; cbn [first_class]; [reflexivity|].
  rewrite (H n g (or_introl eq_refl)). apply IH. intros n' g' Hin. apply H. right; exact Hin.
Qed.

Lemma guard_intro : forall o i,
  C03_domain o i = true -> fo_edd o = false ->
  (match ir_doc i with Has d => C02Spec.prose_has_token d | _ => false end) = false ->
  (forall n g, In (n, g) (ir_params i) -> C03Spec.param_class o n g = None) ->
  (forall g, ir_returns i = Has g -> C03Spec.return_class o g = None) ->
  guard_C03 o i = true.
Proof.
  intros o i Hd Hedd Hsum Hps Hr. unfold guard_C03, finding_class_C03. rewrite Hd, Hedd, Hsum. cbn [andb].
  rewrite (first_class_all_None _ _ Hps). destruct (ir_returns i) as [| |g]; [reflexivity..|]. rewrite (Hr g eq_refl). reflexivity.
Qed.

Lemma entry_value_ok : forall g v, entry_in_domain g = true -> g_default g = Some (DV v) -> value_ok v = true.
Proof.
  intros g v H Hv. unfold entry_in_domain in H. apply andb_true_iff in H. destruct H as [H _].
  apply andb_true_iff in H. destruct H as [H _]. apply andb_true_iff in H. destruct H as [_ Hd].
  rewrite Hv in Hd. destruct v; try reflexivity; exact Hd.
Qed.

Lemma entry_fields : forall g, entry_in_domain g = true ->
  (g_typ g = Missing \/ exists c t, g_typ g = Has (c :: t))
  /\ (g_default g = None \/ exists v, g_default g = Some (DV v)).
Proof.
  intros g H. unfold entry_in_domain in H. apply andb_true_iff in H. destruct H as [H _].
  apply andb_true_iff in H. destruct H as [H _]. apply andb_true_iff in H. destruct H as [H Hd].
  apply andb_true_iff in H. destruct H as [_ Ht]. split.
  - destruct (g_typ g) as [| |[|c t]]; try discriminate; [left; reflexivity|right; eauto].
  - destruct (g_default g) as [[v|e|r]|]; try discriminate; [right; eauto|left; reflexivity].
Qed.

Lemma entry_typ_not_none : forall g, entry_in_domain g = true -> g_typ g <> FNone.
Proof. intros g H. destruct (entry_fields g H) as [[Hm|[c [t Ht]]] _]; congruence. Qed.

(* a positional / keyword-only parameter outside every class *)
Record param_facts (o : fopts) (g : gparam) (v : pyval) : Prop := mkPF {
  pf_default : g_default g = Some (DV v);
  pf_value : value_ok v = true;
  pf_str : str_ok v = true;
  pf_prose : prose_class g = None;
  pf_typed : forall t, g_typ g = Has t ->
             typ_parses t = true /\ (fo_inline o = true -> typ_inline_ok t = true)
             /\ (fo_inline o = false -> has_prose g = true)
             /\ (code_val v = true -> contains [ch 91] t = true);
  pf_untyped : g_typ g = Missing -> in_none_types v || code_val v = true
}.

Lemma param_class_None : forall o n g, kwargs_name n = false ->
  (C03Spec.param_class o n g = None <->
   prose_class g = None
   /\ exists dv, g_default g = Some dv
      /\ match dv_str dv with Some s => in_none_types (VStr s) || str_keeps_quotes s | None => true end = true
      /\ match g_typ g with
         | Has t => typ_parses t && (if fo_inline o then typ_inline_ok t else has_prose g)
                    && (negb (C02Spec.d_code_quoted dv) || contains [ch 91] t)
         | _ => C02Spec.d_none_like dv || C02Spec.d_code_quoted dv
         end = true).
Proof.
  intros o n g Hk. unfold C03Spec.param_class. rewrite Hk.
  destruct (prose_class g); [split; [discriminate|intros [E _]; discriminate]|].
  destruct (g_default g) as [dv|]; [|split; [discriminate|intros (_ & dv & E & _); discriminate]].
  set (rq := match dv_str dv with Some s => negb (in_none_types (VStr s)) && negb (str_keeps_quotes s) | None => false end).
  assert (Hrq : match dv_str dv with Some s => in_none_types (VStr s) || str_keeps_quotes s | None => true end = negb rq).
  { unfold rq. destruct (dv_str dv) as [s|]; [|reflexivity]. destruct (in_none_types (VStr s)), (str_keeps_quotes s); reflexivity. }
  split.
  - intros H. split; [reflexivity|]. exists dv. split; [reflexivity|]. rewrite Hrq. destruct rq; [discriminate|]. split; [reflexivity|].
    destruct (g_typ g) as [| |t].
    1-2: destruct (C02Spec.d_none_like dv || C02Spec.d_code_quoted dv); [reflexivity|discriminate].
    destruct (typ_parses t); [|discriminate].
    destruct (fo_inline o); [destruct (typ_inline_ok t)|destruct (has_prose g)]; try discriminate.
    all: destruct (C02Spec.d_code_quoted dv); [|reflexivity]; destruct (contains [ch 91] t); [reflexivity|discriminate].
  - intros (_ & dv' & E & Hq & Ht). inversion E; subst dv'. rewrite Hrq in Hq. destruct rq; [discriminate|].
    destruct (g_typ g) as [| |t]; [rewrite Ht; reflexivity..|].
    apply andb_true_iff in Ht. destruct Ht as [Ht Hc]. apply andb_true_iff in Ht. destruct Ht as [Hpa Hi]. rewrite Hpa.
    destruct (fo_inline o); rewrite Hi; (destruct (C02Spec.d_code_quoted dv); [|reflexivity]); cbn [negb orb] in Hc; rewrite Hc; reflexivity.
Qed.

Lemma param_class_facts : forall o n g, kwargs_name n = false -> entry_in_domain g = true ->
  C03Spec.param_class o n g = None -> exists v, param_facts o g v.
Proof.
  intros o n g Hk Hdom H. apply (param_class_None o n g Hk) in H. destruct H as (Hp & dv & Ed & Hq & Ht).
  destruct (entry_fields g Hdom) as [_ [Hn|[v Hv]]]; [congruence|].
  rewrite Ed in Hv. inversion Hv; subst dv. exists v. constructor.
  - exact Ed.
  - exact (entry_value_ok g v Hdom Ed).
  - destruct v; try reflexivity. exact Hq.
  - exact Hp.
  - intros t Et. rewrite Et in Ht. apply andb_true_iff in Ht. destruct Ht as [Ht Hc].
    apply andb_true_iff in Ht. destruct Ht as [Hpa Hi].
    split; [exact Hpa|]. split; [intros E; rewrite E in Hi; exact Hi|]. split; [intros E; rewrite E in Hi; exact Hi|].
    intros Hcv. destruct v; try discriminate. cbn [C02Spec.d_code_quoted code_val] in *. rewrite Hcv in Hc. exact Hc.
  - intros Et. rewrite Et in Ht. destruct v; exact Ht.
Qed.

Lemma param_typ_fits : forall o g v, entry_in_domain g = true -> param_facts o g v -> typ_fits o g.
Proof.
  intros o g v Hdom F. destruct (entry_fields g Hdom) as [Htypf _]. unfold typ_fits.
  destruct (g_typ g) as [| |t] eqn:Et; [exact I|destruct Htypf as [Hm|[c [t Ht]]]; discriminate|].
  apply (pf_typed _ _ _ F t Et).
Qed.

Lemma simple_type_rstrip : forall t, in_simple_types t = true -> rstrip_chars [nl] t = t /\ t <> [].
Proof.
  intros t H. unfold in_simple_types in H. apply existsb_exists in H. destruct H as [x [Hin Hx]].
  apply str_eqb_eq in Hx. subst x. unfold Extracted.simple_type_names in Hin.
  repeat (destruct Hin as [<-|Hin]; [split; [vm_compute; reflexivity|discriminate]|]). destruct Hin.
Qed.

Lemma expr_prints_as_inv : forall e t, expr_prints_as e t = true ->
  reparse_expr e = Ok e /\ expr_ok e = true /\ rstrip_chars [nl] (show_expr e) = t.
Proof.
  intros e t H. unfold expr_prints_as in H. apply andb_true_iff in H. destruct H as [H Hs].
  apply andb_true_iff in H. destruct H as [Hr He].
  destruct (reparse_expr e) as [e'|]; [|discriminate]. apply EmitAstFacts.expr_eqb_eq in Hr. subst e'.
  split; [reflexivity|]. split; [exact He|]. apply str_eqb_eq; exact Hs.
Qed.

(* what an annotation the emitter writes is to the entry's type [gt]: with inline types and a type, an expression that
   unparse / re-parse leaves alone and that prints as the type; otherwise there is none *)
Definition ann_reads (inline : bool) (gt : fld str) (ann : option expr) : Prop :=
  match ann with
  | Some e => inline = true /\ reparse_expr e = Ok e /\ expr_ok e = true /\ gt = Has (rstrip_chars [nl] (show_expr e))
  | None => inline = false \/ gt = Missing
  end.

Lemma ann_reads_stable : forall il gt ann, ann_reads il gt ann -> reparse_opt ann = Ok ann.
Proof. intros il gt [e|] H; [|reflexivity]. destruct H as (_ & Hre & _). cbn [reparse_opt]. rewrite Hre. reflexivity. Qed.

Lemma ann_reads_ok : forall il gt ann e, ann_reads il gt ann -> ann = Some e -> expr_ok e = true.
Proof. intros il gt ann e H ->. apply H. Qed.

Lemma ann_of_reads : forall o g, typ_fits o g -> ann_reads (fo_inline o) (g_typ g) (ann_of o g).
Proof.
  intros o g H. unfold typ_fits, ann_of in *. destruct (fo_inline o); [|left; reflexivity].
  destruct (g_typ g) as [| |t]; [right; reflexivity|contradiction|].
  specialize (H eq_refl). unfold typ_inline_ok in H. destruct (in_simple_types t) eqn:Es.
  - cbn [ann_reads show_expr show_prec]. rewrite (proj1 (simple_type_rstrip t Es)). auto.
  - destruct (EmitAst.ast_parse_fix [] t) as [e|]; [|discriminate].
    destruct (expr_prints_as_inv e t H) as (Hre & Hok & Hshow). cbn [ann_reads]. rewrite Hshow. auto.
Qed.

Lemma NoDup_fst_filter : forall (f : str * gparam -> bool) P, NoDup (map fst P) -> NoDup (map fst (filter f P)).
Proof.
  intros f P; induction P as [|[n g] P IH]; intros Hnd; cbn [filter map]; [constructor|].
  cbn [map fst] in Hnd. inversion Hnd as [|? ? Hn Hr]; subst. destruct (f (n, g)); cbn [map fst].
  - constructor; [|apply IH; exact Hr]. intros Hx. apply Hn. apply in_map_iff in Hx. destruct Hx as [kv [Hk Hx]].
    apply filter_In in Hx. apply in_map_iff. exists kv. tauto.
  - apply IH; exact Hr.
Qed.

Lemma doc_params_agree_inv : forall et P D, doc_params_agree et P D = true ->
  od_keys D = map fst (documented P)
  /\ forall n g, In (n, g) P -> has_prose g = true ->
       exists dp, od_get n D = Some dp /\ doc_entry_agrees et n g dp = true.
Proof.
  intros et P D H. unfold doc_params_agree in H. apply andb_true_iff in H. destruct H as [Hk Hf].
  apply list_eqb_str_eq in Hk. split; [symmetry; exact Hk|]. intros n g Hin Hp.
  rewrite forallb_forall in Hf. specialize (Hf (n, g)). cbn [fst snd] in Hf.
  assert (Hd : In (n, g) (documented P)) by (apply filter_In; auto).
  destruct (od_get n D) as [dp|]; [exists dp; split; [reflexivity|exact (Hf Hd)]|discriminate (Hf Hd)].
Qed.

Lemma doc_keys_sub : forall et P D k, doc_params_agree et P D = true -> In k (od_keys D) ->
  exists g, In (k, g) P /\ has_prose g = true.
Proof.
  intros et P D k H Hk. rewrite (proj1 (doc_params_agree_inv et P D H)) in Hk. apply in_map_iff in Hk.
  destruct Hk as [[n g] [Hn Hx]]. cbn [fst] in Hn. subst n. apply filter_In in Hx. exists g. exact Hx.
Qed.

Lemma doc_keys_NoDup : forall et P D, NoDup (map fst P) -> doc_params_agree et P D = true -> NoDup (od_keys D).
Proof.
  intros et P D Hnd H. rewrite (proj1 (doc_params_agree_inv et P D H)). apply NoDup_fst_filter. exact Hnd.
Qed.

Lemma doc_lookup : forall et P D n g,
  NoDup (map fst P) -> doc_params_agree et P D = true -> In (n, g) P ->
  if has_prose g then exists dp, od_get n D = Some dp /\ doc_entry_agrees et n g dp = true
  else od_get n D = None.
Proof.
  intros et P D n g Hnd H Hin. destruct (has_prose g) eqn:Ep; [apply (proj2 (doc_params_agree_inv et P D H) n g Hin Ep)|].
  apply od_get_None_iff. intros Hx. destruct (doc_keys_sub et P D n H Hx) as [g' [Hin' Hp']].
  rewrite (In_fst_unique P n g g' Hnd Hin Hin') in Ep. congruence.
Qed.

Lemma id_start_not_star : forall c, is_id_start c = true -> ascii_eqb c (ch 42) = false.
Proof.
  intros c H. destruct (ascii_eqb c (ch 42)) eqn:E; [|reflexivity].
  apply ascii_eqb_eq in E. subst c. vm_compute in H. discriminate.
Qed.

Lemma domain_name_ok : forall n, name_in_domain n = true ->
  name_ok n = true /\ not_self_cls n = true /\ startswith (L "**") n = false.
Proof.
  intros n H. unfold name_in_domain in H. apply andb_true_iff in H. destruct H as [Hi Hr].
  unfold C06Spec.is_identifier in Hi. destruct n as [|c r]; [discriminate|].
  repeat (apply andb_true_iff in Hi; destruct Hi as [Hi _]).
  pose proof (id_start_not_star c Hi) as Hc.
  unfold reserved_name in Hr. apply negb_true_iff in Hr. apply orb_false_iff in Hr. destruct Hr as [Hr _].
  split; [cbn [name_ok]; rewrite Hc; reflexivity|]. split; [unfold not_self_cls; rewrite Hr; reflexivity|].
  destruct (startswith (L "**") (c :: r)) eqn:E; [|reflexivity]. apply startswith_iff in E. destruct E as [x E].
  cbn in E. inversion E; subst c. vm_compute in Hc. discriminate.
Qed.

Lemma kwargs_like_name : forall n, name_in_domain n = true -> kwargs_like n = kwargs_name n.
Proof.
  intros n H. destruct (domain_name_ok n H) as (_ & _ & Hs). unfold kwargs_like, kwargs_name. rewrite Hs. apply orb_false_r.
Qed.

Lemma reflow_nil : reflow [] = [].
Proof. vm_compute. reflexivity. Qed.

Lemma same_default_back : forall v, C02Spec.same_default (DV v) (back v) = true.
Proof.
  intros v. unfold C02Spec.same_default, back. destruct (in_none_types v) eqn:E.
  - cbn [C02Spec.d_none_like]. rewrite E, in_none_types_NoneStr. reflexivity.
  - cbn [C02Spec.d_none_like dval_eqb]. rewrite E, DefaultsFacts.pyval_eqb_refl. reflexivity.
Qed.

Lemma typ_parses_nq : forall t, typ_parses t = true ->
  exists nq, needs_quoting (Some t) = Ok nq /\ endswith google_opt t = false.
Proof.
  intros t H. unfold typ_parses in H. apply andb_true_iff in H. destruct H as [H1 H2]. apply negb_true_iff in H2.
  destruct (needs_quoting (Some t)) as [nq|]; [exists nq; split; [reflexivity|exact H2]|discriminate].
Qed.

Lemma same_param_fn_intro : forall a b, C02Spec.same_typ a b = true -> C02Spec.same_prose a b = true ->
  C02Spec.default_same a b = true -> same_param_fn a b = true.
Proof. intros a b Ht Hp Hd. unfold same_param_fn. rewrite Ht, Hp, Hd. reflexivity. Qed.

(* [qd] is the prose block the docstring layer hands over for the entry g: it re-flows to g's prose; none when g has none *)
Definition prose_block (g : gparam) (qd : fld str) : Prop :=
  match prose_of g with
  | Some x => exists c r, qd = Has (c :: r) /\ reflow (c :: r) = x
  | None => qd = Missing \/ qd = FNone
  end.

Lemma fld_eqb_eq : forall a b, fld_eqb a b = true -> a = b.
Proof. intros [| |a] [| |b] H; try discriminate; try reflexivity. cbn in H. apply str_eqb_eq in H. subst; reflexivity. Qed.

Lemma doc_entry_agrees_inv : forall et n g dp, doc_entry_agrees et n g dp = true ->
  has_prose g = true /\ prose_block g (g_doc dp)
  /\ (if kwargs_name n
      then g_typ dp = g_typ g /\ exists dv, g_default dp = Some dv /\ C02Spec.d_none_like dv = true
      else g_typ dp = (if et then g_typ g else Missing) /\ g_default dp = None).
Proof.
  intros et n g dp H. unfold doc_entry_agrees in H. unfold has_prose, prose_block.
  apply andb_true_iff in H. destruct H as [Hy H].
  destruct (prose_of g) as [x|] eqn:Epr; [|discriminate]. destruct (g_doc dp) as [| |y]; try discriminate.
  apply str_eqb_eq in Hy. split; [reflexivity|]. split.
  - destruct y as [|c r]; [|exists c, r; auto]. rewrite reflow_nil in Hy. subst x.
    unfold prose_of, C02Spec.prose_of in Epr. destruct (g_doc g) as [| |[|? ?]]; discriminate.
  - destruct (kwargs_name n); apply andb_true_iff in H; destruct H as [Ht Hd]; apply fld_eqb_eq in Ht; (split; [exact Ht|]).
    + destruct (g_default dp) as [dv|]; [exists dv; auto|discriminate].
    + destruct (g_default dp); [discriminate|reflexivity].
Qed.

Lemma prose_block_back : forall g qd gt gd, prose_block g qd -> C02Spec.same_prose g (mkG (rdoc qd) gt gd) = true.
Proof.
  intros g qd gt gd H. unfold prose_block, prose_of in H. unfold C02Spec.same_prose.
  destruct (C02Spec.prose_of g) as [x|] eqn:Epr.
  - destruct H as (c & r & -> & Hrf). cbn [rdoc]. rewrite Hrf. unfold C02Spec.prose_of in *. cbn [g_doc].
    destruct (g_doc g) as [| |[|c0 r0]]; try discriminate. inversion Epr; subst x. apply str_eqb_refl.
  - destruct H as [-> | ->]; reflexivity.
Qed.

Lemma typ_survives_block : forall g qd, prose_class g = None -> g_typ g <> FNone ->
  (forall t, g_typ g = Has t -> typ_parses t = true) -> prose_block g qd -> typ_survives qd (g_typ g).
Proof.
  intros g qd Hp Hfn Htp Hb. split.
  - intros t Ht. destruct (typ_parses_nq t (Htp t Ht)) as [nq [_ Hg]]. exact Hg.
  - intros c r Hd Hso. unfold prose_block in Hb. unfold prose_class in Hp.
    destruct (prose_of g) as [x|]; [|destruct Hb; congruence].
    destruct Hb as (c' & r' & E & Hrf). rewrite Hd in E. inversion E; subst c' r'. rewrite Hrf in Hso.
    destruct (negb (prose_safe x)); [discriminate|].
    change (C02Spec.prose_starts_optional x) with (starts_optional x) in Hp. rewrite Hso in Hp. cbn [andb] in Hp.
    destruct (g_typ g) as [| |t]; [left; reflexivity|contradiction|].
    right. exists t. split; [reflexivity|]. destruct (startswith (L "Optional[") t); [reflexivity|discriminate].
Qed.

(* _set_name_and_type on an entry [q] that carries g's declared type, g's prose block and a default read like g's
   scalar default [v]: g comes back *)
Lemma entry_comes_back : forall n g q d v,
  kwargs_like n = false -> g_typ q = g_typ g -> prose_block g (g_doc q) ->
  g_default q = Some d -> g_default g = Some (DV v) ->
  (forall nq, needs_quoting (fget (g_typ q)) = Ok nq -> infer_default q d false = infer_default q (DV v) false) ->
  str_ok v = true -> prose_class g = None -> g_typ g <> FNone ->
  (forall t, g_typ g = Has t -> typ_parses t = true /\ (code_val v = true -> contains [ch 91] t = true)) ->
  (g_typ g = Missing -> in_none_types v || code_val v = true) ->
  exists rp, snt_param n q false true = Ok rp /\ same_param_fn g rp = true.
Proof.
  intros n g q d v Hkl Hqt Hblock Hqd Hdef Hd Hstr Hprose Hfn Htyped Huntyped.
  assert (Hnq : exists nq, needs_quoting (fget (g_typ q)) = Ok nq).
  { rewrite Hqt. destruct (g_typ g) as [| |t] eqn:Et; [eexists; reflexivity|congruence|].
    destruct (typ_parses_nq t (proj1 (Htyped t eq_refl))) as [nq [Hnq _]]. exists nq. exact Hnq. }
  destruct Hnq as [nq Hnq]. eexists. split.
  - apply (snt_param_codec n q d v nq Hkl Hqd (Hd nq Hnq) Hstr Hnq); rewrite Hqt.
    + intros t Ht. apply (Htyped t Ht).
    + intros Hn. apply Huntyped. destruct (g_typ g); [reflexivity|congruence|discriminate].
    + apply (typ_survives_block g _ Hprose Hfn (fun t Ht => proj1 (Htyped t Ht)) Hblock).
  - rewrite Hqt. apply same_param_fn_intro; [|apply prose_block_back; exact Hblock|].
    + unfold C02Spec.same_typ. cbn [g_typ]. destruct (g_typ g) as [| |t]; [|contradiction|apply str_eqb_refl].
      cbn [rtyp]. destruct (in_none_types v); reflexivity.
    + unfold C02Spec.default_same. cbn [g_default]. rewrite Hdef. apply same_default_back.
Qed.

(* ir_merge on one name: the docstring entry, if the entry has prose, merged with the signature entry *)
Lemma merged_entry : forall o n g e dpo,
  typ_fits o g -> (g_typ g = Missing \/ exists c t, g_typ g = Has (c :: t)) ->
  (forall t, g_typ g = Has t -> fo_inline o = false -> has_prose g = true) -> kwargs_name n = false ->
  (if has_prose g then exists dp, dpo = Some dp /\ doc_entry_agrees (negb (fo_inline o)) n g dp = true
   else dpo = None) ->
  exists q,
    (match dpo with
     | Some t => merge_param t (sig_gparam (mkArg n (ann_of o g)) (Some e)) = Ok q
     | None => q = sig_gparam (mkArg n (ann_of o g)) (Some e)
     end)
    /\ g_default q = Some (DE e) /\ prose_block g (g_doc q)
    /\ (g_typ q = g_typ g \/ (g_typ q = FNone /\ g_typ g = Missing /\ has_prose g = false)).
Proof.
  intros o n g e dpo Hfits Htypf Hnoinl Hkw Hdoc. pose proof (ann_of_reads o g Hfits) as Hann.
  destruct (has_prose g) eqn:Ehp.
  - destruct Hdoc as [dp [-> Hag]]. destruct (doc_entry_agrees_inv _ _ _ _ Hag) as (_ & Hblock & Hrest).
    rewrite Hkw in Hrest. destruct Hrest as [Hty Hdd].
    eexists. split; [apply merge_doc_sig; exact Hdd|]. cbn [g_default g_doc g_typ].
    split; [reflexivity|]. split; [exact Hblock|]. left. rewrite Hty. unfold mtyp, sig_typ. cbn [a_ann].
    destruct (ann_of o g) as [a|]; cbn [ann_reads] in Hann.
    + destruct Hann as (Hi & _ & _ & Ht). rewrite Hi. destruct Htypf as [Hm|[c [t Hct]]]; [congruence|].
      rewrite Hct in Ht. inversion Ht. rewrite Hct. reflexivity.
    + cbn [fld_truthy]. rewrite andb_false_r.
      destruct Hann as [Hi|Hm]; [rewrite Hi; reflexivity|rewrite Hm; destruct (negb (fo_inline o)); reflexivity].
  - subst dpo. eexists. split; [reflexivity|]. unfold sig_gparam, func_arg2param. cbn [snd g_default g_typ g_doc a_ann option_map].
    split; [reflexivity|]. split.
    { unfold prose_block. unfold has_prose in Ehp. destruct (prose_of g); [discriminate|right; reflexivity]. }
    destruct (ann_of o g) as [a|]; cbn [ann_reads] in Hann.
    + left. destruct Hann as (_ & _ & _ & Ht). symmetry. exact Ht.
    + right. split; [reflexivity|]. split; [|reflexivity]. destruct Hann as [Hi|Hm]; [|exact Hm].
      destruct Htypf as [Hm|[c [t Ht]]]; [exact Hm|]. discriminate (Hnoinl _ Ht Hi).
Qed.

(* one positional / keyword-only parameter, from the IR through the signature and the docstring back to the IR *)
Lemma param_entry_codec : forall o n g v dpo,
  param_facts o g v -> entry_in_domain g = true -> name_in_domain n = true -> kwargs_name n = false ->
  (if has_prose g then exists dp, dpo = Some dp /\ doc_entry_agrees (negb (fo_inline o)) n g dp = true
   else dpo = None) ->
  exists q rp,
    (match dpo with
     | Some t => merge_param t (sig_gparam (mkArg n (ann_of o g)) (Some (rdflt g))) = Ok q
     | None => q = sig_gparam (mkArg n (ann_of o g)) (Some (rdflt g))
     end)
    /\ snt_param n q false true = Ok rp /\ same_param_fn g rp = true.
Proof.
  intros o n g v dpo F Hdom Hname Hkw Hdoc. pose proof (param_typ_fits o g v Hdom F) as Hfits.
  destruct F as [Hdef Hval Hstr Hprose Htyped Huntyped].
  destruct (entry_fields g Hdom) as [Htypf _].
  pose proof (entry_typ_not_none g Hdom) as Hfn.
  assert (Hkl : kwargs_like n = false) by (rewrite (kwargs_like_name n Hname); exact Hkw).
  destruct (merged_entry o n g (rdflt g) dpo Hfits Htypf (fun t Ht => proj1 (proj2 (proj2 (Htyped t Ht)))) Hkw Hdoc)
    as (q & Hmerge & Hqd & Hblock & Hqt).
  rewrite (rdflt_DV g v Hdef) in Hqd.
  exists q. destruct Hqt as [Hqt|(Hqt & Hm & Hnp)].
  - (* the merged entry carries the declared type *)
    destruct (entry_comes_back n g q (DE (rdv v)) v Hkl Hqt Hblock Hqd Hdef (fun nq => infer_default_rdv q v nq Hval Hstr)
                               Hstr Hprose Hfn) as [rp Hrp]; [| |exists rp; split; [exact Hmerge|exact Hrp]].
    + intros t Ht. split; apply (Htyped t Ht).
    + exact Huntyped.
  - (* no type, no prose: the signature entry alone, its type field None *)
    eexists. split; [exact Hmerge|]. split.
    + apply (snt_param_codec n q (DE (rdv v)) v false Hkl Hqd); try rewrite Hqt.
      * apply (infer_default_rdv q v false Hval Hstr). rewrite Hqt. reflexivity.
      * exact Hstr.
      * reflexivity.
      * discriminate.
      * intros _. apply Huntyped. exact Hm.
      * unfold prose_block, has_prose in *. destruct (prose_of g); [discriminate|].
        split; [discriminate|]. intros c r Hd. destruct Hblock as [E|E]; rewrite E in Hd; discriminate.
    + apply same_param_fn_intro; [|apply prose_block_back; exact Hblock|].
      * unfold C02Spec.same_typ. cbn [g_typ]. rewrite Hqt, Hm. cbn [rtyp fget]. destruct (in_none_types v); reflexivity.
      * unfold C02Spec.default_same. cbn [g_default]. rewrite Hdef. apply same_default_back.
Qed.

Definition opt_dict : str := L "Optional[dict]".

Lemma C03_kwargs_class_inv : forall g, kwargs_class g = None ->
  has_prose g = true /\ g_typ g = Has opt_dict /\ exists dv, g_default g = Some dv /\ C02Spec.d_none_like dv = true.
Proof.
  intros g H. unfold kwargs_class in H. destruct (has_prose g); [|discriminate]. destruct (prose_class g); [discriminate|].
  destruct (fld_eqb (g_typ g) (Has (L "Optional[dict]"))) eqn:Et; [|discriminate]. apply fld_eqb_eq in Et.
  destruct (g_default g) as [dv|]; [|discriminate]. destruct (C02Spec.d_none_like dv) eqn:Edn; [|discriminate].
  split; [reflexivity|]. split; [exact Et|]. exists dv. auto.
Qed.

Lemma kwargs_entry_codec : forall et kn kg dp,
  kwargs_name kn = true -> kwargs_class kg = None -> doc_entry_agrees et kn kg dp = true ->
  fld_present (g_typ dp) = true
  /\ exists rp, snt_param kn (mkG (g_doc dp) (g_typ dp) (Some (DV (VStr NoneStr)))) false true = Ok rp
                /\ same_param_fn kg rp = true.
Proof.
  intros et kn kg dp Hkn Hcls Hag. destruct (C03_kwargs_class_inv kg Hcls) as (_ & Et & dv & Ed & Edn).
  destruct (doc_entry_agrees_inv _ _ _ _ Hag) as (_ & Hblock & Hrest). rewrite Hkn in Hrest. destruct Hrest as [Hty _].
  rewrite Et in Hty. split; [rewrite Hty; reflexivity|].
  assert (Hkl : kwargs_like kn = true) by (unfold kwargs_like; unfold kwargs_name in Hkn; rewrite Hkn; reflexivity).
  unfold snt_param, snt_pre. rewrite Hkl. cbn [g_typ g_default g_doc]. rewrite Hty.
  change (str_eqb (L "Optional[dict]") (L "dict")) with false. cbv iota. cbn [bind].
  eexists. split.
  - apply snt_post_codec. split.
    + intros t Ht. inversion Ht; subst t. vm_compute. reflexivity.
    + intros c r _ _. right. exists (L "Optional[dict]"). split; [reflexivity|vm_compute; reflexivity].
  - apply same_param_fn_intro; [|apply prose_block_back; exact Hblock|].
    + unfold C02Spec.same_typ. cbn [g_typ]. rewrite Et. reflexivity.
    + unfold C02Spec.default_same. cbn [g_default]. rewrite Ed. unfold C02Spec.same_default. rewrite Edn.
      cbn [C02Spec.d_none_like]. rewrite in_none_types_NoneStr. reflexivity.
Qed.

Lemma forallb_od_pop : forall (f : str * gparam -> bool) k l, forallb f l = true -> forallb f (od_pop k l) = true.
Proof.
  intros f k l; induction l as [|[k0 v0] l IH]; intros H; cbn [od_pop]; [reflexivity|].
  cbn [forallb] in H. apply andb_true_iff in H. destruct H as [H1 H2].
  destruct (str_eqb k k0); [exact H2|]. cbn [forallb]. rewrite H1, (IH H2). reflexivity.
Qed.

Lemma nkp_In : forall i n g, In (n, g) (nkp i) <-> In (n, g) (ir_params i) /\ kwargs_name n = false.
Proof.
  intros i n g. unfold nkp. rewrite filter_In. unfold EmitAst.no_kwargs, kwargs_name. cbn [fst].
  split; intros [H1 H2]; (split; [exact H1|]); [apply negb_true_iff in H2|apply negb_true_iff]; exact H2.
Qed.

Lemma kwp_In : forall i n g, In (n, g) (kwp i) <-> In (n, g) (ir_params i) /\ kwargs_name n = true.
Proof.
  intros i n g. unfold kwp. rewrite filter_In. unfold EmitAst.no_kwargs, kwargs_name. cbn [fst].
  rewrite negb_involutive. tauto.
Qed.

Lemma nk_names_In : forall i n, In n (nk_names i) <-> exists g, In (n, g) (ir_params i) /\ kwargs_name n = false.
Proof.
  intros i n. unfold nk_names. rewrite in_map_iff. split.
  - intros [[n' g] [E Hin]]. cbn [fst] in E. subst n'. exists g. apply nkp_In. exact Hin.
  - intros [g Hin]. exists (n, g). split; [reflexivity|apply nkp_In; exact Hin].
Qed.

Lemma guard_not_self_cls : forall o i, guard_facts o i -> forallb not_self_cls (nk_names i) = true.
Proof.
  intros o i GF. apply forallb_forall. intros n Hn. apply nk_names_In in Hn. destruct Hn as [g [Hin _]].
  apply (domain_name_ok n). apply (gf_names _ _ GF). apply in_map_iff. exists (n, g). auto.
Qed.

Lemma sig_entries_no_DO : forall o l, no_DO (map (sig_entry_of o) l).
Proof.
  intros o l k p H r Hr. apply od_get_Some_In in H. apply in_map_iff in H. destruct H as [kv [He _]].
  unfold sig_entry_of, func_arg2param in He. inversion He; subst p. cbn [g_default option_map] in Hr. discriminate.
Qed.

Lemma sig_entries_modelled : forall o l, params_modelled (map (sig_entry_of o) l) = true.
Proof.
  intros o l. unfold params_modelled. induction l as [|kv l IH]; cbn [map forallb]; [reflexivity|]. rewrite IH. reflexivity.
Qed.

Lemma sig_entries_get : forall o l n g, NoDup (map fst l) -> In (n, g) l ->
  od_get n (map (sig_entry_of o) l) = Some (sig_gparam (mkArg n (ann_of o g)) (Some (rdflt g))).
Proof.
  intros o l n g Hnd Hin. apply In_od_get; [rewrite sig_entries_keys; exact Hnd|].
  apply in_map_iff. exists (n, g). split; [reflexivity|exact Hin].
Qed.

Lemma sorted_keys : forall S T O m, NoDup S -> od_keys O = S -> (forall k, In k (od_keys T) -> In k S) ->
  merge_params id_perm T O = Ok m -> od_keys (sort_by_sig S m) = S.
Proof.
  intros S T O m HS HO HT Hm. apply merge_params_keys in Hm; [|rewrite HO; exact HS]. rewrite HO in Hm.
  rewrite sort_by_sig_keys by exact HS. rewrite Hm.
  rewrite (filter_all (fun k => mem_str k (od_keys T ++ filter (fun k0 => negb (mem_str k0 (od_keys T))) S)) S).
  - rewrite filter_app.
    rewrite (filter_none _ (od_keys T)) by (intros k Hk; apply negb_false_iff; apply mem_str_In; apply HT; exact Hk).
    rewrite (filter_none _ (filter _ S)); [apply app_nil_r|].
    intros k Hk. apply filter_In in Hk. destruct Hk as [Hk _]. apply negb_false_iff. apply mem_str_In; exact Hk.
  - intros k Hk. apply mem_str_In. destruct (mem_str k (od_keys T)) eqn:E.
    + apply in_or_app; left. apply mem_str_In; exact E.
    + apply in_or_app; right. apply filter_In. split; [exact Hk|rewrite E; reflexivity].
Qed.

Lemma doc_params_modelled : forall et P D, NoDup (map fst P) -> doc_params_agree et P D = true ->
  params_modelled D = true.
Proof.
  intros et P D Hnd H. unfold params_modelled. apply forallb_forall. intros [k p] Hin. cbn [snd].
  pose proof (doc_keys_NoDup et P D Hnd H) as HndD.
  assert (Hg : od_get k D = Some p) by (apply In_od_get; assumption).
  destruct (doc_keys_sub et P D k H (od_get_Some_In_keys _ _ _ Hg)) as [g [Hgin Hpr]].
  pose proof (doc_lookup et P D k g Hnd H Hgin) as Hl. rewrite Hpr in Hl. destruct Hl as [dp [Hdp Hag]].
  rewrite Hg in Hdp. inversion Hdp; subst dp. destruct (doc_entry_agrees_inv _ _ _ _ Hag) as (_ & _ & Hrest).
  destruct (kwargs_name k).
  - destruct Hrest as (_ & dv & -> & Hn). destruct dv; [reflexivity|discriminate..].
  - destruct Hrest as [_ ->]. reflexivity.
Qed.

(* the ** step of parse.function on the docstring's parameter map: a ** parameter of the guard is documented; its entry
   is taken out and appended after the merge, where _set_name_and_type gives the ** parameter back *)
Lemma kw_split_guarded : forall o i D,
  guard_facts o i -> doc_params_agree (negb (fo_inline o)) (ir_params i) D = true ->
  exists T app,
    kw_split (reparsed_arguments o i) D = Ok (T, app) /\ params_modelled T = true
    /\ (forall k, In k (od_keys T) -> In k (nk_names i))
    /\ (forall n, In n (nk_names i) -> od_get n T = od_get n D)
    /\ ((kwp i = [] /\ app = [])
        \/ exists kn kg q rp, kwp i = [(kn, kg)] /\ app = [(kn, q)] /\ kwargs_name kn = true
             /\ snt_param kn q false true = Ok rp /\ same_param_fn kg rp = true).
Proof.
  intros o i D GF DA. set (et := negb (fo_inline o)) in *.
  pose proof (gf_nodup _ _ GF) as HndP.
  pose proof (doc_keys_NoDup et _ D HndP DA) as HndD.
  pose proof (doc_params_modelled et _ D HndP DA) as HmD.
  (* a documented name is a parameter: in the signature unless it is the ** one *)
  assert (HDS : forall k, In k (od_keys D) -> (exists g, In (k, g) (kwp i)) \/ In k (nk_names i)).
  { intros k Hk. destruct (doc_keys_sub et _ D k DA Hk) as [g [Hg _]]. destruct (kwargs_name k) eqn:E.
    - left. exists g. apply kwp_In. auto.
    - right. apply nk_names_In. exists g. auto. }
  unfold kw_split, reparsed_arguments. rewrite layout_ar_kwarg. unfold kwarg_of.
  destruct (proj2 (kwargs_split (ir_params i) (gf_kwlast _ _ GF))) as [Hk0|[[kn kg] Hk1]]; fold (kwp i) in *.
  - rewrite Hk0. exists D, []. split; [reflexivity|]. split; [exact HmD|]. split; [|split; [reflexivity|left; auto]].
    intros k Hk. destruct (HDS k Hk) as [[g Hg]|H]; [rewrite Hk0 in Hg; destruct Hg|exact H].
  - rewrite Hk1. cbn [fst a_name].
    assert (Hkin : In (kn, kg) (kwp i)) by (rewrite Hk1; left; reflexivity).
    apply kwp_In in Hkin. destruct Hkin as [HkP Hknm].
    pose proof (gf_params _ _ GF kn kg HkP) as Hcls. unfold C03Spec.param_class in Hcls. rewrite Hknm in Hcls.
    destruct (proj2 (doc_params_agree_inv et _ D DA) kn kg HkP (proj1 (C03_kwargs_class_inv kg Hcls))) as [dp [Hdp Hag]].
    destruct (kwargs_entry_codec et kn kg dp Hknm Hcls Hag) as [Hfp [rp [Hs Hsm]]].
    rewrite Hdp, Hfp. eexists. eexists. split; [reflexivity|].
    split; [unfold params_modelled in *; apply forallb_od_pop; exact HmD|]. split; [|split].
    + intros k Hk. rewrite (od_keys_pop kn D HndD) in Hk. apply filter_In in Hk. destruct Hk as [Hk Hne].
      destruct (HDS k Hk) as [[g Hg]|H]; [|exact H]. rewrite Hk1 in Hg. destruct Hg as [Hg|[]].
      inversion Hg; subst. rewrite str_eqb_refl in Hne. discriminate.
    + intros n Hn. apply od_get_pop_other. intros ->. apply nk_names_In in Hn. destruct Hn as [g [_ Hn]]. congruence.
    + right. exists kn, kg. eexists. exists rp. auto.
Qed.

Lemma snt_all_same : forall (P ps : list (str * gparam)), od_keys ps = map fst P -> NoDup (map fst P) ->
  forallb name_ok (map fst P) = true ->
  (forall n g, In (n, g) P ->
     exists q rp, od_get n ps = Some q /\ snt_param n q false true = Ok rp /\ same_param_fn g rp = true) ->
  exists ps2, set_names_and_types ps false true = Ok ps2 /\ same_params_fn P ps2 = true.
Proof.
  intros P ps Hkeys Hnd Hok Hget. rewrite <- Hkeys in Hnd, Hok.
  assert (Hsnt : exists ps2, set_names_and_types ps false true = Ok ps2).
  { unfold set_names_and_types.
    destruct (mapM_ok_forall (fun kv => set_name_and_type (fst kv) (snd kv) false true) ps) as [l Hl].
    - intros [k q] Hin. cbn [fst snd].
      assert (Hgq : od_get k ps = Some q) by (apply In_od_get; assumption).
      assert (Hk : In k (map fst P)) by (rewrite <- Hkeys; eapply od_get_Some_In_keys; exact Hgq).
      apply in_map_iff in Hk. destruct Hk as [[n g] [E HinP]]. cbn [fst] in E. subst n.
      destruct (Hget k g HinP) as (q' & rp & Hg' & Hs & _). rewrite Hgq in Hg'. inversion Hg'; subst q'.
      unfold set_name_and_type. rewrite Hs. eexists; reflexivity.
    - rewrite Hl. eexists; reflexivity. }
  destruct Hsnt as [ps2 Hsnt]. exists ps2. split; [exact Hsnt|].
  unfold same_params_fn. apply andb_true_iff. split.
  - rewrite (set_names_and_types_keys ps false true ps2 Hnd Hok Hsnt), Hkeys. apply list_eqb_str_refl.
  - apply forallb_forall. intros [n g] Hin. cbn [fst snd].
    destruct (Hget n g Hin) as (q & rp & Hg & Hs & Hsm).
    destruct (set_names_and_types_get ps false true ps2 n q Hnd Hok Hsnt Hg) as (rp' & Hs' & Hg2).
    rewrite Hs in Hs'. inversion Hs'; subst rp'. rewrite Hg2. exact Hsm.
Qed.

(* all parameters: docstring entries + re-parsed signature -> parameters of the result *)
Lemma params_round_trip : forall o i d,
  guard_facts o i -> doc_params_agree (negb (fo_inline o)) (ir_params i) (ir_params d) = true ->
  exists T app m params2,
    kw_split (reparsed_arguments o i) (ir_params d) = Ok (T, app)
    /\ params_modelled T = true
    /\ params_modelled (od_of_pairs (sig_pairs (reparsed_arguments o i) (pos_args (reparsed_arguments o i)))) = true
    /\ merge_params id_perm T (od_of_pairs (sig_pairs (reparsed_arguments o i) (pos_args (reparsed_arguments o i)))) = Ok m
    /\ set_names_and_types (append_kw app (sort_by_sig (sig_pos_names (reparsed_arguments o i)) m)) false true = Ok params2
    /\ same_params_fn (ir_params i) params2 = true.
Proof.
  intros o i d GF DA.
  destruct (kw_split_guarded o i (ir_params d) GF DA) as (T & app & Hkw & HmT & HTS & HTget & Happ).
  pose proof (proj1 (kwargs_split (ir_params i) (gf_kwlast _ _ GF))) as Hsplit. fold (nkp i) (kwp i) in Hsplit.
  set (P := ir_params i) in *. set (D := ir_params d) in *. set (et := negb (fo_inline o)) in *.
  pose proof (gf_nodup _ _ GF) as HndP. fold P in HndP.
  assert (HndS : NoDup (nk_names i)) by (unfold nk_names, nkp; apply NoDup_fst_filter; exact HndP).
  pose proof (guard_not_self_cls o i GF) as Hns. pose proof (gf_kind _ _ GF) as Hkind.
  rewrite (sig_pairs_reparsed o i Hkind Hns), (sig_pos_names_reparsed o i Hkind Hns).
  rewrite (od_of_pairs_NoDup (map (sig_entry_of o) (nkp i))) by (rewrite sig_entries_keys; exact HndS).
  set (O := map (sig_entry_of o) (nkp i)) in *. set (S := nk_names i) in *.
  assert (HkO : od_keys O = S) by (apply sig_entries_keys).
  destruct (merge_params_ok T O (sig_entries_no_DO o (nkp i))) as [m Hm].
  exists T, app, m.
  (* the merged map in signature order *)
  set (X := sort_by_sig S m).
  assert (HkX : od_keys X = S) by (apply (sorted_keys S T O m HndS HkO HTS Hm)).
  (* every positional / keyword-only entry: found under its name, merged with its docstring entry if it has one *)
  assert (Hentry : forall n g, In (n, g) (nkp i) ->
            exists q rp, od_get n X = Some q /\ snt_param n q false true = Ok rp /\ same_param_fn g rp = true).
  { intros n g Hin. pose proof Hin as Hin'. apply nkp_In in Hin'. destruct Hin' as [HinP Hnk].
    assert (HnS : In n S) by (apply nk_names_In; exists g; auto).
    pose proof (gf_entries _ _ GF n g HinP) as Hdom.
    assert (Hname : name_in_domain n = true) by (apply (gf_names _ _ GF); apply in_map_iff; exists (n, g); auto).
    destruct (param_class_facts o n g Hnk Hdom (gf_params _ _ GF n g HinP)) as [v F].
    pose proof (doc_lookup et P D n g HndP DA HinP) as Hl.
    destruct (param_entry_codec o n g v (od_get n D) F Hdom Hname Hnk) as (q & rp & Hmerge & Hsnt & Hsame).
    { destruct (has_prose g); [destruct Hl as [dp [Hdp Hag]]; exists dp; auto|exact Hl]. }
    exists q, rp. split; [|auto].
    unfold X. rewrite (sort_by_sig_get S m n HndS).
    pose proof (sig_entries_get o (nkp i) n g HndS Hin) as HgO. fold O in HgO.
    destruct (od_get n D) as [t|] eqn:EgD.
    - assert (HgT : od_get n T = Some t) by (rewrite (HTget n HnS); exact EgD).
      destruct (merge_params_get_both id_perm T O m n t _ id_perm_ok Hm HgT HgO) as [t' [Hmp Hgm]].
      rewrite Hmerge in Hmp. inversion Hmp; subst t'. exact Hgm.
    - assert (HgT : od_get n T = None) by (rewrite (HTget n HnS); exact EgD).
      rewrite (merge_params_get_new id_perm T O m n id_perm_ok Hm HgT). rewrite HgO, Hmerge. reflexivity. }
  (* the parameter map handed to _set_name_and_type: the ** entry appended *)
  destruct (snt_all_same P (append_kw app X)) as (params2 & Hsnt & Hsame); [| exact HndP | | |
    exists params2; split; [exact Hkw|]; split; [exact HmT|]; split; [apply sig_entries_modelled|]; auto].
  - rewrite Hsplit, map_app. fold S. unfold append_kw.
    destruct Happ as [[-> ->]|(kn & kg & q & rp & -> & -> & Hknm & _)]; cbn [fold_left fst snd map].
    + rewrite HkX. symmetry. apply app_nil_r.
    + rewrite od_keys_set_absent; rewrite HkX; [reflexivity|].
      intros Hx. apply nk_names_In in Hx. destruct Hx as [g [_ Hx]]. congruence.
  - apply forallb_forall. intros n Hn. apply (domain_name_ok n). apply (gf_names _ _ GF). exact Hn.
  - intros n g Hin. rewrite Hsplit in Hin. apply in_app_or in Hin. unfold append_kw.
    destruct Happ as [[Hk0 ->]|(kn & kg & q & rp & Hk1 & -> & Hknm & Hs & Hsm)]; cbn [fold_left fst snd].
    + rewrite Hk0 in Hin. destruct Hin as [Hin|[]]. apply Hentry. exact Hin.
    + rewrite Hk1 in Hin. destruct Hin as [Hin|[Hin|[]]].
      * destruct (Hentry n g Hin) as (q' & rp' & Hg & Hs' & Hsm'). exists q', rp'. split; [|auto].
        rewrite od_get_set_other; [exact Hg|]. intros ->. apply nkp_In in Hin. destruct Hin as [_ Hin]. congruence.
      * inversion Hin; subst n g. exists q, rp. split; [apply od_get_set_same|auto].
Qed.

Record ret_facts (o : fopts) (g : gparam) : Prop := mkRF {
  rf_prose : prose_class g = None;
  rf_typ : forall t, g_typ g = Has t -> typ_parses t = true /\ (fo_inline o = true -> ret_typ_inline_ok t = true);
  rf_cases :
    (g_default g = None /\ (has_prose g = true \/ (fo_inline o = true /\ exists t, g_typ g = Has t)))
    \/ (exists c s, g_default g = Some (DV (VStr (c :: s)))
          /\ ret_code_ok (fo_pt o) (c :: s) = true /\ str_keeps_quotes (c :: s) = true
          /\ (forall t, g_typ g = Has t -> contains [ch 91] t = true /\ (fo_inline o = false -> has_prose g = true))
          /\ (g_typ g = Missing -> in_none_types (VStr (c :: s)) || code_val (VStr (c :: s)) = true))
}.

Lemma return_class_facts : forall o g, entry_in_domain g = true -> C03Spec.return_class o g = None -> ret_facts o g.
Proof.
  intros o g Hdom H. unfold C03Spec.return_class in H.
  destruct (prose_class g) eqn:Ep; [discriminate|].
  destruct (return_typ_class o g) eqn:Et; [discriminate|].
  destruct (entry_fields g Hdom) as [Htypf _].
  constructor; [exact Ep| |].
  - intros t Ht. unfold return_typ_class in Et. rewrite Ht in Et.
    destruct (typ_parses t); [|discriminate]. cbn [negb orb] in Et.
    split; [reflexivity|]. intros Hi. rewrite Hi in Et. cbn [andb] in Et.
    destruct (ret_typ_inline_ok t); [reflexivity|discriminate].
  - destruct (g_default g) as [dv|] eqn:Ed.
    + right. destruct dv as [v|e|r]; cbn [dv_str] in H; try discriminate.
      destruct v as [| | | |[|c s]]; cbn [dv_str] in H; try discriminate.
      exists c, s. split; [reflexivity|].
      destruct (ret_code_ok (fo_pt o) (c :: s)); [|discriminate].
      destruct (str_keeps_quotes (c :: s)); [|discriminate]. cbn [negb orb] in H.
      split; [reflexivity|]. split; [reflexivity|]. split.
      * intros t Ht. rewrite Ht in H. destruct (contains [ch 91] t); [|discriminate]. cbn [negb] in H.
        split; [reflexivity|]. intros Hi. rewrite Hi in H. cbn [negb andb] in H.
        destruct (has_prose g); [reflexivity|discriminate].
      * intros Hm. rewrite Hm in H.
        destruct (C02Spec.d_none_like (DV (VStr (c :: s))) || C02Spec.d_code_quoted (DV (VStr (c :: s)))) eqn:E; [exact E|discriminate].
    + left. split; [reflexivity|]. destruct (has_prose g); [left; reflexivity|]. right.
      destruct (fo_inline o); [|discriminate]. cbn [andb] in H. split; [reflexivity|].
      destruct (g_typ g) as [| |t]; try discriminate. exists t. reflexivity.
Qed.

Lemma dval_eqb_DV : forall d v, dval_eqb d (DV v) = true -> d = DV v.
Proof.
  intros d v H. destruct d as [w|e|r]; try discriminate. cbn [dval_eqb] in H.
  apply DefaultsFacts.pyval_eqb_eq in H. subst. reflexivity.
Qed.

Definition rt_of (rets : fld gparam) : gparam := match rets with Has p => p | _ => mkG Missing Missing None end.

Definition with_annotation (r : option expr) (rets1 : fld gparam) : fld gparam :=
  match r with
  | Some e => Has (mkG (g_doc (rt_of rets1)) (Has (rstrip_chars [nl] (show_expr e))) (g_default (rt_of rets1)))
  | None => rets1
  end.

Lemma interp_no_return : forall r rets, (forall e, r = Some e -> expr_ok e = true) ->
  interpolate_return [] r rets = Ok (with_annotation r rets).
Proof.
  intros r rets H. unfold interpolate_return. cbn [last_return rev List.find bind]. unfold with_annotation, rt_of.
  destruct r as [e|]; [|reflexivity]. rewrite (H e eq_refl). reflexivity.
Qed.

Definition typ_kept (t : fld str) : fld str :=
  match t with Has x => if contains [ch 91] x then Has x else Missing | y => y end.

Lemma interp_return : forall v r rets dflt, expr_ok v = true -> g_typ (rt_of rets) <> FNone ->
  ret_default_of v = Ok dflt -> (forall e, r = Some e -> expr_ok e = true) ->
  interpolate_return [SReturn (Some v)] r rets
  = Ok (with_annotation r (Has (mkG (g_doc (rt_of rets)) (typ_kept (g_typ (rt_of rets))) (Some dflt)))).
Proof.
  intros v r rets dflt Hv Hfn Hd Hr. unfold interpolate_return.
  assert (Hl : last_return [SReturn (Some v)] = Some (Some v)) by reflexivity. rewrite Hl. rewrite Hv. cbn [negb].
  fold (rt_of rets).
  assert (Ht : (match g_typ (rt_of rets) with
                | Missing => Ok Missing
                | FNone => Err TypeError
                | Has t => Ok (if contains [ch 91] t then Has t else Missing)
                end) = Ok (typ_kept (g_typ (rt_of rets)))).
  { unfold typ_kept. destruct (g_typ (rt_of rets)); [reflexivity|congruence|reflexivity]. }
  rewrite Ht. cbn [bind].
  unfold ret_default_of in Hd. rewrite Hd. cbn [bind].
  unfold with_annotation. destruct r as [e|]; [|reflexivity]. rewrite (Hr e eq_refl). reflexivity.
Qed.

Lemma finish_has : forall p rp, snt_param (L "return_type") p false true = Ok rp -> finish_returns (Has p) = Ok (Has rp).
Proof. intros p rp H. unfold finish_returns, set_name_and_type. rewrite H. reflexivity. Qed.

Lemma return_type_not_kwargs_name : kwargs_name (L "return_type") = false.
Proof. vm_compute. reflexivity. Qed.

Lemma ret_ann_reads : forall o i g, ir_returns i = Has g ->
  (g_typ g = Missing \/ exists c t, g_typ g = Has (c :: t)) ->
  (forall t, g_typ g = Has t -> fo_inline o = true -> ret_typ_inline_ok t = true) ->
  exists ann, ret_ann_o o i = Ok ann /\ ann_reads (fo_inline o) (g_typ g) ann.
Proof.
  intros o i g Hr Htypf H. unfold ret_ann_o, EmitAst.returns_param. rewrite Hr. cbn [fget].
  destruct (fo_inline o); [|exists None; split; [reflexivity|left; reflexivity]].
  destruct Htypf as [Hm|[c [t Ht]]]; [rewrite Hm; exists None; split; [reflexivity|right; reflexivity]|].
  rewrite Ht. cbn [fget]. specialize (H _ Ht eq_refl). unfold ret_typ_inline_ok in H.
  destruct (EmitAst.parse_expr_src [] (c :: t)) as [e|] eqn:E; [|discriminate].
  rewrite (parse_expr_src_nil _ _ _ E). destruct (expr_prints_as_inv _ _ H) as (Hre & Hok & Hshow).
  exists (Some e). split; [reflexivity|]. cbn [ann_reads]. rewrite Hshow. auto.
Qed.

Lemma doc_returns_inv : forall et g d, doc_returns_agree et (Has g) (ir_returns d) = true ->
  g_default (rt_of (doc_returns_in d)) = None /\ prose_block g (g_doc (rt_of (doc_returns_in d)))
  /\ (if has_prose g
      then g_typ (rt_of (doc_returns_in d)) = (if et then g_typ g else Missing)
           /\ doc_returns_in d = Has (rt_of (doc_returns_in d))
      else g_typ (rt_of (doc_returns_in d)) = Missing /\ doc_returns_in d = FNone).
Proof.
  intros et g d H. unfold doc_returns_agree in H. cbn [fget] in H. unfold doc_returns_in.
  destruct (has_prose g) eqn:Ehp.
  - destruct (ir_returns d) as [| |dp]; try discriminate. cbn [rt_of].
    destruct (doc_entry_agrees_inv _ _ _ _ H) as (_ & Hb & Hrest). rewrite return_type_not_kwargs_name in Hrest. tauto.
  - assert (E : match ir_returns d with Has t => Has t | _ => FNone end = FNone) by (destruct (ir_returns d); try discriminate; reflexivity).
    rewrite E. cbn [rt_of g_default g_doc g_typ]. split; [reflexivity|]. split; [|auto].
    unfold prose_block. unfold has_prose in Ehp. destruct (prose_of g); [discriminate|left; reflexivity].
Qed.

Lemma return_entry_back : forall o g qd, entry_in_domain g = true -> ret_facts o g -> prose_block g qd ->
  exists rp, finish_returns (Has (mkG qd (g_typ g) (g_default g))) = Ok (Has rp) /\ same_param_fn g rp = true.
Proof.
  intros o g qd Hdom [Hprose Htyp Hcases] Hblock. pose proof (entry_typ_not_none g Hdom) as Hfn.
  destruct Hcases as [[Hdef _]|(c & s & Hdef & _ & Hkeep & Htyped & Huntyped)]; rewrite Hdef.
  - eexists. split.
    + apply finish_has. apply snt_param_no_default; [exact return_type_not_kwargs|].
      apply (typ_survives_block g qd Hprose Hfn (fun t Ht => proj1 (Htyp t Ht)) Hblock).
    + apply same_param_fn_intro; [|apply prose_block_back; exact Hblock|].
      * unfold C02Spec.same_typ. cbn [g_typ]. destruct (fget (g_typ g)); [apply str_eqb_refl|reflexivity].
      * unfold C02Spec.default_same. cbn [g_default]. rewrite Hdef. reflexivity.
  - destruct (entry_comes_back (L "return_type") g (mkG qd (g_typ g) (Some (DV (VStr (c :: s))))) _ (VStr (c :: s))
                               return_type_not_kwargs eq_refl Hblock eq_refl Hdef (fun _ _ => eq_refl)) as [rp [Hrp Hsame]];
      [cbn [str_ok]; rewrite Hkeep; apply orb_true_r|exact Hprose|exact Hfn| |exact Huntyped|].
    + intros t Ht. split; [apply (Htyp t Ht)|intros _; apply (Htyped t Ht)].
    + exists rp. split; [apply finish_has; exact Hrp|exact Hsame].
Qed.

(* the return entry: `-> annotation`, the generated `return <code>`, _interpolate_return, _set_name_and_type *)
Lemma returns_round_trip : forall o i d,
  guard_facts o i -> doc_returns_agree (negb (fo_inline o)) (ir_returns i) (ir_returns d) = true ->
  exists rv rv' ann ann',
    EmitAst.function_return_val (fo_pt o) i = Ok rv
    /\ ret_ann_o o i = Ok ann
    /\ mapM reparse_body_stmt (opt_list rv) = Ok (opt_list rv')
    /\ reparse_opt ann = Ok ann'
    /\ exists rets rets',
         interpolate_return (opt_list rv') ann' (doc_returns_in d) = Ok rets
         /\ finish_returns rets = Ok rets'
         /\ same_returns_fn (ir_returns i) rets' = true.
Proof.
  intros o i d GF DA. pose proof (gf_ret_dom _ _ GF) as Hrd. pose proof (gf_ret _ _ GF) as Hrc.
  destruct (ir_returns i) as [| |g] eqn:Er; [contradiction| |].
  - (* no return entry *)
    unfold EmitAst.function_return_val, ret_ann_o, EmitAst.returns_param. rewrite Er. cbn [fget].
    exists None, None, None, None.
    split; [reflexivity|]. split; [destruct (fo_inline o); reflexivity|]. split; [reflexivity|]. split; [reflexivity|].
    assert (Hd : doc_returns_in d = FNone).
    { unfold doc_returns_agree in DA. cbn [fget] in DA. unfold doc_returns_in. destruct (ir_returns d); try discriminate; reflexivity. }
    rewrite Hd. exists FNone, FNone. repeat apply conj; reflexivity.
  - pose proof (return_class_facts o g Hrd (Hrc g eq_refl)) as RF.
    destruct (entry_fields g Hrd) as [Htypf _].
    destruct (doc_returns_inv _ g d DA) as (Hrtd & Hblock & Hrtp). set (rt := rt_of (doc_returns_in d)) in *.
    destruct (return_entry_back o g (g_doc rt) Hrd RF Hblock) as [rp [Hfin Hsame]].
    destruct RF as [_ Htyp Hcases].
    destruct (ret_ann_reads o i g Er Htypf (fun t Ht => proj2 (Htyp t Ht))) as (ann & Hann & Hreads).
    pose proof (ann_reads_stable _ _ _ Hreads) as Hannre.
    assert (Hannok : forall e, ann = Some e -> expr_ok e = true) by (intros e; apply (ann_reads_ok _ _ _ _ Hreads)).
    (* without annotation the type is the docstring's, written next to the prose *)
    assert (Hdt : (forall t, g_typ g = Has t -> fo_inline o = false -> has_prose g = true) -> ann = None -> g_typ rt = g_typ g).
    { intros Hw ->. cbn [ann_reads] in Hreads. destruct (has_prose g) eqn:Ehp.
      - destruct Hrtp as [-> _]. destruct Hreads as [-> | ->]; [reflexivity|]. destruct (negb (fo_inline o)); reflexivity.
      - destruct Hrtp as [-> _]. destruct Hreads as [Hi|Hm]; [|symmetry; exact Hm].
        destruct Htypf as [Hm|[c [t Ht]]]; [symmetry; exact Hm|]. discriminate (Hw _ Ht Hi). }
    (* in both cases _interpolate_return hands over g's type, its prose block and g's default *)
    cut (exists rv rv', EmitAst.function_return_val (fo_pt o) i = Ok rv
           /\ mapM reparse_body_stmt (opt_list rv) = Ok (opt_list rv')
           /\ interpolate_return (opt_list rv') ann (doc_returns_in d) = Ok (Has (mkG (g_doc rt) (g_typ g) (g_default g)))).
    { intros (rv & rv' & Hrv & Hre & Hir). exists rv, rv', ann, ann. repeat (split; [assumption|]).
      exists (Has (mkG (g_doc rt) (g_typ g) (g_default g))), (Has rp). auto. }
    unfold EmitAst.function_return_val, EmitAst.returns_param. rewrite Er. cbn [fget].
    destruct Hcases as [[Hdef Hwritten]|(c & s & Hdef & Hcode & Hkeep & Htyped & Huntyped)]; rewrite Hdef.
    + (* no return default: the body is the docstring alone *)
      exists None, None. split; [reflexivity|]. split; [reflexivity|].
      cbn [opt_list]. rewrite (interp_no_return ann (doc_returns_in d) Hannok). f_equal.
      unfold with_annotation. fold rt. destruct ann as [e|].
      * destruct Hreads as (_ & _ & _ & <-). rewrite Hrtd. reflexivity.
      * assert (Hw : forall t, g_typ g = Has t -> fo_inline o = false -> has_prose g = true).
        { intros t Ht Hi. destruct Hwritten as [Hp|[Hi' _]]; congruence. }
        assert (Hp : has_prose g = true).
        { destruct Hwritten as [Hp|[Hi [t Ht]]]; [exact Hp|]. destruct Hreads; congruence. }
        rewrite Hp in Hrtp. destruct Hrtp as [_ ->]. rewrite <- (Hdt Hw eq_refl), <- Hrtd. destruct rt; reflexivity.
    + (* a return default: emitted as `return <code>`, read back from the body *)
      unfold ret_code_ok in Hcode.
      destruct (EmitAst.parse_expr_src (fo_pt o) (strip_chars [bt] (c :: s))) as [e|] eqn:Epe; [|discriminate].
      destruct (reparse_expr e) as [e'|] eqn:Ere; [|discriminate].
      apply andb_true_iff in Hcode. destruct Hcode as [Hok' Hdv].
      destruct (ret_default_of e') as [dv|] eqn:Erd; [|discriminate]. apply dval_eqb_DV in Hdv. subst dv.
      cbn [bind]. exists (Some (SReturn (Some e))), (Some (SReturn (Some e'))). split; [reflexivity|].
      split; [cbn [opt_list mapM reparse_body_stmt reparse_opt]; rewrite Ere; reflexivity|].
      assert (Hnf : g_typ rt <> FNone).
      { destruct (has_prose g); destruct Hrtp as [-> _]; [|discriminate].
        destruct (negb (fo_inline o)); [exact (entry_typ_not_none g Hrd)|discriminate]. }
      cbn [opt_list]. rewrite (interp_return e' ann (doc_returns_in d) _ Hok' Hnf Erd Hannok). fold rt. f_equal.
      unfold with_annotation. cbn [rt_of g_doc g_default]. destruct ann as [e0|].
      * destruct Hreads as (_ & _ & _ & <-). reflexivity.
      * rewrite (Hdt (fun t Ht => proj2 (Htyped t Ht)) eq_refl).
        destruct (g_typ g) as [| |t] eqn:Et; [reflexivity..|]. cbn [typ_kept]. rewrite (proj1 (Htyped t eq_refl)). reflexivity.
Qed.

Lemma param_emitted_facts : forall o g v, entry_in_domain g = true -> param_facts o g v -> emitted_param_facts o g.
Proof.
  intros o g v Hdom F. pose proof (param_typ_fits o g v Hdom F) as Hfits.
  destruct F as [Hdef Hval Hstr _ _ _].
  pose proof (ann_of_reads o g Hfits) as Hann. destruct (rdv_spec v Hval Hstr) as [Hre _].
  constructor.
  - exact Hfits.
  - unfold default_scalar. rewrite Hdef. exact I.
  - exact (ann_reads_stable _ _ _ Hann).
  - exists (rdv v). unfold dflt_of. rewrite Hdef. exact Hre.
  - intros e. apply (ann_reads_ok _ _ _ _ Hann).
  - rewrite (rdflt_DV g v Hdef). apply rdv_expr_ok; assumption.
Qed.

Lemma guard_emitted_facts : forall o i, guard_facts o i -> forall kv, In kv (nkp i) -> emitted_param_facts o (snd kv).
Proof.
  intros o i GF [n g] Hin. cbn [snd]. apply nkp_In in Hin. destruct Hin as [HinP Hnk].
  pose proof (gf_entries _ _ GF n g HinP) as Hdom.
  destruct (param_class_facts o n g Hnk Hdom (gf_params _ _ GF n g HinP)) as [v F].
  apply (param_emitted_facts o g v Hdom F).
Qed.

Lemma reparsed_exprs_ok : forall o i,
  (forall kv, In kv (nkp i) -> emitted_param_facts o (snd kv)) -> arg_exprs_ok (reparsed_arguments o i) = true.
Proof.
  intros o i H. apply layout_exprs_ok; apply forallb_forall; intros x Hx; apply in_map_iff in Hx; destruct Hx as [kv [<- Hkv]].
  - cbn [a_ann]. destruct (ann_of o (snd kv)) as [e|] eqn:E; [|reflexivity]. apply (epf_ann_ok _ _ (H kv Hkv)); exact E.
  - apply (epf_dflt_ok _ _ (H kv Hkv)).
Qed.

(* C03_partial, stage by stage, for any function name, with the fields of the result that same_interface_fn does not
   mention: the name, the docstring's summary, and (no generated return) the carried body *)
Theorem C03_partial_fields : forall nm o i text d,
  C06Spec.is_identifier nm = true -> guard_C03 o i = true -> doc_agrees o i d = true ->
  exists a b ret s' r,
    EmitAst.emit_function (fo_pt o) i (Some nm) (Some (fo_kind o)) (fo_inline o) (fo_kwonly o) (Ok text)
    = Ok (SFunc nm a b [] ret, i)
    /\ reparse_stmt (SFunc nm a b [] ret) = Ok s' /\ parse_fn (Some d) s' = Ok r
    /\ same_interface_fn (fo_kind o) i r = true
    /\ ir_name r = Has nm /\ ir_doc r = ir_doc d
    /\ ((forall g, ir_returns i = Has g -> g_default g = None) -> ir_internal r = ir_internal d).
Proof.
  intros nm o i text d Hid G DA. pose proof (guard_inv o i G) as GF.
  unfold doc_agrees in DA. apply andb_true_iff in DA. destruct DA as [DAp DAr].
  destruct (returns_round_trip o i d GF DAr)
    as (rv & rv' & ann & ann' & Hrv & Hann & Hrvre & Hannre & rets & rets' & Hir & Hfin & Hsame_r).
  pose proof (guard_emitted_facts o i GF) as Hps.
  destruct (params_round_trip o i d GF DAp) as (T & app & m & params2 & Hkw & HmT & HmO & Hm & Hsnt & Hsame_p).
  do 5 eexists. split; [|split; [|split]].
  - apply emit_function_shape; [intros ->; discriminate|exact (gf_kind _ _ GF)|exact (gf_internal _ _ GF)|exact Hps|exact Hrv|exact Hann].
  - apply reparse_function_emitted; [exact Hid|exact Hps|exact Hrvre|exact Hannre].
  - apply (parse_fn_stages d nm _ _ _ _ T app m params2 rets rets' (reparsed_exprs_ok o i Hps) Hkw HmT HmO Hm Hsnt Hir Hfin).
  - split; [|split; [reflexivity|split; [reflexivity|]]].
    + unfold same_interface_fn. cbn [ir_params ir_returns]. rewrite Hsame_p, Hsame_r.
      unfold kind_preserved. cbn [ir_type andb].
      rewrite (found_type_kind o i (gf_kind _ _ GF) (guard_not_self_cls o i GF)). apply str_eqb_refl.
    + (* without return default there is no generated return: the body is the docstring alone *)
      intros Hnod. cbn [ir_internal].
      assert (Erv : rv = None).
      { unfold EmitAst.function_return_val, EmitAst.returns_param in Hrv.
        destruct (ir_returns i) as [| |g] eqn:Er; cbn [fget] in Hrv; [congruence..|].
        rewrite (Hnod g eq_refl) in Hrv. congruence. }
      subst rv. destruct rv'; [discriminate Hrvre|reflexivity].
Qed.

Theorem C03_partial_lemma : forall o i text d,
  guard_C03 o i = true -> doc_agrees o i d = true -> C03_at o i text d.
Proof.
  intros o i text d G DA.
  destruct (C03_partial_fields fname o i text d fname_identifier G DA) as (a & b & ret & s' & r & He & Hre & Hp & Hs & _).
  exists r. split; [|exact Hs]. unfold round_trip_fn, emit_fn. rewrite He. cbn [bind fst]. rewrite Hre. exact Hp.
Qed.

(* KIND: static / self / cls is preserved by every round trip that succeeds, for every description whose
   parameters are not themselves called self or cls *)
Theorem C03_kind_lemma : forall o i tds d r,
  kind_in_domain (fo_kind o) = true -> forallb not_self_cls (nk_names i) = true ->
  round_trip_fn o i tds d = Ok r -> kind_preserved (fo_kind o) r = true.
Proof.
  intros o i tds d r Hk Hn H. unfold round_trip_fn in H.
  apply DefaultsFacts.bind_Ok_inv in H. destruct H as [s [Hs H]].
  apply DefaultsFacts.bind_Ok_inv in H. destruct H as [s' [Hs' H]].
  destruct (emit_fn_inv o i tds s Hk Hs) as (afp & dfp & text & rest & ret & -> & Hnames & Hlen).
  destruct (reparse_stmt_inv _ _ _ _ _ _ Hs') as (a' & b' & dc' & r' & Ha' & _ & ->).
  destruct (reparse_layout _ _ _ _ _ _ Ha') as (afp' & dfp' & kwarg' & -> & Hn' & _ & _).
  unfold parse_fn in H. apply parse_function_type in H. unfold kind_preserved. rewrite H.
  rewrite layout_kind; [apply str_eqb_refl|exact Hk|]. rewrite Hn', Hnames. exact Hn.
Qed.

(* NAMES AND ORDER, from C06 (the emitted argument list carries the IR's names in order) and C07 (parse.function lists
   the signature's names in source order, then a documented ** parameter): for every description, whatever its types,
   prose and defaults, whenever the round trip succeeds on a well-formed definition *)
Theorem C03_names_order_lemma : forall o i tds d s s' r,
  kind_in_domain (fo_kind o) = true -> forallb not_self_cls (nk_names i) = true ->
  emit_fn o i tds = Ok s -> reparse_stmt s = Ok s' -> C07_domain (Some d) s' = true -> parse_fn (Some d) s' = Ok r ->
  od_keys (ir_params r)
  = nk_names i ++ (match kwarg_of i with
                   | Some k => if mem_str (a_name k) (od_keys (ir_params d)) then [a_name k] else []
                   | None => []
                   end).
Proof.
  intros o i tds d s s' r Hk Hn Hs Hs' Hdom H.
  unfold parse_fn in H. rewrite (parse_function_names _ _ _ _ _ _ _ _ _ Hdom H).
  destruct (emit_fn_inv o i tds s Hk Hs) as (afp & dfp & text & rest & ret & -> & Hnames & Hlen).
  destruct (reparse_stmt_inv _ _ _ _ _ _ Hs') as (a' & b' & dc' & r' & Ha' & Hb' & ->).
  destruct (reparse_layout _ _ _ _ _ _ Ha') as (afp' & dfp' & kwarg' & -> & Hn' & Hl' & Hkw').
  cbn [mapM reparse_body_stmt] in Hb'. cbn [bind] in Hb'.
  destruct (mapM reparse_body_stmt rest) as [rest'|]; cbn [bind] in Hb'; [|discriminate]. inversion Hb'; subst b'.
  unfold C07_domain in Hdom. apply andb_true_iff in Hdom. destruct Hdom as [Hwf Hdoc].
  pose proof (wf_doc_facts _ _ _ _ _ _ Hdoc) as D.
  rewrite (expected_names_domain _ _ _ _ _ _ D).
  assert (Hn2 : forallb not_self_cls (map a_name afp') = true) by (rewrite Hn', Hnames; exact Hn).
  rewrite (layout_sig_pos_names _ _ _ _ _ Hk Hn2), Hn', Hnames. f_equal.
  unfold kwarg_documented, kwarg_name. rewrite layout_ar_kwarg. unfold doc_names, doc_params, fd_body. cbn [docstring_of].
  destruct kwarg' as [k'|]; destruct (kwarg_of i) as [k|]; cbn [option_map] in Hkw'; try discriminate; [|reflexivity].
  inversion Hkw' as [Hkk]. cbn [option_map opt_list]. rewrite Hkk.
  destruct (mem_str (a_name k) (od_keys (ir_params d))); reflexivity.
Qed.


(* INLINE ANNOTATIONS: for a canonical type the emitter writes an annotation that the unparse / re-parse step leaves
   alone and that parse.function prints back as the very type string *)
Theorem C03_annotation_codec_lemma : forall o n g t dflt,
  fo_inline o = true -> g_typ g = Has t -> typ_inline_ok t = true ->
  exists e, EmitAst.arg_of_param (fo_pt o) true (n, g) = Ok (mkArg n (Some e))
            /\ reparse_expr e = Ok e
            /\ g_typ (snd (func_arg2param (mkArg n (Some e)) dflt)) = Has t.
Proof.
  intros o n g t dflt Hi Ht Hok.
  assert (Hf : typ_fits o g) by (unfold typ_fits; rewrite Ht; intros _; exact Hok).
  pose proof (arg_of_param_fits o n g Hf) as H. pose proof (ann_of_reads o g Hf) as Hr. rewrite Hi in H.
  destruct (ann_of o g) as [e|]; cbn [ann_reads] in Hr.
  - destruct Hr as (_ & Hre & _ & Hshow). exists e. split; [exact H|]. split; [exact Hre|].
    unfold func_arg2param. cbn [snd g_typ a_ann]. rewrite <- Ht. symmetry. exact Hshow.
  - destruct Hr; congruence.
Qed.

(* DEFAULTS, per value class (None / bool / int >= 0 / int < 0 / float / str): the default node the emitter writes, after
   unparse / re-parse, is read back by _infer_default as the same value with the same Python type *)
Theorem C03_default_codec_lemma : forall q g v nq,
  g_default g = Some (DV v) -> value_ok v = true -> str_ok v = true ->
  needs_quoting (fget (g_typ q)) = Ok nq ->
  (forall t, g_typ q = Has t -> code_val v = true -> contains [ch 91] t = true) ->
  (fld_is_none (g_typ q) = true -> in_none_types v || code_val v = true) ->
  infer_default q (DE (rdflt g)) false = Ok (mkG (g_doc q) (rtyp (g_typ q) v) (Some (back v)))
  /\ C02Spec.same_default (DV v) (back v) = true.
Proof.
  intros q g v nq Hg Hv Hs Hnq Hcode Hunt. split; [|apply same_default_back].
  rewrite (rdflt_DV g v Hg), (infer_default_rdv q v nq Hv Hs Hnq). exact (infer_default_DV_codec q v nq Hs Hnq Hcode Hunt).
Qed.

Definition w3_opts : fopts := mkFO (L "static") true true 1 true false true [].

(* one keyword-only parameter x: int without default, emitted with the default None *)
Definition w3_ir : ir :=
  mkIR (Has (L "f")) (Has (L "static")) (Has (L "Summary."))
       [(L "x", mkG (Has (L "the x.")) (Has (L "int")) None)] FNone None.

Definition w3_doc : ir :=
  mkIR FNone (Has (L "static")) (Has (L "Summary."))
       [(L "x", mkG (Has (L "the x.")) Missing None)] FNone None.

Lemma C03_refuted_lemma : ~ C03_statement.
Proof.
  intros H. specialize (H w3_opts w3_ir (L "text") w3_doc).
  destruct H as [r [Hr Hs]]; [vm_compute; reflexivity|vm_compute; reflexivity|].
  assert (Hb : C03_at_b w3_opts w3_ir (L "text") w3_doc = false) by (vm_compute; reflexivity).
  unfold C03_at_b in Hb. rewrite Hr in Hb. congruence.
Qed.

Definition nv3_opts : fopts := mkFO (L "self") true false 2 true false true [].

Definition nv3_ir : ir :=
  mkIR (Has (L "f")) (Has (L "static")) (Has (L "Summary."))
       [(L "dataset_name", mkG (Has (L "name of the dataset.")) (Has (L "str")) (Some (DV (VStr (L "mnist")))));
        (L "K", mkG (Has (L "backend.")) (Has (L "Literal['np', 'tf']")) (Some (DV (VStr (L "np")))));
        (L "lr", mkG Missing (Has (L "Optional[float]")) (Some (DV VNone)));
        (L "n", mkG (Has (L "count.")) (Has (L "int")) (Some (DV (VInt (-5)%Z))));
        (L "flag", mkG (Has (L "whether.")) (Has (L "bool")) (Some (DV (VBool true))));
        (L "items", mkG (Has (L "the items.")) (Has (L "List[int]")) (Some (DV (VStr (L "```[1, 2]```")))));
        (L "data_loader_kwargs", mkG (Has (L "passed on.")) (Has (L "Optional[dict]")) (Some (DV (VStr NoneStr))))]
       (Has (mkG (Has (L "the pair.")) (Has (L "Tuple[int, int]")) (Some (DV (VStr (L "```[1, 2]```")))))) None.

Definition nv3_doc : ir :=
  mkIR FNone (Has (L "static")) (Has (L "Summary."))
       [(L "dataset_name", mkG (Has (L "name of the dataset.")) Missing None);
        (L "K", mkG (Has (L "backend.")) Missing None);
        (L "n", mkG (Has (L "count.")) Missing None);
        (L "flag", mkG (Has (L "whether.")) Missing None);
        (L "items", mkG (Has (L "the items.")) Missing None);
        (L "data_loader_kwargs", mkG (Has (L "passed on.")) (Has (L "Optional[dict]")) (Some (DV (VStr NoneStr))))]
       (Has (mkG (Has (L "the pair.")) Missing None)) None.

Lemma C03_at_true : forall o i text d, C03_at o i text d -> C03_at_b o i text d = true.
Proof. intros o i text d [r [Hr Hs]]. unfold C03_at_b. rewrite Hr. exact Hs. Qed.

Lemma nv3_in_guard : guard_C03 nv3_opts nv3_ir = true.
Proof. vm_compute. reflexivity. Qed.

(* only the guard and doc_agrees are evaluated: that the round trip succeeds is the theorem *)
Lemma C03_nonvacuous_lemma :
  guard_C03 nv3_opts nv3_ir = true /\ doc_agrees nv3_opts nv3_ir nv3_doc = true
  /\ List.length (ir_params nv3_ir) = 7 /\ C03_at_b nv3_opts nv3_ir (L "text") nv3_doc = true.
Proof.
  assert (D : doc_agrees nv3_opts nv3_ir nv3_doc = true) by (vm_compute; reflexivity).
  split; [exact nv3_in_guard|]. split; [exact D|]. split; [reflexivity|].
  apply C03_at_true. apply C03_partial_lemma; [exact nv3_in_guard|exact D].
Qed.

(* one minimal witness per finding class (the same descriptions fail on the real code: harness/prop_C03.py) *)
Definition wB : fopts := mkFO (L "static") true true 1 true false true [].
Definition wB_edd : fopts := mkFO (L "static") true true 1 true true true [].
Definition wB_doctyp : fopts := mkFO (L "static") false true 1 true false true [].
Definition w_ir1 (n : String.string) (g : gparam) : ir :=
  mkIR FNone (Has (L "static")) (Has (L "Summary.")) [(L n, g)] FNone None.
Arguments w_ir1 n%string_scope g.
Definition w_irR (g : gparam) : ir := mkIR FNone (Has (L "static")) (Has (L "Summary.")) [] (Has g) None.
Definition dI (z : Z) : option dval := Some (DV (VInt z)).
Definition dS (s : String.string) : option dval := Some (DV (VStr (L s))).
Arguments dS s%string_scope.

Definition class_witnesses : list (fopts * ir * c03_class) :=
  [ (wB_edd, w_ir1 "x" (mkG (Has (L "the x.")) (Has (L "int")) (dI 5)), K3_default_sentence_kept);
    (wB, w_ir1 "x" (mkG (Has (L " the x.")) (Has (L "int")) (dI 5)), K3_prose_not_docstring_safe);
    (wB, w_ir1 "x" (mkG (Has (L "Optional thing.")) (Has (L "int")) (dI 5)), K3_prose_starts_optional);
    (wB, w_ir1 "kwargs" (mkG Missing (Has (L "Optional[dict]")) (Some (DV VNone))), K3_kwargs_undocumented);
    (wB, w_ir1 "kwargs" (mkG (Has (L "the kw.")) (Has (L "dict")) (Some (DV VNone))), K3_kwargs_shape);
    (wB, w_ir1 "x" (mkG (Has (L "the x.")) (Has (L "int")) None), K3_no_default_becomes_none);
    (wB, w_ir1 "x" (mkG (Has (L "the x.")) Missing (dI 5)), K3_untyped_acquires_type);
    (wB, w_ir1 "x" (mkG (Has (L "the x.")) (Has (L "Optional[ int ]")) (dI 5)), K3_type_not_canonical);
    (wB_doctyp, w_ir1 "x" (mkG Missing (Has (L "Optional[int]")) (Some (DV VNone))), K3_type_lost_without_prose);
    (wB, w_ir1 "x" (mkG (Has (L "the x.")) (Has (L "np.ndarray")) (dS "```np.zeros(3)```")), K3_code_default_drops_type);
    (wB, w_ir1 "x" (mkG (Has (L "the x.")) (Has (L "str")) (dS "'a'")), K3_str_default_requoted);
    (wB_doctyp, w_irR (mkG Missing (Has (L "int")) None), K3_return_vanishes);
    (wB, w_irR (mkG (Has (L "the r.")) (Has (L "List[int]")) (dS "```5```")), K3_return_default_not_code);
    (wB, w_irR (mkG (Has (L "the r.")) (Has (L "int")) (dS "```[1, 2]```")), K3_return_type_dropped) ].

Definition class_eqb (a b : c03_class) : bool := str_eqb (c03_class_name a) (c03_class_name b).

Definition plain_prose (doc : str) : bool := prose_safe doc && negb (starts_optional doc).

(* a documented parameter with a scalar type name and a default of a scalar kind that is not back-tick code *)
Definition scalar_param (kv : str * gparam) : bool :=
  negb (kwargs_name (fst kv))
  && match g_doc (snd kv), g_typ (snd kv), g_default (snd kv) with
     | Has (c :: r), Has t, Some (DV v) =>
       plain_prose (c :: r) && in_simple_types t
       && match v with
          | VStr s => (in_none_types (VStr s) || str_keeps_quotes s) && negb (code_quoted s)
          | _ => true
          end
     | _, _, _ => false
     end.

Definition scalar_ir (o : fopts) (i : ir) : bool :=
  C03_domain o i && negb (fo_edd o)
  && negb (match ir_doc i with Has d => C02Spec.prose_has_token d | _ => false end)
  && forallb scalar_param (ir_params i)
  && match ir_returns i with FNone => true | _ => false end.

Lemma simple_types_parse : forallb (fun t => typ_parses t && ret_typ_inline_ok t) Extracted.simple_type_names = true.
Proof. vm_compute. reflexivity. Qed.

Lemma simple_type_facts : forall t, in_simple_types t = true -> typ_parses t = true /\ ret_typ_inline_ok t = true.
Proof.
  intros t H. unfold in_simple_types in H. apply existsb_exists in H. destruct H as [x [Hin Hx]].
  apply str_eqb_eq in Hx. subst x. pose proof simple_types_parse as Hp. rewrite forallb_forall in Hp.
  specialize (Hp t Hin). apply andb_true_iff in Hp. exact Hp.
Qed.

Lemma prose_class_plain : forall g c r, g_doc g = Has (c :: r) -> plain_prose (c :: r) = true -> prose_class g = None.
Proof.
  intros g c r Hd Hp. unfold prose_class, prose_of, C02Spec.prose_of. rewrite Hd.
  unfold plain_prose in Hp. apply andb_true_iff in Hp. destruct Hp as [Hs Ho]. rewrite Hs. cbn [negb].
  apply negb_true_iff in Ho. change (C02Spec.prose_starts_optional (c :: r)) with (starts_optional (c :: r)). rewrite Ho. reflexivity.
Qed.

Theorem C03_scalar_guard : forall o i, scalar_ir o i = true -> guard_C03 o i = true.
Proof.
  intros o i H. unfold scalar_ir in H.
  apply andb_true_iff in H. destruct H as [H Hret]. apply andb_true_iff in H. destruct H as [H Hps].
  apply andb_true_iff in H. destruct H as [H Hsum]. apply andb_true_iff in H. destruct H as [H Hedd].
  apply negb_true_iff in Hedd. apply negb_true_iff in Hsum.
  apply guard_intro; [exact H|exact Hedd|exact Hsum| |intros g Hg; rewrite Hg in Hret; discriminate].
  intros n g Hin. rewrite forallb_forall in Hps. specialize (Hps (n, g) Hin). unfold scalar_param in Hps. cbn [fst snd] in Hps.
  apply andb_true_iff in Hps. destruct Hps as [Hk Hg]. apply negb_true_iff in Hk.
  destruct (g_doc g) as [| |[|c r]] eqn:Ed; try discriminate.
  destruct (g_typ g) as [| |t] eqn:Et; try discriminate.
  destruct (g_default g) as [[v|e|x]|] eqn:Edf; try discriminate.
  apply andb_true_iff in Hg. destruct Hg as [Hg Hv]. apply andb_true_iff in Hg. destruct Hg as [Hp Hst].
  apply (param_class_None o n g Hk). split; [exact (prose_class_plain g c r Ed Hp)|].
  exists (DV v). split; [exact Edf|]. rewrite Et.
  assert (Hhp : has_prose g = true) by (unfold has_prose, prose_of, C02Spec.prose_of; rewrite Ed; reflexivity).
  assert (Hin_ok : typ_inline_ok t = true) by (unfold typ_inline_ok; rewrite Hst; reflexivity).
  rewrite (proj1 (simple_type_facts t Hst)), Hhp, Hin_ok.
  destruct v as [| | | |s]; [destruct (fo_inline o); split; reflexivity..|]. cbn [dv_str C02Spec.d_code_quoted].
  apply andb_true_iff in Hv. destruct Hv as [Hq Hc]. apply negb_true_iff in Hc. rewrite Hq, Hc.
  destruct (fo_inline o); split; reflexivity.
Qed.

(* a function that documents only its return value: parsing never raises *)
Definition return_only_ir (o : fopts) (i : ir) : bool :=
  C03_domain o i && negb (fo_edd o)
  && negb (match ir_doc i with Has d => C02Spec.prose_has_token d | _ => false end)
  && match ir_params i, ir_returns i with
     | [], Has g =>
       match g_doc g, g_default g with
       | Has (c :: r), None =>
         plain_prose (c :: r)
         && match g_typ g with Has t => in_simple_types t | Missing => true | FNone => false end
       | _, _ => false
       end
     | _, _ => false
     end.

Theorem C03_return_only_guard : forall o i, return_only_ir o i = true -> guard_C03 o i = true.
Proof.
  intros o i H. unfold return_only_ir in H.
  apply andb_true_iff in H. destruct H as [H Hr]. apply andb_true_iff in H. destruct H as [H Hsum].
  apply andb_true_iff in H. destruct H as [H Hedd]. apply negb_true_iff in Hedd. apply negb_true_iff in Hsum.
  destruct (ir_params i) eqn:Eps; [|discriminate].
  apply guard_intro; [exact H|exact Hedd|exact Hsum|rewrite Eps; intros n g []|].
  intros g Hg. rewrite Hg in Hr.
  destruct (g_doc g) as [| |[|c r]] eqn:Ed; try discriminate.
  destruct (g_default g) eqn:Edf; [discriminate|].
  apply andb_true_iff in Hr. destruct Hr as [Hp Ht].
  unfold C03Spec.return_class. rewrite (prose_class_plain g c r Ed Hp). rewrite Edf.
  assert (Hhp : has_prose g = true) by (unfold has_prose, prose_of, C02Spec.prose_of; rewrite Ed; reflexivity).
  rewrite Hhp. unfold return_typ_class.
  destruct (g_typ g) as [| |t]; [reflexivity|discriminate|].
  destruct (simple_type_facts t Ht) as [Htp Hri]. rewrite Htp, Hri. cbn [negb orb]. rewrite andb_false_r. reflexivity.
Qed.

