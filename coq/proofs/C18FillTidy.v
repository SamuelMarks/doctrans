(* C18FillTidy: textwrap.fill on tidy text (words separated by single plain blanks): the lines of the result are
   consecutive pieces of the text, a blank is dropped at every break (fill_tidy_repr, over line_ok lines); the first
   line takes every leading word that fits (fill_first_line).  From these: the closed-form guard of
   model/C18ParseSpec.v implies the piece-wise one (C18_tidy_pieces_lemma), hence the parse-level theorem under the
   closed-form guard, and the statements about the sample c18_long_ir that need it. *)
From Coq Require Import List Ascii Bool Arith ZArith Lia.
From Coq Require String.
Import String.StringSyntax.
From DT Require Import PyStr Sexp PyVal TyExpr PureUtils Defaults PyAst IR Extracted Fill C17Spec.
From DT Require Import DocEmit C18Spec DocParse C01Spec C18ParseSpec.
From DT Require Import PyStrFacts DefaultsFacts SplitFacts FillFacts DocEmitFacts C18Facts DocParseFacts C01RestLink C18Parse.
Import ListNotations.

Definition nospace (u : str) : Prop := forallb (fun c => negb (isspace c)) u = true.

Lemma single_spaced_chars : forall s c, single_spaced s = true -> In c s -> isspace c = true -> c = sp.
Proof.
  induction s as [|x r IH]; intros c H Hin Hc; [destruct Hin|].
  cbn [single_spaced] in H. apply andb_true_iff in H. destruct H as [Hx Hr].
  destruct Hin as [E|Hin]; [|exact (IH c Hr Hin Hc)]. subst x. rewrite Hc in Hx.
  apply andb_true_iff in Hx. destruct Hx as [Hx _]. apply ascii_eqb_eq in Hx. exact Hx.
Qed.

Lemma single_spaced_suffix : forall a b, single_spaced (a ++ b) = true -> single_spaced b = true.
Proof.
  induction a as [|x a IH]; intros b H; [exact H|].
  cbn [app single_spaced] in H. apply andb_true_iff in H. apply IH. apply H.
Qed.

Lemma single_spaced_sp_next : forall r, single_spaced (sp :: r) = true ->
    exists d r', r = d :: r' /\ isspace d = false.
Proof.
  intros r H. cbn [single_spaced] in H. change (isspace sp) with true in H. cbv iota in H.
  apply andb_true_iff in H. destruct H as [H _]. apply andb_true_iff in H. destruct H as [_ H].
  destruct r as [|d r']; [discriminate|]. exists d, r'. split; [reflexivity|]. apply negb_true_iff. exact H.
Qed.

Lemma single_spaced_nospace_app : forall u b, nospace u -> single_spaced b = true -> single_spaced (u ++ b) = true.
Proof.
  induction u as [|x u IH]; intros b Hu Hb; [exact Hb|].
  unfold nospace in Hu. cbn [forallb] in Hu. apply andb_true_iff in Hu. destruct Hu as [Hx Hu].
  apply negb_true_iff in Hx. cbn [app single_spaced]. rewrite Hx. cbn [andb]. apply IH; assumption.
Qed.

Lemma single_spaced_sp_cons : forall d r, isspace d = false -> single_spaced (d :: r) = true ->
    single_spaced (sp :: d :: r) = true.
Proof.
  intros d r Hd H. cbn [single_spaced] in *. change (isspace sp) with true. cbv iota.
  rewrite ascii_eqb_refl, Hd in *. cbn [negb andb] in *. exact H.
Qed.

Lemma single_spaced_last : forall s c, single_spaced s = true -> last_c s = Some c -> isspace c = false.
Proof.
  induction s as [|x r IH]; intros c H Hl; [discriminate|].
  destruct r as [|y r'].
  - cbn in Hl. injection Hl as Hl. subst x. cbn [single_spaced] in H.
    destruct (isspace c); [|reflexivity]. rewrite andb_false_r in H. discriminate.
  - rewrite last_c_cons_cons in Hl. apply IH; [|exact Hl].
    cbn [single_spaced] in H. apply andb_true_iff in H. apply H.
Qed.

Lemma tidy_inv : forall s, tidy s = true ->
    single_spaced s = true /\ exists c r, s = c :: r /\ isspace c = false.
Proof.
  intros s H. unfold tidy in H. apply andb_true_iff in H. destruct H as [H1 H2]. split; [exact H2|].
  destruct s as [|c r]; [discriminate|]. exists c, r. split; [reflexivity|]. apply negb_true_iff. exact H1.
Qed.

Lemma tidy_edge_ok : forall s, tidy s = true -> edge_ok s.
Proof.
  intros s H. destruct (tidy_inv s H) as [Hs [c [r [E Hc]]]]. split.
  - exists c, r. split; assumption.
  - destruct (last_c s) as [l|] eqn:El.
    + exists l. split; [reflexivity|]. apply (single_spaced_last s l Hs El).
    + apply last_c_nil_iff in El. subst s. discriminate.
Qed.

Lemma single_spaced_no : forall s c, single_spaced s = true -> isspace c = true -> c <> sp -> mem_c c s = false.
Proof.
  intros s c Hs Hc Hne. destruct (mem_c c s) eqn:E; [|reflexivity]. exfalso.
  apply mem_c_In in E. apply Hne. exact (single_spaced_chars s c Hs E Hc).
Qed.

Lemma single_spaced_replace_ws : forall s, single_spaced s = true -> replace_ws s = s.
Proof.
  intros s Hs. apply replace_ws_id. rewrite forallb_forall. intros c Hin.
  destruct (tw_space c) eqn:E; [|reflexivity]. cbn [negb orb].
  apply ascii_eqb_eq. apply (single_spaced_chars s c Hs Hin). apply tw_space_isspace. exact E.
Qed.

Lemma single_spaced_normal : forall s, single_spaced s = true -> normal s.
Proof.
  intros s Hs. rewrite <- (single_spaced_replace_ws s Hs). apply replace_ws_normal.
Qed.

Definition line_ok (l : str) : Prop := edge_ok l /\ mem_c nl l = false.

Lemma chunk_space_chars : forall c x, chunk_ok true c -> In x c -> x = sp.
Proof. intros c x Hc Hx. apply ascii_eqb_eq. apply (chunk_ok_In true c x Hc Hx). Qed.

Lemma space_chunk_single : forall c rest, chunk_ok true c -> single_spaced (c ++ rest) = true ->
    c = [sp] /\ rest <> [].
Proof.
  intros c rest Hc Hs. pose proof (chunk_space_chars c) as Hall. destruct c as [|x r]; [destruct Hc; contradiction|].
  rewrite (Hall x Hc (or_introl eq_refl)) in *.
  cbn [app] in Hs. destruct (single_spaced_sp_next _ Hs) as [d [r' [E Hd]]].
  destruct r as [|y r].
  - split; [reflexivity|]. cbn [app] in E. rewrite E. discriminate.
  - exfalso. cbn [app] in E. injection E as E _. subst d.
    rewrite (Hall y Hc (or_intror (or_introl eq_refl))) in Hd. discriminate.
Qed.

Lemma good_app_last : forall a b k, good k (a ++ b) -> a <> [] -> last_is_word a -> good true b.
Proof.
  induction a as [|x a IH]; intros b k H Hne Hl; [contradiction|].
  cbn [app good] in H. destruct H as [Hx Hr].
  destruct a as [|y a'].
  - unfold last_is_word in Hl. cbn [rev app] in Hl. rewrite (chunk_ok_kind _ _ Hx) in Hl. subst k. exact Hr.
  - apply (IH b (negb k) Hr); [discriminate|].
    unfold last_is_word in *. cbn [rev] in *. destruct (rev a' ++ [y]) as [|z zs] eqn:E.
    + destruct (rev a'); discriminate.
    + cbn [app] in Hl. exact Hl.
Qed.

Lemma good_In : forall cs k c, good k cs -> In c cs -> exists k', chunk_ok k' c.
Proof.
  induction cs as [|x cs IH]; intros k c H Hin; [destruct Hin|].
  cbn [good] in H. destruct H as [Hx Hr]. destruct Hin as [E|Hin]; [subst; exists k; exact Hx|].
  apply (IH (negb k) c Hr Hin).
Qed.

Lemma group_line_ok : forall line k rest,
    good k (line ++ rest) -> single_spaced (concat (line ++ rest)) = true ->
    line <> [] -> first_is_word line -> last_is_word line -> line_ok (concat line).
Proof.
  intros line k rest Hg Hs Hne Hf Hl.
  destruct (good_app _ _ _ Hg) as [Hgl _]. assert (Hw : wfc line) by (exists k; exact Hgl).
  pose proof (line_starts_word line Hw Hne Hf) as Hst. pose proof (line_ends_word line Hw Hne Hl) as Hen.
  (* the only blank of the text is the plain one, and the line neither starts nor ends with it *)
  assert (Hsp : forall x, In x (concat line) -> isspace x = true -> x = sp).
  { intros x Hx. apply (single_spaced_chars _ x Hs). rewrite concat_app. apply in_or_app. left. exact Hx. }
  assert (Hcne : concat line <> []).
  { destruct line as [|c0 lr]; [contradiction|]. cbn [good] in Hgl. destruct Hgl as [[Hc0 _] _].
    cbn [concat]. destruct c0; [contradiction|discriminate]. }
  split; [split|].
  - destruct (concat line) as [|x r] eqn:E; [contradiction|]. exists x, r. split; [reflexivity|].
    destruct (isspace x) eqn:Ex; [|reflexivity]. rewrite (Hsp x (or_introl eq_refl) Ex) in Hst. discriminate.
  - unfold ends_with_space in Hen. destruct (last_c (concat line)) as [x|] eqn:El.
    + exists x. split; [reflexivity|]. destruct (isspace x) eqn:Ex; [|reflexivity].
      rewrite (Hsp x (last_c_In _ _ El) Ex) in Hen. discriminate.
    + apply last_c_nil_iff in El. contradiction.
  - destruct (mem_c nl (concat line)) eqn:E; [|reflexivity]. exfalso. apply mem_c_In in E.
    apply (good_no_nl _ k Hg). rewrite concat_app. apply in_or_app. left. exact E.
Qed.

Lemma seg_repr : forall w hl cs ls, seg w hl cs ls ->
    forall k, good k cs -> single_spaced (concat cs) = true -> (hl = true \/ k = false) ->
    Forall line_ok ls
    /\ (cs = [] -> ls = [])
    /\ (cs <> [] -> ls <> [] /\ concat cs = (if k then [sp] else []) ++ join [sp] ls).
Proof.
  intros w hl cs ls H. induction H as [hl|hl c r ls Hc Hs IH|hl line r ls Hne Hlen Hf Hl Hs IH];
    intros k Hg Hss Hor.
  - split; [constructor|]. split; [reflexivity|]. intros E. contradiction.
  - cbn [good] in Hg. destruct Hg as [Hck Hgr].
    rewrite (chunk_ok_kind _ _ Hck) in Hc. subst k.
    cbn [concat] in Hss. destruct (space_chunk_single c (concat r) Hck Hss) as [Ec Hrne]. subst c.
    assert (Hrne' : r <> []) by (intros E; subst r; apply Hrne; reflexivity).
    destruct (IH false Hgr (single_spaced_suffix _ _ Hss) (or_intror eq_refl)) as [F [_ Hcat]].
    destruct (Hcat Hrne') as [Hlne Ecat].
    split; [exact F|]. split; [discriminate|]. intros _. split; [exact Hlne|].
    cbn [concat negb]. rewrite Ecat. reflexivity.
  - assert (Hk : k = false).
    { destruct Hor as [Eh|Ek]; [|exact Ek]. specialize (Hf Eh).
      destruct line as [|c0 lr]; [contradiction|]. cbn [app good] in Hg. destruct Hg as [Hc0 _].
      cbn [first_is_word] in Hf. rewrite (chunk_ok_kind _ _ Hc0) in Hf. exact Hf. }
    subst k.
    assert (Hfw : first_is_word line).
    { destruct line as [|c0 lr]; [contradiction|]. cbn [app good] in Hg. destruct Hg as [Hc0 _].
      cbn [first_is_word]. apply (chunk_ok_kind _ _ Hc0). }
    pose proof (group_line_ok line false r Hg Hss Hne Hfw Hl) as Hlok.
    pose proof (good_app_last line r false Hg Hne Hl) as Hgr.
    rewrite concat_app in Hss.
    destruct (IH true Hgr (single_spaced_suffix _ _ Hss) (or_introl eq_refl)) as [F [Hnil Hcat]].
    split; [constructor; assumption|]. split.
    + intros E. apply app_eq_nil in E. destruct E as [E _]. contradiction.
    + intros _. split; [discriminate|]. rewrite concat_app. cbn [app].
      destruct r as [|c1 r'].
      * rewrite (Hnil eq_refl). cbn [concat join]. rewrite app_nil_r. reflexivity.
      * destruct (Hcat ltac:(discriminate)) as [Hlne Ecat]. rewrite Ecat.
        destruct ls as [|l1 ls']; [contradiction|]. reflexivity.
Qed.

Theorem fill_tidy_repr : forall w s r,
    tidy s = true -> fill w s = Ok r ->
    exists ls, ls <> [] /\ s = join [sp] ls /\ r = join [nl] ls /\ Forall line_ok ls.
Proof.
  intros w s r Ht Hf. destruct (tidy_inv s Ht) as [Hss [c0 [r0 [Es Hc0]]]].
  destruct (fill_seg w s r Hf) as [ls [Hr [Hseg [Hwf Hcat]]]].
  rewrite (single_spaced_replace_ws s Hss) in *.
  destruct Hwf as [k Hg].
  assert (Hk : k = false).
  { destruct (chunks s) as [|c cs] eqn:Ec; [cbn in Hcat; rewrite <- Hcat in Es; discriminate|].
    cbn [good] in Hg. destruct Hg as [Hc _]. destruct k; [|reflexivity]. exfalso.
    destruct c as [|x rr]; [destruct Hc; contradiction|]. cbn [concat app] in Hcat.
    rewrite Es in Hcat. injection Hcat as Hcat _. subst c0.
    rewrite (chunk_space_chars _ x Hc (or_introl eq_refl)) in Hc0. discriminate. }
  subst k.
  assert (Hss' : single_spaced (concat (chunks s)) = true) by (rewrite Hcat; exact Hss).
  destruct (seg_repr w false (chunks s) ls Hseg false Hg Hss' (or_intror eq_refl)) as [F [_ Hc]].
  assert (Hne : chunks s <> []).
  { intros E. rewrite E in Hcat. cbn in Hcat. rewrite <- Hcat in Es. discriminate. }
  destruct (Hc Hne) as [Hlne Ecat]. exists ls. split; [exact Hlne|]. split; [|split; [exact Hr|exact F]].
  rewrite <- Hcat. exact Ecat.
Qed.

Lemma take_fit_prefix : forall w p q n,
    n + List.length (concat p) <= w ->
    exists t rest, take_fit w n (p ++ q) = (p ++ t, rest).
Proof.
  intros w p. induction p as [|c p IH]; intros q n H.
  - cbn [app]. destruct (take_fit w n q) as [t rest]. exists t, rest. reflexivity.
  - cbn [concat] in H. rewrite app_length in H. cbn [app take_fit].
    assert (E : Nat.leb (n + List.length c) w = true) by (apply Nat.leb_le; lia). rewrite E.
    destruct (IH q (n + List.length c)) as [t [rest Ht]]; [lia|]. rewrite Ht. exists t, rest. reflexivity.
Qed.

Lemma drop_last_space_keep : forall p t, p <> [] -> last_is_word p ->
    exists t', drop_last_space (p ++ t) = p ++ t'.
Proof.
  intros p t Hne Hl. destruct (rev_case t) as [E|[t0 [c E]]]; subst t.
  - exists []. rewrite app_nil_r. unfold drop_last_space. unfold last_is_word in Hl.
    destruct (rev p) as [|c r] eqn:Er; [reflexivity|]. rewrite Hl. reflexivity.
  - rewrite app_assoc, drop_last_space_snoc. destruct (is_space_chunk c).
    + exists t0. reflexivity.
    + exists (t0 ++ [c]). rewrite app_assoc. reflexivity.
Qed.

Lemma wrap_first_prefix : forall f w p q,
    p <> [] -> List.length (concat p) <= w -> last_is_word p ->
    exists x more, wrap_chunks (S f) w (p ++ q) false = (concat p ++ x) :: more.
Proof.
  intros f w p q Hne Hlen Hl. destruct (take_fit_prefix w p q 0) as [t [rest Ht]]; [lia|].
  destruct (drop_last_space_keep p t Hne Hl) as [t' Hd].
  destruct p as [|c0 p']; [contradiction|].
  cbn [app] in *. cbn [wrap_chunks]. rewrite andb_false_r. rewrite Ht.
  cbv iota beta.
  exists (concat t'), (wrap_chunks f w rest true).
  match goal with |- context [drop_last_space ?x] =>
    replace (drop_last_space x) with ((c0 :: p') ++ t') by (symmetry; exact Hd) end.
  cbn [app]. change (c0 :: p' ++ t') with ((c0 :: p') ++ t'). rewrite concat_app. reflexivity.
Qed.

(* the chunk boundaries respect a prefix that ends in a non-blank and is followed by a blank *)
Lemma chunk_split : forall cs k h D,
    good k cs -> concat cs = h ++ sp :: D ->
    (h = [] \/ exists l, last_c h = Some l /\ l <> sp) ->
    exists p q, cs = p ++ q /\ concat p = h.
Proof.
  induction cs as [|c cs IH]; intros k h D Hg Hcat Hh.
  - destruct h; discriminate.
  - destruct Hh as [E|[l [Hl Hlsp]]]; [subst h; exists [], (c :: cs); split; reflexivity|].
    cbn [good] in Hg. destruct Hg as [Hc Hgr]. cbn [concat] in Hcat.
    destruct (app_eq_app_cases _ _ _ _ _ Hcat) as [[m [Eh Em]]|[m [Hm [Ec Em]]]].
    + (* h = c ++ m *)
      assert (Hm : m = [] \/ exists l', last_c m = Some l' /\ l' <> sp).
      { destruct m as [|y m']; [left; reflexivity|right]. exists l. split; [|exact Hlsp].
        rewrite Eh in Hl. rewrite last_c_app_nonnil in Hl by discriminate. exact Hl. }
      destruct (IH (negb k) m D Hgr Em Hm) as [p [q [E1 E2]]].
      exists (c :: p), q. split; [cbn [app]; rewrite E1; reflexivity|]. cbn [concat]. rewrite E2, Eh. reflexivity.
    + (* c = h ++ m, m non-empty and begins with the blank *)
      exfalso. destruct m as [|y m']; [contradiction|]. cbn [app] in Em. injection Em as Ey _. subst y.
      assert (Hin : In sp c) by (rewrite Ec; apply in_or_app; right; left; reflexivity).
      destruct k.
      * apply Hlsp. apply (chunk_space_chars c l Hc). rewrite Ec. apply in_or_app. left. apply last_c_In. exact Hl.
      * destruct (chunk_ok_In false c sp Hc Hin) as [H _]. discriminate H.
Qed.

Lemma last_chunk_word : forall cs k p q h l,
    good k cs -> cs = p ++ q -> concat p = h -> last_c h = Some l -> l <> sp -> last_is_word p /\ p <> [].
Proof.
  intros cs k p q h l Hg Ecs Ep Hl Hlsp.
  destruct (rev_case p) as [E|[p0 [c E]]].
  - subst p. cbn in Ep. subst h. discriminate.
  - split; [|rewrite E; destruct p0; discriminate]. subst p. unfold last_is_word. rewrite rev_app_distr. cbn [rev app].
    assert (Hin : In c cs) by (rewrite Ecs; apply in_or_app; left; apply in_or_app; right; left; reflexivity).
    destruct (good_In cs k c Hg Hin) as [k' Hk']. rewrite (chunk_ok_kind _ _ Hk').
    destruct k'; [|reflexivity]. exfalso.
    rewrite concat_app in Ep. cbn [concat] in Ep. rewrite app_nil_r in Ep.
    assert (Hlc : last_c c = Some l).
    { rewrite <- Ep in Hl. rewrite last_c_app_nonnil in Hl; [exact Hl|apply Hk']. }
    apply Hlsp. apply (chunk_space_chars c l Hk'). apply last_c_In. exact Hlc.
Qed.

(* greedy first line: a header that fits stays on the first line *)
Theorem fill_first_line : forall w h D r l,
    single_spaced (h ++ sp :: D) = true -> last_c h = Some l -> l <> sp ->
    List.length h <= w -> fill w (h ++ sp :: D) = Ok r -> startswith h r = true.
Proof.
  intros w h D r l Hss Hl Hlsp Hlen Hf.
  destruct (fill_inv w _ r Hf) as [_ [_ Er]].
  rewrite (single_spaced_replace_ws _ Hss) in Er.
  destruct (chunks_spec _ (single_spaced_normal _ Hss)) as [[k Hg] Hcat].
  destruct (chunk_split _ k h D Hg Hcat (or_intror (ex_intro _ l (conj Hl Hlsp)))) as [p [q [Ecs Ep]]].
  destruct (last_chunk_word _ k p q h l Hg Ecs Ep Hl Hlsp) as [Hlw Hpne].
  subst r. rewrite Ecs.
  match goal with |- context [wrap_chunks (S ?f) w ?cs false] =>
    destruct (wrap_first_prefix f w p q Hpne) as [x [more Hw]];
      [rewrite Ep; exact Hlen|exact Hlw|];
    replace (wrap_chunks (S f) w cs false) with ((concat p ++ x) :: more) by (symmetry; exact Hw) end.
  rewrite Ep.
  destruct more as [|m1 more']; cbn [join]; rewrite <- ?app_assoc; apply startswith_app.
Qed.

Definition allsp_pad (pad : str) : Prop := forallb (fun c => ascii_eqb c sp) pad = true.

Lemma allsp_pad_In : forall pad c, allsp_pad pad -> In c pad -> c = sp.
Proof. intros pad c H Hc. unfold allsp_pad in H. rewrite forallb_forall in H. apply ascii_eqb_eq. apply H. exact Hc. Qed.

Lemma allsp_pad_isspace : forall pad, allsp_pad pad -> forallb isspace pad = true.
Proof. intros pad H. apply forallb_forall. intros c Hc. rewrite (allsp_pad_In pad c H Hc). reflexivity. Qed.

Lemma join_as_concat : forall sep (x : str) l, join sep (x :: l) = x ++ concat (map (fun y => sep ++ y) l).
Proof.
  intros sep x l. revert x. induction l as [|y l IH]; intros x.
  - cbn [join map concat]. rewrite app_nil_r. reflexivity.
  - change (join sep (x :: y :: l)) with (x ++ sep ++ join sep (y :: l)). rewrite IH.
    cbn [map concat]. rewrite <- !app_assoc. reflexivity.
Qed.

Lemma join_pad_lines : forall pad (l0 : str) ls,
    join (nl :: pad) (l0 :: ls) = join [nl] (l0 :: map (fun l => pad ++ l) ls).
Proof.
  intros pad l0 ls. rewrite !join_as_concat, map_map. reflexivity.
Qed.

Lemma line_ok_not_blank : forall l, line_ok l -> forallb isspace l = false.
Proof. intros l [[[c [r [E Hc]]] _] _]. rewrite E. cbn [forallb]. rewrite Hc. reflexivity. Qed.

Lemma line_ok_no_nl : forall l, line_ok l -> ~ In nl l.
Proof. intros l [_ H]. apply mem_c_false_notin. exact H. Qed.

Lemma indent_lines_nonblank : forall prefix ls,
    Forall line_ok ls -> indent_lines prefix ls = map (fun l => prefix ++ l) ls.
Proof.
  intros prefix ls H. induction H as [|l ls Hl _ IH]; [reflexivity|].
  cbn [indent_lines map]. rewrite (line_ok_not_blank l Hl), IH. reflexivity.
Qed.

Definition indent1 : str := repeat_str tab 1.

Lemma indent1_allsp : allsp_pad indent1.
Proof. reflexivity. Qed.

Lemma pad_line_no_nl : forall pad l, allsp_pad pad -> line_ok l -> ~ In nl (pad ++ l).
Proof.
  intros pad l Hp Hl Hin. apply in_app_or in Hin. destruct Hin as [Hin|Hin]; [|exact (line_ok_no_nl l Hl Hin)].
  discriminate (allsp_pad_In pad nl Hp Hin).
Qed.

Lemma lstrip_pad_line : forall pad l, allsp_pad pad -> line_ok l -> lstrip (pad ++ l) = l.
Proof.
  intros pad l Hp [[[c [r [E Hc]]] _] _]. rewrite (lstrip_pad pad l (allsp_pad_isspace pad Hp)).
  unfold lstrip. apply lstrip_by_id. intros c' Hc'. rewrite E in Hc'. injection Hc' as Hc'. subst c'. exact Hc.
Qed.

Lemma strip_pad_line : forall pad l, allsp_pad pad -> line_ok l -> strip (pad ++ l) = l.
Proof.
  intros pad l Hp [He _]. rewrite <- (app_nil_r l) at 1.
  apply (strip_pad pad l [] (allsp_pad_isspace pad Hp) eq_refl He).
Qed.

Lemma iabf_join : forall l0 ls,
    Forall line_ok (l0 :: ls) ->
    indent_all_but_first (join [nl] (l0 :: ls)) 1 false = join (nl :: indent1) (l0 :: ls).
Proof.
  intros l0 ls H. destruct (iabf_eq (join [nl] (l0 :: ls)) 1) as [m0 [rest [El E]]]. rewrite E. fold indent1 in El.
  assert (Hnn : Forall (fun l => ~ In nl l) (l0 :: ls)).
  { apply Forall_forall. intros l Hl. apply line_ok_no_nl. rewrite Forall_forall in H. apply H. exact Hl. }
  rewrite <- split_nl_eq, (split_nl_join_lines _ Hnn), (indent_lines_nonblank indent1 _ H) in El.
  cbn [map] in El. injection El as E0 Er. subst m0 rest.
  inversion H as [|a b Ha Hb]; subst.
  change (join [nl] (lstrip (indent1 ++ l0) :: map (fun l => indent1 ++ l) ls) = join (nl :: indent1) (l0 :: ls)).
  rewrite (lstrip_pad_line indent1 l0 indent1_allsp Ha). symmetry. apply join_pad_lines.
Qed.

Lemma join_edge_ok : forall sep ls, ls <> [] -> Forall line_ok ls -> edge_ok (join sep ls).
Proof.
  intros sep ls Hne H. induction H as [|l ls Hl Hls IH]; [contradiction|].
  destruct ls as [|l2 ls'].
  - cbn [join]. apply Hl.
  - change (join sep (l :: l2 :: ls')) with (l ++ sep ++ join sep (l2 :: ls')).
    specialize (IH ltac:(discriminate)). destruct Hl as [[[c [r [E Hc]]] _] _]. destruct IH as [_ [z [Hz Hzs]]]. split.
    + exists c, (r ++ sep ++ join sep (l2 :: ls')). rewrite E. split; [reflexivity|exact Hc].
    + exists z. split; [|exact Hzs]. rewrite app_assoc. rewrite last_c_app_nonnil; [exact Hz|].
      intros E0. rewrite E0 in Hz. discriminate.
Qed.

Lemma rejoin_wrapped : forall pad ls, allsp_pad pad -> ls <> [] -> Forall line_ok ls ->
    rejoin (join (nl :: pad) ls) = join [sp] ls.
Proof.
  intros pad ls Hp Hne H. destruct ls as [|l0 ls']; [contradiction|].
  unfold rejoin. rewrite join_pad_lines.
  assert (Hnn : Forall (fun l => ~ In nl l) (l0 :: map (fun l => pad ++ l) ls')).
  { inversion H as [|a b Ha Hb]; subst. constructor; [apply line_ok_no_nl; exact Ha|].
    apply Forall_forall. intros l Hl. apply in_map_iff in Hl. destruct Hl as [l' [E Hl']]. subst l.
    apply pad_line_no_nl; [exact Hp|]. rewrite Forall_forall in Hb. apply Hb. exact Hl'. }
  rewrite (split_nl_join_lines _ Hnn). cbn [map]. inversion H as [|a b Ha Hb]; subst.
  rewrite (strip_edge_ok l0 (proj1 Ha)). f_equal. f_equal. rewrite map_map.
  clear -Hp Hb. induction Hb as [|l ls Hl _ IH]; [reflexivity|].
  cbn [map]. rewrite (strip_pad_line pad l Hp Hl), IH. reflexivity.
Qed.

Lemma rejoin_single_line : forall d, edge_ok d -> mem_c nl d = false -> rejoin d = d.
Proof.
  intros d He Hnl. unfold rejoin. rewrite (split_nl_one d Hnl). cbn [map join]. apply strip_edge_ok. exact He.
Qed.

Lemma join_sp_line_ok : forall ls, ls <> [] -> Forall line_ok ls -> line_ok (join [sp] ls).
Proof.
  intros ls Hne H. split; [apply join_edge_ok; assumption|].
  clear Hne. induction H as [|l ls Hl _ IH]; [reflexivity|].
  destruct ls as [|l2 ls']; [cbn [join]; apply Hl|].
  change (join [sp] (l :: l2 :: ls')) with (l ++ [sp] ++ join [sp] (l2 :: ls')).
  rewrite !mem_c_app, (proj2 Hl), IH. reflexivity.
Qed.

Lemma words_wrapped : forall pad ls, allsp_pad pad -> words (join (nl :: pad) ls) = words (join [sp] ls).
Proof.
  intros pad ls Hp. induction ls as [|l ls IH]; [reflexivity|].
  destruct ls as [|l2 ls']; [reflexivity|].
  change (join (nl :: pad) (l :: l2 :: ls')) with (l ++ nl :: (pad ++ join (nl :: pad) (l2 :: ls'))).
  change (join [sp] (l :: l2 :: ls')) with (l ++ sp :: join [sp] (l2 :: ls')).
  rewrite !words_app_sp_mid by reflexivity. rewrite words_app_allsp_l, IH; [reflexivity|].
  apply forallb_forall. intros c Hc. rewrite (allsp_pad_In pad c Hp Hc). reflexivity.
Qed.

Lemma no_rest_token_app_inv : forall a b, no_rest_token (a ++ b) = true ->
    no_rest_token a = true /\ no_rest_token b = true.
Proof.
  intros a b H. rewrite no_rest_token_spec in H.
  split; apply no_rest_token_spec; intros t Ht; apply (contains_app_false t a b (H t Ht)).
Qed.

Lemma no_rest_token_wrapped : forall pad ls, allsp_pad pad ->
    no_rest_token (join [sp] ls) = true -> no_rest_token (join (nl :: pad) ls) = true.
Proof.
  intros pad ls Hp. induction ls as [|l ls IH]; intros H; [exact H|].
  destruct ls as [|l2 ls']; [exact H|].
  change (join [sp] (l :: l2 :: ls')) with (l ++ [sp] ++ join [sp] (l2 :: ls')) in H.
  change (join (nl :: pad) (l :: l2 :: ls')) with (l ++ (nl :: pad) ++ join (nl :: pad) (l2 :: ls')).
  destruct (no_rest_token_app_inv _ _ H) as [Hl H2]. destruct (no_rest_token_app_inv _ _ H2) as [_ H3].
  apply no_rest_token_app_r; [exact Hl| |].
  - apply no_rest_token_pad; [|apply IH; exact H3].
    cbn [forallb]. rewrite (allsp_pad_isspace pad Hp). reflexivity.
  - intros c Hc. cbn [app head_c] in Hc. injection Hc as Hc. subst c. reflexivity.
Qed.

Definition anns_cf : list str := map casefold default_announces.

Definition ann_free (x : str) : Prop := forall t, In t anns_cf -> contains t x = false.

Lemma no_announce_spec : forall x, no_announce x = true <-> ann_free (casefold x).
Proof.
  intros x. unfold no_announce, ann_free, anns_cf. rewrite forallb_forall. split; intros H.
  - intros t Ht. apply in_map_iff in Ht. destruct Ht as [a [E Ha]]. subst t.
    apply negb_true_iff. apply H. exact Ha.
  - intros a Ha. apply negb_true_iff. apply H. apply in_map. exact Ha.
Qed.

Lemma ann_shape : forall t, In t anns_cf ->
    (exists c r, t = c :: r /\ c <> nl /\ c <> sp)
    /\ (~ In nl t \/ exists X, t = X ++ [nl] /\ ~ In nl X /\ In (X ++ [sp]) anns_cf).
Proof.
  intros t H. vm_compute in H. destruct H as [H|[H|[H|[H|[]]]]]; subst t.
  - split; [eexists; eexists; split; [reflexivity|split; discriminate]|].
    left. intros Hin. apply mem_c_In in Hin. vm_compute in Hin. discriminate.
  - split; [eexists; eexists; split; [reflexivity|split; discriminate]|].
    right. exists (L "defaults to"). split; [reflexivity|]. split.
    + intros Hin. apply mem_c_In in Hin. vm_compute in Hin. discriminate.
    + left. reflexivity.
  - split; [eexists; eexists; split; [reflexivity|split; discriminate]|].
    left. intros Hin. apply mem_c_In in Hin. vm_compute in Hin. discriminate.
  - split; [eexists; eexists; split; [reflexivity|split; discriminate]|].
    left. intros Hin. apply mem_c_In in Hin. vm_compute in Hin. discriminate.
Qed.

Lemma ann_free_app_inv : forall a b, ann_free (a ++ b) -> ann_free a /\ ann_free b.
Proof. intros a b H. split; intros t Ht; apply (contains_app_false t a b (H t Ht)). Qed.

Lemma split_last_nl : forall X m m', ~ In nl X -> m ++ nl :: m' = X ++ [nl] -> m = X /\ m' = [].
Proof.
  induction X as [|x X IH]; intros m m' Hn E.
  - destruct m as [|c m1]; [cbn in E; injection E as E; subst; split; reflexivity|].
    cbn [app] in E. injection E as _ E. destruct m1; discriminate.
  - destruct m as [|c m1].
    + cbn [app] in E. injection E as Ex _. exfalso. apply Hn. left. symmetry. exact Ex.
    + cbn [app] in E. injection E as Ec E. subst c.
      destruct (IH m1 m' (fun Hin => Hn (or_intror Hin)) E) as [E1 E2]. subst. split; reflexivity.
Qed.

Lemma contains_skip_blanks : forall t ws x,
    (exists c r, t = c :: r /\ c <> nl /\ c <> sp) -> (forall y, In y ws -> y = nl \/ y = sp) ->
    contains t x = false -> contains t (ws ++ x) = false.
Proof.
  intros t ws x [c [r [Ec [H1 H2]]]] Hws Hx.
  assert (Hc : forall u v, ws = u ++ c :: v -> False).
  { intros u v E. destruct (Hws c) as [E1|E1]; [rewrite E; apply in_or_app; right; left; reflexivity| |]; contradiction. }
  assert (Hin : contains t ws = false).
  { destruct (contains t ws) eqn:E; [|reflexivity]. exfalso.
    apply contains_true_iff in E. destruct E as [a [b Eab]]. subst t. exact (Hc a (r ++ b) Eab). }
  destruct (contains t (ws ++ x)) eqn:E; [|reflexivity]. exfalso.
  destruct (contains_straddle t ws x Hin Hx E) as [m [m' [Hm [_ [Et [Hew _]]]]]].
  destruct m as [|y m1]; [contradiction|]. rewrite Et in Ec. cbn [app] in Ec. injection Ec as Ey _. subst y.
  apply endswith_iff in Hew. destruct Hew as [u Eu]. exact (Hc u m1 Eu).
Qed.

Lemma ann_free_wrapped : forall pad ls, allsp_pad pad ->
    ann_free (join [sp] ls) -> ann_free (join (nl :: pad) ls).
Proof.
  intros pad ls Hp. induction ls as [|l ls IH]; intros H; [exact H|].
  destruct ls as [|l2 ls']; [exact H|].
  change (join [sp] (l :: l2 :: ls')) with (l ++ [sp] ++ join [sp] (l2 :: ls')) in H.
  change (join (nl :: pad) (l :: l2 :: ls')) with (l ++ (nl :: pad) ++ join (nl :: pad) (l2 :: ls')).
  destruct (ann_free_app_inv _ _ H) as [Hl H2]. destruct (ann_free_app_inv _ _ H2) as [_ H3].
  specialize (IH H3). set (W' := join (nl :: pad) (l2 :: ls')) in *.
  assert (Hpadch : forall x, In x (nl :: pad) -> x = nl \/ x = sp).
  { intros x [E|Hx]; [left; symmetry; exact E|right; exact (allsp_pad_In pad x Hp Hx)]. }
  intros t Ht. destruct (ann_shape t Ht) as [Hfirst Hnl].
  pose proof (contains_skip_blanks t (nl :: pad) W' Hfirst Hpadch (IH t Ht)) as HB.
  (* an occurrence would start in l and end with the line break: then the announcement that ends with a blank
     occurs in the unwrapped text *)
  destruct (contains t (l ++ (nl :: pad) ++ W')) eqn:E; [|reflexivity]. exfalso.
  destruct (contains_straddle t l _ (Hl t Ht) HB E) as [m [m' [Hm [Hm' [Et [Hew Hsw]]]]]].
  destruct m' as [|y m'']; [contradiction|]. cbn [app startswith] in Hsw.
  apply andb_true_iff in Hsw. destruct Hsw as [Hy _]. apply ascii_eqb_eq in Hy. subst y.
  destruct Hnl as [Hno|[X [EX [HnX HXsp]]]].
  - apply Hno. rewrite Et. apply in_or_app. right. left. reflexivity.
  - rewrite EX in Et. symmetry in Et. destruct (split_last_nl X m m'' HnX Et) as [Em _]. subst m.
    apply endswith_iff in Hew. destruct Hew as [u Eu].
    assert (Hc : contains (X ++ [sp]) (l ++ [sp] ++ join [sp] (l2 :: ls')) = true).
    { apply contains_true_iff. exists u, (join [sp] (l2 :: ls')). rewrite Eu. rewrite <- !app_assoc. reflexivity. }
    rewrite (H _ HXsp) in Hc. discriminate.
Qed.

Lemma casefold_join : forall sep l, casefold (join sep l) = join (casefold sep) (map casefold l).
Proof.
  intros sep l. induction l as [|x l IH]; [reflexivity|].
  destruct l as [|y l']; [reflexivity|].
  change (join sep (x :: y :: l')) with (x ++ sep ++ join sep (y :: l')).
  rewrite !casefold_app, IH. reflexivity.
Qed.

Lemma casefold_pad : forall pad, allsp_pad pad -> casefold (nl :: pad) = nl :: pad.
Proof.
  intros pad Hp. rewrite casefold_cons. f_equal.
  unfold allsp_pad in Hp. induction pad as [|c pad IH]; [reflexivity|].
  cbn [forallb] in Hp. apply andb_true_iff in Hp. destruct Hp as [Hc Hp]. apply ascii_eqb_eq in Hc. subst c.
  rewrite casefold_cons, (IH Hp). reflexivity.
Qed.

Lemma no_announce_lines_wrapped : forall pad ls, allsp_pad pad ->
    no_announce (join [sp] ls) = true -> no_announce (join (nl :: pad) ls) = true.
Proof.
  intros pad ls Hp H. apply no_announce_spec. apply no_announce_spec in H.
  rewrite casefold_join in *. rewrite (casefold_pad pad Hp).
  change (casefold [sp]) with [sp] in H. apply ann_free_wrapped; assumption.
Qed.

Lemma value_after_pad : forall hdr pad v,
    forallb isspace pad = true -> (exists c r, v = c :: r /\ isspace c = false) ->
    value_after hdr (hdr ++ pad ++ v) = Some (pad, v).
Proof.
  intros hdr pad v Hp [c [r [E Hc]]]. unfold value_after. rewrite startswith_app, skipn_app_exact.
  rewrite (takewhile_app_all isspace pad v Hp), (dropwhile_app_all isspace pad v Hp). subst v.
  cbn [takewhile dropwhile]. rewrite Hc, app_nil_r. reflexivity.
Qed.

Lemma line_ok_after_blank : forall h c r, line_ok (h ++ sp :: c :: r) -> isspace c = false -> line_ok (c :: r).
Proof.
  intros h c r [[_ [z [Hz Hzs]]] Hnl] Hc. split; [split|].
  - exists c, r. split; [reflexivity|exact Hc].
  - exists z. split; [|exact Hzs]. rewrite last_c_app_nonnil in Hz by discriminate.
    rewrite last_c_cons_cons in Hz. exact Hz.
  - rewrite mem_c_app, mem_c_cons in Hnl. apply orb_false_iff in Hnl. destruct Hnl as [_ Hn].
    apply orb_false_iff in Hn. apply Hn.
Qed.

Lemma startswith_join_nl_first : forall h (l0 : str) ls,
    ~ In nl h -> startswith h (join [nl] (l0 :: ls)) = true -> exists x, l0 = h ++ x.
Proof.
  intros h l0 ls Hnl Hsw. rewrite join_as_concat in Hsw.
  destruct (startswith_app_cases _ _ _ Hsw) as [H|[q [Eq [Hq Hsq]]]]; [apply startswith_iff; exact H|]. exfalso.
  destruct ls as [|l1 ls']; [cbn [map concat] in Hsq; destruct q; [contradiction|discriminate]|].
  cbn [map concat app] in Hsq. destruct q as [|y q']; [contradiction|]. cbn [startswith] in Hsq.
  apply andb_true_iff in Hsq. destruct Hsq as [Hy _]. apply ascii_eqb_eq in Hy. subst y.
  apply Hnl. rewrite Eq. apply in_or_app. right. left. reflexivity.
Qed.

(* the value after a header that fits: the first line of the filled text is  hdr ++ x ; when x is empty the break
   comes right after the header (pad = line break and indent), otherwise  x = sp :: x'  (pad = one blank) and x'
   is the first line of the value *)
Lemma wrapped_value : forall w hdr D r l,
    tidy D = true -> tidy (hdr ++ sp :: D) = true -> last_c hdr = Some l -> isspace l = false ->
    List.length hdr <= w -> fill w (hdr ++ sp :: D) = Ok r ->
    exists pad lsV, lsV <> [] /\ Forall line_ok lsV /\ D = join [sp] lsV
      /\ indent_all_but_first r 1 false = hdr ++ pad ++ join (nl :: indent1) lsV
      /\ (pad = [sp] \/ pad = nl :: indent1).
Proof.
  intros w hdr D r l HtD Hts Hl Hls Hlen Hf.
  destruct (tidy_inv _ Hts) as [Hss _]. destruct (tidy_inv _ HtD) as [_ [d0 [dr [ED Hd0]]]].
  assert (Hlsp : l <> sp) by (intros E; subst l; discriminate).
  pose proof (fill_first_line w hdr D r l Hss Hl Hlsp Hlen Hf) as Hsw.
  destruct (fill_tidy_repr w _ r Hts Hf) as [ls [Hne [Es [Er F]]]].
  destruct ls as [|l0 ls']; [contradiction|].
  assert (Hnlh : ~ In nl hdr).
  { intros Hin. assert (Hm : mem_c nl (hdr ++ sp :: D) = false) by (apply single_spaced_no; [exact Hss|reflexivity|discriminate]).
    rewrite mem_c_app in Hm. apply orb_false_iff in Hm. apply mem_c_In in Hin. destruct Hm. congruence. }
  assert (Hl0 : exists x, l0 = hdr ++ x) by (rewrite Er in Hsw; exact (startswith_join_nl_first hdr l0 ls' Hnlh Hsw)).
  destruct Hl0 as [x Ex].
  rewrite Er, (iabf_join l0 ls' F). rewrite join_as_concat in Es. rewrite join_as_concat.
  rewrite Ex in Es. rewrite <- app_assoc in Es. apply app_inv_head in Es.
  inversion F as [|a b Hl0ok Hrest]; subst a b.
  destruct x as [|y x'].
  - cbn [app] in Es. destruct ls' as [|l1 ls'']; [discriminate|]. cbn [map concat app] in Es. injection Es as Es.
    exists (nl :: indent1), (l1 :: ls''). split; [discriminate|]. split; [exact Hrest|]. split.
    + rewrite join_as_concat. exact Es.
    + split; [|right; reflexivity]. rewrite Ex, app_nil_r. cbn [map concat]. rewrite join_as_concat.
      rewrite <- !app_assoc. reflexivity.
  - cbn [app] in Es. injection Es as Ey Es. subst y.
    assert (Hx' : line_ok x').
    { rewrite ED in Es. destruct x' as [|c0 x''].
      - exfalso. destruct Hl0ok as [[_ [z [Hz Hzs]]] _]. rewrite Ex, last_c_app_nonnil in Hz by discriminate.
        cbn in Hz. injection Hz as Hz. subst z. discriminate.
      - cbn [app] in Es. injection Es as E0 _. subst c0. rewrite Ex in Hl0ok.
        exact (line_ok_after_blank hdr d0 x'' Hl0ok Hd0). }
    exists [sp], (x' :: ls'). split; [discriminate|]. split; [constructor; assumption|]. split.
    + rewrite join_as_concat. exact Es.
    + split; [|left; reflexivity]. rewrite Ex, join_as_concat. rewrite <- !app_assoc. reflexivity.
Qed.

Lemma fill_ok_tidy : forall w s, 0 < w -> single_spaced s = true -> exists r, fill w s = Ok r.
Proof.
  intros w s Hw Hs. apply fill_guard_ok. unfold fill_guard.
  rewrite (single_spaced_no s tabch Hs eq_refl ltac:(discriminate)).
  assert (E : Nat.ltb 0 w = true) by (apply Nat.ltb_lt; exact Hw). rewrite E. reflexivity.
Qed.

Lemma norm_doc_wrapped : forall lsV, lsV <> [] -> Forall line_ok lsV ->
    norm_doc (join (nl :: indent1) lsV) = norm_doc (join [sp] lsV).
Proof.
  intros lsV Hne F. unfold norm_doc. rewrite (rejoin_wrapped indent1 lsV indent1_allsp Hne F).
  destruct (join_sp_line_ok lsV Hne F) as [He Hnl]. rewrite (rejoin_single_line _ He Hnl). reflexivity.
Qed.

Lemma tidy_prose_line_ok : forall D, tidy D = true -> no_announce D = true -> prose_line_ok D = true.
Proof.
  intros D Ht Ha. unfold prose_line_ok. rewrite (proj2 (edge_okb_iff D) (tidy_edge_ok D Ht)), Ha.
  destruct (tidy_inv D Ht) as [Hs _]. rewrite (single_spaced_no D nl Hs eq_refl ltac:(discriminate)). reflexivity.
Qed.

Lemma tidy_word_sp : forall u v, nospace u -> u <> [] -> tidy v = true -> tidy (u ++ sp :: v) = true.
Proof.
  intros u v Hu Hne Hv. destruct (tidy_inv v Hv) as [Hs [d [r [E Hd]]]]. unfold tidy. apply andb_true_iff. split.
  - destruct u as [|c u']; [contradiction|]. unfold nospace in Hu. cbn [forallb] in Hu.
    apply andb_true_iff in Hu. apply Hu.
  - apply single_spaced_nospace_app; [exact Hu|]. rewrite E. apply single_spaced_sp_cons; [exact Hd|].
    rewrite <- E. exact Hs.
Qed.

Lemma ident_nospace : forall n, is_ident n = true -> nospace n /\ exists c r, n = c :: r.
Proof.
  intros n H. unfold is_ident in H. destruct n as [|c r]; [discriminate|].
  apply andb_true_iff in H. destruct H as [_ Hall]. split; [|exists c, r; reflexivity].
  unfold nospace. rewrite forallb_forall in *. intros x Hx. apply negb_true_iff. apply is_id_char_not_space.
  apply Hall. exact Hx.
Qed.

(* a tidy prose D after a header that ends with a colon and fits the width: the wrapper succeeds, and the value
   found after the header is D with some of its blanks replaced by line break and indent *)
Lemma header_piece_tidy : forall w hdr D,
    0 < w -> tidy D = true -> tidy (hdr ++ sp :: D) = true -> last_c hdr = Some colon -> List.length hdr <= w ->
    no_rest_token D = true -> no_announce D = true ->
    exists r pad val,
      fill w (hdr ++ sp :: D) = Ok r
      /\ value_after hdr (indent_all_but_first r 1 false) = Some (pad, val)
      /\ nonempty pad = true /\ edge_okb val = true /\ no_rest_token val = true /\ no_announce val = true
      /\ norm_doc val = norm_doc D /\ words val = words D.
Proof.
  intros w hdr D Hw Ht Hts Hl Hlen Htok Ha.
  destruct (tidy_inv _ Hts) as [Hss _].
  destruct (fill_ok_tidy w _ Hw Hss) as [r Hf].
  destruct (wrapped_value w hdr D r colon Ht Hts Hl eq_refl Hlen Hf) as [pad [lsV [Hne [F [EDj [Ei Hpad]]]]]].
  exists r, pad, (join (nl :: indent1) lsV). split; [exact Hf|]. subst D. rewrite Ei.
  split.
  { apply value_after_pad; [destruct Hpad; subst pad; reflexivity|exact (proj1 (join_edge_ok _ lsV Hne F))]. }
  split; [destruct Hpad; subst pad; reflexivity|].
  split; [exact (proj2 (edge_okb_iff _) (join_edge_ok (nl :: indent1) lsV Hne F))|].
  split; [exact (no_rest_token_wrapped indent1 lsV indent1_allsp Htok)|].
  split; [exact (no_announce_lines_wrapped indent1 lsV indent1_allsp Ha)|].
  split; [exact (norm_doc_wrapped lsV Hne F)|exact (words_wrapped indent1 lsV indent1_allsp)].
Qed.

Lemma doc_piece_tidy : forall w n D,
    0 < w -> is_ident n = true -> is_return n = false ->
    tidy D = true -> no_rest_token D = true -> no_announce D = true ->
    List.length (L ":" ++ rest_key n ++ L ":") <= w -> doc_piece_ok w n D = true.
Proof.
  intros w n D Hw Hid Hret Ht Htok Ha Hlen.
  destruct (ident_nospace n Hid) as [Hn [c0 [n' En]]].
  set (hdr := L ":param " ++ n ++ L ":").
  assert (Ehdr : L ":" ++ rest_key n ++ L ":" = hdr).
  { unfold rest_key, hdr. rewrite Hret. rewrite <- !app_assoc. reflexivity. }
  rewrite Ehdr in Hlen.
  assert (Eline : rest_doc_line n D = hdr ++ sp :: D).
  { unfold rest_doc_line. change (L ": " ++ D) with (L ":" ++ sp :: D). rewrite !app_assoc.
    rewrite <- (app_assoc (L ":")). rewrite Ehdr. reflexivity. }
  assert (Hts : tidy (hdr ++ sp :: D) = true).
  { unfold hdr. change (tidy (L ":param" ++ sp :: ((n ++ L ":") ++ sp :: D)) = true).
    apply tidy_word_sp; [reflexivity|discriminate|].
    apply tidy_word_sp; [|rewrite En; discriminate|exact Ht].
    unfold nospace in *. rewrite forallb_app, Hn. reflexivity. }
  assert (Hl : last_c hdr = Some colon) by (unfold hdr; rewrite app_assoc; apply last_c_app_single).
  destruct (header_piece_tidy w hdr D Hw Ht Hts Hl Hlen Htok Ha)
    as [r [pad [val [Hf [Ev [Hpad [Hedge [Hvtok [Hva [Hnorm _]]]]]]]]]].
  unfold doc_piece_ok, wrapped_line. rewrite (tidy_prose_line_ok D Ht Ha), Eline, Hf. cbn [bind andb].
  unfold hdr in Ev. rewrite Ev, Hpad, Hedge, Hvtok, Hva, Hnorm, str_eqb_refl. reflexivity.
Qed.

Lemma ret_piece_tidy : forall w D,
    0 < w -> tidy D = true -> no_rest_token D = true -> no_announce D = true ->
    List.length (L ":" ++ rest_key (L "return_type") ++ L ":") <= w -> ret_piece_ok w D = true.
Proof.
  intros w D Hw Ht Htok Ha Hlen.
  set (hdr := L ":returns:").
  change (L ":" ++ rest_key (L "return_type") ++ L ":") with hdr in Hlen.
  assert (Eline : rest_doc_line (L "return_type") D = hdr ++ sp :: D) by reflexivity.
  assert (Hts : tidy (hdr ++ sp :: D) = true) by (apply tidy_word_sp; [reflexivity|discriminate|exact Ht]).
  destruct (header_piece_tidy w hdr D Hw Ht Hts eq_refl Hlen Htok Ha)
    as [r [pad [val [Hf [Ev [Hpad [Hedge [Hvtok [Hva [_ Hwords]]]]]]]]]].
  unfold ret_piece_ok, wrapped_line. rewrite (tidy_prose_line_ok D Ht Ha), Eline, Hf. cbn [bind andb].
  unfold hdr in Ev. rewrite Ev, Hpad, Hedge, Hvtok, Hva, (ws_eqb_of_words _ _ Hwords). reflexivity.
Qed.

Lemma summary_piece_tidy : forall w d,
    0 < w -> tidy d = true -> no_rest_token d = true -> summary_piece_ok w d = true.
Proof.
  intros w d Hw Ht Htok. destruct (tidy_inv d Ht) as [Hs _].
  destruct (fill_ok_tidy w d Hw Hs) as [r Hf].
  destruct (fill_tidy_repr w d r Ht Hf) as [ls [Hne [Ed [Er F]]]].
  unfold summary_piece_ok. rewrite Htok, (strip_edge_ok d (tidy_edge_ok d Ht)), str_eqb_refl, Hf. cbn [andb].
  assert (Hp0 : allsp_pad []) by reflexivity.
  rewrite Er. change [nl] with (nl :: []).
  rewrite (proj2 (edge_okb_iff _) (join_edge_ok (nl :: []) ls Hne F)).
  rewrite (no_rest_token_wrapped [] ls Hp0) by (rewrite <- Ed; exact Htok).
  rewrite Ed. rewrite (ws_eqb_of_words _ _ (words_wrapped [] ls Hp0)). reflexivity.
Qed.

Lemma entry_tidy_pieces : forall w np,
    0 < w -> (is_return (fst np) = true \/ param_name_ok np = true) ->
    entry_tidy_ok w np = true -> entry_pieces_ok w np = true.
Proof.
  intros w [n p] Hw Hn H. unfold entry_tidy_ok in H. unfold entry_pieces_ok. cbn [fst snd] in *.
  destruct (rest_block_of true n p) as [[b p']|e]; [|discriminate].
  rewrite !andb_true_iff in H. destruct H as [[Hsome Hdoc] Htyp].
  rewrite Hsome, Htyp. cbn [andb]. rewrite andb_true_r.
  destruct (rb_doc b) as [D|]; [|reflexivity].
  rewrite !andb_true_iff in Hdoc. destruct Hdoc as [[[Ht Htok] Ha] Hlen]. apply Nat.leb_le in Hlen.
  rewrite Htok. cbn [andb].
  destruct (is_return n) eqn:Er.
  - unfold is_return in Er. apply str_eqb_eq in Er. subst n. apply ret_piece_tidy; assumption.
  - destruct Hn as [Hn|Hn]; [discriminate|]. unfold param_name_ok in Hn. cbn [fst] in Hn.
    apply andb_true_iff in Hn. destruct Hn as [Hid _]. apply doc_piece_tidy; assumption.
Qed.

Theorem C18_tidy_pieces_lemma : forall w i,
    guard_C18_rest_tidy w i = true -> guard_C18_rest_pieces w i = true.
Proof.
  intros w i H. unfold guard_C18_rest_tidy in H. apply andb_true_iff in H. destruct H as [Hw H].
  apply Nat.ltb_lt in Hw.
  apply (ir_guard_mono (fun d => tidy d && no_rest_token d) (summary_piece_ok w) (entry_tidy_ok w) (entry_pieces_ok w) i).
  - intros d Hd. apply andb_true_iff in Hd. destruct Hd as [Htd Htok]. apply summary_piece_tidy; assumption.
  - intros np Hn. apply entry_tidy_pieces; assumption.
  - exact H.
Qed.

Lemma C18_tidy_parse_guard : forall w edd i,
    guard_C01_rest edd i = true -> guard_C18_rest_tidy w i = true -> guard_C18_rest_parse w edd i = true.
Proof.
  intros w edd i H01 Ht. unfold guard_C18_rest_parse. rewrite H01, (C18_tidy_pieces_lemma w i Ht).
  unfold guard_C18_rest_tidy in Ht. apply andb_true_iff in Ht. destruct Ht as [Hw _]. rewrite Hw. reflexivity.
Qed.

Lemma C18_rest_parse_tidy_nonvacuous_lemma :
  guard_C18_rest_tidy 22 c18_long_ir = true /\ guard_C18_rest_tidy 30 c18_long_ir = true
  /\ guard_C01_rest true c18_long_ir = true /\ guard_C01_rest false c18_long_ir = true
  /\ guard_nowrap 30 DocEmit.Rest true c18_long_ir = false
  /\ guard_C18_rest_tidy 21 c18_long_ir = false.
Proof.
  destruct c18_long_facts as [C1 [C0 [T22 [T30 [_ [T21 [Hnw _]]]]]]].
  exact (conj T22 (conj T30 (conj C1 (conj C0 (conj Hnw T21))))).
Qed.

Lemma C18_rest_parse_nonvacuous_lemma :
  guard_C18_rest_parse 30 true c18_long_ir = true
  /\ guard_C18_rest_parse 30 false c18_long_ir = true
  /\ guard_C18_rest_parse 79 true c18_long_ir = true
  /\ guard_nowrap 30 DocEmit.Rest true c18_long_ir = false
  /\ (exists tw tu, emit_docstring 30 DocEmit.Rest true true c18_long_ir = Ok (tw, c18_long_ir)
                    /\ emit_docstring 30 DocEmit.Rest false true c18_long_ir = Ok (tu, c18_long_ir)
                    /\ tw <> tu).
Proof.
  destruct c18_long_facts as [C1 [C0 [_ [T30 [T79 [_ [Hnw _]]]]]]].
  split; [exact (C18_tidy_parse_guard _ _ _ C1 T30)|]. split; [exact (C18_tidy_parse_guard _ _ _ C0 T30)|].
  split; [exact (C18_tidy_parse_guard _ _ _ C1 T79)|]. split; [exact Hnw|].
  eexists. eexists. split; [vm_compute; reflexivity|]. split; [vm_compute; reflexivity|].
  intros E. apply (f_equal (@List.length ascii)) in E. vm_compute in E. discriminate.
Qed.

Lemma C18_rest_tidy_sample_lemma :
  forallb (fun w => implb (guard_C18_rest_tidy w c18_long_ir) (guard_C18_rest_pieces w c18_long_ir)) (seq 1 100) = true
  /\ guard_C18_rest_tidy 22 c18_long_ir = true /\ guard_C18_rest_tidy 21 c18_long_ir = false.
Proof.
  destruct c18_long_facts as [_ [_ [T22 [_ [_ [T21 _]]]]]]. split; [|exact (conj T22 T21)].
  apply forallb_forall. intros w _.
  destruct (guard_C18_rest_tidy w c18_long_ir) eqn:E; [|reflexivity]. exact (C18_tidy_pieces_lemma w _ E).
Qed.
