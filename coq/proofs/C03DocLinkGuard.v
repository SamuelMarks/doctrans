(* C03DocLinkGuard: from guard_C03 and doc_link_ok (C03DocLinkDefs) to the per-entry facts the docstring link needs.
   Used by proofs/C03DocLinkMain.v (property C03). *)
From Coq Require Import List Ascii Bool Arith ZArith Lia.
From Coq Require String.
Import String.StringSyntax.
From DT Require Import PyStr Sexp PyVal TyExpr PureUtils Defaults PyAst IR Extracted C17Spec DocParse C01Spec.
From DT Require Import PyStrFacts ListFacts PureUtilsFacts DefaultsFacts DocParseFacts FillFacts.
From DT Require DocEmit C02Spec C06Spec C18Spec Fill C03Compose C03DocLinkEmit.
From DT Require Import C03Spec C03DocLinkDefs C03DocLink.
Import ListNotations.

(* a character fill leaves alone *)
Definition olc_char (c : ascii) : bool := negb (Fill.tw_space c) || ascii_eqb c sp.

Lemma id_char_olc : forall c, is_id_char c = true -> olc_char c = true.
Proof.
  intros c H. unfold olc_char. destruct (Fill.tw_space c) eqn:E; [|reflexivity].
  apply tw_space_isspace in E. rewrite (is_id_char_not_space c H) in E. discriminate E.
Qed.

Lemma plain_olc : forall c, negb (isspace c) || ascii_eqb c sp = true -> olc_char c = true.
Proof.
  intros c H. unfold olc_char. apply orb_true_iff in H. apply orb_true_iff. destruct H as [H|H]; [left|right; exact H].
  apply negb_true_iff in H. apply negb_true_iff. destruct (Fill.tw_space c) eqn:E; [|reflexivity].
  apply tw_space_isspace in E. congruence.
Qed.

Lemma plain_blank_olc : forall x, plain_blank_only x = true -> forallb olc_char x = true.
Proof. intros x H. unfold plain_blank_only in H. revert H. apply forallb_impl. exact plain_olc. Qed.

Lemma plain_blank_no_tab : forall x, plain_blank_only x = true -> mem_c tabch x = false.
Proof.
  intros x H. destruct (mem_c tabch x) eqn:E; [|reflexivity]. exfalso.
  apply mem_c_In in E. unfold plain_blank_only in H. rewrite forallb_forall in H.
  specialize (H tabch E). vm_compute in H. discriminate H.
Qed.

Lemma one_line_clean_intro : forall s,
    forallb olc_char s = true -> C18Spec.ends_with_space s = false -> mem_c tabch s = false ->
    C18Spec.one_line_clean s = true.
Proof.
  intros s H1 H2 H3. unfold C18Spec.one_line_clean. fold olc_char.
  change (forallb (fun c => negb (Fill.tw_space c) || ascii_eqb c sp) s) with (forallb olc_char s).
  rewrite H1, H2, H3. reflexivity.
Qed.

Lemma olc_rest_key : forall n, forallb olc_char n = true -> forallb olc_char (DocEmit.rest_key n) = true.
Proof.
  intros n H. unfold DocEmit.rest_key. destruct (DocEmit.is_return n); [reflexivity|].
  rewrite forallb_app, H. reflexivity.
Qed.

Lemma olc_rest_key_typ : forall n, forallb olc_char n = true -> forallb olc_char (DocEmit.rest_key_typ n) = true.
Proof.
  intros n H. unfold DocEmit.rest_key_typ. destruct (DocEmit.is_return n); [reflexivity|].
  rewrite forallb_app, H. reflexivity.
Qed.

Lemma olc_doc_line : forall n d l,
    forallb olc_char n = true -> mem_c tabch n = false ->
    plain_blank_only d = true -> last_c d = Some l -> isspace l = false ->
    C18Spec.one_line_clean (DocEmit.rest_doc_line n d) = true.
Proof.
  intros n d l Hn Htn Hd Hl Hls. unfold DocEmit.rest_doc_line.
  assert (Hne : d <> []). { intros E. subst d. discriminate Hl. }
  apply one_line_clean_intro.
  - rewrite !forallb_app, (olc_rest_key n Hn), (plain_blank_olc d Hd). reflexivity.
  - unfold C18Spec.ends_with_space. rewrite !app_assoc. rewrite last_c_app_nonnil by exact Hne. rewrite Hl.
    destruct (ascii_eqb l sp) eqn:E; [|reflexivity]. apply ascii_eqb_eq in E. subst l. discriminate Hls.
  - apply C03DocLinkEmit.rest_doc_line_no_tab; [exact Htn|apply plain_blank_no_tab; exact Hd].
Qed.

Lemma olc_typ_line : forall n t,
    forallb olc_char n = true -> mem_c tabch n = false ->
    plain_blank_only t = true ->
    C18Spec.one_line_clean (DocEmit.rest_typ_line n t) = true.
Proof.
  intros n t Hn Htn Ht. unfold DocEmit.rest_typ_line.
  apply one_line_clean_intro.
  - rewrite !forallb_app, (olc_rest_key_typ n Hn), (plain_blank_olc t Ht). reflexivity.
  - unfold C18Spec.ends_with_space. rewrite !app_assoc. rewrite last_c_app_nonnil by discriminate. reflexivity.
  - apply C03DocLinkEmit.rest_typ_line_no_tab; [exact Htn|apply plain_blank_no_tab; exact Ht].
Qed.

Lemma fits_line_inv : forall w s, fits_line w true s = true -> List.length s <= w /\ 0 < w.
Proof.
  intros w s H. unfold fits_line in H. cbn [negb orb] in H. apply andb_true_iff in H. destruct H as [H1 H2].
  apply Nat.leb_le in H1. apply Nat.ltb_lt in H2. split; assumption.
Qed.

Lemma fits_fill : forall w ww s,
    fits_line w ww s = true -> C18Spec.one_line_clean s = true ->
    ww = true -> Fill.fill w s = Ok s /\ List.length s <= w.
Proof.
  intros w ww s Hfit Hc Hww. subst ww. destruct (fits_line_inv w s Hfit) as [Hlen Hw].
  split; [apply fill_short_id; assumption|exact Hlen].
Qed.

Lemma no_token_of : forall d, C02Spec.prose_has_token d = false -> no_rest_token d = true.
Proof.
  intros d H. unfold no_rest_token. rewrite <- negb_existsb. unfold C02Spec.prose_has_token in H.
  rewrite H. reflexivity.
Qed.

Lemma no_announce_of : forall d, C02Spec.prose_announces d = false -> no_announce d = true.
Proof.
  intros d H. unfold no_announce. rewrite <- negb_existsb. unfold C02Spec.prose_announces in H.
  rewrite H. reflexivity.
Qed.

Lemma prose_of_inv : forall g d, prose_of g = Some d -> g_doc g = Has d /\ exists c r, d = c :: r.
Proof.
  intros g d H. unfold prose_of, C02Spec.prose_of in H.
  destruct (g_doc g) as [| |[|c r]] eqn:E; try discriminate H.
  injection H as H. subst d. split; [reflexivity|]. exists c, r. reflexivity.
Qed.

Lemma prose_of_none_inv : forall g, prose_of g = None -> g_doc g = Missing \/ g_doc g = FNone \/ g_doc g = Has [].
Proof.
  intros g H. unfold prose_of, C02Spec.prose_of in H.
  destruct (g_doc g) as [| |[|c r]] eqn:E; try discriminate H; auto.
Qed.

Lemma not_space_chars : forall l, isspace l = false -> ascii_eqb l (ch 92) = false ->
    mem_c l (L " " ++ [nl; ch 92]) = false.
Proof.
  intros l Hs Hb. change (L " " ++ [nl; ch 92]) with [sp; nl; ch 92]. cbn [mem_c existsb].
  rewrite Hb.
  destruct (ascii_eqb l sp) eqn:E1. { apply ascii_eqb_eq in E1. subst l. discriminate Hs. }
  destruct (ascii_eqb l nl) eqn:E2. { apply ascii_eqb_eq in E2. subst l. discriminate Hs. }
  reflexivity.
Qed.

Lemma prose_safe_facts : forall d,
    d <> [] -> prose_safe d = true -> prose_link_ok d = true ->
    edge_ok d /\ mem_c nl d = false /\ mem_c tabch d = false
    /\ no_rest_token d = true /\ no_announce d = true
    /\ plain_blank_only d = true /\ starts_optional d = false
    /\ exists l, last_c d = Some l /\ isspace l = false /\ mem_c l (L " " ++ [nl; ch 92]) = false.
Proof.
  intros d Hne Hs Hl. unfold prose_safe, C02Spec.prose_unclean in Hs.
  rewrite !andb_true_iff, !negb_true_iff, !orb_false_iff, negb_false_iff in Hs.
  destruct Hs as [[[[[Hstrip Hnl] Htab] Hdbl] Htok] Hann]. apply str_eqb_eq in Hstrip.
  unfold prose_link_ok in Hl. rewrite !andb_true_iff, !negb_true_iff in Hl. destruct Hl as [[Hplain Hbs] Hopt].
  pose proof (strip_fix_edge_ok d Hne Hstrip) as Hedge.
  split; [exact Hedge|]. split; [exact Hnl|]. split; [exact Htab|].
  split; [apply no_token_of; exact Htok|]. split; [apply no_announce_of; exact Hann|].
  split; [exact Hplain|]. split; [exact Hopt|].
  destruct Hedge as [_ [l [Hlast Hls]]]. exists l. split; [exact Hlast|]. split; [exact Hls|].
  apply not_space_chars; [exact Hls|].
  destruct (ascii_eqb l (ch 92)) eqn:E; [|reflexivity]. apply ascii_eqb_eq in E. subst l.
  apply endswith_single in Hlast. rewrite Hlast in Hbs. discriminate Hbs.
Qed.

Lemma prose_class_none : forall g d, prose_of g = Some d -> prose_class g = None -> prose_safe d = true.
Proof.
  intros g d Hp Hc. unfold prose_class in Hc. rewrite Hp in Hc.
  destruct (prose_safe d); [reflexivity|]. discriminate Hc.
Qed.

Lemma entry_in_domain_shape : forall g, entry_in_domain g = true ->
    g_doc g <> FNone
    /\ (g_typ g = Missing \/ exists c r, g_typ g = Has (c :: r))
    /\ exists dflt, param_of_gparam g = Some (mkParam (g_doc g) (g_typ g) dflt).
Proof.
  intros g H. unfold entry_in_domain in H. rewrite !andb_true_iff in H. destruct H as [[[[Hdoc Htyp] Hd] _] _].
  split; [|split].
  - intros E. rewrite E in Hdoc. discriminate Hdoc.
  - destruct (g_typ g) as [| |[|c r]]; try discriminate Htyp; [left; reflexivity|right; exists c, r; reflexivity].
  - unfold param_of_gparam. destruct (g_default g) as [[v|e|s]|]; try discriminate Hd.
    + exists (Some v). reflexivity.
    + exists None. reflexivity.
Qed.

Lemma emitted_typ_inv : forall et g t, emitted_typ et g = Some t -> et = true /\ g_typ g = Has t.
Proof.
  intros et g t H. unfold emitted_typ in H. destruct et; [|discriminate H].
  destruct (g_typ g) as [| |t']; try discriminate H. injection H as H. subst t'. split; reflexivity.
Qed.

Lemma documented_entry : forall w o n g d,
    forallb olc_char n = true -> mem_c nl n = false -> mem_c tabch n = false ->
    entry_in_domain g = true -> prose_of g = Some d -> prose_class g = None ->
    (fo_edd o = true -> sentence_written n g = false) ->
    entry_link_ok w o n g = true ->
    entry_emit_ok w (fo_word_wrap o) (fo_edd o) (negb (fo_inline o)) n g
    /\ prose_facts d /\ no_rest_token d = true
    /\ (forall t, emitted_typ (negb (fo_inline o)) g = Some t -> typ_facts t /\ no_rest_token t = true).
Proof.
  intros w o n g d Hn Hnl Htab Hdom Hp Hcls Hsw Hlink.
  destruct (prose_of_inv g d Hp) as [Hdoc [c [r Hd]]].
  assert (Hne : d <> []). { rewrite Hd. discriminate. }
  pose proof (prose_class_none g d Hp Hcls) as Hsafe.
  unfold entry_link_ok in Hlink. rewrite Hp in Hlink.
  apply andb_true_iff in Hlink. destruct Hlink as [Hlink Hlt]. apply andb_true_iff in Hlink. destruct Hlink as [Hpl Hfit].
  destruct (prose_safe_facts d Hne Hsafe Hpl) as [Hedge [Hdnl [Hdtab [Hdtok [Hdann [Hplain [Hopt [l [Hlast [Hls Hlm]]]]]]]]]].
  destruct (entry_in_domain_shape g Hdom) as [_ [Htyp [dflt Hpar]]].
  (* the type, when it is written *)
  assert (Htfacts : forall t, g_typ g = Has t -> fo_inline o = false ->
             typ_facts t /\ no_rest_token t = true /\ mem_c nl t = false /\ plain_blank_only t = true
             /\ fits_line w (fo_word_wrap o) (DocEmit.rest_typ_line n t) = true).
  { intros t Et Ei. rewrite Et, Ei in Hlt. cbn [orb] in Hlt.
    apply andb_true_iff in Hlt. destruct Hlt as [Htl Htfit].
    unfold typ_link_ok in Htl. apply andb_true_iff in Htl. destruct Htl as [Htd Htp].
    destruct (type_in_domain_inv t Htd) as [Htf [Htnl [Httok _]]].
    split; [exact Htf|]. split; [exact Httok|]. split; [exact Htnl|]. split; [exact Htp|exact Htfit]. }
  split; [|split; [|split]].
  - unfold entry_emit_ok. split; [exact Hnl|]. split; [exact Htab|]. rewrite Hp.
    split; [exact Hdoc|].
    split. { destruct Hedge as [[c0 [r0 [E0 Hc0]]] _]. exists c0, r0, l. repeat split; assumption. }
    split; [exact Hdnl|]. split; [exact Hdtab|]. split; [exact Hdann|].
    split.
    { exists dflt. rewrite Hdoc in Hpar. split; [exact Hpar|]. intros Hedd. specialize (Hsw Hedd).
      unfold sentence_written in Hsw. rewrite Hp, Hpar in Hsw.
      destruct (set_default_doc n (mkParam (Has d) (g_typ g) dflt) true) as [p'|e] eqn:Es; [|discriminate Hsw].
      exists p'. split; [reflexivity|]. apply negb_false_iff in Hsw. apply C03Compose.fld_eqb_eq in Hsw.
      rewrite Hsw. exact Hdoc. }
    split.
    { apply (fits_fill w _ _ Hfit). apply (olc_doc_line n d l); assumption. }
    destruct Htyp as [Etyp|[ct [rt Etyp]]]; rewrite Etyp; [exact I|].
    intros Het. apply negb_true_iff in Het.
    destruct (Htfacts (ct :: rt) Etyp Het) as [_ [_ [Htnl [Htp Htfit]]]].
    split; [discriminate|]. split; [exact Htnl|]. split; [apply plain_blank_no_tab; exact Htp|].
    apply (fits_fill w _ _ Htfit). apply olc_typ_line; assumption.
  - split; [|exact Hdann]. split; [exact Hne|]. split; [exact Hdnl|]. split; [exact Hedge|exact Hopt].
  - exact Hdtok.
  - intros t Et. apply emitted_typ_inv in Et. destruct Et as [Het Et]. apply negb_true_iff in Het.
    destruct (Htfacts t Et Het) as [H1 [H2 _]]. split; assumption.
Qed.

Lemma undocumented_entry : forall w ww edd et n g,
    mem_c nl n = false -> mem_c tabch n = false ->
    entry_in_domain g = true -> prose_of g = None ->
    (et = false \/ g_typ g = Missing) ->
    entry_emit_ok w ww edd et n g.
Proof.
  intros w ww edd et n g Hnl Htab Hdom Hp Het.
  destruct (entry_in_domain_shape g Hdom) as [Hfn [_ [dflt Hpar]]].
  unfold entry_emit_ok. split; [exact Hnl|]. split; [exact Htab|]. rewrite Hp.
  split; [|split; [exact Het|]].
  - destruct (prose_of_none_inv g Hp) as [E|[E|E]]; [left; exact E|contradiction|right; exact E].
  - eexists. exact Hpar.
Qed.

Lemma name_in_domain_chars : forall n, name_in_domain n = true ->
    forallb olc_char n = true /\ mem_c nl n = false /\ mem_c tabch n = false /\ mem_c colon n = false
    /\ (exists c r, n = c :: r /\ c <> ch 42) /\ startswith (L "**") n = false /\ DocEmit.is_return n = false.
Proof.
  intros n H. unfold name_in_domain, reserved_name, C06Spec.is_identifier in H.
  destruct n as [|c r]; [discriminate H|].
  rewrite !andb_true_iff, !negb_true_iff, !orb_false_iff in H. destruct H as [[[[Hs Hall] _] _] [_ Hret]].
  assert (Hc : c <> ch 42).
  { intros E. subst c. discriminate Hs. }
  split. { revert Hall. apply forallb_impl. exact id_char_olc. }
  split. { apply (id_chars_exclude nl); [reflexivity|exact Hall]. }
  split. { apply (id_chars_exclude tabch); [reflexivity|exact Hall]. }
  split. { apply (id_chars_exclude colon); [reflexivity|exact Hall]. }
  split. { exists c, r. split; [reflexivity|exact Hc]. }
  split.
  { change (L "**") with [ch 42; ch 42]. cbn [startswith].
    destruct (ascii_eqb (ch 42) c) eqn:E; [|reflexivity]. apply ascii_eqb_eq in E. symmetry in E. contradiction. }
  exact Hret.
Qed.

Lemma has_prose_none : forall g, prose_of g = None -> has_prose g = false.
Proof. intros g H. unfold has_prose. rewrite H. reflexivity. Qed.

Lemma param_unclassified_link : forall o n g, entry_in_domain g = true -> param_class o n g = None ->
    prose_class g = None
    /\ (prose_of g = None -> negb (fo_inline o) = false \/ g_typ g = Missing)
    /\ (kwargs_name n = true -> g_typ g = Has (L "Optional[dict]")).
Proof.
  intros o n g Hdom H. unfold param_class in H. destruct (kwargs_name n) eqn:Ek.
  - unfold kwargs_class in H. destruct (has_prose g) eqn:Eh; cbn [negb] in H; [|discriminate H].
    destruct (prose_class g) as [k|] eqn:Epc; [discriminate H|].
    destruct (fld_eqb (g_typ g) (Has (L "Optional[dict]"))) eqn:Ef; cbn [andb] in H; [|discriminate H].
    split; [reflexivity|]. split.
    + intros Hn. rewrite (has_prose_none g Hn) in Eh. discriminate Eh.
    + intros _. apply C03Compose.fld_eqb_eq. exact Ef.
  - destruct (prose_class g) as [k|] eqn:Epc; [discriminate H|].
    split; [reflexivity|]. split; [|intros E; discriminate E].
    intros Hn. destruct (g_default g) as [dv|]; [|discriminate H].
    destruct (match dv_str dv with
              | Some s => negb (in_none_types (VStr s)) && negb (str_keeps_quotes s)
              | None => false
              end); [discriminate H|].
    destruct (g_typ g) as [| |t] eqn:Et.
    + right. reflexivity.
    + exfalso. exact (entry_domain_typ g Hdom Et).
    + left. destruct (negb (typ_parses t)); [discriminate H|].
      destruct (fo_inline o && negb (typ_inline_ok t)); [discriminate H|].
      rewrite (has_prose_none g Hn) in H. cbn [negb] in H. rewrite andb_true_r in H.
      destruct (negb (fo_inline o)); [discriminate H|reflexivity].
Qed.

Lemma return_unclassified_link : forall o g, entry_in_domain g = true -> return_class o g = None ->
    prose_class g = None
    /\ (prose_of g = None -> negb (fo_inline o) = false \/ g_typ g = Missing).
Proof.
  intros o g Hdom H. unfold return_class in H.
  destruct (prose_class g) as [k|] eqn:Epc; [discriminate H|].
  split; [reflexivity|]. intros Hn. rewrite (has_prose_none g Hn) in H.
  destruct (return_typ_class o g) as [k|]; [discriminate H|].
  destruct (g_default g) as [dv|].
  - destruct (dv_str dv) as [[|c s]|]; try discriminate H.
    destruct (negb (ret_code_ok (fo_pt o) (c :: s)) || negb (str_keeps_quotes (c :: s))); [discriminate H|].
    destruct (g_typ g) as [| |t] eqn:Et.
    + right. reflexivity.
    + exfalso. exact (entry_domain_typ g Hdom Et).
    + left. destruct (negb (contains [ch 91] t)); [discriminate H|].
      cbn [negb] in H. rewrite andb_true_r in H.
      destruct (negb (fo_inline o)); [discriminate H|reflexivity].
  - left. destruct (fo_inline o); [reflexivity|]. cbn [andb] in H. discriminate H.
Qed.

Definition param_good (w : nat) (o : fopts) (kv : str * gparam) : Prop :=
  name_in_domain (fst kv) = true /\ entry_in_domain (snd kv) = true
  /\ param_class o (fst kv) (snd kv) = None
  /\ (fo_edd o = true -> sentence_written (fst kv) (snd kv) = false)
  /\ entry_link_ok w o (fst kv) (snd kv) = true.

Lemma param_link_facts : forall w o kv, param_good w o kv ->
    entry_emit_ok w (fo_word_wrap o) (fo_edd o) (negb (fo_inline o)) (fst kv) (snd kv)
    /\ (forall e, dent_of (negb (fo_inline o)) kv = Some e -> dent_ok e).
Proof.
  intros w o [n g] [Hname [Hdom [Hcls [Hsw Hlink]]]]. cbn [fst snd] in *.
  destruct (name_in_domain_chars n Hname) as [Holc [Hnl [Htab [Hcol [Hhd [Hstar Hret]]]]]].
  destruct (param_unclassified_link o n g Hdom Hcls) as [Hpc [Hund Hkw]].
  destruct (prose_of g) as [d|] eqn:Ep.
  - destruct (documented_entry w o n g d Holc Hnl Htab Hdom Ep Hpc Hsw Hlink) as [Hemit [Hpf [Htok Htyp]]].
    split; [exact Hemit|]. intros e He. unfold dent_of in He. cbn [fst snd] in He. rewrite Ep in He.
    injection He as He. subst e. unfold dent_ok, dn, dd, dt. cbn [fst snd].
    split; [exact Hcol|]. split; [exact Hhd|]. split; [exact Hstar|]. split; [exact Hret|].
    split; [exact Hpf|]. split; [exact Htok|].
    intros t Et. destruct (Htyp t Et) as [H1 H2]. split; [exact H1|]. split; [exact H2|].
    intros Hk. apply emitted_typ_inv in Et. destruct Et as [_ Et].
    change (endswith (L "kwargs") n) with (kwargs_name n) in Hk. rewrite (Hkw Hk) in Et.
    injection Et as Et. subst t. reflexivity.
  - split.
    + apply undocumented_entry; try assumption. apply Hund. reflexivity.
    + intros e He. unfold dent_of in He. cbn [fst snd] in He. rewrite Ep in He. discriminate He.
Qed.

Lemma return_link_facts : forall w o g,
    entry_in_domain g = true -> return_class o g = None ->
    (fo_edd o = true -> sentence_written (L "return_type") g = false) ->
    entry_link_ok w o (L "return_type") g = true ->
    entry_emit_ok w (fo_word_wrap o) (fo_edd o) (negb (fo_inline o)) (L "return_type") g
    /\ rent_ok (rent_of (negb (fo_inline o)) (Has g)).
Proof.
  intros w o g Hdom Hcls Hsw Hlink.
  destruct (return_unclassified_link o g Hdom Hcls) as [Hpc Hund].
  assert (Holc : forallb olc_char (L "return_type") = true) by reflexivity.
  assert (Hnl : mem_c nl (L "return_type") = false) by reflexivity.
  assert (Htab : mem_c tabch (L "return_type") = false) by reflexivity.
  unfold rent_of. destruct (prose_of g) as [d|] eqn:Ep.
  - destruct (documented_entry w o (L "return_type") g d Holc Hnl Htab Hdom Ep Hpc Hsw Hlink)
      as [Hemit [[[_ [_ [Hedge _]]] Hann] [Htok Htyp]]].
    split; [exact Hemit|]. unfold rent_ok.
    split; [exact Hedge|]. split; [exact Hann|]. split; [exact Htok|].
    intros t Et. destruct (Htyp t Et) as [[Hbt [_ [Hstar _]]] Httok].
    split; [exact Hbt|]. split; [exact Hstar|exact Httok].
  - split; [|exact I]. apply undocumented_entry; try assumption. apply Hund. reflexivity.
Qed.

Lemma docs_of_ok : forall w o ps, Forall (param_good w o) ps ->
    Forall dent_ok (docs_of (negb (fo_inline o)) ps).
Proof.
  intros w o ps H. induction H as [|kv r Hkv Hr IH]; [constructor|].
  rewrite docs_of_cons. destruct (dent_of (negb (fo_inline o)) kv) as [e|] eqn:E; [|exact IH].
  constructor; [|exact IH]. destruct (param_link_facts w o kv Hkv) as [_ Hd]. apply Hd. exact E.
Qed.

Lemma docs_of_nodup : forall et ps, NoDup (map fst ps) -> NoDup (map dn (docs_of et ps)).
Proof. intros et ps H. rewrite docs_names. apply NoDup_map_filter. exact H. Qed.

Lemma docs_of_nonempty : forall et ps,
    existsb (fun kv => has_prose (snd kv)) ps = true -> docs_of et ps <> [].
Proof.
  intros et ps. induction ps as [|kv r IH]; intros H; [discriminate H|].
  cbn [existsb] in H. rewrite docs_of_cons. unfold dent_of. unfold has_prose in H at 1.
  destruct (prose_of (snd kv)) as [d|]; [discriminate|]. cbn [orb] in H. apply IH. exact H.
Qed.

Lemma sum_of_inv : forall i d0, sum_of i = Some d0 -> ir_doc i = Has d0 /\ d0 <> [].
Proof.
  intros i d0 H. unfold sum_of, DocEmit.truthy_fld in H.
  destruct (ir_doc i) as [| |[|c r]]; try discriminate H. injection H as H. subst d0.
  split; [reflexivity|discriminate].
Qed.

Lemma summary_facts : forall w o i, summary_link_ok w o i = true -> sum_emit_ok w (fo_word_wrap o) i.
Proof.
  intros w o i H. unfold summary_link_ok in H. unfold sum_emit_ok.
  destruct (sum_of i) as [d0|] eqn:Es; [|exact I].
  destruct (sum_of_inv i d0 Es) as [_ Hne].
  unfold clean_line in H. rewrite !andb_true_iff, !negb_true_iff in H. destruct H as [[[Hs Hnl] Htab] Hfit].
  apply str_eqb_eq in Hs.
  destruct (strip_fix_edge_ok d0 Hne Hs) as [Hhd _].
  split; [exact Hhd|]. split; [exact Hnl|]. split; [exact Htab|].
  intros Hww. rewrite Hww in Hfit. apply fits_line_inv in Hfit. destruct Hfit as [Hlen _]. exact Hlen.
Qed.

Lemma doc_link_ok_inv : forall w o i, doc_link_ok w o i = true ->
    summary_link_ok w o i = true
    /\ forallb (fun kv => entry_link_ok w o (fst kv) (snd kv)) (ir_params i) = true
    /\ (match ir_returns i with Has g => entry_link_ok w o (L "return_type") g | _ => true end) = true
    /\ has_documented i = true.
Proof.
  intros w o i H. unfold doc_link_ok in H. rewrite !andb_true_iff in H. tauto.
Qed.

Lemma summary_stripped : forall w o i d0, summary_link_ok w o i = true -> sum_of i = Some d0 -> strip d0 = d0.
Proof.
  intros w o i d0 H Es. unfold summary_link_ok in H. rewrite Es in H. unfold clean_line in H.
  rewrite !andb_true_iff in H. apply str_eqb_eq. apply H.
Qed.

Theorem guard_link_facts : forall w o i,
    guard_C03 o i = true -> doc_link_ok w o i = true ->
    let et := negb (fo_inline o) in
    sum_emit_ok w (fo_word_wrap o) i
    /\ (forall d0, sum_of i = Some d0 -> no_rest_token d0 = true)
    /\ Forall (fun kv => entry_emit_ok w (fo_word_wrap o) (fo_edd o) et (fst kv) (snd kv)) (ir_params i)
    /\ (match ir_returns i with
        | Has g => entry_emit_ok w (fo_word_wrap o) (fo_edd o) et (L "return_type") g
        | FNone => True
        | Missing => False
        end)
    /\ Forall dent_ok (docs_of et (ir_params i))
    /\ NoDup (map dn (docs_of et (ir_params i)))
    /\ rent_ok (rent_of et (ir_returns i))
    /\ (docs_of et (ir_params i) <> [] \/ rent_of et (ir_returns i) <> None).
Proof.
  intros w o i Hg Hl et.
  destruct (guard_C03_inv o i Hg) as [Hnd [Hnames [Hps [Hret [Hsw Htok]]]]].
  destruct (doc_link_ok_inv w o i Hl) as [Hsum [Hpl [Hrl Hdoc]]].
  rewrite forallb_forall in Hnames, Hpl.
  assert (Hgood : Forall (param_good w o) (ir_params i)).
  { apply Forall_forall. intros kv Hin. destruct (Hps kv Hin) as [Hdom Hpc]. unfold param_good.
    split. { apply Hnames. apply in_map. exact Hin. }
    split; [exact Hdom|]. split; [exact Hpc|]. split; [|apply Hpl; exact Hin].
    intros Hedd. destruct (Hsw Hedd) as [Hex _].
    destruct (sentence_written (fst kv) (snd kv)) eqn:E; [|reflexivity].
    rewrite <- Hex. symmetry. apply existsb_exists. exists kv. split; assumption. }
  assert (Hr : match ir_returns i with
               | Has g => entry_emit_ok w (fo_word_wrap o) (fo_edd o) et (L "return_type") g
                          /\ rent_ok (rent_of et (Has g))
               | FNone => True
               | Missing => False
               end).
  { destruct (ir_returns i) as [| |g]; [exact Hret|exact I|]. destruct Hret as [Hdom Hrc].
    apply return_link_facts; [exact Hdom|exact Hrc| |exact Hrl].
    intros Hedd. apply (Hsw Hedd). }
  split. { apply summary_facts. exact Hsum. }
  split.
  { intros d0 Hd0. destruct (sum_of_inv i d0 Hd0) as [Ed _]. apply no_token_of. apply (Htok d0 Ed). }
  split.
  { revert Hgood. apply Forall_impl. intros kv Hkv. destruct (param_link_facts w o kv Hkv) as [H _]. exact H. }
  split. { destruct (ir_returns i) as [| |g]; [exact Hr|exact I|]. destruct Hr as [H _]. exact H. }
  split. { apply (docs_of_ok w). exact Hgood. }
  split. { apply docs_of_nodup. exact Hnd. }
  split. { destruct (ir_returns i) as [| |g]; [exact I|exact I|]. destruct Hr as [_ H]. exact H. }
  unfold has_documented in Hdoc. apply orb_true_iff in Hdoc. destruct Hdoc as [Hdoc|Hdoc].
  - left. apply docs_of_nonempty. exact Hdoc.
  - right. destruct (ir_returns i) as [| |g]; try discriminate Hdoc.
    unfold rent_of. unfold has_prose in Hdoc. destruct (prose_of g) as [d|]; [discriminate|discriminate Hdoc].
Qed.

Print Assumptions guard_link_facts.
