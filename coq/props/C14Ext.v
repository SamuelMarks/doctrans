(* C14Ext: extensions of props/C14.v.  Lemmas in proofs/C14Success.v, the executable side
   conditions and result predicates in model/C14Guard2.v.

   What these theorems add to props/C14.v:
   * the call SUCCEEDS inside the guard: C14_success' / C14_partial_total' prove it for every
     input of guard_C14_total' = guard_C14 && addresses_resolve && wrap_ready (tree positions are unique identities in
     a freshly annotated tree: arg_free_module in proofs/C14Success.v); C14_success / C14_partial_total are the same
     under guard_C14_total, which adds target_unshadowed, a conjunct that is not needed.
   * any number of pairs (non-eval): C14_multi_placed.

   NOT proved here:
   * success for several pairs is proved (C14_multi_total) only without a template (no_wrap) and when find_in_ast
     attaches no [default] attribute on the way to an input address (logs_empty: the addressed input nodes are
     assignments, class attributes, or arguments without default) - then the input tree is not mutated between the
     pairs; with a template or defaults the theorem for several pairs stays conditional on the write
     (C14_multi_placed).  Closing this needs: find_in_ast commutes with apply_dlog / set_ann_by_id on the input tree;
   * for several pairs, that the node put at each position carries the input's annotation / value (only positions
     and the frame are stated);
   * that class_loc_free (in guard_C14_multi) follows from the single-pair guard (same position-uniqueness argument
     as for target_unshadowed, not carried out);
   * that the dynamic component of guard_C14_multi (quiet_loop, evaluated along the run of the model) equals the
     static condition  dotted ip_i <> dotted op_j for i < j;
   * eval mode (--input-eval) for any number of pairs. *)
From Coq Require Import List ZArith.
From Coq Require String.
Import String.StringSyntax.
From DT Require Import PyStr PyVal PyAst Locate SyncProps C15Spec C14Spec C14Guard2 SyncPropsFacts C14Facts C14Success.
Import ListNotations.

(* inside guard_C14_total the model of sync_properties terminates without exception and writes the output file once *)
Theorem C14_success : forall x, guard_C14_total x = true ->
    exists tree, run_C14 x = ([EvWrite FOutput tree], Ok tt).
Proof. intros x H. exact (C14_success_lemma' x (guard_total_total' x H)). Qed.
Print Assumptions C14_success.

(* success AND the written tree is the parsed output tree with exactly the node at the resolved position of the
   output address replaced (frame relation) by the input's node, whose content is what C14 expects there
   (expected_node: the input's name, annotation through the template, value); together with C14_holds *)
Theorem C14_partial_total : forall x, guard_C14_total x = true -> C14_total_holds x /\ C14_holds x.
Proof. intros x H. exact (C14_partial_total_lemma' x (guard_total_total' x H)). Qed.
Print Assumptions C14_partial_total.

Theorem C14_total_nonvacuous :
  guard_C14_total (w_call w_in [L "f.a"] w_out [L "g.x"] w_opt) = true
  /\ guard_C14_total (w_call w_in_cls [L "K.lr"] w_out_cls [L "Cfg.lr"] w_opt) = true
  /\ guard_C14_total (w_call w_in_cls [L "K.m.a"] w_out_cls [L "train.opt"] w_opt) = true
  /\ guard_C14_total (w_call w_in_cls [L "K.m.k"] w_out_cls [L "train.y"] None) = true
  /\ C14_at_b (w_call w_in_cls [L "K.m.a"] w_out_cls [L "train.opt"] w_opt) = true.
Proof. repeat apply conj; vm_compute; reflexivity. Qed.
Print Assumptions C14_total_nonvacuous.

(* what each extra side condition excludes: a failing call, a declined call, and (target_unshadowed) a call that succeeds *)
Theorem C14_total_needs :
  (guard_C14 (w_call w_in [L "f.nope"] w_out [L "g.x"] None) = true
   /\ addresses_resolve (w_call w_in [L "f.nope"] w_out [L "g.x"] None) = false
   /\ run_C14 (w_call w_in [L "f.nope"] w_out [L "g.x"] None) = ([], Err AssertionError))
  /\ (guard_C14 x_no_tables = true /\ addresses_resolve x_no_tables = true /\ wrap_ready x_no_tables = false
      /\ run_C14 x_no_tables = ([], Err Unmodelled))
  /\ (guard_C14 (w_call w_in [L "f.a"] w_out_shadow [L "C.z"] None) = true
      /\ target_unshadowed (w_call w_in [L "f.a"] w_out_shadow [L "C.z"] None) = false
      /\ C14_at_b (w_call w_in [L "f.a"] w_out_shadow [L "C.z"] None) = true).
Proof. repeat apply conj; vm_compute; reflexivity. Qed.
Print Assumptions C14_total_needs.

(* any number of pairs (no eval), by induction over the list of pairs: whenever the call writes, every pair, in
   order, replaced exactly one node of the current tree, and that node is the one at the position its output address
   resolves to in the ORIGINAL output file; nothing else changed (frame relation) *)
Theorem C14_multi_placed : forall x, guard_C14_multi x = true ->
    forall tree, fst (run_C14 x) = [EvWrite FOutput tree] ->
                 placed (ci_out x) (ci_ops x) (annotate_at [0] (ci_out x)) tree.
Proof. exact C14_multi_lemma. Qed.
Print Assumptions C14_multi_placed.

Theorem C14_multi_nonvacuous :
  guard_C14_multi (x_multi3 None) = true /\ is_write (run_C14 (x_multi3 None)) = true /\ C14_at_b (x_multi3 None) = true
  /\ guard_C14_multi (x_multi3 w_opt) = true /\ is_write (run_C14 (x_multi3 w_opt)) = true
  /\ C14_at_b (x_multi3 w_opt) = true
  /\ guard_C14_multi (w_call w_in [L "f.a"; L "f.a"] w_out [L "g.x"; L "g.y"] None) = true
  /\ guard_C14_multi (w_call w_in_ff [L "f.a"; L "f.b"] w_out_ff [L "f.a"; L "f.b"] None) = true
  /\ C14_at_b (w_call w_in_ff [L "f.a"; L "f.b"] w_out_ff [L "f.a"; L "f.b"] None) = true.
Proof. exact C14_multi_nonvacuous_lemma. Qed.
Print Assumptions C14_multi_nonvacuous.

(* three inputs outside guard_C14_multi on which several-pairs-on-unreannotated-tree shows: one output address twice (AssertionError),
   a moved node carrying a later output address (the wrong node is replaced), two parameters swapped *)
Theorem C14_multi_refuted :
  (C14_domain x_same_output = true /\ all_pairs_clean x_same_output (ci_ips x_same_output) (ci_ops x_same_output) = true
   /\ addresses_resolve x_same_output = true
   /\ locs_distinct (map dotted (ci_ops x_same_output)) = false
   /\ run_C14 x_same_output = ([], Err AssertionError))
  /\ (C14_domain x_moved_hit = true /\ all_pairs_clean x_moved_hit (ci_ips x_moved_hit) (ci_ops x_moved_hit) = true
      /\ addresses_resolve x_moved_hit = true
      /\ locs_distinct (map dotted (ci_ops x_moved_hit)) = true
      /\ guard_C14_multi x_moved_hit = false
      /\ C14_at_b x_moved_hit = false
      /\ option_map (fun t => match t with [SFunc _ a _ _ _] => map a_name (ar_args a) | _ => [] end)
                    (written_tree (run_C14 x_moved_hit)) = Some [L "y"; L "y"])
  /\ (guard_C14_multi x_swap = false /\ C14_at_b x_swap = false
      /\ option_map (fun t => match t with [SFunc _ a _ _ _] => map a_name (ar_args a) | _ => [] end)
                    (written_tree (run_C14 x_swap)) = Some [L "a"; L "b"]
      /\ option_map (fun t => match t with [SFunc _ a _ _ _] => map a_ann (ar_args a) | _ => [] end)
                    (written_tree (run_C14 x_swap)) = Some [Some (EName (L "int")); None]).
Proof. repeat apply conj; vm_compute; reflexivity. Qed.
Print Assumptions C14_multi_refuted.

(* the same two theorems without target_unshadowed *)
Theorem C14_success' : forall x, guard_C14_total' x = true ->
    exists tree, run_C14 x = ([EvWrite FOutput tree], Ok tt).
Proof. exact C14_success_lemma'. Qed.
Print Assumptions C14_success'.

Theorem C14_partial_total' : forall x, guard_C14_total' x = true -> C14_total_holds x /\ C14_holds x.
Proof. exact C14_partial_total_lemma'. Qed.
Print Assumptions C14_partial_total'.

(* an input inside guard_C14_total' that target_unshadowed excludes *)
Theorem C14_shadow_covered :
  guard_C14_total' (w_call w_in [L "f.a"] w_out_shadow [L "C.z"] None) = true
  /\ guard_C14_total (w_call w_in [L "f.a"] w_out_shadow [L "C.z"] None) = false.
Proof. split; vm_compute; reflexivity. Qed.
Print Assumptions C14_shadow_covered.

(* several pairs, inside guard_C14_multi_total: the call succeeds with one write of the output file AND every pair landed at the
   position its output address resolves to in the original output file (no template, no default attached to an
   addressed input node) *)
Theorem C14_multi_total : forall x, guard_C14_multi_total x = true -> C14_multi_total_holds x.
Proof. exact C14_multi_total_lemma. Qed.
Print Assumptions C14_multi_total.

Theorem C14_multi_total_nonvacuous :
  guard_C14_multi_total x_mt_mixed = true /\ C14_at_b x_mt_mixed = true
  /\ guard_C14_multi_total (w_call w_in_ff [L "f.a"; L "f.b"] w_out_ff [L "f.a"; L "f.b"] None) = true
  /\ guard_C14_multi_total (w_call w_in_cls [L "K.lr"; L "K.m.a"] w_out_cls [L "Cfg.lr"; L "train.x"] None) = true.
Proof. exact C14_multi_total_nonvacuous_lemma. Qed.
Print Assumptions C14_multi_total_nonvacuous.

Theorem C14_multi_total_needs :
  (guard_C14_multi x_hz = true /\ addresses_resolve x_hz = true /\ logs_empty x_hz = true
   /\ hazard_free_pairs x_hz (ci_ips x_hz) (ci_ops x_hz) = false /\ run_C14 x_hz = ([], Err Unmodelled))
  /\ (guard_C14_multi (x_multi3 None) = true /\ logs_empty (x_multi3 None) = false
      /\ is_write (run_C14 (x_multi3 None)) = true).
Proof. exact C14_multi_total_side_conditions. Qed.
Print Assumptions C14_multi_total_needs.
