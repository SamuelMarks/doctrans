(* C09: agreement after a sync.  After a successful fault-free run every target is found at its
   location and equals the re-emission of the truth (from the laws FIX and REPLACES; from FIX alone the
   weaker settled state).  The lemmas live in proofs/SyncFacts.v and, for the
   Locate layer, proofs/SyncLocate.v. *)
From Coq Require Import List Ascii Bool Arith.
From Coq Require String.
Import String.StringSyntax.
From DT Require Import PyAst Locate C15Spec LocateFacts RewriteFacts C15Facts SyncLocate.
From DT Require Import PyStr Sexp PyVal PureUtils FS Sync PyStrFacts FSFacts SyncFacts.
Import ListNotations.

(* from FIX and REPLACES: afterwards the truth converts and every target is stable against its IR *)
Theorem C09_sync_establishes_agreement :
    forall (node tree irT opts : Type) (emit_k : kind -> irT -> opts -> outcome node)
      (parse_file : path -> bytes -> outcome tree) (find : list str -> tree -> option node)
      (rewrite : list str -> node -> tree -> tree * bool) (cmp : node -> node -> bool)
      (render_node : node -> outcome bytes) (render_tree : tree -> outcome bytes)
      (opts_of : option node -> list str -> kind -> opts) (type_ok : kind -> node -> bool)
      (parse_truth : kind -> option node -> list str -> outcome irT),
    FIX_law node tree irT opts emit_k parse_file find rewrite cmp render_node render_tree opts_of
      type_ok ->
    REPLACES_law node tree find rewrite ->
    forall (fs : fsys) (a : sync_args) (truth : path) (fs1 : fsys) (eff : list (path * bool))
      (pr : list str),
    sync_args_ok a truth ->
    ground_truth emit_k parse_file find rewrite cmp render_node render_tree opts_of type_ok
      parse_truth fs a truth NoFaults = (fs1, Ok eff, pr) ->
    synced node tree irT parse_file find parse_truth
      (stable node tree irT opts emit_k parse_file find cmp opts_of type_ok) fs1 a truth.
Proof. exact sync_establishes_agreement. Qed.
Print Assumptions C09_sync_establishes_agreement.

(* from FIX alone: every target stable or declined by the rewriter *)
Theorem C09_sync_establishes_settled :
    forall (node tree irT opts : Type) (emit_k : kind -> irT -> opts -> outcome node)
      (parse_file : path -> bytes -> outcome tree) (find : list str -> tree -> option node)
      (rewrite : list str -> node -> tree -> tree * bool) (cmp : node -> node -> bool)
      (render_node : node -> outcome bytes) (render_tree : tree -> outcome bytes)
      (opts_of : option node -> list str -> kind -> opts) (type_ok : kind -> node -> bool)
      (parse_truth : kind -> option node -> list str -> outcome irT),
    FIX_law node tree irT opts emit_k parse_file find rewrite cmp render_node render_tree opts_of
      type_ok ->
    forall (fs : fsys) (a : sync_args) (truth : path) (fs1 : fsys) (eff : list (path * bool))
      (pr : list str),
    sync_args_ok a truth ->
    ground_truth emit_k parse_file find rewrite cmp render_node render_tree opts_of type_ok
      parse_truth fs a truth NoFaults = (fs1, Ok eff, pr) ->
    synced node tree irT parse_file find parse_truth
      (settled node tree irT opts emit_k parse_file find rewrite cmp opts_of type_ok) fs1 a truth.
Proof. exact sync_establishes_settled. Qed.
Print Assumptions C09_sync_establishes_settled.

(* a stable target is left alone: no write, flag false, nothing printed, under every fault *)
Theorem C09_stable_conform_noop :
    forall (node tree irT opts : Type) (emit_k : kind -> irT -> opts -> outcome node)
      (parse_file : path -> bytes -> outcome tree) (find : list str -> tree -> option node)
      (rewrite : list str -> node -> tree -> tree * bool) (cmp : node -> node -> bool)
      (render_node : node -> outcome bytes) (render_tree : tree -> outcome bytes)
      (opts_of : option node -> list str -> kind -> opts) (type_ok : kind -> node -> bool)
      (fs : fsys) (file : path) (search : list str) (k : kind) (ir : irT) 
      (f : fault),
    stable node tree irT opts emit_k parse_file find cmp opts_of type_ok fs file search k ir ->
    conform emit_k parse_file find rewrite cmp render_node render_tree opts_of type_ok fs file search
      k ir f = (fs, Ok false, []).
Proof. exact stable_conform_noop. Qed.
Print Assumptions C09_stable_conform_noop.

(* non-vacuity: all four laws and the command-line premise hold of a toy instance whose run modifies and creates *)
Theorem C09_laws_satisfiable :
    FIX_law bytes bytes bytes unit Toy.emit_k Toy.parse_file Toy.find Toy.rewrite Toy.cmp Toy.render
      Toy.render Toy.opts_of Toy.type_ok /\
    REPLACES_law bytes bytes Toy.find Toy.rewrite /\
    REWRITE_FRAME_law bytes bytes Toy.rewrite unit Toy.others /\
    RENDER_PARSE_law bytes Toy.parse_file Toy.render /\
    sync_args_ok Toy.args Toy.truth /\
    Toy.run Toy.fs0 NoFaults =
    ([(L "g.py", L "truth"); (L "f.py", L "truth"); (L "t.py", L "truth")],
     Ok [(L "t.py", false); (L "f.py", true); (L "g.py", true)],
     [L "modified" ++ [tabch] ++ L "f.py"]).
Proof. exact laws_satisfiable. Qed.
Print Assumptions C09_laws_satisfiable.

(* Locate layer: inside guard_C15 the node the finder returns is the node resolve names (position and content), or None when there is none *)
Theorem C09_find_is_resolve :
    forall (m : module) (q : list str),
    guard_C15 m q = true -> option_map node_view (loc_find q (annotate m)) = resolve q m.
Proof. exact loc_find_resolve. Qed.
Print Assumptions C09_find_is_resolve.

(* conform over the Locate layer, inside guard_C15: a modification appends because resolve finds nothing, or rewrites at the node resolve names *)
Theorem C09_sync_works_on_resolved_node :
    forall (irT opts : Type) (emit_k : kind -> irT -> opts -> outcome anode)
      (parse_file : path -> bytes -> outcome amodule) (cmp : anode -> anode -> bool)
      (render_node : anode -> outcome bytes) (render_tree : amodule -> outcome bytes)
      (opts_of : option anode -> list str -> kind -> opts) (type_ok : kind -> anode -> bool)
      (fs : fsys) (file : path) (search : list str) (k : kind) (ir : irT) 
      (f : fault) (fs' : fsys) (pr : list str) (content : bytes) (m : module),
    conform emit_k parse_file loc_find loc_rewrite cmp render_node render_tree opts_of type_ok fs
      file search k ir f = (fs', Ok true, pr) ->
    fs_get file fs = Some content ->
    parse_file file content = Ok (annotate m) ->
    guard_C15 m search = true ->
    resolve search m = None /\
    (exists (n : anode) (src : bytes),
       emit_k k ir (opts_of None search k) = Ok n /\
       render_node n = Ok src /\ fs' = written fs file Ap src) \/
    (exists (o n : anode) (t' : amodule) (src : bytes),
       loc_find search (annotate m) = Some o /\
       resolve search m = Some (node_view o) /\
       emit_k k ir (opts_of (Some o) search k) = Ok n /\
       cmp o n = false /\
       loc_rewrite search n (annotate m) = (t', true) /\
       render_tree t' = Ok src /\ fs' = written fs file Wt src).
Proof. exact sync_works_on_resolved_node. Qed.
Print Assumptions C09_sync_works_on_resolved_node.

(* the node a settled target is compared at is the one resolve names *)
Theorem C09_settled_node_is_resolved :
    forall (irT opts : Type) (emit_k : kind -> irT -> opts -> outcome anode)
      (parse_file : path -> bytes -> outcome amodule) (cmp : anode -> anode -> bool)
      (opts_of : option anode -> list str -> kind -> opts) (type_ok : kind -> anode -> bool)
      (fs : fsys) (file : path) (search : list str) (k : kind) (ir : irT) 
      (m : module) (content : bytes),
    settled anode amodule irT opts emit_k parse_file loc_find loc_rewrite cmp opts_of type_ok fs file
      search k ir ->
    fs_get file fs = Some content ->
    parse_file file content = Ok (annotate m) ->
    guard_C15 m search = true ->
    exists o n : anode,
      resolve search m = Some (node_view o) /\
      emit_k k ir (opts_of (Some o) search k) = Ok n /\
      (cmp o n = true \/ snd (loc_rewrite search n (annotate m)) = false).
Proof. exact settled_node_is_resolved. Qed.
Print Assumptions C09_settled_node_is_resolved.

(* when REPLACES holds of the Locate rewriter: inside both guards what the finder found is replaced, at its position *)
Theorem C09_replaces_resolved_nodes :
    forall (m : module) (q : list str) (n o : anode) (m' : amodule) (st : rw_state),
    guard_C15 m q = true ->
    rw_guard_C15 m q = true ->
    loc_find q (annotate m) = Some o ->
    rewrite_visit q n (annotate m) = Ok (NMod m', st) ->
    q <> [] ->
    loc_rewrite q n (annotate m) = (m', true) /\
    replaced_first q (rw_node st) (fst (node_view o)) (annotate m) m'.
Proof. exact replaces_resolved_nodes. Qed.
Print Assumptions C09_replaces_resolved_nodes.

Theorem C09_replaces_class_nodes :
    forall (m : module) (q : list str) (n : anode) (i : Locate.path) (l : option loc) 
      (name : str) (bs : list expr) (body : list astmt) (d : list expr) (m' : amodule)
      (st : rw_state),
    guard_C15 m q = true ->
    rw_guard_C15 m q = true ->
    loc_find q (annotate m) = Some (NStmt (AClass i l name bs body d)) ->
    rewrite_visit q n (annotate m) = Ok (NMod m', st) ->
    q <> [] ->
    loc_rewrite q n (annotate m) = (m', true) /\ replaced_first q (rw_node st) i (annotate m) m'.
Proof. exact replaces_class_nodes. Qed.
Print Assumptions C09_replaces_class_nodes.

(* finding found-definition-not-replaced: a FunctionDef target that no tested node carries is never replaced, whatever the replacement node *)
Theorem C09_function_nodes_never_replaced :
    forall (m : module) (q : list str) (n : anode),
    rw_finding_class_C15 m q = Some KR_function_target ->
    (exists
       (p : Locate.path) (name : str) (args : arguments) (body : list stmt) 
     (d : list expr) (r : option expr), resolve q m = Some (p, PStmt (SFunc name args body d r))) /\
    snd (loc_rewrite q n (annotate m)) = false.
Proof. exact function_nodes_never_replaced. Qed.
Print Assumptions C09_function_nodes_never_replaced.

(* witness: def helper is found inside guard_C15 and never replaced *)
Theorem C09_helper_found_not_replaced :
    (exists o : anode,
       loc_find [L "helper"] (annotate [w_helper; w_C]) = Some o /\ fst (node_view o) = [0]) /\
    guard_C15 [w_helper; w_C] [L "helper"] = true /\
    rw_finding_class_C15 [w_helper; w_C] [L "helper"] = Some KR_function_target /\
    (forall n : anode, snd (loc_rewrite [L "helper"] n (annotate [w_helper; w_C])) = false).
Proof. exact helper_found_not_replaced. Qed.
Print Assumptions C09_helper_found_not_replaced.

(* hence the law REPLACES is false of the Locate layer *)
Theorem C09_REPLACES_refuted :
    ~ REPLACES_law anode amodule loc_find loc_rewrite.
Proof. exact REPLACES_law_refuted. Qed.
Print Assumptions C09_REPLACES_refuted.

(* non-vacuity of the positive half *)
Theorem C09_class_target_replaced :
    let m := [w_C; w_helper] in
    let n := NStmt (AClass [] None (L "C") [] [] []) in
    guard_C15 m [L "C"] = true /\
    rw_guard_C15 m [L "C"] = true /\
    option_map (fun o : anode => fst (node_view o)) (loc_find [L "C"] (annotate m)) = Some [0] /\
    snd (loc_rewrite [L "C"] n (annotate m)) = true /\
    others_ref (annotate m) [L "C"] (fst (loc_rewrite [L "C"] n (annotate m))) =
    [annotate_stmt [] [1] w_helper] /\ rw_guard_C15 m [L "helper"] = false.
Proof. exact class_target_replaced_example. Qed.
Print Assumptions C09_class_target_replaced.
