(* C16Facts: the splice sites of EmitAst carry bodies verbatim inside the guards of C16Spec (function splice,
   get_internal_body, argparse tail, the RewriteName pass of emit.class_ as a scoped substitution); the full
   statement is refuted by three witnesses. *)
From Coq Require Import List Ascii Bool Arith ZArith Lia.
From Coq Require String.
Import String.StringSyntax.
From DT Require Import PyStr Sexp PyVal TyExpr PureUtils Defaults PyAst IR EmitAst C16Spec PyStrFacts DefaultsFacts EmitAstFacts.
Import ListNotations.

Lemma splice_none : forall b, function_body_splice b None = b.
Proof. intros b. unfold function_body_splice. apply app_nil_r. Qed.

Lemma splice_struct : forall b r, function_body_splice b (Some r) = strip_final_return b ++ [r].
Proof. intros b r. reflexivity. Qed.

Lemma strip_final_return_prefix : forall b,
    exists tail, b = strip_final_return b ++ tail
                 /\ (tail = [] \/ exists x, tail = [x] /\ is_return x = true).
Proof.
  intros b. unfold strip_final_return. destruct (last_is_return b) eqn:E.
  - apply last_is_return_true in E. destruct E as [b' [r [Hb Hr]]]. subst b.
    rewrite removelast_last. exists [r]. split; [reflexivity|]. right. eauto.
  - exists []. split; [now rewrite app_nil_r | now left].
Qed.

Lemma splice_same : forall b r, is_return r = true ->
    function_body_splice (b ++ [r]) (Some r) = b ++ [r].
Proof.
  intros b r Hr. rewrite splice_struct. unfold strip_final_return.
  rewrite last_is_return_app, Hr, removelast_last. reflexivity.
Qed.

Lemma splice_final_return : forall b r, is_return r = true ->
    last_is_return (function_body_splice b (Some r)) = true
    /\ (last_is_return b = true -> last_is_return (strip_final_return b) = true -> 
        exists b' x y, b = b' ++ [x; y]).
Proof.
  intros b r Hr. split.
  - rewrite splice_struct, last_is_return_app. exact Hr.
  - intros Hb Hs. apply last_is_return_true in Hb. destruct Hb as [b' [y [Hb Hy]]]. subst b.
    unfold strip_final_return in Hs. rewrite last_is_return_app, Hy, removelast_last in Hs.
    apply last_is_return_true in Hs. destruct Hs as [b'' [x [Hb' Hx]]]. subst b'.
    exists b'', x, y. now rewrite <- app_assoc.
Qed.

Lemma ends_with_spec : forall b r, ends_with b r = true -> exists b', b = b' ++ [r].
Proof.
  intros b r H. unfold ends_with in H. destruct (rev b) as [|s l] eqn:E; [discriminate|].
  apply stmt_eqb_eq in H. subst s. exists (rev l). rewrite <- (rev_involutive b), E. reflexivity.
Qed.

Lemma C16_function_partial_lemma : forall b rv,
    guard_C16_function b rv = true -> function_body_splice b rv = b.
Proof.
  intros b rv G. unfold guard_C16_function, finding_class_C16_function in G.
  destruct rv as [r|]; [|apply splice_none].
  destruct (ends_with b r && is_return r) eqn:E.
  - apply andb_true_iff in E. destruct E as [E1 E2]. apply ends_with_spec in E1. destruct E1 as [b' Hb].
    subst b. now apply splice_same.
  - destruct (last_is_return b); discriminate.
Qed.

Lemma emit_function_body : forall pt i fn ft it kw tds n a body d r i2,
    emit_function pt i fn ft it kw tds = Ok (SFunc n a body d r, i2) ->
    exists text b rv fname ftype,
      py_or fn (ir_name i) = Ok fname /\ py_or ft (ir_type i) = Ok ftype
      /\ get_internal_body fname ftype i = Ok b
      /\ function_return_val pt i = Ok rv
      /\ body = SExpr (set_value (VStr text)) :: function_body_splice b rv.
Proof.
  intros pt i fn ft it kw tds n a body d r i2 H.
  destruct (emit_function_inv _ _ _ _ _ _ _ _ _ H) as (n0 & ftype & afp & dfp & b & rv & text & r0 & Hfn & Hft & _ & _ & Hb & Hrv & _ & _ & Es & _).
  injection Es as _ _ -> _ _. exists text, b, rv, (Some n0), ftype. auto.
Qed.

Lemma get_internal_body_spec : forall n t i b,
    get_internal_body n t i = Ok b ->
    b = [] \/ exists it, ir_internal i = Some it /\ b = in_body it
                         /\ fld_eq_opt (in_from_name it) n = true /\ fld_eq_opt (in_from_type it) t = true.
Proof.
  intros n t i b H. unfold get_internal_body in H.
  destruct (ir_internal i) as [it|] eqn:Ei; [|inversion H; now left].
  destruct (in_body it) as [|s0 rest] eqn:Eb; [inversion H; now left|].
  (* whatever the two fields hold, the body is handed over only when both tests succeed *)
  destruct (in_from_name it) as [| |fnm] eqn:En; try discriminate H;
    (match type of H with (if ?c then _ else _) = _ => destruct c eqn:E1 end; [|inversion H; now left]);
    destruct (in_from_type it) as [| |ftp] eqn:Et; try discriminate H;
    (match type of H with (if ?c then _ else _) = _ => destruct c eqn:E2 end; [|inversion H; now left]);
    inversion H; right; exists it; rewrite Eb, En, Et; auto.
Qed.

Lemma get_internal_body_same : forall i n t s rest,
    ir_internal i = Some (mkInternal (s :: rest) (Has n) (Has t)) ->
    get_internal_body (Some n) (Some t) i = Ok (s :: rest).
Proof.
  intros i n t s rest H. unfold get_internal_body. rewrite H.
  cbn [in_body in_from_name in_from_type fld_eq_opt]. rewrite !str_eqb_refl. reflexivity.
Qed.

Lemma get_internal_body_none : forall i n t, ir_internal i = None -> get_internal_body n t i = Ok [].
Proof. intros i n t H. unfold get_internal_body. rewrite H. reflexivity. Qed.

Lemma C16_argparse_partial_lemma : forall b, argparse_guard b = true -> argparse_body_skip b = Ok b.
Proof.
  intros b G. destruct b as [|s0 rest]; [reflexivity|]. cbn in G. unfold argparse_body_skip.
  destruct s0; cbn in G |- *; try reflexivity.
  destruct (get_value_expr e) as [o|x] eqn:E; cbn; [|discriminate].
  destruct o as [v| | |]; try reflexivity. destruct v; try reflexivity. discriminate.
Qed.

Lemma argparse_return_is_return : forall pt i r, argparse_return pt i = Ok r -> is_return r = true.
Proof.
  intros pt i r H. unfold argparse_return in H.
  destruct (returns_param i) as [p|]; [|inversion H; reflexivity].
  destruct (g_default p) as [[v|e|o]|]; try discriminate; [|inversion H; reflexivity].
  destruct v; try discriminate.
  destruct (code_quoted s); [inversion H; reflexivity|].
  apply bind_Ok_inv in H. destruct H as [e [_ H]]. inversion H. reflexivity.
Qed.

Lemma argparse_tail_spec : forall pt i b tail,
    argparse_guard b = true -> argparse_tail pt i b = Ok tail ->
    (last_is_return b = true /\ tail = b)
    \/ (last_is_return b = false /\ exists r, tail = b ++ [r] /\ is_return r = true).
Proof.
  intros pt i b tail G H. unfold argparse_tail in H.
  rewrite (C16_argparse_partial_lemma b G) in H. cbn in H.
  destruct (last_is_return b) eqn:E.
  - cbn in H. inversion H. left. split; [reflexivity | apply app_nil_r].
  - apply bind_Ok_inv in H. destruct H as [ret [Hret H]]. apply bind_Ok_inv in Hret. destruct Hret as [r [Hr Hret]].
    inversion Hret. subst ret. inversion H. right. split; [reflexivity|]. exists r. split; [reflexivity|].
    eapply argparse_return_is_return; eauto.
Qed.

Lemma emit_argparse_body : forall pt i edd fn ft wd ww ds n a body d r i2,
    emit_argparse pt i edd fn ft wd ww ds = Ok (SFunc n a body d r, i2) ->
    exists doc desc adds b tail fname ftype,
      py_or fn (ir_name i) = Ok fname /\ py_or ft (ir_type i) = Ok ftype
      /\ get_internal_body fname ftype i = Ok b
      /\ argparse_tail pt i b = Ok tail
      /\ List.length adds = List.length (ir_params i)
      /\ body = doc :: desc :: adds ++ tail.
Proof.
  intros pt i edd fn ft wd ww ds n a body d r i2 H.
  destruct (emit_argparse_inv _ _ _ _ _ _ _ _ _ _ H)
    as (n0 & ftype & b & dtext & desc & ps & spliced & ret & Hfn & Hft & Hb & _ & _ & Hps & Hsp & Hret & _ & Es).
  injection Es as _ _ -> _ _.
  exists (SExpr (set_value (VStr (indent tab dtext ++ tab)))), (description_assign desc), ps, b,
         (spliced ++ ret), (Some n0), ftype.
  split; [exact Hfn|]. split; [exact Hft|]. split; [exact Hb|].
  split; [unfold argparse_tail; rewrite Hsp; cbn [bind]; rewrite Hret; reflexivity|].
  split; [apply (map_outcome_length _ _ _ Hps)|reflexivity].
Qed.

Lemma in_ids_mem : forall ids id, ids <> [] -> in_ids ids id = mem_id ids id.
Proof. intros ids id H. destruct ids; [contradiction | reflexivity]. Qed.

Lemma rewrite_expr_subst : forall ids e, ids <> [] -> rewrite_expr ids e = subst_expr ids e.
Proof.
  intros ids e Hne.
  induction e as [v|id|e a IHe|e s IHe IHs|es IH|es IH|ks vs IHk IHv|f args kws IHf IHa IHk|op e IHe|s]
                   using expr_ind'; cbn.
  - reflexivity.
  - now rewrite in_ids_mem.
  - now rewrite IHe.
  - now rewrite IHe, IHs.
  - f_equal. now apply map_ext_Forall.
  - f_equal. now apply map_ext_Forall.
  - f_equal; now apply map_ext_Forall.
  - f_equal; [assumption | now apply map_ext_Forall |].
    apply map_ext_Forall. eapply Forall_impl; [|exact IHk]. intros p Hp. now rewrite Hp.
  - now rewrite IHe.
  - reflexivity.
Qed.

Lemma rewrite_opt_subst : forall ids (o : option expr), ids <> [] ->
    option_map (rewrite_expr ids) o = option_map (subst_expr ids) o.
Proof. intros ids [e|] H; cbn; [now rewrite rewrite_expr_subst | reflexivity]. Qed.

Lemma rewrite_exprs_subst : forall ids (l : list expr), ids <> [] ->
    map (rewrite_expr ids) l = map (subst_expr ids) l.
Proof. intros ids l H. apply map_ext. intros e. now apply rewrite_expr_subst. Qed.

Lemma rewrite_arg_subst : forall ids a, ids <> [] -> rewrite_arg ids a = subst_arg ids a.
Proof. intros ids a H. unfold rewrite_arg, subst_arg. now rewrite rewrite_opt_subst. Qed.

Lemma rewrite_arguments_subst : forall ids a, ids <> [] -> rewrite_arguments ids a = subst_arguments ids a.
Proof.
  intros ids a H. unfold rewrite_arguments, subst_arguments. f_equal.
  - apply map_ext. intros x. now apply rewrite_arg_subst.
  - now apply rewrite_exprs_subst.
  - apply map_ext. intros x. now apply rewrite_arg_subst.
  - apply map_ext. intros x. now apply rewrite_opt_subst.
  - destruct (ar_vararg a); cbn; [now rewrite rewrite_arg_subst | reflexivity].
  - destruct (ar_kwarg a); cbn; [now rewrite rewrite_arg_subst | reflexivity].
Qed.

Lemma remove_ids_none_bound : forall bound ids, none_bound bound ids = true -> remove_ids bound ids = ids.
Proof.
  intros bound ids H. unfold remove_ids, none_bound in *. induction ids as [|x r IH]; cbn in *; [reflexivity|].
  apply andb_true_iff in H. destruct H as [H1 H2]. rewrite H1. f_equal. now apply IH.
Qed.

Lemma forallb_Forall_impl : forall {A} (f : A -> bool) (P : A -> Prop) l,
    Forall (fun x => f x = true -> P x) l -> forallb f l = true -> Forall P l.
Proof.
  intros A f P l H. induction H as [|x r Hx Hr IH]; intros E; cbn in E; constructor.
  - apply Hx. now apply andb_true_iff in E.
  - apply IH. now apply andb_true_iff in E.
Qed.

Lemma rewrite_stmt_subst : forall ids s, ids <> [] -> no_shadow ids s = true ->
    rewrite_stmt ids s = subst_stmt ids s.
Proof.
  intros ids s Hne.
  induction s as [n a b d r IH|n bs b d IH|t a v|ts v|e|e|t h bl IH] using stmt_ind'; intros NS; cbn in NS |- *.
  - apply andb_true_iff in NS. destruct NS as [NB NSb].
    rewrite (remove_ids_none_bound _ _ NB).
    rewrite rewrite_arguments_subst, rewrite_exprs_subst, rewrite_opt_subst by assumption.
    f_equal. apply map_ext_Forall. eapply forallb_Forall_impl; [|exact NSb]. exact IH.
  - apply andb_true_iff in NS. destruct NS as [NB NSb].
    rewrite (remove_ids_none_bound _ _ NB).
    rewrite !rewrite_exprs_subst by assumption.
    f_equal. apply map_ext_Forall. eapply forallb_Forall_impl; [|exact NSb]. exact IH.
  - now rewrite !rewrite_expr_subst, rewrite_opt_subst.
  - now rewrite rewrite_exprs_subst, rewrite_expr_subst.
  - now rewrite rewrite_expr_subst.
  - now rewrite rewrite_opt_subst.
  - f_equal. apply map_ext_Forall.
    eapply forallb_Forall_impl; [|exact NS].
    eapply Forall_impl; [|exact IH]. intros blk Hblk NSblk.
    apply map_ext_Forall. eapply forallb_Forall_impl; [|exact NSblk]. exact Hblk.
Qed.

Lemma C16_call_partial_lemma : forall ids b,
    guard_C16_call ids b = true -> rewrite_body ids b = Ok (map (subst_stmt ids) b).
Proof.
  intros ids b G. unfold guard_C16_call, finding_class_C16_call in G.
  destruct ids as [|i0 ids']; [discriminate|]. set (ids := i0 :: ids') in *.
  destruct (forallb (rewritable_stmt ids) b) eqn:ER; cbn in G; [|discriminate].
  destruct (forallb (no_shadow ids) b) eqn:ENS; cbn in G; [|discriminate].
  unfold rewrite_body. rewrite ER. f_equal.
  apply map_ext_Forall. eapply forallb_Forall_impl; [|exact ENS].
  apply Forall_forall. intros s _ NS. apply rewrite_stmt_subst; [discriminate | assumption].
Qed.

Lemma emit_class_call_body : forall pt i cn bs ds ww tds n bases body decos i2 s0 rest,
    emit_class pt i true cn bs ds ww tds = Ok (SClass n bases body decos, i2) ->
    (match ir_internal i with Some it => in_body it | None => [] end) = s0 :: rest ->
    (ir_params i = [] /\ In (call_meth (s0 :: rest)) body)
    \/ (ir_params i <> [] /\ exists b', rewrite_body (od_keys (ir_params i)) (s0 :: rest) = Ok b'
                                        /\ In (call_meth b') body).
Proof.
  intros pt i cn bs ds ww tds n bases body decos i2 s0 rest H Hb.
  destruct (emit_class_inv _ _ _ _ _ _ _ _ _ _ H) as (ib & text & meth & attrs & Hib & _ & Hm & _ & _ & Es).
  injection Es as _ _ -> _. rewrite Hb in Hib.
  assert (Hin : forall b, meth = [call_meth b] -> In (call_meth b) (SExpr (set_value (VStr (class_docstring text))) :: attrs ++ meth)).
  { intros b ->. right. apply in_or_app. right. now left. }
  destruct (ir_params i) as [|[k0 g0] ps].
  - left. split; [reflexivity|]. injection Hib as <-. injection Hm as <-. now apply Hin.
  - right. split; [discriminate|]. cbn [od_keys map fst] in Hib, Hm |- *.
    apply bind_Ok_inv in Hib. destruct Hib as [b' [Hrw Hib]]. injection Hib as <-.
    exists b'. split; [exact Hrw|]. apply Hin.
    unfold rewrite_body in Hrw. destruct (forallb _ _); [|discriminate]. injection Hrw as <-.
    cbn [map] in Hm. now injection Hm as <-.
Qed.

Definition w_inner : stmt :=
  SFunc (L "inner") (mkArguments [mkArg (L "a") None] [] [] [] None None) [SReturn (Some (EName (L "a")))] [] None.

Lemma C16_function_refuted_lemma : ~ (forall b rv, function_body_splice b rv = b).
Proof. intros H. specialize (H [] (Some (SReturn None))). discriminate. Qed.

(* a body ending in `return y` re-emitted under a declared return default `x`: the body's own return is lost *)
Lemma C16_function_replaced_witness :
  function_body_splice [SReturn (Some (EName (L "y")))] (Some (SReturn (Some (EName (L "x")))))
  = [SReturn (Some (EName (L "x")))].
Proof. reflexivity. Qed.

Lemma C16_argparse_refuted_lemma : ~ (forall b, argparse_body_skip b = Ok b).
Proof.
  intros H. specialize (H [SExpr (EConst (VStr (L "note"))); SExpr (EName (L "x"))]). vm_compute in H. discriminate.
Qed.

Lemma C16_call_refuted_lemma : ~ (forall ids s, ids <> [] -> rewrite_stmt ids s = subst_stmt ids s).
Proof.
  intros H. specialize (H [L "a"] w_inner). assert (Hne : [L "a"] <> []) by discriminate.
  specialize (H Hne). vm_compute in H. discriminate.
Qed.

Definition w_body : list stmt :=
  [SAssign [EName (L "t")] (ECall (EName (L "f")) [EName (L "a")] [(Some (L "b"), EName (L "b"))]);
   SOther (L "If") (L "if t:" ++ [nl] ++ L "    pass") [[SReturn (Some (EName (L "a")))]];
   SFunc (L "inner") (mkArguments [mkArg (L "q") None] [] [] [] None None)
         [SReturn (Some (ECall (EName (L "g")) [EName (L "q"); EName (L "b")] []))] [] None;
   SReturn (Some (ETuple [EName (L "t"); EName (L "b")]))].

