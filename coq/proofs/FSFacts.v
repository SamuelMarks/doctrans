(* FSFacts: the finite-map algebra of model/FS.v and the atomicity of emit.file under every fault
   (C20(ii) at the level of one write; the append prefix fact used by C11).  Defines `written`, the file system after
   a complete write, in which the atomicity statements are phrased. *)
From Coq Require Import List Ascii Bool Arith Lia.
From Coq Require String.
Import String.StringSyntax.
From DT Require Import PyStr Sexp PyVal FS PyStrFacts.
Import ListNotations.

Lemma fs_get_remove_same : forall p fs, fs_get p (fs_remove p fs) = None.
Proof.
  intros p fs. induction fs as [|[q b] r IHr]; [reflexivity|].
  cbn [fs_remove]. destruct (str_eqb p q) eqn:E; [exact IHr|].
  cbn [fs_get]. rewrite E. exact IHr.
Qed.

Lemma fs_get_remove_other : forall p q fs, p <> q -> fs_get p (fs_remove q fs) = fs_get p fs.
Proof.
  intros p q fs Hpq. induction fs as [|[x b] r IHr]; [reflexivity|].
  cbn [fs_remove]. destruct (str_eqb q x) eqn:E.
  - apply str_eqb_eq in E. subst x. cbn [fs_get].
    apply str_eqb_neq in Hpq. rewrite Hpq. exact IHr.
  - cbn [fs_get]. destruct (str_eqb p x); [reflexivity|exact IHr].
Qed.

Lemma fs_get_set_same : forall p b fs, fs_get p (fs_set p b fs) = Some b.
Proof. intros p b fs. unfold fs_set. cbn [fs_get]. rewrite str_eqb_refl. reflexivity. Qed.

Lemma fs_get_set_other : forall p q b fs, p <> q -> fs_get p (fs_set q b fs) = fs_get p fs.
Proof.
  intros p q b fs Hpq. unfold fs_set. cbn [fs_get].
  pose proof Hpq as Hne. apply str_eqb_neq in Hne. rewrite Hne.
  apply fs_get_remove_other. exact Hpq.
Qed.

(* removing an absent path is the identity, syntactically *)
Lemma fs_remove_absent : forall p fs, fs_get p fs = None -> fs_remove p fs = fs.
Proof.
  intros p fs. induction fs as [|[q b] r IHr]; intros H; [reflexivity|].
  cbn [fs_get] in H. cbn [fs_remove]. destruct (str_eqb p q); [discriminate H|].
  rewrite IHr by exact H. reflexivity.
Qed.

Lemma fs_remove_idem : forall p fs, fs_remove p (fs_remove p fs) = fs_remove p fs.
Proof. intros p fs. apply fs_remove_absent. apply fs_get_remove_same. Qed.

Lemma fs_remove_set_same : forall p b fs, fs_remove p (fs_set p b fs) = fs_remove p fs.
Proof.
  intros p b fs. unfold fs_set. cbn [fs_remove]. rewrite str_eqb_refl. apply fs_remove_idem.
Qed.

Lemma tmp_of_neq : forall file, tmp_of file <> file.
Proof.
  intros file H. apply (f_equal (@List.length ascii)) in H.
  unfold tmp_of in H. rewrite app_length in H. cbn in H. lia.
Qed.

Lemma tmp_of_neq_sym : forall file, file <> tmp_of file.
Proof. intros file H. apply (tmp_of_neq file). symmetry. exact H. Qed.

Lemma tmp_of_inj : forall a b, tmp_of a = tmp_of b -> a = b.
Proof. intros a b H. unfold tmp_of in H. apply app_inv_tail in H. exact H. Qed.

Lemma terminate_sep : forall old, exists sep, (sep = [] \/ sep = [nl]) /\ terminate old = old ++ sep.
Proof.
  intros old. unfold terminate. destruct old as [|c r].
  - exists []. split; [left; reflexivity|reflexivity].
  - destruct (endswith [nl] (c :: r)).
    + exists []. split; [left; reflexivity|]. rewrite app_nil_r. reflexivity.
    + exists [nl]. split; [right; reflexivity|reflexivity].
Qed.

Lemma intended_wt : forall fs file src, intended fs file Wt src = src.
Proof. reflexivity. Qed.

Lemma intended_missing : forall fs file m src, fs_get file fs = None -> intended fs file m src = src.
Proof. intros fs file m src H. unfold intended. rewrite H. destruct m; reflexivity. Qed.

(* append mode keeps the old text as a prefix, up to termination of its last line *)
Lemma intended_append_prefix : forall fs file src old,
    fs_get file fs = Some old ->
    exists sep, (sep = [] \/ sep = [nl]) /\ intended fs file Ap src = old ++ sep ++ src.
Proof.
  intros fs file src old H. unfold intended. rewrite H.
  destruct (terminate_sep old) as [sep [Hsep Ht]]. exists sep. split; [exact Hsep|].
  rewrite Ht, app_assoc. reflexivity.
Qed.

Lemma intended_ext : forall fs1 fs2 file m src,
    fs_get file fs1 = fs_get file fs2 -> intended fs1 file m src = intended fs2 file m src.
Proof. intros fs1 fs2 file m src H. unfold intended. rewrite H. reflexivity. Qed.

Definition written (fs : fsys) (file : path) (m : mode) (src : bytes) : fsys :=
  fs_set file (intended fs file m src) (fs_remove (tmp_of file) fs).

Lemma written_get_file : forall fs file m src,
    fs_get file (written fs file m src) = Some (intended fs file m src).
Proof. intros fs file m src. unfold written. apply fs_get_set_same. Qed.

Lemma written_get_tmp : forall fs file m src, fs_get (tmp_of file) (written fs file m src) = None.
Proof.
  intros fs file m src. unfold written.
  rewrite fs_get_set_other by apply tmp_of_neq. apply fs_get_remove_same.
Qed.

Lemma written_get_other : forall fs file m src p,
    p <> file -> p <> tmp_of file -> fs_get p (written fs file m src) = fs_get p fs.
Proof.
  intros fs file m src p Hf Ht. unfold written.
  rewrite fs_get_set_other by exact Hf. apply fs_get_remove_other. exact Ht.
Qed.

(* the three things the I/O part can do, whatever the fault: the complete write; nothing (the old text could not
   be read); or a failure after which at most a stale temporary file is gone *)
Lemma emit_file_io_cases : forall fs file m src f fs' r,
    emit_file_io fs file m src f = (fs', r) ->
    (fs' = written fs file m src /\ r = Ok tt)
    \/ (fs' = fs /\ r = Err IOError)
    \/ (fs' = fs_remove (tmp_of file) fs /\ r = Err IOError).
Proof.
  intros fs file m src f fs' r H. unfold emit_file_io in H. cbv zeta in H. fold (written fs file m src) in H.
  destruct f as [| | |k|]; rewrite ?fs_remove_set_same in H.
  - left. injection H as <- <-. split; reflexivity.
  - destruct (match m, fs_get file fs with Ap, Some _ => true | _, _ => false end);
      injection H as <- <-; [right; left|left]; split; reflexivity.
  - right. right. injection H as <- <-. split; reflexivity.
  - right. right. injection H as <- <-. split; reflexivity.
  - right. right. injection H as <- <-. split; reflexivity.
Qed.

Lemma emit_file_io_err_is_IOError : forall fs file m src f fs' e,
    emit_file_io fs file m src f = (fs', Err e) -> e = IOError.
Proof.
  intros fs file m src f fs' e H.
  destruct (emit_file_io_cases _ _ _ _ _ _ _ H) as [[_ E]|[[_ E]|[_ E]]];
    [discriminate E|injection E as ->; reflexivity|injection E as ->; reflexivity].
Qed.

(* C20(ii), one write: for every fault the target afterwards holds its old bytes or the complete
   intended bytes, never a prefix; nothing else changes; no temporary file is left *)
Lemma emit_file_io_atomic : forall fs file m src f fs' r,
    fs_get (tmp_of file) fs = None ->
    emit_file_io fs file m src f = (fs', r) ->
    (forall p, p <> file -> p <> tmp_of file -> fs_get p fs' = fs_get p fs)
    /\ (fs_get file fs' = fs_get file fs \/ fs_get file fs' = Some (intended fs file m src))
    /\ fs_get (tmp_of file) fs' = None
    /\ (r = Ok tt -> fs_get file fs' = Some (intended fs file m src))
    /\ (forall e, r = Err e -> fs_get file fs' = fs_get file fs).
Proof.
  intros fs file m src f fs' r Ht H.
  destruct (emit_file_io_cases _ _ _ _ _ _ _ H) as [[-> ->]|[[-> ->]|[-> ->]]];
    rewrite ?(fs_remove_absent _ _ Ht).
  (* both failures leave the file system as it was, there being no stale temporary file *)
  2, 3: split; [reflexivity|]; split; [left; reflexivity|]; split; [exact Ht|];
        split; [intros He; discriminate He|reflexivity].
  split; [intros p Hf Hp; apply written_get_other; assumption|].
  split; [right; apply written_get_file|]. split; [apply written_get_tmp|].
  split; [intros _; apply written_get_file|intros e He; discriminate He].
Qed.

Lemma emit_file_render_err : forall fs file m e f, emit_file fs file m (Err e) f = (fs, Err e).
Proof. reflexivity. Qed.

(* the same three for emit.file, where doing nothing can also come from a rendering error *)
Lemma emit_file_cases : forall fs file m rendered f fs' r,
    emit_file fs file m rendered f = (fs', r) ->
    (exists src, rendered = Ok src /\ fs' = written fs file m src /\ r = Ok tt)
    \/ (fs' = fs /\ exists e, r = Err e)
    \/ (fs' = fs_remove (tmp_of file) fs /\ r = Err IOError).
Proof.
  intros fs file m rendered f fs' r H. destruct rendered as [src|e]; cbn [emit_file] in H.
  - destruct (emit_file_io_cases _ _ _ _ _ _ _ H) as [[-> ->]|[[-> ->]|[-> ->]]].
    + left. exists src. repeat split.
    + right. left. split; [reflexivity|]. exists IOError. reflexivity.
    + right. right. split; reflexivity.
  - injection H as <- <-. right. left. split; [reflexivity|]. exists e. reflexivity.
Qed.

Lemma emit_file_ok : forall fs file m rendered f fs' u,
    emit_file fs file m rendered f = (fs', Ok u) ->
    exists src, rendered = Ok src /\ fs' = written fs file m src.
Proof.
  intros fs file m rendered f fs' u H.
  destruct (emit_file_cases _ _ _ _ _ _ _ H) as [[src [E1 [E2 _]]]|[[_ [e E]]|[_ E]]];
    [exists src; split; assumption|discriminate E|discriminate E].
Qed.

Lemma emit_file_err_get : forall fs file m rendered f fs' e,
    emit_file fs file m rendered f = (fs', Err e) ->
    forall p, p <> tmp_of file -> fs_get p fs' = fs_get p fs.
Proof.
  intros fs file m rendered f fs' e H p Hp.
  destruct (emit_file_cases _ _ _ _ _ _ _ H) as [[src [_ [_ E]]]|[[-> _]|[-> _]]];
    [discriminate E|reflexivity|apply fs_get_remove_other; exact Hp].
Qed.

(* failure with no stale temporary file: the file system is the one before, syntactically *)
Lemma emit_file_err_eq : forall fs file m rendered f fs' e,
    fs_get (tmp_of file) fs = None ->
    emit_file fs file m rendered f = (fs', Err e) -> fs' = fs.
Proof.
  intros fs file m rendered f fs' e Ht H.
  destruct (emit_file_cases _ _ _ _ _ _ _ H) as [[src [_ [_ E]]]|[[-> _]|[-> _]]];
    [discriminate E|reflexivity|apply fs_remove_absent; exact Ht].
Qed.

Lemma emit_file_frame : forall fs file m rendered f fs' r,
    emit_file fs file m rendered f = (fs', r) ->
    forall p, p <> file -> p <> tmp_of file -> fs_get p fs' = fs_get p fs.
Proof.
  intros fs file m rendered f fs' r H p Hf Ht.
  destruct (emit_file_cases _ _ _ _ _ _ _ H) as [[src [_ [-> _]]]|[[-> _]|[-> _]]];
    [apply written_get_other; assumption|reflexivity|apply fs_get_remove_other; exact Ht].
Qed.

Lemma emit_file_tmp_clean : forall fs file m rendered f fs' r,
    fs_get (tmp_of file) fs = None ->
    emit_file fs file m rendered f = (fs', r) -> fs_get (tmp_of file) fs' = None.
Proof.
  intros fs file m rendered f fs' r Ht H.
  destruct (emit_file_cases _ _ _ _ _ _ _ H) as [[src [_ [-> _]]]|[[-> _]|[-> _]]];
    [apply written_get_tmp|exact Ht|apply fs_get_remove_same].
Qed.

(* emit.file as a whole: a rendering error leaves everything as it was; otherwise as emit_file_io *)
Lemma emit_file_atomic : forall fs file m rendered f fs' r,
    fs_get (tmp_of file) fs = None ->
    emit_file fs file m rendered f = (fs', r) ->
    (forall e, rendered = Err e -> fs' = fs /\ r = Err e)
    /\ (forall p, p <> file -> p <> tmp_of file -> fs_get p fs' = fs_get p fs)
    /\ (fs_get file fs' = fs_get file fs
        \/ exists src, rendered = Ok src /\ fs_get file fs' = Some (intended fs file m src))
    /\ fs_get (tmp_of file) fs' = None
    /\ (r = Ok tt -> exists src, rendered = Ok src /\ fs_get file fs' = Some (intended fs file m src))
    /\ (forall e, r = Err e -> fs' = fs).
Proof.
  intros fs file m rendered f fs' r Ht H.
  split.
  { intros e He. subst rendered. cbn [emit_file] in H. injection H as H1 H2. subst. split; reflexivity. }
  split; [apply (emit_file_frame _ _ _ _ _ _ _ H)|].
  split.
  { destruct r as [u|e].
    - destruct (emit_file_ok _ _ _ _ _ _ _ H) as [src [Hs E]]. subst fs'.
      right. exists src. split; [exact Hs|apply written_get_file].
    - rewrite (emit_file_err_eq _ _ _ _ _ _ _ Ht H). left. reflexivity. }
  split; [apply (emit_file_tmp_clean _ _ _ _ _ _ _ Ht H)|].
  split.
  - intros Hr. subst r. destruct (emit_file_ok _ _ _ _ _ _ _ H) as [src [Hs E]]. subst fs'.
    exists src. split; [exact Hs|apply written_get_file].
  - intros e Hr. subst r. apply (emit_file_err_eq _ _ _ _ _ _ _ Ht H).
Qed.
