(* C03 (extension) - function / method round trip: the docstring link.
   Definitions in model/C03DocLinkDefs.v, lemmas in
   proofs/C03DocLink{Clean,Emit,Lines,,Guard,Main}.v and, for the class-free guards, proofs/C03Compose.v.

   props/C03.v composes EmitAst.emit_function, C03Spec.reparse_stmt and ParseSig.parse_function and leaves the docstring
   layer to the hypothesis doc_agrees (over the text that to_docstring returned and the docstring-derived IR d).  Here
   that hypothesis is DISCHARGED from the docstring models, for all inputs (any number of parameters):
     text = to_docstring(ir, emit_default_doc, emit_types = not inline_types, indent_level, emit_separating_tab, word_wrap)
            as emit.function calls it                       (function_docstring_text over DocEmit.to_docstring, width w)
     d    = parse.docstring(inspect.cleandoc(text).replace(":cvar", ":param"), infer_type=False)
            as parse.function calls it on ast.get_docstring  (function_docstring_ir over the model cleandoc and the
                                                              ReST scanner / parser of DocParse, reusing the C01 lemmas)
   under guard_C03 and the boolean side condition doc_link_ok.

   NOT proved here:
     - doc_agrees OUTSIDE doc_link_ok.  Clauses with a failing input inside guard_C03 (C03_doc_link_witnesses; the same
       inputs fail on the real code): no documented entry at all (the docstring is then read as numpydoc / Google), prose
       with blanks other than the plain blank, and - with types in the docstring - a type text holding a ReST token, a
       line break or a leading **.  Clauses that are limits of the proof only (no failing input known): prose ending in
       a backslash (pure_utils.multiline keeps it; the link holds at such a point, see
       C03DocLinkMain.C03_trailing_backslash_regression_lemma), prose starting with Optional, a summary that is not one
       clean tab-free line, word_wrap with a line longer than the width (textwrap.fill re-flowing followed by the
       parser's re-joining is not proved);
     - that cleandoc / reparse_stmt are what CPython does (models; cleandoc validated against inspect.cleandoc, reparse_stmt by
       the correspondence family c03);
     - the ast.unparse / ast.parse step keeps the value of the docstring constant (C03Spec.reparse_body_stmt, modelled). *)
From Coq Require Import List Bool.
From Coq Require String.
Import String.StringSyntax.
From DT Require Import PyStr PyVal PureUtils Defaults PyAst IR.
From DT Require Import C03Spec C03Compose C03DocLinkDefs.
From DT Require C03DocLinkClean C03DocLink C03DocLinkMain.
Import ListNotations.

(* the docstring link: inside the guard and doc_link_ok the emitter's docstring text exists, parse.function's reading of it
   exists, and it documents exactly the described entries - the hypothesis doc_agrees of C03_partial, C03_scalar,
   C03_return_only *)
Theorem C03_doc_link : forall w o i,
    guard_C03 o i = true -> doc_link_ok w o i = true ->
    exists text d,
      function_docstring_text w o i = Ok text
      /\ function_docstring_ir text = Ok d
      /\ doc_agrees o i d = true.
Proof. exact C03DocLinkMain.C03_doc_link_lemma. Qed.
Print Assumptions C03_doc_link.

(* C03_partial with text and d instantiated and NO docstring hypothesis: emit.function's docstring text, parse.function's
   docstring-derived IR, and the composed round trip succeeds (nothing raises) and hands back the same interface and kind *)
Theorem C03_partial_closed : forall w o i,
    guard_C03 o i = true -> doc_link_ok w o i = true ->
    exists text d,
      function_docstring_text w o i = Ok text /\ function_docstring_ir text = Ok d /\ C03_at o i text d.
Proof. exact C03DocLinkMain.C03_partial_closed_lemma. Qed.
Print Assumptions C03_partial_closed.

Theorem C03_scalar_closed : forall w o i,
    scalar_ir o i = true -> doc_link_ok w o i = true ->
    exists text d,
      function_docstring_text w o i = Ok text /\ function_docstring_ir text = Ok d /\ C03_at o i text d.
Proof. intros w o i Hs Hl. apply C03DocLinkMain.C03_partial_closed_lemma; [apply C03Compose.C03_scalar_guard; exact Hs|exact Hl]. Qed.
Print Assumptions C03_scalar_closed.

Theorem C03_return_only_closed : forall w o i,
    return_only_ir o i = true -> doc_link_ok w o i = true ->
    exists text d,
      function_docstring_text w o i = Ok text /\ function_docstring_ir text = Ok d /\ C03_at o i text d.
Proof.
  intros w o i Hs Hl. apply C03DocLinkMain.C03_partial_closed_lemma; [apply C03Compose.C03_return_only_guard; exact Hs|exact Hl].
Qed.
Print Assumptions C03_return_only_closed.

(* non-vacuous: seven / six parameters with defaults of every class, a ** parameter and a return entry meet all hypotheses,
   with types in the signature (nv3) and with types in the docstring, keyword-only, as a class method (nv4) *)
Theorem C03_doc_link_nonvacuous :
  guard_C03 nv3_opts nv3_ir = true /\ doc_link_ok 100 nv3_opts nv3_ir = true
  /\ guard_C03 C03DocLinkMain.nv4_opts C03DocLinkMain.nv4_ir = true
  /\ doc_link_ok 100 C03DocLinkMain.nv4_opts C03DocLinkMain.nv4_ir = true
  /\ List.length (ir_params nv3_ir) = 7 /\ List.length (ir_params C03DocLinkMain.nv4_ir) = 6.
Proof. exact C03DocLinkMain.C03_doc_link_nonvacuous_lemma. Qed.
Print Assumptions C03_doc_link_nonvacuous.

(* the side condition is needed: inputs inside guard_C03, outside doc_link_ok, on which the link fails in the model (and on
   the real code) *)
Theorem C03_doc_link_witnesses :
  forallb (fun oi => guard_C03 (fst oi) (snd oi) && negb (doc_link_ok 100 (fst oi) (snd oi))
                     && negb (C03DocLinkMain.doc_link_b 100 (fst oi) (snd oi))) C03DocLinkMain.link_witnesses = true.
Proof. exact C03DocLinkMain.C03_doc_link_witnesses_lemma. Qed.
Print Assumptions C03_doc_link_witnesses.

Theorem C03_doc_link_refuted :
  ~ (forall w o i, guard_C03 o i = true ->
       exists text d, function_docstring_text w o i = Ok text /\ function_docstring_ir text = Ok d
                      /\ doc_agrees o i d = true).
Proof. exact C03DocLinkMain.C03_doc_link_refuted_lemma. Qed.
Print Assumptions C03_doc_link_refuted.

(* building blocks, of independent use *)

(* inspect.cleandoc on a text given as lines (indentation, content): the contents come back in order, each followed by
   blanks, after leading blanks *)
Theorem C03_cleandoc_heads : forall lns : list ln,
    lns <> [] -> forallb ln_ok lns = true ->
    exists ws0 hws,
      cleandoc (text_of_lns lns) = Ok (text_of_heads ws0 hws)
      /\ map fst hws = heads_of lns
      /\ forallb isspace ws0 = true
      /\ forallb (fun hw => forallb isspace (snd hw)) hws = true.
Proof. exact C03DocLinkClean.cleandoc_heads. Qed.
Print Assumptions C03_cleandoc_heads.

(* the ReST scanner and parser on heads followed by ARBITRARY blanks (indentation, blank lines): the entries come back *)
Theorem C03_parse_heads : forall sd docs r ws0 hws,
    (forall d0, sd = Some d0 -> C01Spec.no_rest_token d0 = true) ->
    Forall C03DocLink.dent_ok docs -> NoDup (map dn docs) -> C03DocLink.rent_ok r -> (docs <> [] \/ r <> None) ->
    map fst hws = heads sd docs r -> forallb isspace ws0 = true -> C03DocLink.ws_all hws ->
    exists sdoc,
      C03DocLink.parse_cleaned (text_of_heads ws0 hws)
      = Ok (DocParse.ir_of_parts sdoc (map (fun e => (dn e, C03DocLink.dent_fin e)) docs) (C03DocLink.rent_fin r)).
Proof. exact C03DocLink.parse_heads. Qed.
Print Assumptions C03_parse_heads.
