(* C20: failure safety.  First (ii): under every fault no file is ever left truncated or partial.  Then (i): which
   sync commands are refused before anything runs, and that an accepted sync cannot fail on the shape of its
   arguments; last the decisions of sync_properties and gen.  The lemmas live in proofs/FSFacts.v, SyncFacts.v, CliFacts.v. *)
From Coq Require Import List Ascii Bool Arith Relations.
From Coq Require String.
Import String.StringSyntax.
From DT Require Import PyStr Sexp PyVal PureUtils FS Sync Cli PyStrFacts FSFacts SyncFacts CliFacts.
Import ListNotations.

Theorem C20_tmp_of_neq :
    forall file : path, tmp_of file <> file.
Proof. exact tmp_of_neq. Qed.
Print Assumptions C20_tmp_of_neq.

(* one write under any fault: old bytes or the complete intended bytes, nothing else changes, no temporary file left *)
Theorem C20_emit_file_io_atomic :
    forall (fs : fsys) (file : path) (m : mode) (src : bytes) (f : fault) 
      (fs' : fsys) (r : outcome unit),
    fs_get (tmp_of file) fs = None ->
    emit_file_io fs file m src f = (fs', r) ->
    (forall p : path, p <> file -> p <> tmp_of file -> fs_get p fs' = fs_get p fs) /\
    (fs_get file fs' = fs_get file fs \/ fs_get file fs' = Some (intended fs file m src)) /\
    fs_get (tmp_of file) fs' = None /\
    (r = Ok tt -> fs_get file fs' = Some (intended fs file m src)) /\
    (forall e : err, r = Err e -> fs_get file fs' = fs_get file fs).
Proof. exact emit_file_io_atomic. Qed.
Print Assumptions C20_emit_file_io_atomic.

(* the same for emit.file as a whole; a rendering error leaves the file system as it was *)
Theorem C20_emit_file_atomic :
    forall (fs : fsys) (file : path) (m : mode) (rendered : outcome bytes) 
      (f : fault) (fs' : fsys) (r : outcome unit),
    fs_get (tmp_of file) fs = None ->
    emit_file fs file m rendered f = (fs', r) ->
    (forall e : err, rendered = Err e -> fs' = fs /\ r = Err e) /\
    (forall p : path, p <> file -> p <> tmp_of file -> fs_get p fs' = fs_get p fs) /\
    (fs_get file fs' = fs_get file fs \/
     (exists src : bytes, rendered = Ok src /\ fs_get file fs' = Some (intended fs file m src))) /\
    fs_get (tmp_of file) fs' = None /\
    (r = Ok tt ->
     exists src : bytes, rendered = Ok src /\ fs_get file fs' = Some (intended fs file m src)) /\
    (forall e : err, r = Err e -> fs' = fs).
Proof. exact emit_file_atomic. Qed.
Print Assumptions C20_emit_file_atomic.

(* a conversion error or an I/O fault leaves the current file (and all but the temporary name) untouched *)
Theorem C20_conform_err_safe :
    forall (node tree irT opts : Type) (emit_k : kind -> irT -> opts -> outcome node)
      (parse_file : path -> bytes -> outcome tree) (find : list str -> tree -> option node)
      (rewrite : list str -> node -> tree -> tree * bool) (cmp : node -> node -> bool)
      (render_node : node -> outcome bytes) (render_tree : tree -> outcome bytes)
      (opts_of : option node -> list str -> kind -> opts) (type_ok : kind -> node -> bool)
      (fs : fsys) (file : path) (search : list str) (k : kind) (ir : irT) 
      (f : fault) (fs' : fsys) (e : err) (pr : list str),
    conform emit_k parse_file find rewrite cmp render_node render_tree opts_of type_ok fs file search
      k ir f = (fs', Err e, pr) ->
    fs_get file fs' = fs_get file fs /\
    (forall p : path, p <> tmp_of file -> fs_get p fs' = fs_get p fs) /\
    (fs_get (tmp_of file) fs = None -> fs' = fs).
Proof. exact conform_err_safe. Qed.
Print Assumptions C20_conform_err_safe.

Theorem C20_conform_tmp_clean :
    forall (node tree irT opts : Type) (emit_k : kind -> irT -> opts -> outcome node)
      (parse_file : path -> bytes -> outcome tree) (find : list str -> tree -> option node)
      (rewrite : list str -> node -> tree -> tree * bool) (cmp : node -> node -> bool)
      (render_node : node -> outcome bytes) (render_tree : tree -> outcome bytes)
      (opts_of : option node -> list str -> kind -> opts) (type_ok : kind -> node -> bool)
      (fs : fsys) (file : path) (search : list str) (k : kind) (ir : irT) 
      (f : fault) (fs' : fsys) (r : outcome bool) (pr : list str),
    fs_get (tmp_of file) fs = None ->
    conform emit_k parse_file find rewrite cmp render_node render_tree opts_of type_ok fs file search
      k ir f = (fs', r, pr) -> fs_get (tmp_of file) fs' = None.
Proof. exact conform_tmp_clean. Qed.
Print Assumptions C20_conform_tmp_clean.

(* reported modified: per branch, the complete text written *)
Theorem C20_conform_true_wrote :
    forall (node tree irT opts : Type) (emit_k : kind -> irT -> opts -> outcome node)
      (parse_file : path -> bytes -> outcome tree) (find : list str -> tree -> option node)
      (rewrite : list str -> node -> tree -> tree * bool) (cmp : node -> node -> bool)
      (render_node : node -> outcome bytes) (render_tree : tree -> outcome bytes)
      (opts_of : option node -> list str -> kind -> opts) (type_ok : kind -> node -> bool)
      (fs : fsys) (file : path) (search : list str) (k : kind) (ir : irT) 
      (f : fault) (fs' : fsys) (pr : list str),
    conform emit_k parse_file find rewrite cmp render_node render_tree opts_of type_ok fs file search
      k ir f = (fs', Ok true, pr) ->
    fs_get file fs = None /\
    (exists (n : node) (src : bytes),
       emit_k k ir (opts_of None search k) = Ok n /\
       render_node n = Ok src /\ fs' = written fs file Wt src /\ pr = []) \/
    (exists (content : bytes) (t : tree) (n : node) (src : bytes),
       fs_get file fs = Some content /\
       parse_file file content = Ok t /\
       find search t = None /\
       emit_k k ir (opts_of None search k) = Ok n /\
       render_node n = Ok src /\ fs' = written fs file Ap src /\ pr = []) \/
    (exists (content : bytes) (t : tree) (o n : node) (t' : tree) (src : bytes),
       fs_get file fs = Some content /\
       parse_file file content = Ok t /\
       find search t = Some o /\
       emit_k k ir (opts_of (Some o) search k) = Ok n /\
       search <> [] /\
       type_ok k n = true /\
       cmp o n = false /\
       rewrite search n t = (t', true) /\
       render_tree t' = Ok src /\ fs' = written fs file Wt src /\ pr = printed_line true file).
Proof. exact conform_true_wrote. Qed.
Print Assumptions C20_conform_true_wrote.

(* for every fault assignment the file system afterwards is reached by complete writes only *)
Theorem C20_ground_truth_safe_path :
    forall (node tree irT opts : Type) (emit_k : kind -> irT -> opts -> outcome node)
      (parse_file : path -> bytes -> outcome tree) (find : list str -> tree -> option node)
      (rewrite : list str -> node -> tree -> tree * bool) (cmp : node -> node -> bool)
      (render_node : node -> outcome bytes) (render_tree : tree -> outcome bytes)
      (opts_of : option node -> list str -> kind -> opts) (type_ok : kind -> node -> bool)
      (parse_truth : kind -> option node -> list str -> outcome irT) (fs : fsys) 
      (a : sync_args) (truth : path) (faults : path -> fault) (fs' : fsys)
      (r : outcome (list (path * bool))) (pr : list str),
    no_tmp_clash fs truth (targets a) ->
    ground_truth emit_k parse_file find rewrite cmp render_node render_tree opts_of type_ok
      parse_truth fs a truth faults = (fs', r, pr) ->
    safe_path fs fs' /\ no_tmp_clash fs' truth (targets a).
Proof. exact ground_truth_safe_path. Qed.
Print Assumptions C20_ground_truth_safe_path.

(* path by path: the bytes before or the complete intended text of some write *)
Theorem C20_ground_truth_never_partial :
    forall (node tree irT opts : Type) (emit_k : kind -> irT -> opts -> outcome node)
      (parse_file : path -> bytes -> outcome tree) (find : list str -> tree -> option node)
      (rewrite : list str -> node -> tree -> tree * bool) (cmp : node -> node -> bool)
      (render_node : node -> outcome bytes) (render_tree : tree -> outcome bytes)
      (opts_of : option node -> list str -> kind -> opts) (type_ok : kind -> node -> bool)
      (parse_truth : kind -> option node -> list str -> outcome irT) (fs : fsys) 
      (a : sync_args) (truth : path) (faults : path -> fault) (fs' : fsys)
      (r : outcome (list (path * bool))) (pr : list str),
    no_tmp_clash fs truth (targets a) ->
    ground_truth emit_k parse_file find rewrite cmp render_node render_tree opts_of type_ok
      parse_truth fs a truth faults = (fs', r, pr) ->
    forall p : path,
    fs_get p fs' = fs_get p fs \/
    (exists (fsm : fsys) (m : mode) (src : bytes),
       safe_path fs fsm /\ fs_get p fs' = Some (intended fsm p m src)).
Proof. exact ground_truth_never_partial. Qed.
Print Assumptions C20_ground_truth_never_partial.

(* the size of the table: 3 * 3^6 * 2 *)
Theorem C20_table_size :
    length all_sync_shapes = 4374.
Proof. exact all_sync_shapes_length. Qed.
Print Assumptions C20_table_size.

(* exactly which sync commands are refused, for arbitrary counts *)
Theorem C20_reject_iff :
    forall s : sync_shape,
    decide_sync s = Reject <->
    ss_files s (ss_truth s) = None \/
    files_total s < 2 \/
    ss_truth_file_exists s = false \/ (exists k : kind, ss_files s k <> None /\ ss_names s k = None).
Proof. exact decide_sync_reject_iff. Qed.
Print Assumptions C20_reject_iff.

(* the same against the Boolean form of the four tests (reject_spec), stated for the shapes of the table *)
Theorem C20_table_reject_iff :
    forall s : sync_shape, In s all_sync_shapes -> decide_sync s = Reject <-> reject_spec s = true.
Proof. intros s _. exact (decide_sync_reject_spec s). Qed.
Print Assumptions C20_table_reject_iff.

(* main itself never raises in the sync branch *)
Theorem C20_decide_sync_never_raises :
    forall (s : sync_shape) (e : err), decide_sync s <> Raise e.
Proof. exact decide_sync_never_raises. Qed.
Print Assumptions C20_decide_sync_never_raises.

(* an accepted sync command does not fail on the shape of its arguments (arbitrary counts, names given at least once) *)
Theorem C20_accepted_runs :
    forall s : sync_shape, names_wf s -> decide_sync s = Run -> arg_level_error s = None.
Proof. exact run_no_arg_error. Qed.
Print Assumptions C20_accepted_runs.

(* over the table: each of its shapes is well-formed, so an accepted one has its names complete and does not fail *)
Theorem C20_table_accepted_runs :
    forall s : sync_shape,
    In s all_sync_shapes ->
    decide_sync s = Run -> names_complete s = true /\ arg_level_error s = None.
Proof. exact table_run_no_arg_error. Qed.
Print Assumptions C20_table_accepted_runs.

(* over the table, as an instance of the general theorem *)
Theorem C20_table_accepted_runs_instance :
    forall s : sync_shape, In s all_sync_shapes -> decide_sync s = Run -> arg_level_error s = None.
Proof. intros s Hs. exact (run_no_arg_error s (table_wf s Hs)). Qed.
Print Assumptions C20_table_accepted_runs_instance.

(* with completeness of the names as the premise, in place of well-formedness *)
Theorem C20_accepted_runs_partial :
    forall s : sync_shape,
    In s all_sync_shapes ->
    decide_sync s = Run -> names_complete s = true -> arg_level_error s = None.
Proof. intros s _ _. exact (names_complete_no_arg_error s). Qed.
Print Assumptions C20_accepted_runs_partial.

(* the well-formedness premise cannot be dropped *)
Theorem C20_accepted_runs_needs_wf :
    exists s : sync_shape, decide_sync s = Run /\ arg_level_error s = Some IndexError.
Proof. exact run_arg_error_needs_wf. Qed.
Print Assumptions C20_accepted_runs_needs_wf.

(* both decisions occur; a command refused only for a missing name *)
Theorem C20_table_nonvacuous :
    (exists s : sync_shape, In s all_sync_shapes /\ decide_sync s = Run) /\
    (exists s : sync_shape,
       In s all_sync_shapes /\
       decide_sync s = Reject /\
       ss_truth_file_exists s = true /\ files_total s >= 2 /\ ss_files s (ss_truth s) <> None).
Proof. exact table_nonvacuous. Qed.
Print Assumptions C20_table_nonvacuous.

(* sync_properties runs iff the parameter lists pair up and both files exist *)
Theorem C20_sync_properties_run_iff :
    forall c i o : bool, decide_sync_properties c i o = Run <-> c = true /\ i = true /\ o = true.
Proof. exact decide_sync_properties_run_iff. Qed.
Print Assumptions C20_sync_properties_run_iff.

(* and is refused (usage error, nothing touched) otherwise *)
Theorem C20_sync_properties_reject_iff :
    forall c i o : bool, decide_sync_properties c i o = Reject <-> c = false \/ i = false \/ o = false.
Proof. exact decide_sync_properties_reject_iff. Qed.
Print Assumptions C20_sync_properties_reject_iff.

(* it never ends in an exception at this stage, and an accepted invocation pairs every --input-param with an
   --output-param (in /repo a mismatch is refused with a usage error, not a bare assert and a traceback) *)
Theorem C20_sync_properties_never_raises :
    forall c i o e, decide_sync_properties c i o <> Raise e.
Proof. intros [] [] [] e; discriminate. Qed.
Print Assumptions C20_sync_properties_never_raises.

Theorem C20_sync_properties_accepted_pairs_up :
    forall c i o : bool, decide_sync_properties c i o = Run -> c = true.
Proof. exact decide_sync_properties_run_counts. Qed.
Print Assumptions C20_sync_properties_accepted_pairs_up.

Theorem C20_gen_run_iff :
    forall o : bool, decide_gen o = Run <-> o = false.
Proof. exact decide_gen_run_iff. Qed.
Print Assumptions C20_gen_run_iff.

Theorem C20_gen_raise_iff :
    forall o : bool, decide_gen o = Raise IOError <-> o = true.
Proof. exact decide_gen_raise_iff. Qed.
Print Assumptions C20_gen_raise_iff.
