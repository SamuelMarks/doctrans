(* C03DocLinkLines: the text of DocEmit.to_docstring (ReST) as a list of lines (indentation, content), for
   descriptions whose lines need no wrapping.
   Defines the lines of each part of the text (summary, parameters, return entry) and `writes`, what td_param makes of
   one entry.  Used by proofs/C03DocLinkMain.v (property C03, docstring link) and proofs/C02DocLink.v. *)
From Coq Require Import List Ascii Bool Arith ZArith Lia.
From Coq Require String.
Import String.StringSyntax.
From DT Require Import PyStr Sexp PyVal TyExpr Extracted PureUtils Defaults PyAst IR Fill C17Spec.
From DT Require Import PyStrFacts ListFacts SplitFacts DefaultsFacts DocEmit DocEmitFacts C03Spec C03DocLinkDefs C03DocLinkEmit.
From DT Require FillFacts C01Spec.
Import ListNotations.

Definition Tn (il : nat) : str := repeat_str tab il.
Definition Sp (est : bool) (il : nat) : str := if est then Tn il else [].

Definition blanks_ok (s : str) : bool :=
  forallb isspace s && negb (mem_c nl s) && negb (mem_c tabch s).

Definition cont_ok (s : str) : bool :=
  negb (mem_c nl s) && negb (mem_c tabch s)
  && match s with [] => true | c :: _ => negb (isspace c) end.

Lemma ln_ok_split : forall a b, ln_ok (a, b) = blanks_ok a && cont_ok b.
Proof.
  intros a b. unfold ln_ok, blanks_ok, cont_ok. cbn [fst snd].
  rewrite !andb_assoc. reflexivity.
Qed.

Lemma blanks_ok_app : forall a b, blanks_ok a = true -> blanks_ok b = true -> blanks_ok (a ++ b) = true.
Proof.
  intros a b Ha Hb. unfold blanks_ok in *. rewrite !andb_true_iff, !negb_true_iff in Ha, Hb.
  destruct Ha as [[Ha1 Ha2] Ha3]. destruct Hb as [[Hb1 Hb2] Hb3].
  rewrite forallb_app, !mem_c_app, Ha1, Hb1, Ha2, Ha3, Hb2, Hb3. reflexivity.
Qed.

Lemma blanks_ok_Tn : forall il, blanks_ok (Tn il) = true.
Proof.
  intros il. unfold Tn, repeat_str. induction il as [|n IH]; [reflexivity|].
  cbn [repeat concat]. apply blanks_ok_app; [reflexivity|exact IH].
Qed.

Lemma blanks_ok_Sp : forall est il, blanks_ok (Sp est il) = true.
Proof. intros est il. unfold Sp. destruct est; [apply blanks_ok_Tn|reflexivity]. Qed.

Lemma blanks_ok_isspace : forall s, blanks_ok s = true -> forallb isspace s = true.
Proof.
  intros s H. unfold blanks_ok in H. rewrite !andb_true_iff in H. apply H.
Qed.

Lemma cont_ok_intro : forall s,
    mem_c nl s = false -> mem_c tabch s = false -> (exists r, s = ch 58 :: r) -> cont_ok s = true.
Proof.
  intros s Hn Ht [r E]. unfold cont_ok. rewrite Hn, Ht. subst s. reflexivity.
Qed.

Definition text_nl (l : list ln) : str := concat (map (fun x => render_ln x ++ [nl]) l).

Lemma text_nl_app : forall a b, text_nl (a ++ b) = text_nl a ++ text_nl b.
Proof. intros a b. unfold text_nl. rewrite map_app, concat_app. reflexivity. Qed.

Lemma text_nl_cons : forall x l, text_nl (x :: l) = render_ln x ++ nl :: text_nl l.
Proof. intros x l. unfold text_nl. cbn [map concat]. rewrite <- app_assoc. reflexivity. Qed.

Lemma text_nl_nil : text_nl [] = [].
Proof. reflexivity. Qed.

Ltac tn_nil := change (text_nl []) with (@nil ascii).

Lemma text_of_lns_snoc : forall l x, text_of_lns (l ++ [x]) = text_nl l ++ render_ln x.
Proof.
  intros l x. induction l as [|a r IH]; [reflexivity|].
  unfold text_of_lns in *. cbn [app map].
  destruct (map render_ln (r ++ [x])) as [|y ys] eqn:E.
  - exfalso. destruct r; discriminate E.
  - rewrite join_cons_cons. rewrite IH. rewrite text_nl_cons. norm_app. reflexivity.
Qed.

Lemma heads_of_app : forall a b, heads_of (a ++ b) = heads_of a ++ heads_of b.
Proof. intros a b. unfold heads_of. rewrite map_app, filter_app. reflexivity. Qed.

Definition dent_text (il : nat) (e : dent) : str :=
  rest_doc_line (dn e) (dd e) ++ nl :: Tn il
  ++ match dt e with Some t => rest_typ_line (dn e) t ++ nl :: Tn il | None => [] end.

Lemma entry_text_dent : forall il et n d g,
    entry_text il et n d (g_typ g) = dent_text il (n, d, emitted_typ et g).
Proof.
  intros il et n d g. unfold entry_text, dent_text, emitted_typ, dn, dd, dt, Tn. cbn [fst snd].
  destruct (g_typ g) as [| |t]; destruct et; reflexivity.
Qed.

Lemma nonempty_doc_line : forall n d, nonempty (rest_doc_line n d) = true.
Proof. intros n d. destruct (rest_doc_line_head n d) as [r E]. rewrite E. reflexivity. Qed.

Lemma nonempty_typ_line : forall n t, nonempty (rest_typ_line n t) = true.
Proof. intros n t. destruct (rest_typ_line_head n t) as [r E]. rewrite E. reflexivity. Qed.

Lemma dent_text_ne : forall il e, nonempty (dent_text il e) = true.
Proof.
  intros il e. unfold dent_text. destruct (rest_doc_line_head (dn e) (dd e)) as [r E]. rewrite E. reflexivity.
Qed.

Definition elines (S0 T0 : str) (e : dent) : list ln :=
  (S0, rest_doc_line (dn e) (dd e))
  :: (match dt e with Some t => [(T0, rest_typ_line (dn e) t)] | None => [] end ++ [(T0, [])]).

Lemma text_nl_elines : forall S0 il e, text_nl (elines S0 (Tn il) e) = S0 ++ dent_text il e ++ [nl].
Proof.
  intros S0 il e. unfold elines, dent_text. destruct (dt e) as [t|];
    cbn [app]; rewrite ?text_nl_cons; tn_nil; unfold render_ln; cbn [fst snd]; norm_app; reflexivity.
Qed.

Definition plines (S0 T0 : str) (docs : list dent) : list ln :=
  match docs with
  | [] => [(S0, [])]
  | _ => concat (map (elines S0 T0) docs)
  end.

Lemma text_nl_plines_cons : forall S0 il docs e,
    text_nl (concat (map (elines S0 (Tn il)) (e :: docs)))
    = S0 ++ join (nl :: S0) (map (dent_text il) (e :: docs)) ++ [nl].
Proof.
  intros S0 il docs. induction docs as [|e2 r IH]; intros e.
  - cbn [map concat join]. rewrite app_nil_r. apply text_nl_elines.
  - change (map (dent_text il) (e :: e2 :: r)) with (dent_text il e :: dent_text il e2 :: map (dent_text il) r).
    rewrite join_cons_cons.
    change (concat (map (elines S0 (Tn il)) (e :: e2 :: r)))
      with (elines S0 (Tn il) e ++ concat (map (elines S0 (Tn il)) (e2 :: r))).
    rewrite text_nl_app, text_nl_elines, (IH e2).
    change (dent_text il e2 :: map (dent_text il) r) with (map (dent_text il) (e2 :: r)).
    norm_app. reflexivity.
Qed.

Lemma text_nl_plines : forall S0 il docs,
    text_nl (plines S0 (Tn il) docs) = S0 ++ join (nl :: S0) (map (dent_text il) docs) ++ [nl].
Proof.
  intros S0 il docs. destruct docs as [|e r].
  - unfold plines. rewrite text_nl_cons; tn_nil. unfold render_ln. cbn [fst snd map join]. norm_app. reflexivity.
  - unfold plines. apply text_nl_plines_cons.
Qed.

Definition rlines (ind T0 : str) (r : option rent) : list ln :=
  match r with
  | None => []
  | Some (d, ot) =>
    (ind, rest_doc_line (L "return_type") d)
    :: match ot with Some t => [(T0, rest_typ_line (L "return_type") t)] | None => [] end
  end.

Definition rtext (il : nat) (S0 : str) (r : option rent) : str :=
  match r with
  | None => []
  | Some (d, ot) =>
    (rest_doc_line (L "return_type") d
     ++ match ot with Some t => nl :: Tn il ++ rest_typ_line (L "return_type") t | None => [] end)
    ++ [nl] ++ S0
  end.

(* Each part of the text (summary, parameters, return entry) begins on a line whose indentation [ind] is already
   written and, when it writes anything, ends with the indentation S0 of the line that follows. *)
Definition after {A} (S0 ind : str) (o : option A) : str := match o with Some _ => S0 | None => ind end.

Lemma rtext_lines : forall il S0 ind r,
    ind ++ rtext il S0 r = text_nl (rlines ind (Tn il) r) ++ after S0 ind r.
Proof.
  intros il S0 ind [[d ot]|]; [|apply app_nil_r].
  unfold rlines, rtext, after. destruct ot as [t|];
    rewrite !text_nl_cons; tn_nil; unfold render_ln; cbn [fst snd]; norm_app; reflexivity.
Qed.

Lemma last_c_doc_line : forall n d, d <> [] -> last_c (rest_doc_line n d) = last_c d.
Proof.
  intros n d Hd. unfold rest_doc_line. rewrite !app_assoc. apply last_c_app_nonnil. exact Hd.
Qed.

Lemma last_c_typ_line : forall n t, last_c (rest_typ_line n t) = Some (ch 96).
Proof.
  intros n t. unfold rest_typ_line. rewrite !app_assoc. rewrite last_c_app_nonnil; [reflexivity|discriminate].
Qed.

Lemma forallb_isspace_nl_Tn : forall il, forallb isspace (nl :: Tn il) = true.
Proof.
  intros il. cbn [forallb]. rewrite (blanks_ok_isspace _ (blanks_ok_Tn il)). reflexivity.
Qed.

Lemma rstrip_dent_text : forall il e,
    dd e <> [] ->
    (dt e = None -> forall l, last_c (dd e) = Some l -> isspace l = false) ->
    rstrip (dent_text il e)
    = rest_doc_line (dn e) (dd e)
      ++ match dt e with Some t => nl :: Tn il ++ rest_typ_line (dn e) t | None => [] end.
Proof.
  intros il e Hne Hl. unfold dent_text, rstrip. destruct (dt e) as [t|].
  - assert (E : rest_doc_line (dn e) (dd e) ++ nl :: Tn il ++ rest_typ_line (dn e) t ++ nl :: Tn il
                = (rest_doc_line (dn e) (dd e) ++ nl :: Tn il ++ rest_typ_line (dn e) t) ++ nl :: Tn il).
    { norm_app. reflexivity. }
    rewrite E.
    apply (rstrip_by_app isspace _ _ (ch 96)).
    + apply forallb_isspace_nl_Tn.
    + rewrite last_c_app_nonnil; [|discriminate].
      change (nl :: Tn il ++ rest_typ_line (dn e) t) with ((nl :: Tn il) ++ rest_typ_line (dn e) t).
      rewrite last_c_app_nonnil; [apply last_c_typ_line|apply rest_typ_line_ne].
    + reflexivity.
  - rewrite !app_nil_r.
    destruct (last_c (dd e)) as [l|] eqn:El.
    + apply (rstrip_by_app isspace _ _ l).
      * apply forallb_isspace_nl_Tn.
      * rewrite last_c_doc_line; assumption.
      * apply (Hl eq_refl l eq_refl).
    + apply last_c_nil_iff in El. contradiction.
Qed.

Lemma param_of_gparam_shape : forall g p,
    param_of_gparam g = Some p -> p = mkParam (g_doc g) (g_typ g) (p_default p).
Proof.
  intros g p H. unfold param_of_gparam in H.
  destruct (g_default g) as [[v|e|r]|]; inversion H; reflexivity.
Qed.

(* td_param on the entry (name, p) writes the text of the documented entry oe, or nothing *)
Definition writes (w : nat) (ww edd et : bool) (il : nat) (kp : str * param) (oe : option dent) : Prop :=
  exists p', td_param w ww edd et il (fst kp) (snd kp) = Ok (option_map (dent_text il) oe, p').

Lemma td_param_entry : forall w ww edd et il n g,
    entry_emit_ok w ww edd et n g ->
    exists p, param_of_gparam g = Some p /\ writes w ww edd et il (n, p) (dent_of et (n, g)).
Proof.
  intros w ww edd et il n g H. unfold entry_emit_ok in H. destruct H as [Hn [Hnt H]].
  unfold dent_of, writes. cbn [fst snd]. destruct (prose_of g) as [d|] eqn:Ep.
  - destruct H as [Hdoc [[c [r [l [Ed [Hc [Hl Hm]]]]]] [Hnl [Htab [Hna [[dflt [Hp Hedd]] [Hww Htyp]]]]]]].
    assert (Htyp' : match g_typ g with
                    | Has t => et = true ->
                               t <> [] /\ mem_c nl t = false
                               /\ (ww = true -> fill w (rest_typ_line n t) = Ok (rest_typ_line n t)
                                                /\ List.length (rest_typ_line n t) <= w)
                    | _ => True
                    end).
    { destruct (g_typ g) as [| |t]; try exact I.
      intros E. destruct (Htyp E) as [A [B [_ D]]]. split; [exact A|]. split; [exact B|exact D]. }
    assert (Hm' : mem_c l [sp; nl] = false).
    { revert Hm. change (L " " ++ [nl; ch 92]) with [sp; nl; ch 92]. unfold mem_c. cbn [existsb].
      rewrite !orb_false_iff. tauto. }
    destruct (sdd_doc_kept n d (g_typ g) dflt edd Hna Hedd) as [p' Hsdd].
    exists (mkParam (Has d) (g_typ g) dflt). split; [exact Hp|].
    cbn [option_map]. rewrite <- entry_text_dent. subst d.
    apply (td_param_written w ww edd et il n c r (g_typ g) dflt (c :: r) p' l); try assumption.
    exists c, r. split; [reflexivity|exact Hc].
  - destruct H as [Hgd [Het [p Hp]]].
    pose proof (param_of_gparam_shape g p Hp) as Es.
    exists p. split; [exact Hp|]. rewrite Es. eexists. apply td_param_undoc; [|exact Het].
    destruct Hgd as [E|E]; rewrite E; reflexivity.
Qed.

(* the lines of a documented entry are well-formed contents *)
Definition dent_lines_ok (e : dent) : Prop :=
  dd e <> []
  /\ cont_ok (rest_doc_line (dn e) (dd e)) = true
  /\ match dt e with Some t => cont_ok (rest_typ_line (dn e) t) = true | None => True end.

Lemma entry_dent_lines_ok : forall w ww edd et n g d,
    entry_emit_ok w ww edd et n g -> prose_of g = Some d -> dent_lines_ok (n, d, emitted_typ et g).
Proof.
  intros w ww edd et n g d H Ep. unfold entry_emit_ok in H. destruct H as [Hn [Hnt H]].
  rewrite Ep in H.
  destruct H as [Hdoc [[c [r [l [Ed [Hc [Hl Hm]]]]]] [Hnl [Htab [Hna [_ [_ Htyp]]]]]]].
  unfold dent_lines_ok, dn, dd, dt. cbn [fst snd]. split; [subst d; discriminate|]. split.
  - apply cont_ok_intro.
    + apply rest_doc_line_no_nl; assumption.
    + apply rest_doc_line_no_tab; assumption.
    + apply rest_doc_line_head.
  - unfold emitted_typ. destruct et; [|exact I].
    destruct (g_typ g) as [| |t]; try exact I.
    destruct (Htyp eq_refl) as [_ [B [C _]]].
    apply cont_ok_intro.
    + apply rest_typ_line_no_nl; assumption.
    + apply rest_typ_line_no_tab; assumption.
    + apply rest_typ_line_head.
Qed.

Lemma docs_ok : forall w ww edd et params,
    Forall (fun kv => entry_emit_ok w ww edd et (fst kv) (snd kv)) params ->
    Forall dent_lines_ok (docs_of et params).
Proof.
  intros w ww edd et params H. induction H as [|[n g] rest Hx Hrest IH]; [constructor|].
  unfold docs_of in *. cbn [map]. unfold dent_of at 1. cbn [fst snd] in *.
  destruct (prose_of g) as [d|] eqn:Ep; cbn [cat_options]; [|exact IH].
  constructor; [|exact IH]. apply (entry_dent_lines_ok w ww edd et n g d Hx Ep).
Qed.

Definition rent_lines_ok (r : option rent) : Prop :=
  match r with Some (d, ot) => dent_lines_ok (L "return_type", d, ot) | None => True end.

Definition p2s (w : nat) (ww edd et : bool) (il : nat) (k : str) (p : param) : outcome (str * param) :=
  do op <- td_param w ww edd et il k p;
  Ok (match fst op with Some s => s | None => [] end, snd op).

Lemma emit_items_written : forall w ww edd et il ps oes,
    Forall2 (writes w ww edd et il) ps oes ->
    exists strs ps', emit_items (p2s w ww edd et il) ps = Ok (strs, ps')
                     /\ filter nonempty strs = map (dent_text il) (cat_options oes).
Proof.
  intros w ww edd et il ps oes H.
  induction H as [|[k p] oe ps oes [p' Htd] _ [strs [ps' [Hemit Hfilt]]]].
  - exists [], []. split; reflexivity.
  - cbn [fst snd] in Htd.
    exists ((match option_map (dent_text il) oe with Some s => s | None => [] end) :: strs), ((k, p') :: ps').
    split.
    + cbn [emit_items]. unfold p2s at 1. rewrite Htd, bind_Ok. cbn [fst snd]. rewrite bind_Ok.
      rewrite Hemit, bind_Ok. reflexivity.
    + destruct oe as [e|]; cbn [option_map cat_options filter map].
      * rewrite dent_text_ne, Hfilt. reflexivity.
      * exact Hfilt.
Qed.

Lemma params_written : forall w ww edd et il params,
    Forall (fun kv => entry_emit_ok w ww edd et (fst kv) (snd kv)) params ->
    exists ps, params_of params = Some ps /\ Forall2 (writes w ww edd et il) ps (map (dent_of et) params).
Proof.
  intros w ww edd et il params H. induction H as [|[n g] rest Hx _ [ps [Hps IH]]].
  - exists []. split; [reflexivity|constructor].
  - destruct (td_param_entry w ww edd et il n g Hx) as [p [Hp Hw]].
    exists ((n, p) :: ps). split; [cbn [params_of]; rewrite Hp, Hps; reflexivity|].
    constructor; assumption.
Qed.

Definition hdr_comp (w : nat) (ww : bool) (il : nat) (S0 : str) (i : ir) : outcome str :=
  match truthy_fld (ir_doc i) with
  | Some d =>
    do f <- td_fill w ww il d;
    Ok ([nl] ++ indent S0 f
        ++ (if endswith [nl] (rstrip_chars (L " " ++ [tabch]) d) then [] else [nl])
        ++ S0)
  | None => Ok []
  end.

Definition pl_comp (w : nat) (ww edd et : bool) (il : nat) (S0 : str) (ps : list (str * param))
  : outcome (str * list (str * param)) :=
  match ps with
  | [] => Ok ([], ps)
  | _ =>
    do r <- emit_items (p2s w ww edd et il) ps;
    Ok ([nl] ++ S0 ++ join (nl :: S0) (filter nonempty (fst r)) ++ [nl] ++ S0, snd r)
  end.

Definition rt_comp (w : nat) (ww edd et : bool) (il : nat) (S0 : str) (i : ir) (ret : option param)
  : outcome (str * fld gparam) :=
  match ret with
  | Some p =>
    if gparam_is_empty (gparam_of_param p) then Ok ([], ir_returns i)
    else
      do op <- td_param w ww edd et il (L "return_type") p;
      match fst op with
      | None => Ok ([], ir_returns i)
      | Some s => if nonempty s then Ok (rstrip s ++ [nl] ++ S0, Has (gparam_of_param (snd op)))
                  else Ok ([], ir_returns i)
      end
  | None => Ok ([], ir_returns i)
  end.

Definition ret_opt (i : ir) : option (option param) :=
  match ir_returns i with Has g => option_map Some (param_of_gparam g) | _ => Some None end.

Lemma to_docstring_unfold : forall w i edd il et est ww,
    to_docstring w i edd Rest il et est ww
    = match params_of (ir_params i), ret_opt i with
      | Some ps, Some ret =>
        do header <- hdr_comp w ww il (Sp est il) i;
        do pl <- pl_comp w ww edd et il (Sp est il) ps;
        do rt <- rt_comp w ww edd et il (Sp est il) i ret;
        Ok (header ++ fst pl ++ fst rt, i)
      | _, _ => Err Unmodelled
      end.
Proof. reflexivity. Qed.

Definition hdr_text (S0 : str) (so : option str) : str :=
  match so with Some d0 => nl :: S0 ++ d0 ++ nl :: S0 | None => [] end.

Definition pl_text (S0 : str) (il : nat) (pne : bool) (docs : list dent) : str :=
  if pne then nl :: S0 ++ join (nl :: S0) (map (dent_text il) docs) ++ nl :: S0 else [].

Definition pne_of {A} (l : list A) : bool := match l with [] => false | _ => true end.

Lemma indent_one : forall S0 c r,
    mem_c nl (c :: r) = false -> isspace c = false -> indent S0 (c :: r) = S0 ++ c :: r.
Proof.
  intros S0 c r Hnl Hc. unfold indent. rewrite (split_nl_one _ Hnl).
  cbn [indent_lines forallb]. rewrite Hc. reflexivity.
Qed.

Lemma endswith_nl_rstrip : forall cs s, mem_c nl s = false -> endswith [nl] (rstrip_chars cs s) = false.
Proof.
  intros cs s Hnl. destruct (endswith [nl] (rstrip_chars cs s)) eqn:E; [|reflexivity].
  apply endswith_single in E. apply last_c_In in E. unfold rstrip_chars in E.
  destruct (FillFacts.rstrip_by_decomp (fun c => mem_c c cs) s) as [t [Es _]].
  assert (Hin : In nl s). { rewrite Es. apply in_or_app. left. exact E. }
  apply mem_c_In in Hin. rewrite Hin in Hnl. discriminate.
Qed.

Lemma hdr_comp_line : forall w ww il S0 i c r,
    truthy_fld (ir_doc i) = Some (c :: r) -> isspace c = false -> mem_c nl (c :: r) = false ->
    (ww = true -> List.length (c :: r) <= w) ->
    hdr_comp w ww il S0 i = Ok (hdr_text S0 (Some (c :: r))).
Proof.
  intros w ww il S0 i c r Ed Hc Hnl Hw. unfold hdr_comp. rewrite Ed.
  rewrite (td_fill_fits w ww il (c :: r) Hnl Hw). rewrite bind_Ok.
  rewrite (indent_one S0 c r Hnl Hc). rewrite (endswith_nl_rstrip _ _ Hnl).
  unfold hdr_text. norm_app. reflexivity.
Qed.

Lemma hdr_comp_eq : forall w ww il S0 i,
    sum_emit_ok w ww i -> hdr_comp w ww il S0 i = Ok (hdr_text S0 (sum_of i)).
Proof.
  intros w ww il S0 i H. unfold sum_emit_ok, sum_of in *.
  destruct (truthy_fld (ir_doc i)) as [d0|] eqn:Ed; [|unfold hdr_comp; rewrite Ed; reflexivity].
  destruct H as [[c [r [E Hc]]] [Hnl [_ Hw]]]. subst d0. apply hdr_comp_line; assumption.
Qed.

Lemma pl_comp_written : forall w ww edd et il S0 ps oes,
    Forall2 (writes w ww edd et il) ps oes ->
    exists x, pl_comp w ww edd et il S0 ps = Ok (pl_text S0 il (pne_of ps) (cat_options oes), x).
Proof.
  intros w ww edd et il S0 ps oes H.
  destruct (emit_items_written w ww edd et il ps oes H) as [strs [ps' [Hemit Hfilt]]].
  destruct ps as [|kp r]; [eexists; reflexivity|].
  eexists. unfold pl_comp. rewrite Hemit, bind_Ok. cbn [fst snd]. rewrite Hfilt. reflexivity.
Qed.

Lemma rt_comp_eq : forall w ww edd et il S0 i,
    (match ir_returns i with
     | Has g => entry_emit_ok w ww edd et (L "return_type") g
     | FNone => True
     | Missing => False
     end) ->
    (forall g d l, ir_returns i = Has g -> prose_of g = Some d -> emitted_typ et g = None ->
                   last_c d = Some l -> isspace l = false) ->
    exists ret, ret_opt i = Some ret
                /\ exists x, rt_comp w ww edd et il S0 i ret = Ok (rtext il S0 (rent_of et (ir_returns i)), x).
Proof.
  intros w ww edd et il S0 i H Hlast. unfold ret_opt, rt_comp.
  destruct (ir_returns i) as [| |g] eqn:Er.
  - contradiction.
  - exists None. split; [reflexivity|]. eexists. reflexivity.
  - destruct (td_param_entry w ww edd et il (L "return_type") g H) as [p [Hp [p' Htd]]]. cbn [fst snd] in Htd.
    exists (Some p). rewrite Hp. split; [reflexivity|].
    pose proof (param_of_gparam_shape g p Hp) as Es.
    unfold dent_of in Htd. cbn [fst snd] in Htd. cbn [rent_of].
    destruct (prose_of g) as [d|] eqn:Ep.
    + pose proof (entry_dent_lines_ok w ww edd et (L "return_type") g d H Ep) as Hok.
      destruct Hok as [Hne _]. unfold dd in Hne. cbn [fst snd] in Hne.
      assert (Hgd : g_doc g = Has d).
      { unfold entry_emit_ok in H. rewrite Ep in H. destruct H as [_ [_ [Hd _]]]. exact Hd. }
      assert (Hemp : gparam_is_empty (gparam_of_param p) = false).
      { rewrite Es. unfold gparam_is_empty, gparam_of_param. cbn [g_doc g_typ g_default p_doc p_typ p_default].
        rewrite Hgd. reflexivity. }
      rewrite Hemp. rewrite Htd, bind_Ok. cbn [fst snd option_map]. rewrite dent_text_ne.
      rewrite rstrip_dent_text.
      * unfold rtext, dn, dd, dt. cbn [fst snd]. eexists. reflexivity.
      * unfold dd. cbn [fst snd]. exact Hne.
      * unfold dd, dt. cbn [fst snd]. intros Et l Hl. apply (Hlast g d l eq_refl Ep Et Hl).
    + destruct (gparam_is_empty (gparam_of_param p)).
      * eexists. reflexivity.
      * rewrite Htd, bind_Ok. cbn [fst snd option_map]. eexists. reflexivity.
Qed.

Lemma elines_ok : forall S0 T0 e,
    blanks_ok S0 = true -> blanks_ok T0 = true -> dent_lines_ok e -> forallb ln_ok (elines S0 T0 e) = true.
Proof.
  intros S0 T0 e HS HT [_ [Hd Ht]]. unfold elines. destruct (dt e) as [t|];
    cbn [app forallb]; rewrite !ln_ok_split, ?HS, ?HT, ?Hd, ?Ht; reflexivity.
Qed.

Lemma plines_ok : forall S0 T0 docs,
    blanks_ok S0 = true -> blanks_ok T0 = true -> Forall dent_lines_ok docs ->
    forallb ln_ok (plines S0 T0 docs) = true.
Proof.
  intros S0 T0 docs HS HT H.
  assert (G : forallb ln_ok (concat (map (elines S0 T0) docs)) = true).
  { induction H as [|e r He Hr IH]; [reflexivity|].
    cbn [map concat]. rewrite forallb_app, IH, (elines_ok S0 T0 e HS HT He). reflexivity. }
  destruct docs as [|e r].
  - unfold plines. cbn [forallb]. rewrite ln_ok_split, HS. reflexivity.
  - exact G.
Qed.

Lemma rlines_ok : forall ind T0 r,
    blanks_ok ind = true -> blanks_ok T0 = true -> rent_lines_ok r -> forallb ln_ok (rlines ind T0 r) = true.
Proof.
  intros ind T0 r HS HT H. destruct r as [[d ot]|]; [|reflexivity].
  unfold rent_lines_ok, dent_lines_ok, dn, dd, dt in H. cbn [fst snd] in H. destruct H as [_ [Hd Ht]].
  unfold rlines. destruct ot as [t|];
    cbn [forallb]; rewrite !ln_ok_split, ?HS, ?HT, ?Hd, ?Ht; reflexivity.
Qed.

Lemma heads_elines : forall S0 T0 e, heads_of (elines S0 T0 e) = dent_heads e.
Proof.
  intros S0 T0 e. unfold heads_of, elines, dent_heads. destruct (dt e) as [t|];
    cbn [app map filter fst snd]; rewrite ?nonempty_doc_line, ?nonempty_typ_line; reflexivity.
Qed.

Lemma heads_plines : forall S0 T0 docs, heads_of (plines S0 T0 docs) = concat (map dent_heads docs).
Proof.
  intros S0 T0 docs.
  assert (G : heads_of (concat (map (elines S0 T0) docs)) = concat (map dent_heads docs)).
  { induction docs as [|e r IH]; [reflexivity|].
    cbn [map concat]. rewrite heads_of_app, heads_elines, IH. reflexivity. }
  destruct docs as [|e r]; [reflexivity|exact G].
Qed.

Lemma heads_rlines : forall ind T0 r, heads_of (rlines ind T0 r) = rent_heads r.
Proof.
  intros ind T0 r. destruct r as [[d ot]|]; [|reflexivity].
  unfold heads_of, rlines, rent_heads. destruct ot as [t|];
    cbn [map filter fst snd]; rewrite ?nonempty_doc_line, ?nonempty_typ_line; reflexivity.
Qed.

Definition hlines (ind S0 : str) (so : option str) : list ln :=
  match so with Some d0 => [(ind, []); (S0, d0)] | None => [] end.

Definition pplines (ind S0 T0 : str) (pne : bool) (docs : list dent) : list ln :=
  if pne then (ind, []) :: plines S0 T0 docs else [].

Lemma hdr_text_lines : forall S0 ind so, ind ++ hdr_text S0 so = text_nl (hlines ind S0 so) ++ after S0 ind so.
Proof.
  intros S0 ind [d0|]; cbn [hdr_text hlines after]; [|apply app_nil_r].
  rewrite !text_nl_cons. tn_nil. unfold render_ln. cbn [fst snd]. norm_app. reflexivity.
Qed.

Lemma pl_text_lines : forall S0 il ind pne docs,
    ind ++ pl_text S0 il pne docs = text_nl (pplines ind S0 (Tn il) pne docs) ++ (if pne then S0 else ind).
Proof.
  intros S0 il ind [|] docs; cbn [pl_text pplines]; [|apply app_nil_r].
  rewrite text_nl_cons, text_nl_plines. unfold render_ln. cbn [fst snd]. norm_app. reflexivity.
Qed.

Lemma hlines_ok : forall ind S0 so,
    blanks_ok ind = true -> blanks_ok S0 = true -> (forall d0, so = Some d0 -> cont_ok d0 = true) ->
    forallb ln_ok (hlines ind S0 so) = true.
Proof.
  intros ind S0 [d0|] Hi HS Hso; [|reflexivity].
  cbn [hlines forallb]. rewrite !ln_ok_split, Hi, HS, (Hso d0 eq_refl). reflexivity.
Qed.

Lemma pplines_ok : forall ind S0 T0 pne docs,
    blanks_ok ind = true -> blanks_ok S0 = true -> blanks_ok T0 = true -> Forall dent_lines_ok docs ->
    forallb ln_ok (pplines ind S0 T0 pne docs) = true.
Proof.
  intros ind S0 T0 [|] docs Hi HS HT Hd; [|reflexivity].
  cbn [pplines forallb]. rewrite ln_ok_split, Hi, (plines_ok S0 T0 docs HS HT Hd). reflexivity.
Qed.

Lemma heads_hlines : forall ind S0 so, (forall d0, so = Some d0 -> d0 <> []) ->
    heads_of (hlines ind S0 so) = match so with Some d0 => [d0] | None => [] end.
Proof.
  intros ind S0 [d0|] Hso; [|reflexivity]. pose proof (Hso d0 eq_refl) as Hn.
  destruct d0; [contradiction|reflexivity].
Qed.

Lemma heads_pplines : forall ind S0 T0 pne docs, (pne = false -> docs = []) ->
    heads_of (pplines ind S0 T0 pne docs) = concat (map dent_heads docs).
Proof.
  intros ind S0 T0 [|] docs Hp; [apply heads_plines|rewrite (Hp eq_refl); reflexivity].
Qed.

(* all the lines; the last one holds the indentation only *)
Definition all_lines (S0 T0 : str) (so : option str) (pne : bool) (docs : list dent) (r : option rent)
  : list ln :=
  let i1 := after S0 [] so in
  let i2 := if pne then S0 else i1 in
  (hlines [] S0 so ++ pplines i1 S0 T0 pne docs ++ rlines i2 T0 r) ++ [(S0, [])].

Lemma all_lines_text : forall il S0 so pne docs r,
    (so = None -> pne = false -> r <> None) ->
    hdr_text S0 so ++ pl_text S0 il pne docs ++ rtext il S0 r
    = text_of_lns (all_lines S0 (Tn il) so pne docs r).
Proof.
  intros il S0 so pne docs r Hr. unfold all_lines. cbv zeta.
  set (i1 := after S0 [] so). set (i2 := if pne then S0 else i1).
  assert (E : after S0 i2 r = S0).
  { unfold i2, i1. destruct r; [reflexivity|]. destruct pne; [reflexivity|]. destruct so; [reflexivity|].
    exfalso. apply Hr; reflexivity. }
  rewrite text_of_lns_snoc, !text_nl_app. unfold render_ln at 1. cbn [fst snd]. rewrite app_nil_r.
  pose proof (hdr_text_lines S0 [] so) as H1. cbn [app] in H1. fold i1 in H1.
  rewrite H1, <- app_assoc, (app_assoc i1), (pl_text_lines S0 il i1 pne docs).
  change (if pne then S0 else i1) with i2.
  rewrite <- (app_assoc _ i2), (rtext_lines il S0 i2 r), E, <- !app_assoc. reflexivity.
Qed.

Lemma all_lines_ne : forall S0 T0 so pne docs r, all_lines S0 T0 so pne docs r <> [].
Proof.
  intros S0 T0 so pne docs r H. unfold all_lines in H. cbv zeta in H.
  apply app_eq_nil in H. destruct H as [_ H]. discriminate H.
Qed.

Lemma all_lines_ok : forall S0 T0 so pne docs r,
    blanks_ok S0 = true -> blanks_ok T0 = true ->
    (forall d0, so = Some d0 -> cont_ok d0 = true) ->
    Forall dent_lines_ok docs -> rent_lines_ok r ->
    forallb ln_ok (all_lines S0 T0 so pne docs r) = true.
Proof.
  intros S0 T0 so pne docs r HS HT Hso Hdocs Hr. unfold all_lines. cbv zeta.
  assert (H1 : blanks_ok (after S0 [] so) = true) by (destruct so; [exact HS|reflexivity]).
  assert (H2 : blanks_ok (if pne then S0 else after S0 [] so) = true) by (destruct pne; assumption).
  rewrite !forallb_app, (hlines_ok [] S0 so eq_refl HS Hso), (pplines_ok _ S0 T0 pne docs H1 HS HT Hdocs),
    (rlines_ok _ T0 r H2 HT Hr).
  cbn [forallb]. rewrite ln_ok_split, HS. reflexivity.
Qed.

Lemma all_lines_heads : forall S0 T0 so pne docs r,
    (forall d0, so = Some d0 -> d0 <> []) ->
    (pne = false -> docs = []) ->
    heads_of (all_lines S0 T0 so pne docs r) = heads so docs r.
Proof.
  intros S0 T0 so pne docs r Hso Hp. unfold all_lines, heads. cbv zeta.
  rewrite !heads_of_app, (heads_hlines [] S0 so Hso), (heads_pplines _ S0 T0 pne docs Hp), heads_rlines.
  change (heads_of [(S0, [])]) with (@nil str). rewrite app_nil_r. reflexivity.
Qed.

(* how a caller gets the extra hypothesis on the last character of the return prose *)
Lemma last_not_blank : forall d l,
    C01Spec.plain_blank_only d = true -> last_c d = Some l ->
    mem_c l (L " " ++ [nl; ch 92]) = false -> isspace l = false.
Proof.
  intros d l Hp Hl Hm. apply last_c_In in Hl.
  unfold C01Spec.plain_blank_only in Hp. rewrite forallb_forall in Hp. specialize (Hp l Hl).
  change (L " " ++ [nl; ch 92]) with (sp :: [nl; ch 92]) in Hm. rewrite mem_c_cons in Hm.
  apply orb_false_iff in Hm. destruct Hm as [Hsp _]. rewrite Hsp, orb_false_r in Hp.
  apply negb_true_iff in Hp. exact Hp.
Qed.

Lemma rent_of_lines_ok : forall w ww edd et r,
    (match r with
     | Has g => entry_emit_ok w ww edd et (L "return_type") g
     | FNone => True
     | Missing => False
     end) ->
    rent_lines_ok (rent_of et r).
Proof.
  intros w ww edd et r H. destruct r as [| |g]; try exact I.
  cbn [rent_of]. destruct (prose_of g) as [d|] eqn:Ep; [|exact I].
  unfold rent_lines_ok. apply (entry_dent_lines_ok w ww edd et (L "return_type") g d H Ep).
Qed.

Theorem to_docstring_lines : forall w i edd il et est ww,
    sum_emit_ok w ww i ->
    Forall (fun kv => entry_emit_ok w ww edd et (fst kv) (snd kv)) (ir_params i) ->
    (match ir_returns i with
     | Has g => entry_emit_ok w ww edd et (L "return_type") g
     | FNone => True
     | Missing => False
     end) ->
    (forall g d l, ir_returns i = Has g -> prose_of g = Some d -> emitted_typ et g = None ->
                   last_c d = Some l -> isspace l = false) ->
    (docs_of et (ir_params i) <> [] \/ rent_of et (ir_returns i) <> None) ->
    exists text i' lns,
      to_docstring w i edd Rest il et est ww = Ok (text, i')
      /\ text = text_of_lns lns /\ lns <> [] /\ forallb ln_ok lns = true
      /\ heads_of lns = heads (sum_of i) (docs_of et (ir_params i)) (rent_of et (ir_returns i)).
Proof.
  intros w i edd il et est ww Hsum Hpar Hret Hlast Hdoc.
  destruct (params_written w ww edd et il (ir_params i) Hpar) as [ps [Hps Hw]].
  destruct (pl_comp_written w ww edd et il (Sp est il) ps _ Hw) as [x1 Hpl]. fold (docs_of et (ir_params i)) in Hpl.
  destruct (rt_comp_eq w ww edd et il (Sp est il) i Hret Hlast) as [ret [Hro [x2 Hrt]]].
  assert (Hpne : pne_of ps = false -> docs_of et (ir_params i) = []).
  { intros E. destruct ps; [|discriminate E]. revert Hw.
    destruct (ir_params i); intros Hw; [reflexivity|inversion Hw]. }
  exists (hdr_text (Sp est il) (sum_of i)
          ++ pl_text (Sp est il) il (pne_of ps) (docs_of et (ir_params i))
          ++ rtext il (Sp est il) (rent_of et (ir_returns i))).
  exists i.
  exists (all_lines (Sp est il) (Tn il) (sum_of i) (pne_of ps) (docs_of et (ir_params i))
                    (rent_of et (ir_returns i))).
  split.
  { rewrite to_docstring_unfold. rewrite Hps, Hro.
    rewrite (hdr_comp_eq w ww il (Sp est il) i Hsum), bind_Ok.
    rewrite Hpl, bind_Ok. rewrite Hrt, bind_Ok. reflexivity. }
  split.
  { apply all_lines_text. intros _ E. destruct Hdoc as [Hd|Hr]; [|exact Hr].
    exfalso. apply Hd. apply Hpne. exact E. }
  split; [apply all_lines_ne|].
  split.
  - apply all_lines_ok.
    + apply blanks_ok_Sp.
    + apply blanks_ok_Tn.
    + intros d0 E. unfold sum_emit_ok in Hsum. rewrite E in Hsum.
      destruct Hsum as [[c [r [Ed Hc]]] [Hnl [Htab _]]].
      unfold cont_ok. rewrite Hnl, Htab. subst d0. rewrite Hc. reflexivity.
    + apply (docs_ok w ww edd et _ Hpar).
    + apply (rent_of_lines_ok w ww edd et _ Hret).
  - apply all_lines_heads.
    + intros d0 E. unfold sum_emit_ok in Hsum. rewrite E in Hsum.
      destruct Hsum as [[c [r [Ed _]]] _]. subst d0. discriminate.
    + exact Hpne.
Qed.
Print Assumptions to_docstring_lines.
