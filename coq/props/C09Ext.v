(* C09Ext -- beside props/C09.v: the last step of the property's own wording.
   props/C09.v proves that after a successful fault-free run every target is `stable` (found at its location and equal,
   to cmp, to the re-emission of the truth).  Here the emit / parse / compare layers are INSTANTIATED
   (model/C09Instance.v: emit_k := the EmitAst emitters with the docstring text composed as in C02DocLinkDefs /
   C03DocLinkDefs / DocEmit.emit_docstring and the options _default_options yields; cmp := equality of the PyAst tree
   with the emitted node or with its written form, which is what cmp_ast(o, n) or cmp_ast(o, _as_written(n)) decides on
   the modelled fragment; the per-kind parser := ParseAst.parse_class / parse_argparse_ast / ParseSig.parse_function
   applied to the NODE, its docstring read from the node) and composed with the round-trip theorems of the converter
   layers: a stable target, WHEN PARSED with the parser of its kind, yields an IR with the same interface as the truth
   IR (same parameter names, order, types, prose, defaults: C02Spec.same_interface; for argparse
   C04Spec.same_interface_argparse, which adds the description).  The lemmas live in
   proofs/C09Interface.v.

   PROVED here, for every tree layer (tree, parse_file, find, rewrite, render_node, render_tree), every parse_truth,
   every line width w and parse table pt, any number of parameters, any pre-state of the target files:
   - class targets: closed.  Inside guard_C09_class w ir = guard_C02_ast ir && doc_link_ok w false true ir (the guard
     of C02_partial and the side condition of C02_partial_closed at the options conformance uses) the emitted class
     parsed at the node has the interface of ir (C09_class_round_trip_node; the docstring constant of the emitted class
     is shown to be class_docstring text, i.e. set_value's quote stripping does not touch it), hence so has every
     stable class target (C09_stable_class_target_same_interface) and every class target after a successful
     fault-free run under FIX and REPLACES (C09_interface_agreement), or under FIX alone: that, or the rewriter
     declined a found definition that differs (C09_interface_agreement_settled);
   - argparse targets: the same from C04_partial, inside guard_C09_argparse w pt ir = guard_C04_ast ir
     && argparse_wrap_neutral pt ir && argparse_doc_layer_ok w ir, for a name whose last component is not empty.
     argparse_wrap_neutral (every add_argument call is the same with word_wrap on, the option conformance leaves
     on while C04_partial is stated for off) is NEEDED: C09_argparse_wrap_needed (a help text longer than the line
     comes back with a line break; same on the real code).  argparse_doc_layer_ok (the fixed docstring of the argparse
     function is emitted and read back without raising) and the non-empty name are limits of the proof (C04_partial is
     stated for a non-empty function name; no failing input is known);
   - function targets: the same inside guard_C09_function_found (see the comment above C09_function_round_trip_canon),
     and the install phase;
   - any kind: from the round trip of that kind at the truth IR as a named premise RT_at (last conjunct of
     C09_interface_agreement).

   NOT proved here (premises that stay abstract, stated precisely):
   - WRITTEN_PARSE_law as_written w pt it ww k: the parser of kind k reads from _as_written(n) =
     ast_parse(black.format_str(to_code(Module([n])))).body[0] what it reads from the emitted node n.  There is no
     model of black / ast.unparse / ast.parse of a whole definition, so as_written is a parameter.  The stronger law
     as_written n = n (ast.unparse + black then ast.parse is the identity on the tree, what RENDER_PARSE says of files)
     would give it at once but is FALSE of the real code on docstrings (black re-indents them; that is why conformance compares with
     the written form at all); on this interpreter (3.12) the found node never equals the emitted one in cmp_ast
     (parsed nodes carry type_params, emitted ones do not), so the second disjunct is the one that holds in practice.
     For class and argparse targets the premise is reduced to a structural one (C09_written_form_class,
     C09_written_form_argparse): the written form differs from the node in the docstring constant only and both
     constants clean to the same docstring-derived IR (argparse: and no statement  return (..., ...)  follows);
   - FIX and REPLACES for the instantiated emit / cmp over an abstract tree layer remain hypotheses (FIX needs
     RENDER_PARSE-like facts about files; REPLACES is false of the Locate rewriter on FunctionDef targets,
     props/C09.v C09_REPLACES_refuted -- for those only C09_interface_agreement_settled applies);
   - that real cmp_ast is at least as fine as equality of the modelled tree (it compares every _field, the model's
     stmt is a function of the fields): only this direction is used;
   - the tree layer is not instantiated here (node := PyAst.stmt; proofs/SyncLocate.v works on annotated nodes). *)
From Coq Require Import List Ascii Bool Arith ZArith.
From Coq Require String.
Import String.StringSyntax.
From DT Require Import PyStr Sexp PyVal PureUtils Defaults PyAst IR FS Sync SyncFacts.
From DT Require Import EmitAst ParseAst C02Spec C02Codec C02DocLinkDefs C04Spec C04Codec C09Instance C09Interface.
Import ListNotations.

(* cmp of the instance decides equality of trees: with the emitted node, or with its written form *)
Theorem C09_cmp_is_tree_equality : forall (aw : stmt -> stmt) (o n : stmt),
    cmp_inst aw o n = true -> o = n \/ o = aw n.
Proof. exact cmp_inst_true. Qed.
Print Assumptions C09_cmp_is_tree_equality.

(* emit.class_ -> parse.class_ AT THE NODE (docstring read from the node), no docstring hypothesis, at the options
   conformance uses; any class name, width, parse table, infer_type / word_wrap of the parser *)
Theorem C09_class_round_trip_node : forall (w : nat) (pt : ptable) (i : ir) (cn : str) (it ww : bool),
    guard_C09_class w i = true ->
    exists n i',
      emit_class_inst w pt i cn = Ok n
      /\ parse_class_node it ww n = Ok i'
      /\ ir_params i' = norm_params_C02 (ir_params i)
      /\ ir_returns i' = norm_returns_C02 (ir_returns i)
      /\ same_interface i i' = true.
Proof. exact class_round_trip_node. Qed.
Print Assumptions C09_class_round_trip_node.

(* emit.argparse_function -> parse.argparse_ast at the node, with word_wrap on as conformance calls it *)
Theorem C09_argparse_round_trip_node : forall (w : nat) (pt : ptable) (i : ir) (fc : ascii) (fr : str)
                                              (tc : ascii) (tr : str),
    guard_C09_argparse w pt i = true ->
    exists n i',
      emit_argparse_inst w pt i (fc :: fr) (Some (tc :: tr)) = Ok n
      /\ parse_argparse_node n = Ok i'
      /\ ir_params i' = norm_params_C04 false (ir_params i)
      /\ ir_doc i' = ir_doc i
      /\ same_interface_argparse (argparse_type_norm i) i' = true.
Proof. exact argparse_round_trip_node. Qed.
Print Assumptions C09_argparse_round_trip_node.

(* the step, any kind: stable + round trip at the truth IR + the written-form premise => the target, parsed, has the
   interface of the truth *)
Theorem C09_stable_target_same_interface :
    forall (tree : Type) (parse_file : path -> bytes -> outcome tree) (find : list str -> tree -> option stmt)
      (as_written : stmt -> stmt) (w : nat) (pt : ptable) (it ww : bool) (k : kind) (fs : fsys) (file : path)
      (search : list str) (i : ir),
    WRITTEN_PARSE_law as_written w pt it ww k ->
    RT_at w pt it ww k search i ->
    stable stmt tree ir sync_opts (emit_inst w pt) parse_file find (cmp_inst as_written) opts_inst type_ok_inst
           fs file search k i ->
    agrees_at tree parse_file find it ww fs file search k i.
Proof. exact stable_agrees_gen. Qed.
Print Assumptions C09_stable_target_same_interface.

(* class targets: the round trip is a theorem *)
Theorem C09_stable_class_target_same_interface :
    forall (tree : Type) (parse_file : path -> bytes -> outcome tree) (find : list str -> tree -> option stmt)
      (as_written : stmt -> stmt) (w : nat) (pt : ptable) (it ww : bool) (fs : fsys) (file : path)
      (search : list str) (i : ir),
    WRITTEN_PARSE_law as_written w pt it ww KClass ->
    guard_C09_class w i = true ->
    stable stmt tree ir sync_opts (emit_inst w pt) parse_file find (cmp_inst as_written) opts_inst type_ok_inst
           fs file search KClass i ->
    agrees_at tree parse_file find it ww fs file search KClass i.
Proof.
  intros tree parse_file find as_written w pt it ww fs file search i HW Hg.
  exact (stable_agrees_gen tree parse_file find as_written w pt it ww KClass fs file search i HW
                           (RT_at_class w pt it ww search i Hg)).
Qed.
Print Assumptions C09_stable_class_target_same_interface.

Theorem C09_stable_argparse_target_same_interface :
    forall (tree : Type) (parse_file : path -> bytes -> outcome tree) (find : list str -> tree -> option stmt)
      (as_written : stmt -> stmt) (w : nat) (pt : ptable) (it ww : bool) (fs : fsys) (file : path)
      (search : list str) (i : ir),
    WRITTEN_PARSE_law as_written w pt it ww KArgparse ->
    guard_C09_argparse w pt i = true ->
    last search (default_name KArgparse) <> [] ->
    stable stmt tree ir sync_opts (emit_inst w pt) parse_file find (cmp_inst as_written) opts_inst type_ok_inst
           fs file search KArgparse i ->
    agrees_at tree parse_file find it ww fs file search KArgparse i.
Proof.
  intros tree parse_file find as_written w pt it ww fs file search i HW Hg Hnm.
  exact (stable_agrees_gen tree parse_file find as_written w pt it ww KArgparse fs file search i HW
                           (RT_at_argparse w pt it ww search i Hg Hnm)).
Qed.
Print Assumptions C09_stable_argparse_target_same_interface.

(* the written-form premise for class targets, reduced: a node that differs in the docstring constant only, both
   constants read as the same docstring-derived IR, is parsed alike *)
Theorem C09_written_form_class : forall (as_written : stmt -> stmt) (w : nat) (pt : ptable) (it ww : bool),
    (forall a b, class_doc_equiv a b -> parse_class_node it ww a = parse_class_node it ww b)
    /\ ((forall i o n, emit_inst w pt KClass i o = Ok n -> class_doc_equiv (as_written n) n) ->
        WRITTEN_PARSE_law as_written w pt it ww KClass).
Proof.
  intros as_written w pt it ww. split; [apply class_doc_equiv_parse|apply WRITTEN_PARSE_class_of_equiv].
Qed.
Print Assumptions C09_written_form_class.

(* the same reduction for argparse targets: parse.argparse_ast uses the docstring constant through the docstring-derived
   IR, and through its text only at a statement  return (..., ...) *)
Theorem C09_written_form_argparse : forall (as_written : stmt -> stmt) (w : nat) (pt : ptable) (it ww : bool),
    (forall i o n, emit_inst w pt KArgparse i o = Ok n -> argparse_doc_equiv (as_written n) n) ->
    WRITTEN_PARSE_law as_written w pt it ww KArgparse.
Proof. exact written_form_argparse. Qed.
Print Assumptions C09_written_form_argparse.

(* the property's wording: under FIX and REPLACES for the instantiated layers, after a successful fault-free run, the
   truth still converts to the same IR i and, for every named target of a closed kind whose guard i meets, the file
   holds at the target's location a definition whose parse has the interface of i -- whatever the files held before *)
Theorem C09_interface_agreement :
    forall (tree : Type) (parse_file : path -> bytes -> outcome tree) (find : list str -> tree -> option stmt)
      (as_written : stmt -> stmt) (w : nat) (pt : ptable) (it ww : bool)
      (rewrite : list str -> stmt -> tree -> tree * bool)
      (render_node : stmt -> outcome bytes) (render_tree : tree -> outcome bytes)
      (parse_truth : kind -> option stmt -> list str -> outcome ir),
    FIX_law stmt tree ir sync_opts (emit_inst w pt) parse_file find rewrite (cmp_inst as_written) render_node
            render_tree opts_inst type_ok_inst ->
    REPLACES_law stmt tree find rewrite ->
    forall (fs : fsys) (a : sync_args) (truth : path) (fs1 : fsys) (eff : list (path * bool)) (pr : list str),
    sync_args_ok a truth ->
    ground_truth (emit_inst w pt) parse_file find rewrite (cmp_inst as_written) render_node render_tree opts_inst
                 type_ok_inst parse_truth fs a truth NoFaults = (fs1, Ok eff, pr) ->
    exists i : ir,
      truth_ir stmt tree ir parse_file find parse_truth fs1 a truth = Ok i
      /\ truth_ir stmt tree ir parse_file find parse_truth fs a truth = Ok i
      /\ (WRITTEN_PARSE_law as_written w pt it ww KClass ->
          guard_C09_class w i = true -> targets_agree tree parse_file find it ww fs1 a truth KClass i)
      /\ (WRITTEN_PARSE_law as_written w pt it ww KArgparse ->
          guard_C09_argparse w pt i = true -> name_ends_named a KArgparse ->
          targets_agree tree parse_file find it ww fs1 a truth KArgparse i)
      /\ (forall k : kind,
          WRITTEN_PARSE_law as_written w pt it ww k ->
          (forall nm, name_of a k = Ok nm -> RT_at w pt it ww k (strip_split [ch 46] nm) i) ->
          targets_agree tree parse_file find it ww fs1 a truth k i).
Proof. exact interface_agreement. Qed.
Print Assumptions C09_interface_agreement.

(* from FIX alone: every such target agrees, or is a found definition that differs and that the rewriter declined *)
Theorem C09_interface_agreement_settled :
    forall (tree : Type) (parse_file : path -> bytes -> outcome tree) (find : list str -> tree -> option stmt)
      (as_written : stmt -> stmt) (w : nat) (pt : ptable) (it ww : bool)
      (rewrite : list str -> stmt -> tree -> tree * bool)
      (render_node : stmt -> outcome bytes) (render_tree : tree -> outcome bytes)
      (parse_truth : kind -> option stmt -> list str -> outcome ir),
    FIX_law stmt tree ir sync_opts (emit_inst w pt) parse_file find rewrite (cmp_inst as_written) render_node
            render_tree opts_inst type_ok_inst ->
    forall (fs : fsys) (a : sync_args) (truth : path) (fs1 : fsys) (eff : list (path * bool)) (pr : list str),
    sync_args_ok a truth ->
    ground_truth (emit_inst w pt) parse_file find rewrite (cmp_inst as_written) render_node render_tree opts_inst
                 type_ok_inst parse_truth fs a truth NoFaults = (fs1, Ok eff, pr) ->
    exists i : ir,
      truth_ir stmt tree ir parse_file find parse_truth fs1 a truth = Ok i
      /\ (WRITTEN_PARSE_law as_written w pt it ww KClass ->
          guard_C09_class w i = true ->
          targets_settle tree parse_file find as_written w pt it ww rewrite fs1 a truth KClass i)
      /\ (WRITTEN_PARSE_law as_written w pt it ww KArgparse ->
          guard_C09_argparse w pt i = true -> name_ends_named a KArgparse ->
          targets_settle tree parse_file find as_written w pt it ww rewrite fs1 a truth KArgparse i)
      /\ (forall k : kind,
          WRITTEN_PARSE_law as_written w pt it ww k ->
          (forall nm, name_of a k = Ok nm -> RT_at w pt it ww k (strip_split [ch 46] nm) i) ->
          targets_settle tree parse_file find as_written w pt it ww rewrite fs1 a truth k i).
Proof. exact interface_agreement_settled. Qed.
Print Assumptions C09_interface_agreement_settled.

(* non-vacuity: a truth with three parameters, each with a default, and a class target -- inside the guard; a file
   system whose target file holds the emitted class is stable, so the theorem applies; what the parser reads *)
Theorem C09_class_target_example :
  guard_C09_class 100 ir9 = true
  /\ agrees_at (list stmt) Toy9.parse_file Toy9.find false true Toy9.fs (L "target.py") [L "Config"] KClass ir9
  /\ (exists i', parse_node_inst false true KClass node9 = Ok i'
                 /\ map fst (ir_params i') = [L "epochs"; L "name"; L "rate"]
                 /\ map (fun kv => g_default (snd kv)) (ir_params i')
                    = [Some (DV (VInt 5)); Some (DV (VStr (L "mnist"))); Some (DV (VFloat (L "0.5")))]
                 /\ same_interface ir9 i' = true).
Proof. exact class_target_example. Qed.
Print Assumptions C09_class_target_example.

(* the same truth meets the argparse guard and round-trips at the node *)
Theorem C09_argparse_target_example :
  guard_C09_argparse 100 [] ir9 = true
  /\ emit_inst 100 [] KArgparse ir9
               (opts_inst (Some (SFunc (L "set_cli_args") no_arguments [] [] None)) [L "set_cli_args"] KArgparse)
     = Ok node9a
  /\ (exists i', parse_node_inst false true KArgparse node9a = Ok i'
                 /\ map fst (ir_params i') = [L "epochs"; L "name"; L "rate"]
                 /\ same_interface_inst KArgparse ir9 i' = true).
Proof. exact argparse_target_example. Qed.
Print Assumptions C09_argparse_target_example.

(* the clause argparse_wrap_neutral is needed: inside guard_C04_ast, with word_wrap on, the round trip fails *)
Theorem C09_argparse_wrap_needed :
  guard_C04_ast ir9_long = true /\ argparse_wrap_neutral [] ir9_long = false
  /\ argparse_doc_layer_ok 100 ir9_long = true
  /\ match emit_argparse_inst 100 [] ir9_long (L "set_cli_args") (Some (L "static")) with
     | Ok n => match parse_argparse_node n with
               | Ok i' => same_interface_argparse (argparse_type_norm ir9_long) i' = false
               | Err _ => False
               end
     | Err _ => False
     end.
Proof. exact argparse_wrap_needed. Qed.
Print Assumptions C09_argparse_wrap_needed.

(* the round trip of a function target at the node, at one truth *)
Theorem C09_function_target_point :
  match emit_inst 100 [] KFunction ir9
                  (opts_inst (Some (SFunc (L "train") no_arguments [] [] None)) [L "train"] KFunction) with
  | Ok n => match parse_node_inst false true KFunction n with
            | Ok i' => same_interface_inst KFunction ir9 i' = true
                       /\ map fst (ir_params i') = [L "epochs"; L "name"; L "rate"]
            | Err _ => False
            end
  | Err _ => False
  end.
Proof. exact function_target_point. Qed.
Print Assumptions C09_function_target_point.

(* Function targets, and the install phase.  The premise RT_at KFunction of C09_interface_agreement is discharged, by
   composing C03_partial taken at an arbitrary identifier as function name (C03Compose.C03_partial_fields, the fact
   behind C19_function_any_name) with the docstring link of C03Ext (C03_doc_link) and reading the docstring from the node.  The options conformance passes for functions are INSIDE
   the proved region of C03: function_name = last component of the search path (must be an identifier),
   function_type = get_function_type(found node) in {static, self, cls} (a missing node gives None, i.e. the type of
   the truth IR -- but stability is always judged against the re-emission at the FOUND node's type), and the defaults
   word_wrap=True, emit_default_doc=False, indent_level=2, emit_separating_tab=True, inline_types=True,
   emit_as_kwonlyargs=True (C09Instance.sync_fopts); none of them blocks (emit_default_doc on, a C03 finding class, is
   not what conformance passes).
   guard_C09_function w pt i name ft = is_identifier name && guard_C03 (sync_fopts pt ft) i
     && C03DocLinkDefs.doc_link_ok w (sync_fopts pt ft) i      (guard and side condition of C03_partial_closed)
     && fn_text_unquoted w pt ft i    (set_value leaves the docstring text alone: a limit of the proof -- the text of
                                       to_docstring starts with a line break, not proved here; executable)
     && fn_reparse_fixed w pt i name ft   (the emitted FunctionDef is a fixed point of ast.parse(ast.unparse(.)), i.e.
                                       no negative number default: C03 proves the round trip THROUGH reparse_stmt, the
                                       cmp_ast(found, emitted) disjunct needs the parse of the emitted node itself.  A
                                       limit of the proof, not of the code: C09_function_negative_default_point.
                                       C09_stable_function_target_canon does without it, from two parse-transparency
                                       premises WRITTEN_REPARSE_law / EMITTED_REPARSE_law);
   guard_C09_function_found = the above for the three function types a found node can have.
   The relation proved is C03Spec.same_interface_fn (names by lookup, strict defaults, kind), which implies
   C02Spec.same_interface (positional) because guard_C03 gives distinct names.
   What remains abstract for function targets: FIX_law; WRITTEN_PARSE_law KFunction; REPLACES_law -- which is FALSE of
   the Locate rewriter on FunctionDef targets (props/C09.v C09_REPLACES_refuted, C09_function_nodes_never_replaced), so
   C09_function_targets_agree is conditional on a rewriter that replaces, and the honest result over the Locate
   rewriter is C09_function_targets_settle_install (FIX alone): every function target agrees, or is a found
   definition that differs and that the rewriter declined (the recorded finding found-definition-not-replaced); and a
   function target INSTALLED by the run (its file was missing, or parsed -- empty file included -- with nothing found
   at the location, so the definition is created / appended) agrees in full.  The install-phase statement holds for
   every kind (C09_interface_agreement_install). *)
From DT Require C06Spec C03Spec C03DocLinkDefs.

(* emit.function -> ast.unparse -> ast.parse -> parse.function at the node, docstring read from the node *)
Theorem C09_function_round_trip_canon : forall (w : nat) (pt : ptable) (i : ir) (name ft : str),
    guard_C09_function_core w pt i name ft = true ->
    exists n n' i',
      emit_function_inst w pt i name (Some ft) = Ok n
      /\ C03Spec.reparse_stmt n = Ok n'
      /\ parse_function_node n' = Ok i'
      /\ C03Spec.same_interface_fn ft i i' = true
      /\ same_interface i i' = true.
Proof. exact function_round_trip_canon. Qed.
Print Assumptions C09_function_round_trip_canon.

(* the round trip at the emitted node itself: emit_inst for KFunction then parse_node_inst *)
Theorem C09_function_round_trip_node : forall (w : nat) (pt : ptable) (i : ir) (name ft : str),
    guard_C09_function w pt i name ft = true ->
    exists n i',
      emit_function_inst w pt i name (Some ft) = Ok n
      /\ parse_function_node n = Ok i'
      /\ C03Spec.same_interface_fn ft i i' = true
      /\ same_interface i i' = true.
Proof. exact function_round_trip_node. Qed.
Print Assumptions C09_function_round_trip_node.

(* hence the premise RT_at of C09_interface_agreement / _settled holds for function targets *)
Theorem C09_RT_at_function : forall (w : nat) (pt : ptable) (it ww : bool) (search : list str) (i : ir),
    guard_C09_function_found w pt i (last search (default_name KFunction)) = true ->
    RT_at w pt it ww KFunction search i.
Proof. exact RT_at_function. Qed.
Print Assumptions C09_RT_at_function.

(* without the fixed-point clause, from two parse-transparency premises *)
Theorem C09_stable_function_target_canon :
    forall (tree : Type) (parse_file : path -> bytes -> outcome tree) (find : list str -> tree -> option stmt)
      (as_written : stmt -> stmt) (w : nat) (pt : ptable) (it ww : bool) (fs : fsys) (file : path)
      (search : list str) (i : ir),
    WRITTEN_REPARSE_law as_written w pt -> EMITTED_REPARSE_law w pt ->
    guard_C09_function_found_core w pt i (last search (default_name KFunction)) = true ->
    stable stmt tree ir sync_opts (emit_inst w pt) parse_file find (cmp_inst as_written) opts_inst type_ok_inst
           fs file search KFunction i ->
    agrees_at tree parse_file find it ww fs file search KFunction i.
Proof. exact stable_function_target_canon. Qed.
Print Assumptions C09_stable_function_target_canon.

(* one call in the install phase: under FIX the result is stable (never the declined outcome) *)
Theorem C09_conform_install_stable :
    forall (tree : Type) (parse_file : path -> bytes -> outcome tree) (find : list str -> tree -> option stmt)
      (as_written : stmt -> stmt) (w : nat) (pt : ptable)
      (rewrite : list str -> stmt -> tree -> tree * bool)
      (render_node : stmt -> outcome bytes) (render_tree : tree -> outcome bytes),
    FIX_law stmt tree ir sync_opts (emit_inst w pt) parse_file find rewrite (cmp_inst as_written) render_node
            render_tree opts_inst type_ok_inst ->
    forall (fs : fsys) (file : path) (search : list str) (k : kind) (i : ir) (fs' : fsys) (b : bool) (pr : list str),
    search <> [] -> install_pre_c tree parse_file find (fs_get file fs) file search ->
    conform (emit_inst w pt) parse_file find rewrite (cmp_inst as_written) render_node render_tree opts_inst
            type_ok_inst fs file search k i NoFault = (fs', Ok b, pr) ->
    stable stmt tree ir sync_opts (emit_inst w pt) parse_file find (cmp_inst as_written) opts_inst type_ok_inst
           fs' file search k i.
Proof. exact conform_install_stable. Qed.
Print Assumptions C09_conform_install_stable.

(* the run, any kind, from FIX alone: every target agrees or was declined, and a target installed by the run agrees *)
Theorem C09_interface_agreement_install :
    forall (tree : Type) (parse_file : path -> bytes -> outcome tree) (find : list str -> tree -> option stmt)
      (as_written : stmt -> stmt) (w : nat) (pt : ptable) (it ww : bool)
      (rewrite : list str -> stmt -> tree -> tree * bool)
      (render_node : stmt -> outcome bytes) (render_tree : tree -> outcome bytes)
      (parse_truth : kind -> option stmt -> list str -> outcome ir),
    FIX_law stmt tree ir sync_opts (emit_inst w pt) parse_file find rewrite (cmp_inst as_written) render_node
            render_tree opts_inst type_ok_inst ->
    forall (fs : fsys) (a : sync_args) (truth : path) (fs1 : fsys) (eff : list (path * bool)) (pr : list str),
    sync_args_ok a truth ->
    ground_truth (emit_inst w pt) parse_file find rewrite (cmp_inst as_written) render_node render_tree opts_inst
                 type_ok_inst parse_truth fs a truth NoFaults = (fs1, Ok eff, pr) ->
    exists i : ir,
      truth_ir stmt tree ir parse_file find parse_truth fs1 a truth = Ok i
      /\ forall k : kind,
          WRITTEN_PARSE_law as_written w pt it ww k ->
          (forall nm, name_of a k = Ok nm -> RT_at w pt it ww k (strip_split [ch 46] nm) i) ->
          targets_settle_install tree parse_file find as_written w pt it ww rewrite fs fs1 a truth k i.
Proof. exact interface_agreement_install. Qed.
Print Assumptions C09_interface_agreement_install.

Theorem C09_function_targets_settle_install :
    forall (tree : Type) (parse_file : path -> bytes -> outcome tree) (find : list str -> tree -> option stmt)
      (as_written : stmt -> stmt) (w : nat) (pt : ptable) (it ww : bool)
      (rewrite : list str -> stmt -> tree -> tree * bool)
      (render_node : stmt -> outcome bytes) (render_tree : tree -> outcome bytes)
      (parse_truth : kind -> option stmt -> list str -> outcome ir),
    FIX_law stmt tree ir sync_opts (emit_inst w pt) parse_file find rewrite (cmp_inst as_written) render_node
            render_tree opts_inst type_ok_inst ->
    forall (fs : fsys) (a : sync_args) (truth : path) (fs1 : fsys) (eff : list (path * bool)) (pr : list str),
    sync_args_ok a truth ->
    ground_truth (emit_inst w pt) parse_file find rewrite (cmp_inst as_written) render_node render_tree opts_inst
                 type_ok_inst parse_truth fs a truth NoFaults = (fs1, Ok eff, pr) ->
    exists i : ir,
      truth_ir stmt tree ir parse_file find parse_truth fs1 a truth = Ok i
      /\ (WRITTEN_PARSE_law as_written w pt it ww KFunction -> function_guard_args w pt a i ->
          targets_settle_install tree parse_file find as_written w pt it ww rewrite fs fs1 a truth KFunction i).
Proof. exact function_targets_settle_install. Qed.
Print Assumptions C09_function_targets_settle_install.

(* function targets, under FIX and REPLACES (for a rewriter that replaces FunctionDef nodes; the Locate one does not) *)
Theorem C09_function_targets_agree :
    forall (tree : Type) (parse_file : path -> bytes -> outcome tree) (find : list str -> tree -> option stmt)
      (as_written : stmt -> stmt) (w : nat) (pt : ptable) (it ww : bool)
      (rewrite : list str -> stmt -> tree -> tree * bool)
      (render_node : stmt -> outcome bytes) (render_tree : tree -> outcome bytes)
      (parse_truth : kind -> option stmt -> list str -> outcome ir),
    FIX_law stmt tree ir sync_opts (emit_inst w pt) parse_file find rewrite (cmp_inst as_written) render_node
            render_tree opts_inst type_ok_inst ->
    REPLACES_law stmt tree find rewrite ->
    forall (fs : fsys) (a : sync_args) (truth : path) (fs1 : fsys) (eff : list (path * bool)) (pr : list str),
    sync_args_ok a truth ->
    ground_truth (emit_inst w pt) parse_file find rewrite (cmp_inst as_written) render_node render_tree opts_inst
                 type_ok_inst parse_truth fs a truth NoFaults = (fs1, Ok eff, pr) ->
    exists i : ir,
      truth_ir stmt tree ir parse_file find parse_truth fs1 a truth = Ok i
      /\ (WRITTEN_PARSE_law as_written w pt it ww KFunction -> function_guard_args w pt a i ->
          targets_agree tree parse_file find it ww fs1 a truth KFunction i).
Proof. exact function_targets_agree. Qed.
Print Assumptions C09_function_targets_agree.

(* non-vacuity: the truth ir9 and the function target train -- inside the guard for every function type; stable on a
   toy tree layer whose rewriter never replaces, hence agreeing, with what parse.function reads; and the install phase
   on that layer: conform creates the missing file / appends to the empty one *)
Theorem C09_function_target_example :
  guard_C09_function_found 100 [] ir9 (L "train") = true
  /\ agrees_at (list stmt) Toy9f.parse_file Toy9f.find false true Toy9f.fs (L "target.py") [L "train"] KFunction ir9
  /\ (exists i', parse_node_inst false true KFunction node9f = Ok i'
                 /\ map fst (ir_params i') = [L "epochs"; L "name"; L "rate"]
                 /\ map (fun kv => g_default (snd kv)) (ir_params i')
                    = [Some (DV (VInt 5)); Some (DV (VStr (L "mnist"))); Some (DV (VFloat (L "0.5")))]
                 /\ C03Spec.same_interface_fn (L "static") ir9 i' = true)
  /\ Toy9f.conf [] = (Toy9f.fs, Ok true, [])
  /\ (exists fs', Toy9f.conf [(L "target.py", [])] = (fs', Ok true, [])
                  /\ fs_get (L "target.py") fs' = Some (L "F9")).
Proof. exact function_target_example. Qed.
Print Assumptions C09_function_target_example.

(* fn_reparse_fixed is a limit of the proof: a negative default is outside it, inside the core guard, and the parser
   reads the same interface from the emitted node and from its re-parse *)
Theorem C09_function_negative_default_point :
  guard_C09_function_core 100 [] ir9_neg (L "train") (L "static") = true
  /\ fn_reparse_fixed 100 [] ir9_neg (L "train") (L "static") = false
  /\ match emit_function_inst 100 [] ir9_neg (L "train") (Some (L "static")) with
     | Ok n => match C03Spec.reparse_stmt n with
               | Ok n' => match parse_function_node n, parse_function_node n' with
                          | Ok a, Ok b => same_interface ir9_neg a = true /\ same_interface ir9_neg b = true
                          | _, _ => False
                          end
               | Err _ => False
               end
     | Err _ => False
     end.
Proof. vm_compute. repeat split; reflexivity. Qed.
Print Assumptions C09_function_negative_default_point.
