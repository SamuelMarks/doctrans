(* C14Facts: the witness vocabulary for C14 (w_env, w_arg, w_fn, w_call and sample modules), refutation of the full C14
   statement by witnesses, regressions, non-vacuity of the guard, and an unguarded corollary. *)
From Coq Require Import List Ascii Bool Arith ZArith Lia.
From Coq Require String.
Import String.StringSyntax.
From DT Require Import PyStr Sexp PyVal PureUtils PyAst Locate SyncProps C15Spec C14Spec PyStrFacts LocateFacts
     RewriteFacts C15Facts SyncPropsFacts.
Import ListNotations.

Definition w_env : sp_env := mkEnv [(EName (L "int"), L "int")] [(L "Optional[int]", Ok (ESub (EName (L "Optional")) (EName (L "int"))))].

Definition w_arg (n : str) (ann : option str) : arg := mkArg n (option_map EName ann).
Definition w_fn (name : str) (args : list arg) (defaults : list expr) (kw : list arg) (kwd : list (option expr)) : stmt :=
  SFunc name (mkArguments args defaults kw kwd None None) [w_pass] [] None.

(* input:  def f(a: int = 1): pass *)
Definition w_in : module := [w_fn (L "f") [w_arg (L "a") (Some (L "int"))] [EConst (VInt 1)] [] []].
(* output: def g(x, y=2): pass *)
Definition w_out : module := [w_fn (L "g") [w_arg (L "x") None; w_arg (L "y") None] [EConst (VInt 2)] [] []].

Definition w_call (im : module) (ips : list str) (om : module) (ops : list str) (w : option str) : c14_input :=
  mkC14 w_env false im ips om ops w [].

(* regressions for /repo 3e792de and 6d00342: a module docstring in the output file is left alone, and a keyword-only
   input parameter is found *)
Definition w_out_doc : module := SExpr (EConst (VStr (L "Doc."))) :: w_out.
Definition w_in_kw : module := [w_fn (L "f") [] [] [w_arg (L "a") (Some (L "int"))] [Some (EConst (VInt 1))]].

(* an assignment replaces a method argument: its value is written into the default slot counted from the
      front and shifted by self, i.e. into ANOTHER argument's default *)
Definition w_in_ann : module := [SAnnAssign (EName (L "a")) (EName (L "int")) (Some (EConst (VInt 3)))].
Definition w_out_method : module :=
  [SClass (L "C") [] [w_fn (L "m") [w_arg (L "self") None; w_arg (L "a") None; w_arg (L "b") None] [EConst (VInt 4)] [] []] []].

Lemma C14_refuted_default_slot :
  C14_domain (w_call w_in_ann [L "a"] w_out_method [L "C.m.a"] None) = true
  /\ C14_at_b (w_call w_in_ann [L "a"] w_out_method [L "C.m.a"] None) = false
  /\ option_map (fun t => match t with
                          | [SClass _ _ [SFunc _ a _ _ _] _] => ar_defaults a
                          | _ => []
                          end)
                (written_tree (run_C14 (w_call w_in_ann [L "a"] w_out_method [L "C.m.a"] None)))
     = Some [EConst (VInt 3)].
Proof. repeat apply conj; vm_compute; reflexivity. Qed.

Lemma C14_refuted_lemma : ~ C14_statement.
Proof.
  intros H. destruct C14_refuted_default_slot as [Hdom [Hat _]].
  specialize (H _ Hdom). unfold C14_at in H. rewrite Hat in H. discriminate.
Qed.

(* the same input parameter used for two outputs with a template: the shared node is wrapped twice *)
Definition w_env2 : sp_env :=
  mkEnv [(EName (L "int"), L "int"); (ESub (EName (L "Optional")) (EName (L "int")), L "Optional[int]")]
        [(L "Optional[int]", Ok (ESub (EName (L "Optional")) (EName (L "int"))));
         (L "Optional[Optional[int]]", Ok (ESub (EName (L "Optional")) (ESub (EName (L "Optional")) (EName (L "int")))))].

Lemma C14_refuted_double_wrap :
  option_map (fun t => match t with
                       | [SFunc _ a _ _ _] => map a_ann (ar_args a)
                       | _ => []
                       end)
             (written_tree (run_C14 (mkC14 w_env2 false w_in [L "f.a"; L "f.a"] w_out [L "g.x"; L "g.y"]
                                           (Some (L "Optional[{output_param}]")) [])))
  = Some [Some (ESub (EName (L "Optional")) (ESub (EName (L "Optional")) (EName (L "int"))));
          Some (ESub (EName (L "Optional")) (ESub (EName (L "Optional")) (EName (L "int"))))].
Proof. vm_compute. reflexivity. Qed.

(* an input address through a nested class exists but is not found: the pair is not applied *)
Definition w_in_nested : module :=
  [SClass (L "C") [] [SClass (L "D") [] [SAssign [EName (L "z")] (EConst (VInt 1))] []] []].
Definition w_out_z : module := [SAssign [EName (L "z")] (EConst (VInt 0))].

(* no guard: when find_in_ast does not find the input address of the first pair, both files are left alone *)
Theorem C14_not_found_no_write : forall x i0 o0,
    ci_eval x = false ->
    ast_parse [1] (ci_in x) = Ok i0 -> ast_parse [0] (ci_out x) = Ok o0 ->
    (exists ip op ev rest log,
        loop_pairs x = (ip, op, ev) :: rest /\ find_in_ast_log (dotted ip) i0 = Ok (None, log)) ->
    run_C14 x = ([], Err AssertionError).
Proof.
  intros x i0 o0 Hev Hi Ho [ip [op [ev [rest [log [Hp Hf]]]]]].
  unfold run_C14, sync_properties. rewrite Hi, Ho. simpl.
  destruct (Nat.eqb (List.length (ci_ips x)) (List.length (ci_ops x))); simpl; [|reflexivity].
  fold (loop_pairs x). rewrite Hp. simpl. unfold sync_property. rewrite Hev.
  fold (dotted ip). rewrite Hf. reflexivity.
Qed.
