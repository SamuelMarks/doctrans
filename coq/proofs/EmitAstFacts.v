(* EmitAstFacts: induction principles for the nested inductives of PyAst, reflection and reflexivity of the
   structural equalities, map_outcome, and the three emitters of EmitAst inverted stage by stage
   (emit_function_inv, emit_argparse_inv, emit_class_inv). *)
From Coq Require Import List Ascii Bool Arith ZArith Lia.
From Coq Require String.
Import String.StringSyntax.
From DT Require Import PyStr Sexp PyVal TyExpr PureUtils Defaults PyAst IR EmitAst PyStrFacts.
From DT Require Import DefaultsFacts.
Import ListNotations.

Section ExprInd.
  Variable P : expr -> Prop.
  Hypothesis Hconst : forall v, P (EConst v).
  Hypothesis Hname : forall id, P (EName id).
  Hypothesis Hattr : forall e a, P e -> P (EAttr e a).
  Hypothesis Hsub : forall e s, P e -> P s -> P (ESub e s).
  Hypothesis Htuple : forall es, Forall P es -> P (ETuple es).
  Hypothesis Hlist : forall es, Forall P es -> P (EList es).
  Hypothesis Hdict : forall ks vs, Forall P ks -> Forall P vs -> P (EDict ks vs).
  Hypothesis Hcall : forall f args kws, P f -> Forall P args -> Forall (fun p => P (snd p)) kws ->
                                        P (ECall f args kws).
  Hypothesis Hunary : forall op e, P e -> P (EUnary op e).
  Hypothesis Hopaque : forall s, P (EOpaque s).

  Fixpoint expr_ind' (e : expr) : P e :=
    let go := (fix go (l : list expr) : Forall P l :=
                 match l with
                 | [] => Forall_nil P
                 | x :: r => Forall_cons x (expr_ind' x) (go r)
                 end) in
    match e with
    | EConst v => Hconst v
    | EName id => Hname id
    | EAttr b a => Hattr b a (expr_ind' b)
    | ESub b s => Hsub b s (expr_ind' b) (expr_ind' s)
    | ETuple es => Htuple es (go es)
    | EList es => Hlist es (go es)
    | EDict ks vs => Hdict ks vs (go ks) (go vs)
    | ECall f args kws =>
      Hcall f args kws (expr_ind' f) (go args)
            ((fix gok (l : list (option str * expr)) : Forall (fun p => P (snd p)) l :=
                match l with
                | [] => Forall_nil _
                | p :: r => Forall_cons p (expr_ind' (snd p)) (gok r)
                end) kws)
    | EUnary op x => Hunary op x (expr_ind' x)
    | EOpaque s => Hopaque s
    end.
End ExprInd.

Section StmtInd.
  Variable P : stmt -> Prop.
  Hypothesis Hfunc : forall n a b d r, Forall P b -> P (SFunc n a b d r).
  Hypothesis Hclass : forall n bs b d, Forall P b -> P (SClass n bs b d).
  Hypothesis Hann : forall t a v, P (SAnnAssign t a v).
  Hypothesis Hassign : forall ts v, P (SAssign ts v).
  Hypothesis Hexpr : forall e, P (SExpr e).
  Hypothesis Hreturn : forall e, P (SReturn e).
  Hypothesis Hother : forall t h bl, Forall (Forall P) bl -> P (SOther t h bl).

  Fixpoint stmt_ind' (s : stmt) : P s :=
    let go := (fix go (l : list stmt) : Forall P l :=
                 match l with
                 | [] => Forall_nil P
                 | x :: r => Forall_cons x (stmt_ind' x) (go r)
                 end) in
    match s with
    | SFunc n a b d r => Hfunc n a b d r (go b)
    | SClass n bs b d => Hclass n bs b d (go b)
    | SAnnAssign t a v => Hann t a v
    | SAssign ts v => Hassign ts v
    | SExpr e => Hexpr e
    | SReturn e => Hreturn e
    | SOther t h bl =>
      Hother t h bl ((fix gob (l : list (list stmt)) : Forall (Forall P) l :=
                        match l with
                        | [] => Forall_nil _
                        | x :: r => Forall_cons x (go x) (gob r)
                        end) bl)
    end.
End StmtInd.

Lemma map_ext_Forall : forall {A B} (f g : A -> B) l,
    Forall (fun x => f x = g x) l -> map f l = map g l.
Proof.
  intros A B f g l H. induction H as [|x r Hx Hr IH]; cbn; [reflexivity|]. now rewrite Hx, IH.
Qed.

Lemma list_eqb_eq : forall {A} (f : A -> A -> bool) (a : list A),
    Forall (fun x => forall y, f x y = true -> x = y) a ->
    forall b, list_eqb f a b = true -> a = b.
Proof.
  intros A f a H. induction H as [|x r Hx Hr IH]; intros b E; destruct b as [|y b']; cbn in E; try discriminate.
  - reflexivity.
  - apply andb_true_iff in E. destruct E as [E1 E2]. f_equal; [now apply Hx | now apply IH].
Qed.

Lemma option_eqb_eq : forall {A} (f : A -> A -> bool) (a b : option A),
    (forall x y, f x y = true -> x = y) -> option_eqb f a b = true -> a = b.
Proof.
  intros A f a b H E. destruct a as [x|], b as [y|]; cbn in E; try discriminate; [f_equal; now apply H | reflexivity].
Qed.

Lemma expr_eqb_eq : forall a b, expr_eqb a b = true -> a = b.
Proof.
  intros a. induction a as [v|id|e a IHe|e s IHe IHs|es IH|es IH|ks vs IHk IHv|f args kws IHf IHa IHk|op e IHe|s]
                             using expr_ind'; intros b E; destruct b; cbn in E; try discriminate.
  - f_equal. now apply pyval_eqb_eq.
  - f_equal. now apply str_eqb_eq.
  - apply andb_true_iff in E. destruct E as [E1 E2]. f_equal; [now apply IHe | now apply str_eqb_eq].
  - apply andb_true_iff in E. destruct E as [E1 E2]. f_equal; [now apply IHe | now apply IHs].
  - f_equal. eapply list_eqb_eq; eauto.
  - f_equal. eapply list_eqb_eq; eauto.
  - apply andb_true_iff in E. destruct E as [E1 E2]. f_equal; eapply list_eqb_eq; eauto.
  - apply andb_true_iff in E. destruct E as [E12 E3]. apply andb_true_iff in E12. destruct E12 as [E1 E2].
    f_equal; [now apply IHf | eapply list_eqb_eq; eauto |].
    eapply list_eqb_eq; [|exact E3].
    eapply Forall_impl; [|exact IHk]. intros [o1 e1] Hp [o2 e2] Ep. cbn in *.
    apply andb_true_iff in Ep. destruct Ep as [Eo Ee]. f_equal.
    + apply option_eqb_eq in Eo; [assumption|]. intros x y Hxy. now apply str_eqb_eq.
    + now apply Hp.
  - apply andb_true_iff in E. destruct E as [E1 E2]. f_equal; [now apply str_eqb_eq | now apply IHe].
  - f_equal. now apply str_eqb_eq.
Qed.

Lemma list_eqb_refl_Forall : forall {A} (f : A -> A -> bool) l,
    Forall (fun x => f x x = true) l -> list_eqb f l l = true.
Proof.
  intros A f l H. induction H as [|x l Hx Hl IH]; [reflexivity|]. cbn. rewrite Hx. exact IH.
Qed.

Lemma expr_eqb_refl : forall e, expr_eqb e e = true.
Proof.
  intros e. induction e as [v|id|e a IHe|e s IHe IHs|es IH|es IH|ks vs IHk IHv|f args kws IHf IHa IHk|op e IHe|s]
                             using expr_ind'; cbn.
  - apply pyval_eqb_refl.
  - apply str_eqb_refl.
  - rewrite IHe. apply str_eqb_refl.
  - rewrite IHe. exact IHs.
  - apply list_eqb_refl_Forall. exact IH.
  - apply list_eqb_refl_Forall. exact IH.
  - rewrite (list_eqb_refl_Forall expr_eqb ks IHk). apply list_eqb_refl_Forall. exact IHv.
  - rewrite IHf. rewrite (list_eqb_refl_Forall expr_eqb args IHa). cbn.
    apply list_eqb_refl_Forall. eapply Forall_impl; [|exact IHk].
    intros [o x] Hx. cbn in Hx. rewrite Hx. destruct o as [o|]; cbn; [rewrite str_eqb_refl|]; reflexivity.
  - rewrite str_eqb_refl. exact IHe.
  - apply str_eqb_refl.
Qed.

Lemma dval_eqb_refl : forall d, dval_eqb d d = true.
Proof. destruct d; cbn; [apply pyval_eqb_refl|apply expr_eqb_refl|apply str_eqb_refl]. Qed.

Lemma arg_eqb_eq : forall a b, arg_eqb a b = true -> a = b.
Proof.
  intros [n1 a1] [n2 a2] E. unfold arg_eqb in E. cbn in E. apply andb_true_iff in E. destruct E as [E1 E2].
  f_equal; [now apply str_eqb_eq | eapply option_eqb_eq; eauto using expr_eqb_eq].
Qed.

Lemma list_eqb_eq_simple : forall {A} (f : A -> A -> bool) (a b : list A),
    (forall x y, f x y = true -> x = y) -> list_eqb f a b = true -> a = b.
Proof.
  intros A f a b H E. eapply list_eqb_eq; [|exact E]. apply Forall_forall. intros x _ y Hxy. now apply H.
Qed.

Lemma arguments_eqb_eq : forall a b, arguments_eqb a b = true -> a = b.
Proof.
  intros [a1 d1 k1 kd1 v1 w1] [a2 d2 k2 kd2 v2 w2] E. unfold arguments_eqb in E. cbn in E.
  repeat (apply andb_true_iff in E; let E' := fresh "E" in destruct E as [E E']).
  f_equal.
  - eapply list_eqb_eq_simple; eauto using arg_eqb_eq.
  - eapply list_eqb_eq_simple; eauto using expr_eqb_eq.
  - eapply list_eqb_eq_simple; eauto using arg_eqb_eq.
  - eapply list_eqb_eq_simple; [|eassumption]. intros x y Hxy. eapply option_eqb_eq; eauto using expr_eqb_eq.
  - eapply option_eqb_eq; eauto using arg_eqb_eq.
  - eapply option_eqb_eq; eauto using arg_eqb_eq.
Qed.

Lemma stmt_eqb_eq : forall a b, stmt_eqb a b = true -> a = b.
Proof.
  intros a. induction a as [n a b d r IH|n bs b d IH|t a v|ts v|e|e|t h bl IH] using stmt_ind';
    intros s2 E; destruct s2; cbn in E; try discriminate.
  - repeat (apply andb_true_iff in E; let E' := fresh "E" in destruct E as [E E']).
    f_equal.
    + now apply str_eqb_eq.
    + now apply arguments_eqb_eq.
    + eapply list_eqb_eq; eauto.
    + eapply list_eqb_eq_simple; eauto using expr_eqb_eq.
    + eapply option_eqb_eq; eauto using expr_eqb_eq.
  - repeat (apply andb_true_iff in E; let E' := fresh "E" in destruct E as [E E']).
    f_equal.
    + now apply str_eqb_eq.
    + eapply list_eqb_eq_simple; eauto using expr_eqb_eq.
    + eapply list_eqb_eq; eauto.
    + eapply list_eqb_eq_simple; eauto using expr_eqb_eq.
  - repeat (apply andb_true_iff in E; let E' := fresh "E" in destruct E as [E E']).
    f_equal; [now apply expr_eqb_eq | now apply expr_eqb_eq | eapply option_eqb_eq; eauto using expr_eqb_eq].
  - apply andb_true_iff in E. destruct E as [E1 E2].
    f_equal; [eapply list_eqb_eq_simple; eauto using expr_eqb_eq | now apply expr_eqb_eq].
  - f_equal. now apply expr_eqb_eq.
  - f_equal. eapply option_eqb_eq; eauto using expr_eqb_eq.
  - repeat (apply andb_true_iff in E; let E' := fresh "E" in destruct E as [E E']).
    f_equal; [now apply str_eqb_eq | now apply str_eqb_eq |].
    eapply list_eqb_eq; [|eassumption].
    eapply Forall_impl; [|exact IH]. intros blk Hblk y Hy. eapply list_eqb_eq; eauto.
Qed.

Lemma map_outcome_length : forall {A B} (f : A -> outcome B) l r,
    map_outcome f l = Ok r -> List.length r = List.length l.
Proof.
  intros A B f l. induction l as [|x l IH]; intros r H; cbn in H.
  - inversion H. reflexivity.
  - apply bind_Ok_inv in H. destruct H as [y [Hy H]]. apply bind_Ok_inv in H. destruct H as [ys [Hys H]].
    inversion H. subst. cbn. f_equal. now apply IH.
Qed.

Lemma map_outcome_Forall2 : forall {A B} (f : A -> outcome B) l r,
    map_outcome f l = Ok r -> Forall2 (fun x y => f x = Ok y) l r.
Proof.
  intros A B f l. induction l as [|x l IH]; intros r H; cbn in H.
  - inversion H. constructor.
  - apply bind_Ok_inv in H. destruct H as [y [Hy H]]. apply bind_Ok_inv in H. destruct H as [ys [Hys H]].
    inversion H. subst. constructor; [assumption | now apply IH].
Qed.

Lemma emit_function_inv : forall pt i fn ft it kw tds s i2,
    emit_function pt i fn ft it kw tds = Ok (s, i2) ->
    exists n ftype afp dfp b rv text ret,
      py_or fn (ir_name i) = Ok (Some n) /\ py_or ft (ir_type i) = Ok ftype
      /\ map_outcome (arg_of_param pt it) (filter no_kwargs (ir_params i)) = Ok afp
      /\ map_outcome default_of_param (filter no_kwargs (ir_params i)) = Ok dfp
      /\ get_internal_body (Some n) ftype i = Ok b
      /\ function_return_val pt i = Ok rv /\ tds = Ok text
      /\ (if it then
            match returns_param i with
            | Some p => match fget (g_typ p) with
                        | Some (c :: t) => do e <- parse_expr_src pt (c :: t); Ok (Some e)
                        | _ => Ok None
                        end
            | None => Ok None
            end
          else Ok None) = Ok ret
      /\ s = SFunc n (let args0 := match ftype with
                                   | None => []
                                   | Some t => if str_eqb t (L "static") then [] else [set_arg t None]
                                   end in
                      let kwarg := match filter (fun kv => negb (no_kwargs kv)) (ir_params i) with
                                   | kv :: _ => Some (set_arg (fst kv) None)
                                   | [] => None
                                   end in
                      if kw then mkArguments args0 [] afp (map Some dfp) None kwarg
                      else mkArguments (args0 ++ afp) dfp [] [] None kwarg)
                   (SExpr (set_value (VStr text)) :: function_body_splice b rv) [] ret
      /\ i2 = i.
Proof.
  intros pt i fn ft it kw tds s i2 H. unfold emit_function in H.
  repeat (apply bind_Ok_inv in H; destruct H as [? [? H]]).
  match type of H with match ?fname with _ => _ end = _ => destruct fname as [n|]; [|discriminate H] end.
  injection H as <- <-. repeat eexists; eassumption.
Qed.

Lemma emit_argparse_inv : forall pt i edd fn ft wd ww ds s i2,
    emit_argparse pt i edd fn ft wd ww ds = Ok (s, i2) ->
    exists n ftype b dtext desc ps spliced ret,
      py_or fn (ir_name i) = Ok (Some n) /\ py_or ft (ir_type i) = Ok ftype
      /\ get_internal_body (Some n) ftype i = Ok b
      /\ ds = Ok dtext
      /\ match ir_doc i with
         | Missing => Err KeyError
         | FNone => if wd then Err AttributeError else Ok VNone
         | Has d => do t <- fill_if wd d; Ok (VStr t)
         end = Ok desc
      /\ map_outcome (fun kv => param2argparse_param pt ww edd (fst kv) (snd kv)) (ir_params i) = Ok ps
      /\ argparse_body_skip b = Ok spliced
      /\ (if last_is_return b then Ok [] else do r <- argparse_return pt i; Ok [r]) = Ok ret
      /\ i2 = i
      /\ s = SFunc n (mkArguments [set_arg (L "argument_parser") None] [] [] [] None None)
                   (SExpr (set_value (VStr (indent tab dtext ++ tab))) :: description_assign desc :: ps ++ spliced ++ ret)
                   [] None.
Proof.
  intros pt i edd fn ft wd ww ds s i2 H. unfold emit_argparse in H.
  repeat (apply bind_Ok_inv in H; destruct H as [? [? H]]).
  match type of H with match ?fname with _ => _ end = _ => destruct fname as [n|]; [|discriminate H] end.
  injection H as <- <-. repeat eexists; eassumption.
Qed.

(* ib: the carried statements the __call__ method is built from (None: built from the return entry instead) *)
Lemma emit_class_inv : forall pt i ec cn bs ds ww tds s i2,
    emit_class pt i ec cn bs ds ww tds = Ok (s, i2) ->
    let keys := od_keys (ir_params i) in
    let body0 := match ir_internal i with Some it => in_body it | None => [] end in
    exists ib text meth attrs,
      match keys, body0 with
      | [], _ => Ok (Some body0)
      | _, _ :: _ => do b <- rewrite_body keys body0; Ok (Some b)
      | _, [] => Ok (if match ir_returns i with Has _ => true | _ => false end then None else Some [])
      end = Ok ib
      /\ tds = Ok text
      /\ (if ec then
            match ib with
            | Some [] => Ok []
            | Some b => Ok [call_meth b]
            | None =>
              match od_get (L "return_type") (ir_params (class_fold_returns i)) with
              | Some p => if gparam_nonempty p
                          then do m <- call_meth_of_dict pt keys ww p; Ok [m]
                          else Ok []
              | None => Err Unmodelled
              end
            end
          else Ok []) = Ok meth
      /\ map_outcome (fun kv => do r <- param2ast pt (fst kv) (snd kv); Ok (fst r)) (ir_params (class_fold_returns i))
         = Ok attrs
      /\ i2 = i
      /\ s = SClass cn (map EName bs) (SExpr (set_value (VStr (class_docstring text))) :: attrs ++ meth) (map EName ds).
Proof.
  intros pt i ec cn bs ds ww tds s i2 H keys body0. unfold emit_class in H. cbv zeta in H.
  repeat (apply bind_Ok_inv in H; destruct H as [? [? H]]).
  injection H as <- <-. repeat eexists; eassumption.
Qed.

Lemma last_is_return_app : forall b r, last_is_return (b ++ [r]) = is_return r.
Proof. intros b r. unfold last_is_return. rewrite rev_app_distr. reflexivity. Qed.

Lemma last_is_return_nil : last_is_return [] = false.
Proof. reflexivity. Qed.

Lemma last_is_return_true : forall b, last_is_return b = true ->
    exists b' r, b = b' ++ [r] /\ is_return r = true.
Proof.
  intros b H. unfold last_is_return in H. destruct (rev b) as [|s r'] eqn:E; [discriminate|].
  exists (rev r'), s. split; [|assumption].
  rewrite <- (rev_involutive b), E. reflexivity.
Qed.
