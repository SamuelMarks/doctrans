(* C05Facts: property C05 (any-to-any convertibility).
   - [preserved] is reflexive, transitive and position-wise (the k-th parameter of the result has the name, type,
     prose and default of the k-th parameter of the original: nothing is swapped between parameters, nothing is
     invented or dropped);
   - the composition theorem: from per-kind round-trip laws on a domain closed under the conversions, every
     chain of conversions of ANY length preserves the interface (induction over the chain);
   - the laws that existing theorems discharge: ReST from the C01 ReST theorem on its guard, numpydoc / google from
     the C01 theorem modulo its scan link; what remains a hypothesis is stated in each lemma;
   - the statement over the whole domain is false of the faithful model (witness from a finding class);
     the region is inhabited;
   - the region shrinks as kinds are added to the chain (chain_safe_mono): the tests of the classifier on the kinds
     are all positive. *)
From Coq Require Import List Ascii Bool Arith ZArith Lia.
From Coq Require String.
Import String.StringSyntax.
From DT Require Import PyStr Sexp PyVal TyExpr PureUtils Defaults PyAst IR Extracted C17Spec DocParse C01Spec C05Spec.
From DT Require Import PyStrFacts.
From DT Require DefaultsFacts EmitAstFacts DocParseFacts.
From DT Require DocParseNG C01SpecNG DocParseNGFacts.
Import ListNotations.

Lemma list_eqb_refl_Forall : forall {A} (f : A -> A -> bool) l,
    Forall (fun x => f x x = true) l -> list_eqb f l l = true.
Proof.
  intros A f l H. induction H as [|x l Hx Hl IH]; [reflexivity|].
  cbn. rewrite Hx. exact IH.
Qed.

Lemma expr_eqb_refl : forall e, expr_eqb e e = true.
Proof.
  intros e. induction e as [v|id|e a IHe|e s IHe IHs|es IH|es IH|ks vs IHk IHv|f args kws IHf IHa IHk|op e IHe|s]
                             using EmitAstFacts.expr_ind'; cbn.
  - apply DefaultsFacts.pyval_eqb_refl.
  - apply str_eqb_refl.
  - rewrite IHe. apply str_eqb_refl.
  - rewrite IHe. exact IHs.
  - apply list_eqb_refl_Forall. exact IH.
  - apply list_eqb_refl_Forall. exact IH.
  - rewrite (list_eqb_refl_Forall expr_eqb ks IHk). apply list_eqb_refl_Forall. exact IHv.
  - rewrite IHf. rewrite (list_eqb_refl_Forall expr_eqb args IHa). cbn.
    apply list_eqb_refl_Forall. eapply Forall_impl; [|exact IHk].
    intros [o x] Hx. cbn in Hx. rewrite Hx. destruct o as [o|]; cbn; [rewrite str_eqb_refl|]; reflexivity.
  - rewrite str_eqb_refl. exact IHe.
  - apply str_eqb_refl.
Qed.

Lemma dval_eqb_refl : forall d, dval_eqb d d = true.
Proof.
  destruct d; cbn; [apply DefaultsFacts.pyval_eqb_refl | apply expr_eqb_refl | apply str_eqb_refl].
Qed.

Lemma dval_eqb_eq : forall a b, dval_eqb a b = true -> a = b.
Proof.
  intros a b H. destruct a, b; cbn in H; try discriminate; f_equal.
  - apply DefaultsFacts.pyval_eqb_eq. exact H.
  - apply EmitAstFacts.expr_eqb_eq. exact H.
  - apply str_eqb_eq. exact H.
Qed.

Lemma opt_eqb_refl : forall {A} (eq : A -> A -> bool), (forall x, eq x x = true) -> forall a, opt_eqb eq a a = true.
Proof. intros A eq H [x|]; cbn; [apply H | reflexivity]. Qed.

Lemma opt_eqb_trans : forall {A} (eq : A -> A -> bool),
    (forall x y z, eq x y = true -> eq y z = true -> eq x z = true) ->
    forall a b c, opt_eqb eq a b = true -> opt_eqb eq b c = true -> opt_eqb eq a c = true.
Proof.
  intros A eq H [x|] [y|] [z|] H1 H2; cbn in *; try discriminate; try reflexivity. eapply H; eassumption.
Qed.

Lemma same_typ_refl : forall g, same_typ g g = true.
Proof. intros g. unfold same_typ. apply opt_eqb_refl. exact str_eqb_refl. Qed.

Lemma same_typ_trans : forall a b c, same_typ a b = true -> same_typ b c = true -> same_typ a c = true.
Proof. intros a b c. unfold same_typ. apply opt_eqb_trans. exact str_eqb_trans. Qed.

Lemma same_prose_refl : forall g, same_prose g g = true.
Proof. intros g. unfold same_prose. apply opt_eqb_refl. exact str_eqb_refl. Qed.

Lemma same_prose_trans : forall a b c, same_prose a b = true -> same_prose b c = true -> same_prose a c = true.
Proof. intros a b c. unfold same_prose. apply opt_eqb_trans. exact str_eqb_trans. Qed.

Lemma same_default_ir_refl : forall d, same_default_ir d d = true.
Proof. intros [d|]; cbn; [rewrite dval_eqb_refl|]; reflexivity. Qed.

Lemma same_default_ir_trans : forall a b c,
    same_default_ir a b = true -> same_default_ir b c = true -> same_default_ir a c = true.
Proof.
  intros [x|] [y|] [z|] H1 H2; cbn in *; try discriminate; try reflexivity.
  apply orb_true_iff in H1. apply orb_true_iff in H2. apply orb_true_iff.
  destruct H1 as [H1|H1].
  - apply dval_eqb_eq in H1. subst y. exact H2.
  - destruct H2 as [H2|H2].
    + apply dval_eqb_eq in H2. subst z. right. exact H1.
    + apply andb_true_iff in H1. apply andb_true_iff in H2. destruct H1 as [Hx _]. destruct H2 as [_ Hz].
      right. rewrite Hx, Hz. reflexivity.
Qed.

Lemma preserved_entry_refl : forall g, preserved_entry g g = true.
Proof.
  intros g. unfold preserved_entry. rewrite same_typ_refl, same_prose_refl, same_default_ir_refl. reflexivity.
Qed.

Lemma preserved_entry_split : forall g g',
    preserved_entry g g' = true <->
    same_typ g g' = true /\ same_prose g g' = true /\ same_default_ir (g_default g) (g_default g') = true.
Proof.
  intros g g'. unfold preserved_entry. rewrite !andb_true_iff. tauto.
Qed.

Lemma preserved_entry_trans : forall a b c,
    preserved_entry a b = true -> preserved_entry b c = true -> preserved_entry a c = true.
Proof.
  intros a b c H1 H2. apply preserved_entry_split in H1. apply preserved_entry_split in H2.
  destruct H1 as [T1 [P1 D1]]. destruct H2 as [T2 [P2 D2]]. apply preserved_entry_split. repeat split.
  - eapply same_typ_trans; eassumption.
  - eapply same_prose_trans; eassumption.
  - eapply same_default_ir_trans; eassumption.
Qed.

Lemma preserved_params_refl : forall ps, preserved_params ps ps = true.
Proof.
  induction ps as [|[n g] r IH]; [reflexivity|]. cbn [preserved_params].
  rewrite str_eqb_refl, preserved_entry_refl. exact IH.
Qed.

Lemma preserved_params_cons : forall n g a n' g' b,
    preserved_params ((n, g) :: a) ((n', g') :: b) = true <->
    n' = n /\ preserved_entry g g' = true /\ preserved_params a b = true.
Proof.
  intros n g a n' g' b. cbn [preserved_params]. rewrite !andb_true_iff. split.
  - intros [[N E] R]. apply str_eqb_eq in N. subst n'. auto.
  - intros [N [E R]]. subst n'. rewrite str_eqb_refl. auto.
Qed.

Lemma preserved_params_trans : forall a b c,
    preserved_params a b = true -> preserved_params b c = true -> preserved_params a c = true.
Proof.
  induction a as [|[n g] a IH]; intros [|[n' g'] b] [|[n'' g''] c] H1 H2; try discriminate; try reflexivity.
  apply preserved_params_cons in H1. destruct H1 as [N1 [E1 R1]]. apply preserved_params_cons in H2. destruct H2 as [N2 [E2 R2]].
  apply preserved_params_cons. subst n' n''. split; [reflexivity|].
  split; [exact (preserved_entry_trans _ _ _ E1 E2)|exact (IH b c R1 R2)].
Qed.

Lemma same_summary_trans : forall a b c, same_summary a b = true -> same_summary b c = true -> same_summary a c = true.
Proof. intros a b c. unfold same_summary. apply opt_eqb_trans. exact str_eqb_trans. Qed.

Lemma preserved_returns_trans : forall a b c,
    preserved_returns a b = true -> preserved_returns b c = true -> preserved_returns a c = true.
Proof. intros a b c. unfold preserved_returns. apply opt_eqb_trans. exact preserved_entry_trans. Qed.

Lemma preserved_split : forall i i',
    preserved i i' = true <->
    same_summary i i' = true /\ preserved_params (ir_params i) (ir_params i') = true
    /\ preserved_returns (ir_returns i) (ir_returns i') = true.
Proof. intros i i'. unfold preserved. rewrite !andb_true_iff. tauto. Qed.

Lemma preserved_of_fields : forall i i', ir_doc i' = ir_doc i -> ir_params i' = ir_params i ->
    fld_opt (ir_returns i') = fld_opt (ir_returns i) -> preserved i i' = true.
Proof.
  intros i i' Hd Hp Hr. apply preserved_split. split; [|split].
  - unfold same_summary. rewrite Hd. apply opt_eqb_refl. exact str_eqb_refl.
  - rewrite Hp. apply preserved_params_refl.
  - unfold preserved_returns. rewrite Hr. apply opt_eqb_refl. exact preserved_entry_refl.
Qed.

Theorem preserved_refl : forall i, preserved i i = true.
Proof. intros i. exact (preserved_of_fields i i eq_refl eq_refl eq_refl). Qed.

Theorem preserved_trans : forall a b c, preserved a b = true -> preserved b c = true -> preserved a c = true.
Proof.
  intros a b c H1 H2. apply preserved_split in H1. apply preserved_split in H2.
  destruct H1 as [S1 [P1 R1]]. destruct H2 as [S2 [P2 R2]]. apply preserved_split. repeat split.
  - eapply same_summary_trans; eassumption.
  - eapply preserved_params_trans; eassumption.
  - eapply preserved_returns_trans; eassumption.
Qed.

Lemma preserved_params_length : forall a b, preserved_params a b = true -> List.length a = List.length b.
Proof.
  induction a as [|[n g] a IH]; intros [|[n' g'] b] H; try discriminate; [reflexivity|].
  apply preserved_params_cons in H. destruct H as [_ [_ R]]. cbn [List.length]. f_equal. exact (IH b R).
Qed.

Lemma preserved_params_nth : forall a b, preserved_params a b = true ->
    forall k n g, nth_error a k = Some (n, g) ->
    exists g', nth_error b k = Some (n, g') /\ preserved_entry g g' = true.
Proof.
  induction a as [|[n0 g0] a IH]; intros [|[n1 g1] b] H k n g Hk; try discriminate.
  - destruct k; discriminate.
  - apply preserved_params_cons in H. destruct H as [N [E R]]. subst n1. destruct k as [|k]; cbn [nth_error] in *.
    + injection Hk as Hn Hg. subst. exists g1. split; [reflexivity | exact E].
    + exact (IH b R k n g Hk).
Qed.

Lemma preserved_params_nth_back : forall a b, preserved_params a b = true ->
    forall k n g', nth_error b k = Some (n, g') ->
    exists g, nth_error a k = Some (n, g) /\ preserved_entry g g' = true.
Proof.
  induction a as [|[n0 g0] a IH]; intros [|[n1 g1] b] H k n g' Hk; try discriminate.
  - destruct k; discriminate.
  - apply preserved_params_cons in H. destruct H as [N [E R]]. subst n1. destruct k as [|k]; cbn [nth_error] in *.
    + injection Hk as Hn Hg. subst. exists g0. split; [reflexivity | exact E].
    + exact (IH b R k n g' Hk).
Qed.

(* the k-th parameter of the result has the name, type, prose and default of the k-th parameter of the original *)
Theorem preserved_no_swap : forall i i', preserved i i' = true ->
    List.length (ir_params i) = List.length (ir_params i')
    /\ forall k n g, nth_error (ir_params i) k = Some (n, g) ->
       exists g', nth_error (ir_params i') k = Some (n, g')
                  /\ same_typ g g' = true /\ same_prose g g' = true
                  /\ same_default_ir (g_default g) (g_default g') = true.
Proof.
  intros i i' H. apply preserved_split in H. destruct H as [_ [P _]]. split.
  - apply preserved_params_length. exact P.
  - intros k n g Hk. destruct (preserved_params_nth _ _ P k n g Hk) as [g' [Hg' E]].
    exists g'. split; [exact Hg'|]. apply preserved_entry_split. exact E.
Qed.

(* nothing is invented: every parameter of the result is, at the same position, a parameter of the original *)
Theorem preserved_nothing_invented : forall i i', preserved i i' = true ->
    forall k n g', nth_error (ir_params i') k = Some (n, g') ->
    exists g, nth_error (ir_params i) k = Some (n, g)
              /\ same_typ g g' = true /\ same_prose g g' = true
              /\ same_default_ir (g_default g) (g_default g') = true.
Proof.
  intros i i' H k n g' Hk. apply preserved_split in H. destruct H as [_ [P _]].
  destruct (preserved_params_nth_back _ _ P k n g' Hk) as [g [Hg E]].
  exists g. split; [exact Hg|]. apply preserved_entry_split. exact E.
Qed.

Theorem preserved_names : forall i i', preserved i i' = true -> map fst (ir_params i) = map fst (ir_params i').
Proof.
  intros i i' H. apply preserved_split in H. destruct H as [_ [P _]]. revert P.
  generalize (ir_params i) (ir_params i'). induction l as [|[n g] a IH]; intros [|[n' g'] b] H;
    try discriminate; [reflexivity|].
  apply preserved_params_cons in H. destruct H as [N [_ R]]. subst n'. cbn [map fst]. f_equal. exact (IH b R).
Qed.

Section Compose.
  Variables (T K : Type).
  Variable pres : T -> T -> bool.
  Variable conv : K -> T -> outcome T.     (* conv k = parse_k o emit_k *)
  Variable D : T -> bool.                  (* a domain closed under the conversions considered *)
  Hypothesis pres_refl : forall i, pres i i = true.
  Hypothesis pres_trans : forall a b c, pres a b = true -> pres b c = true -> pres a c = true.

  (* the law of one kind: on the domain the conversion succeeds, preserves, and stays in the domain *)
  Definition RT (k : K) : Prop :=
    forall i, D i = true -> exists i', conv k i = Ok i' /\ pres i i' = true /\ D i' = true.

  Theorem chain_preserved : forall ks, (forall k, In k ks -> RT k) ->
      forall i, D i = true -> exists i', chain conv ks i = Ok i' /\ pres i i' = true /\ D i' = true.
  Proof.
    induction ks as [|k ks IH]; intros Hlaws i Hi.
    - exists i. cbn [chain]. split; [reflexivity|]. split; [apply pres_refl | exact Hi].
    - destruct (Hlaws k (or_introl eq_refl) i Hi) as [i1 [Hc [Hp Hd]]].
      destruct (IH (fun k' Hk' => Hlaws k' (or_intror Hk')) i1 Hd) as [i2 [Hc2 [Hp2 Hd2]]].
      exists i2. cbn [chain]. rewrite Hc. cbn [bind]. split; [exact Hc2|].
      split; [exact (pres_trans _ _ _ Hp Hp2) | exact Hd2].
  Qed.

  Lemma RT_of_parts : forall k,
      (forall i, D i = true -> exists i', conv k i = Ok i' /\ pres i i' = true) ->
      (forall i i', D i = true -> conv k i = Ok i' -> D i' = true) ->
      RT k.
  Proof.
    intros k Hrt Hcl i Hi. destruct (Hrt i Hi) as [i' [Hc Hp]]. exists i'. split; [exact Hc|].
    split; [exact Hp | exact (Hcl i i' Hi Hc)].
  Qed.
End Compose.

(* C05: any chain (of any length, repetitions allowed) of conversions over kinds drawn from [ks] preserves the
   interface on the region chain_safe ks, given the law of each kind of [ks] on that region *)
Section C05Laws.
  Variable conv : kind -> ir -> outcome ir.
  Variable ks : list kind.
  Hypothesis RT_rest : In KRest ks -> kind_law conv (chain_safe ks) KRest.
  Hypothesis RT_numpydoc : In KNumpydoc ks -> kind_law conv (chain_safe ks) KNumpydoc.
  Hypothesis RT_google : In KGoogle ks -> kind_law conv (chain_safe ks) KGoogle.
  Hypothesis RT_class : In KClass ks -> kind_law conv (chain_safe ks) KClass.
  Hypothesis RT_function : In KFunction ks -> kind_law conv (chain_safe ks) KFunction.
  Hypothesis RT_method : In KMethod ks -> kind_law conv (chain_safe ks) KMethod.
  Hypothesis RT_argparse : In KArgparse ks -> kind_law conv (chain_safe ks) KArgparse.

  Theorem C05_chain_preserved_lemma : forall cs, incl cs ks ->
      forall i, chain_safe ks i = true ->
      exists i', chain conv cs i = Ok i' /\ preserved i i' = true /\ chain_safe ks i' = true.
  Proof.
    intros cs Hincl. apply (chain_preserved ir kind preserved conv (chain_safe ks) preserved_refl preserved_trans).
    intros k Hk. apply Hincl in Hk. change (kind_law conv (chain_safe ks) k).
    destruct k; [apply RT_rest | apply RT_numpydoc | apply RT_google | apply RT_class | apply RT_function
                 | apply RT_method | apply RT_argparse]; exact Hk.
  Qed.

  Corollary C05_chain_no_swap_lemma : forall cs, incl cs ks ->
      forall i, chain_safe ks i = true ->
      exists i', chain conv cs i = Ok i'
                 /\ List.length (ir_params i) = List.length (ir_params i')
                 /\ forall k n g, nth_error (ir_params i) k = Some (n, g) ->
                    exists g', nth_error (ir_params i') k = Some (n, g')
                               /\ same_typ g g' = true /\ same_prose g g' = true
                               /\ same_default_ir (g_default g) (g_default g') = true.
  Proof.
    intros cs Hincl i Hi. destruct (C05_chain_preserved_lemma cs Hincl i Hi) as [i' [Hc [Hp _]]].
    exists i'. split; [exact Hc|]. exact (preserved_no_swap i i' Hp).
  Qed.
End C05Laws.

Lemma same_params_false_preserved : forall a b, same_params false a b = preserved_params a b.
Proof.
  induction a as [|[n g] a IH]; intros [|[n' g'] b]; cbn [same_params preserved_params]; try reflexivity.
  rewrite IH. reflexivity.
Qed.

Lemma same_returns_false_preserved : forall r r', same_returns false r r' = preserved_returns r r'.
Proof.
  intros r r'. unfold same_returns, preserved_returns.
  destruct (fld_opt r) as [g|], (fld_opt r') as [g'|]; reflexivity.
Qed.

Lemma same_interface_false_preserved : forall i i', same_interface false i i' = preserved i i'.
Proof.
  intros i i'. unfold same_interface, preserved.
  rewrite same_params_false_preserved, same_returns_false_preserved. reflexivity.
Qed.

(* ReST, round-trip part: discharged by the C01 ReST theorem on its guard *)
Theorem RT_rest_roundtrip : forall i, guard_C01_rest false i = true ->
    exists i', conv_rest i = Ok i' /\ preserved i i' = true.
Proof.
  intros i Hg. destruct (DocParseFacts.C01_rest_partial_lemma false i Hg) as [text [i' [Ht [_ [Hp Hs]]]]].
  exists i'. split.
  - unfold conv_rest. rewrite Ht. cbn [bind]. exact Hp.
  - rewrite <- same_interface_false_preserved. exact Hs.
Qed.

Theorem RT_rest_from_C01 : forall D : ir -> bool,
    (forall i, D i = true -> guard_C01_rest false i = true) ->
    (forall i i', D i = true -> conv_rest i = Ok i' -> D i' = true) ->
    forall i, D i = true -> exists i', conv_rest i = Ok i' /\ preserved i i' = true /\ D i' = true.
Proof.
  intros D Hin Hcl i Hi. destruct (RT_rest_roundtrip i (Hin i Hi)) as [i' [Hc Hp]].
  exists i'. split; [exact Hc|]. split; [exact Hp|exact (Hcl i i' Hi Hc)].
Qed.

Lemma fget_fld_str : forall a b : fld str, fget a = fget b -> fld_str a = fld_str b.
Proof. intros [| |x] [| |y] H; cbn in *; try discriminate; try reflexivity. injection H as H. subst. reflexivity. Qed.

Lemma ng_fld_eqb_fld_str : forall a b, C01SpecNG.fld_eqb a b = true -> opt_eqb str_eqb (fld_str a) (fld_str b) = true.
Proof.
  intros a b H. unfold C01SpecNG.fld_eqb, C01SpecNG.opt_str_eqb in H.
  assert (E : fget a = fget b).
  { destruct (fget a) as [x|], (fget b) as [y|]; try discriminate; [|reflexivity].
    apply str_eqb_eq in H. subst. reflexivity. }
  rewrite (fget_fld_str a b E). apply opt_eqb_refl. exact str_eqb_refl.
Qed.

Lemma ng_default_eqb_same : forall a b, C01SpecNG.default_eqb a b = true -> same_default_ir a b = true.
Proof.
  intros a b H. destruct a as [[x|x|x]|], b as [[y|y|y]|];
    cbn [C01SpecNG.default_eqb same_default_ir dval_eqb none_like_d] in *; try discriminate; try reflexivity.
  - unfold none_like. exact H.
  - rewrite H. reflexivity.
  - rewrite H. reflexivity.
Qed.

Lemma ng_gparam_same_preserved : forall p q, C01SpecNG.gparam_same p q = true -> preserved_entry p q = true.
Proof.
  intros p q H. unfold C01SpecNG.gparam_same in H. apply andb_true_iff in H. destruct H as [H Hd].
  apply andb_true_iff in H. destruct H as [Ht Hp]. apply preserved_entry_split. repeat split.
  - unfold same_typ. apply ng_fld_eqb_fld_str. exact Ht.
  - unfold same_prose. apply ng_fld_eqb_fld_str. exact Hp.
  - apply ng_default_eqb_same. exact Hd.
Qed.

Lemma ng_params_same_preserved : forall a b, C01SpecNG.params_same a b = true -> preserved_params a b = true.
Proof.
  induction a as [|[n g] a IH]; intros [|[n' g'] b] H; cbn [C01SpecNG.params_same preserved_params] in *;
    try discriminate; try reflexivity.
  apply andb_true_iff in H. destruct H as [H R]. apply andb_true_iff in H. destruct H as [N E].
  rewrite N, (ng_gparam_same_preserved _ _ E). exact (IH b R).
Qed.

Lemma ng_same_interface_preserved : forall a b, C01SpecNG.same_interface a b = true -> preserved a b = true.
Proof.
  intros a b H. unfold C01SpecNG.same_interface in H. apply andb_true_iff in H. destruct H as [H Hr].
  apply andb_true_iff in H. destruct H as [Hd Hp]. apply preserved_split. repeat split.
  - unfold same_summary. unfold C01SpecNG.fld_eqb, C01SpecNG.opt_str_eqb in Hd. unfold fld_opt.
    destruct (ir_doc a) as [| |x], (ir_doc b) as [| |y]; cbn in *; try discriminate; try reflexivity. exact Hd.
  - apply ng_params_same_preserved. exact Hp.
  - unfold preserved_returns, fld_opt. unfold C01SpecNG.returns_same in Hr.
    destruct (ir_returns a) as [| |x], (ir_returns b) as [| |y]; cbn in *; try discriminate; try reflexivity.
    apply ng_gparam_same_preserved. exact Hr.
Qed.

(* the numpydoc / google conversion of the models *)
Definition conv_ng (style : DocParseNG.ngstyle) (i : ir) : outcome ir :=
  do text <- C01SpecNG.text_of_o style i;
  DocParseNG.parse_ng style C01SpecNG.rt_flags text.

(* round-trip part, from the C01 numpydoc/google theorem: on its guard, modulo its scan link *)
Theorem RT_ng_roundtrip : forall style i,
    C01SpecNG.guard_C01_ng style i = true -> C01SpecNG.scan_link_b style i = true ->
    exists i', conv_ng style i = Ok i' /\ preserved i i' = true.
Proof.
  intros style i Hg Hl.
  destruct (DocParseNGFacts.C01_ng_partial_modulo_scan style i Hg Hl) as [text [i' [Ht [_ [Hp Hs]]]]].
  exists i'. split.
  - unfold conv_ng. rewrite Ht. cbn [bind]. exact Hp.
  - apply ng_same_interface_preserved. exact Hs.
Qed.

Definition gp (t d : str) (v : option pyval) : gparam := mkG (Has d) (Has t) (option_map DV v).
Definition mk_ir (ps : list (str * gparam)) : ir :=
  mkIR FNone (Has (L "static")) (Has (L "Summary line.")) ps FNone None.

(* in the region of every chain *)
Definition w_safe : ir :=
  mk_ir [(L "alpha", gp (L "int") (L "first one.") (Some (VInt 5)));
         (L "beta", gp (L "Optional[str]") (L "second one,") (Some (VStr (L "np"))))].

(* class prose-without-terminal-punctuation: a full stop is added before the default sentence *)
Definition w_noterm : ir := mk_ir [(L "alpha", gp (L "int") (L "x") (Some (VInt 5)))].

(* the property over the whole domain, for the one-hop chain through ReST of the models *)
Definition C05_statement : Prop :=
  forall i, c05_domain i = true -> exists i', chain (fun _ : kind => conv_rest) [KRest] i = Ok i' /\ preserved i i' = true.

(* the conversion succeeds and returns the prose "x." *)
Lemma w_noterm_not_preserved :
  match chain (fun _ : kind => conv_rest) [KRest] w_noterm with Ok i' => preserved w_noterm i' | Err _ => true end = false.
Proof. vm_compute. reflexivity. Qed.

Lemma C05_refuted_lemma : ~ C05_statement.
Proof.
  intros H. assert (Hd : c05_domain w_noterm = true) by (vm_compute; reflexivity).
  destruct (H w_noterm Hd) as [i' [Hc Hp]]. pose proof w_noterm_not_preserved as Hn.
  rewrite Hc, Hp in Hn. discriminate Hn.
Qed.

Lemma w_noterm_class : c05_class_of [KRest] w_noterm = Some K05_prose_no_terminal.
Proof. vm_compute. reflexivity. Qed.

Lemma w_safe_holds :
  match conv_rest w_safe with Ok j => preserved w_safe j && chain_safe all_kinds j | Err _ => false end = true.
Proof. vm_compute. reflexivity. Qed.

Lemma C05_nonvacuous_lemma :
  chain_safe all_kinds w_safe = true
  /\ guard_C01_rest false w_safe = true
  /\ exists i', conv_rest w_safe = Ok i' /\ preserved w_safe i' = true /\ chain_safe all_kinds i' = true.
Proof.
  split; [vm_compute; reflexivity|]. split; [vm_compute; reflexivity|].
  pose proof w_safe_holds as Hb.
  destruct (conv_rest w_safe) as [i'|e]; [|discriminate].
  exists i'. split; [reflexivity|]. apply andb_true_iff in Hb. exact Hb.
Qed.

Lemma or_else_none : forall {A} (a b : option A), or_else a b = None <-> a = None /\ b = None.
Proof.
  intros A [x|] b; cbn; split; intros H.
  - discriminate.
  - destruct H as [H _]. discriminate.
  - split; [reflexivity | exact H].
  - destruct H as [_ H]. exact H.
Qed.

Lemma orb_mono : forall a a' b b', (a = true -> a' = true) -> (b = true -> b' = true) -> a || b = true -> a' || b' = true.
Proof. intros [] a' [] b' Ha Hb H; try discriminate H; rewrite ?(Ha eq_refl), ?(Hb eq_refl), ?orb_true_r; reflexivity. Qed.

Lemma andb_mono : forall a a' b b', (a = true -> a' = true) -> (b = true -> b' = true) -> a && b = true -> a' && b' = true.
Proof. intros [] a' [] b' Ha Hb H; try discriminate H. rewrite (Ha eq_refl), (Hb eq_refl). reflexivity. Qed.

Lemma guard_mono : forall {A} (c c' : bool) (k : A) (x x' : option A),
    (c = true -> c' = true) -> (x' = None -> x = None) ->
    (if c' then Some k else x') = None -> (if c then Some k else x) = None.
Proof. intros A [] c' k x x' Hc Hx; [rewrite (Hc eq_refl); discriminate|]. destruct c'; [discriminate|exact Hx]. Qed.

Lemma or_else_mono : forall {A} (a a' b b' : option A),
    (a' = None -> a = None) -> (b' = None -> b = None) -> or_else a' b' = None -> or_else a b = None.
Proof. intros A a a' b b' Ha Hb H. apply or_else_none in H. apply or_else_none. split; [apply Ha|apply Hb]; apply H. Qed.

Lemma existsb_incl : forall {A} (p : A -> bool) l l', incl l l' -> existsb p l = true -> existsb p l' = true.
Proof.
  intros A p l l' Hi H. apply existsb_exists in H. destruct H as [x [Hx Hp]].
  apply existsb_exists. exists x. split; [apply Hi; exact Hx|exact Hp].
Qed.

(* every test on the kinds is positive: a reason found for a chain is found for every chain over more kinds *)
Lemma entry_soft_mono : forall ks ks' seen g, incl ks ks' -> entry_soft ks' seen g = None -> entry_soft ks seen g = None.
Proof.
  intros ks ks' seen g Hi. unfold entry_soft. cbv zeta.
  pose proof (existsb_incl is_doc_kind ks ks' Hi) as Hdoc. pose proof (existsb_incl is_ng_kind ks ks' Hi) as Hng.
  pose proof (existsb_incl is_class_kind ks ks' Hi) as Hcls. pose proof (existsb_incl is_fun_kind ks ks' Hi) as Hfn.
  pose proof (existsb_incl is_argparse_kind ks ks' Hi) as Harg.
  apply or_else_mono; [|apply or_else_mono].
  - destruct (fld_str (g_doc g)); apply guard_mono; auto.
    + apply andb_mono; [apply andb_mono|]; auto.
    + apply orb_mono; [apply andb_mono|]; auto.
  - destruct (default_shape g); auto. apply guard_mono; [apply andb_mono; [|apply orb_mono]; auto|]. apply guard_mono; auto.
  - apply guard_mono; [apply andb_mono; auto|]. apply guard_mono; [apply andb_mono; auto|].
    destruct (default_shape g); auto. apply guard_mono.
    + apply orb_mono; [apply orb_mono|apply andb_mono]; auto.
    + apply guard_mono; [apply andb_mono; [|apply orb_mono]; auto|auto].
Qed.

Lemma params_class_mono : forall ks ks' ps seen, incl ks ks' ->
    params_class ks' seen ps = None -> params_class ks seen ps = None.
Proof.
  intros ks ks' ps seen Hi. revert seen. induction ps as [|[n g] r IH]; intros seen; [reflexivity|].
  cbn [params_class]. apply or_else_mono; [exact (fun H => H)|]. apply or_else_mono; [exact (entry_soft_mono ks ks' seen g Hi)|apply IH].
Qed.

Lemma return_class_mono : forall ks ks' i, incl ks ks' -> return_class ks' i = None -> return_class ks i = None.
Proof.
  intros ks ks' i Hi. unfold return_class. destruct (fld_opt (ir_returns i)) as [g|]; [|reflexivity].
  apply guard_mono; [|exact (fun H => H)].
  (* a kind of ks that does not carry a return entry is a kind of ks' *)
  intros H. apply negb_true_iff in H. apply negb_true_iff.
  destruct (forallb carries_return ks') eqn:E; [|reflexivity]. rewrite <- H. symmetry. apply forallb_forall.
  intros k Hk. rewrite forallb_forall in E. exact (E k (Hi k Hk)).
Qed.

(* a description every chain over the kinds of ks' preserves is preserved by every chain over fewer kinds *)
Theorem chain_safe_mono : forall ks ks' i, incl ks ks' -> chain_safe ks' i = true -> chain_safe ks i = true.
Proof.
  intros ks ks' i Hi H. unfold chain_safe in *. apply andb_true_iff in H. destruct H as [Hd Hc]. rewrite Hd. cbn [andb].
  destruct (c05_class_of ks' i) as [k|] eqn:E; [discriminate|].
  assert (E' : c05_class_of ks i = None); [|rewrite E'; reflexivity].
  revert E. unfold c05_class_of. apply or_else_mono; [exact (fun H => H)|].
  apply or_else_mono; [exact (return_class_mono ks ks' i Hi)|exact (params_class_mono ks ks' _ _ Hi)].
Qed.

Theorem chain_safe_all_kinds : forall ks i, chain_safe all_kinds i = true -> chain_safe ks i = true.
Proof. intros ks i. apply chain_safe_mono. intros k _. destruct k; cbn [all_kinds In]; auto 10. Qed.
