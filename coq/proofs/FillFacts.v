(* FillFacts: the model of textwrap.fill (model/Fill.v) on its fragment, for every width and text of any
   length: every line fits the width, the words are exactly the words of the input in order, no line
   ends with a blank and no line other than the first starts with one; text that fits is returned
   unchanged.  Also: [words] is blind to whitespace-only edits (strip, indent, re-join).  The notions
   of the proof are defined here: chunk_ok/good/wfc (well-formed chunk lists), normal, seg (the lines as a
   segmentation of the chunks), wrap_round (one round of wrap_chunks). *)
From Coq Require Import List Ascii Bool Arith Lia.
From Coq Require String.
Import String.StringSyntax.
From DT Require Import PyStr Sexp PyVal Extracted PureUtils Fill DocEmit C18Spec PyStrFacts SplitFacts.
Import ListNotations.

Definition spc (c : ascii) : bool := ascii_eqb c sp.

Lemma tw_space_sp : tw_space sp = true.
Proof. reflexivity. Qed.

Lemma tw_space_nl : tw_space nl = true.
Proof. reflexivity. Qed.

Lemma tw_space_isspace : forall c, tw_space c = true -> isspace c = true.
Proof.
  unfold tw_space, isspace. cbv zeta. intros c H. apply orb_true_iff in H. destruct H as [H|H].
  - rewrite H. reflexivity.
  - apply Nat.eqb_eq in H. rewrite H. apply orb_true_r.
Qed.

Lemma spc_tw : forall c, spc c = true -> tw_space c = true.
Proof. intros c H. apply ascii_eqb_eq in H. subst c. reflexivity. Qed.

Definition allsp (s : str) : Prop := forallb tw_space s = true.
Definition nosp (s : str) : Prop := forallb (fun c => negb (tw_space c)) s = true.

Lemma allsp_cons : forall c r, allsp (c :: r) <-> tw_space c = true /\ allsp r.
Proof. intros c r. apply andb_true_iff. Qed.

Lemma nosp_cons : forall c r, nosp (c :: r) <-> tw_space c = false /\ nosp r.
Proof.
  intros c r. unfold nosp. cbn [forallb]. rewrite andb_true_iff, negb_true_iff. reflexivity.
Qed.

Lemma cons_word_nonnil : forall c r ws, cons_word c r ws <> [].
Proof.
  intros c r ws. unfold cons_word. destruct r as [|d r']; [discriminate|].
  destruct (tw_space d); [discriminate|]. destruct ws; discriminate.
Qed.

Lemma words_cons_sp : forall c r, tw_space c = true -> words (c :: r) = words r.
Proof. intros c r H. cbn [words]. now rewrite H. Qed.

Lemma words_cons_nsp : forall c r, tw_space c = false -> words (c :: r) = cons_word c r (words r).
Proof. intros c r H. cbn [words]. now rewrite H. Qed.

Lemma words_allsp : forall s, allsp s -> words s = [].
Proof.
  intros s. induction s as [|c r IH]; intros H; [reflexivity|].
  apply allsp_cons in H. destruct H as [Hc Hr].
  rewrite words_cons_sp by assumption. now apply IH.
Qed.

(* the key law: a whitespace character separates *)
Lemma words_app_sp_mid : forall a d b, tw_space d = true -> words (a ++ d :: b) = words a ++ words b.
Proof.
  intros a d b Hd. induction a as [|c r IH].
  - cbn [app]. now rewrite words_cons_sp.
  - cbn [app]. destruct (tw_space c) eqn:Ec.
    + now rewrite !words_cons_sp.
    + rewrite !words_cons_nsp by assumption. rewrite IH.
      destruct r as [|d' r'].
      * cbn [app cons_word words]. now rewrite Hd.
      * cbn [app cons_word]. destruct (tw_space d') eqn:Ed'; [reflexivity|].
        destruct (words (d' :: r')) as [|w1 t] eqn:Ew.
        -- rewrite words_cons_nsp in Ew by assumption. now apply cons_word_nonnil in Ew.
        -- reflexivity.
Qed.

Lemma words_app_allsp_l : forall a b, allsp a -> words (a ++ b) = words b.
Proof.
  intros a b. induction a as [|c r IH]; intros H; [reflexivity|].
  apply allsp_cons in H. destruct H as [Hc Hr].
  cbn [app]. rewrite words_cons_sp by assumption. now apply IH.
Qed.

Lemma words_app_allsp_r : forall a b, allsp b -> words (a ++ b) = words a.
Proof.
  intros a b H. destruct b as [|d b']; [now rewrite app_nil_r|].
  apply allsp_cons in H. destruct H as [Hd Hb].
  rewrite words_app_sp_mid by assumption. rewrite (words_allsp b') by assumption. apply app_nil_r.
Qed.

Lemma words_word : forall u, u <> [] -> nosp u -> words u = [u].
Proof.
  intros u. induction u as [|c r IH]; intros Hne Hu; [congruence|].
  apply nosp_cons in Hu. destruct Hu as [Hc Hr].
  rewrite words_cons_nsp by assumption.
  destruct r as [|d r']; [reflexivity|].
  rewrite IH; [|discriminate|assumption].
  apply nosp_cons in Hr. destruct Hr as [Hd _]. cbn [cons_word]. now rewrite Hd.
Qed.

Lemma words_word_sp : forall u d b, u <> [] -> nosp u -> tw_space d = true ->
                                    words (u ++ d :: b) = u :: words b.
Proof.
  intros u d b Hne Hu Hd. rewrite words_app_sp_mid by assumption. now rewrite words_word.
Qed.

Lemma words_join_sep : forall d ls, tw_space d = true -> words (join [d] ls) = concat (map words ls).
Proof.
  intros d ls Hd. induction ls as [|x r IH]; [reflexivity|].
  destruct r as [|y r2].
  - cbn [join map concat]. now rewrite app_nil_r.
  - rewrite join_cons_cons. change ([d] ++ join [d] (y :: r2)) with (d :: join [d] (y :: r2)).
    rewrite words_app_sp_mid by assumption. rewrite IH. reflexivity.
Qed.

Lemma words_replace_ws : forall s, words (replace_ws s) = words s.
Proof.
  intros s. induction s as [|c r IH]; [reflexivity|].
  unfold replace_ws in *. cbn [map]. destruct (tw_space c) eqn:Ec.
  - rewrite (words_cons_sp sp) by reflexivity. rewrite (words_cons_sp c) by assumption. exact IH.
  - rewrite !words_cons_nsp by assumption. rewrite IH.
    destruct r as [|d r']; [reflexivity|].
    cbn [map cons_word]. destruct (tw_space d) eqn:Ed.
    + now rewrite tw_space_sp.
    + now rewrite Ed.
Qed.

Lemma no_exotic_iff : forall s,
    no_exotic_space s = true <-> forall x, In x s -> isspace x = tw_space x.
Proof.
  intros s. unfold no_exotic_space. rewrite forallb_forall.
  split; intros H x Hx; [apply eqb_prop|apply eqb_true_iff]; apply H; exact Hx.
Qed.

Lemma no_exotic_In : forall s c, no_exotic_space s = true -> In c s -> isspace c = tw_space c.
Proof. intros s c H. apply no_exotic_iff. exact H. Qed.

Lemma no_exotic_app : forall a b, no_exotic_space (a ++ b) = true <->
                                  no_exotic_space a = true /\ no_exotic_space b = true.
Proof. intros a b. unfold no_exotic_space. rewrite forallb_app. apply andb_true_iff. Qed.

Lemma forallb_rev : forall {A} (p : A -> bool) l, forallb p (rev l) = forallb p l.
Proof.
  intros A p l. induction l as [|x r IH]; [reflexivity|].
  cbn [rev forallb]. rewrite forallb_app, IH. cbn [forallb]. rewrite andb_true_r. apply andb_comm.
Qed.

Lemma dropwhile_takewhile : forall {A} (p : A -> bool) l, takewhile p l ++ dropwhile p l = l.
Proof.
  intros A p l. induction l as [|x r IH]; [reflexivity|].
  cbn [takewhile dropwhile]. destruct (p x); [cbn [app]; now rewrite IH|reflexivity].
Qed.

Lemma takewhile_forallb : forall {A} (p : A -> bool) l, forallb p (takewhile p l) = true.
Proof.
  intros A p l. induction l as [|x r IH]; [reflexivity|].
  cbn [takewhile]. destruct (p x) eqn:Ex; [cbn [forallb]; now rewrite Ex|reflexivity].
Qed.

Lemma lstrip_by_decomp : forall p s, exists t, s = t ++ lstrip_by p s /\ forallb p t = true.
Proof.
  intros p s. exists (takewhile p s). split; [symmetry; apply dropwhile_takewhile|].
  apply takewhile_forallb.
Qed.

Lemma rstrip_by_decomp : forall p s, exists t, s = rstrip_by p s ++ t /\ forallb p t = true.
Proof.
  intros p s. unfold rstrip_by. exists (rev (takewhile p (rev s))). split.
  - rewrite <- rev_app_distr. rewrite dropwhile_takewhile. now rewrite rev_involutive.
  - rewrite forallb_rev. apply takewhile_forallb.
Qed.

Lemma isspace_allsp : forall t, no_exotic_space t = true -> forallb isspace t = true -> allsp t.
Proof.
  intros t Hn Ht. apply forallb_forall. intros x Hx. rewrite <- (no_exotic_In t x Hn Hx).
  rewrite forallb_forall in Ht. exact (Ht x Hx).
Qed.

Lemma words_lstrip : forall s, no_exotic_space s = true -> words (lstrip s) = words s.
Proof.
  intros s H. destruct (lstrip_by_decomp isspace s) as [t [Hs Ht]]. fold (lstrip s) in Hs.
  rewrite Hs in H. apply no_exotic_app in H. destruct H as [Hn _].
  rewrite Hs at 2. symmetry. apply words_app_allsp_l. apply isspace_allsp; assumption.
Qed.

Lemma words_rstrip : forall s, no_exotic_space s = true -> words (rstrip s) = words s.
Proof.
  intros s H. destruct (rstrip_by_decomp isspace s) as [t [Hs Ht]]. fold (rstrip s) in Hs.
  rewrite Hs in H. apply no_exotic_app in H. destruct H as [_ Hn].
  rewrite Hs at 2. symmetry. apply words_app_allsp_r. apply isspace_allsp; assumption.
Qed.

Lemma no_exotic_lstrip : forall s, no_exotic_space s = true -> no_exotic_space (lstrip s) = true.
Proof.
  intros s H. destruct (lstrip_by_decomp isspace s) as [t [Hs _]]. fold (lstrip s) in Hs.
  rewrite Hs in H. apply no_exotic_app in H. apply H.
Qed.

Lemma words_strip : forall s, no_exotic_space s = true -> words (strip s) = words s.
Proof.
  intros s H. unfold strip, strip_by. change (rstrip_by isspace (lstrip_by isspace s)) with (rstrip (lstrip s)).
  rewrite words_rstrip by now apply no_exotic_lstrip. now apply words_lstrip.
Qed.

(* the parser's re-join of a wrapped block *)
Lemma words_rejoin : forall t, no_exotic_space t = true -> words (rejoin t) = words t.
Proof.
  intros t H. unfold rejoin. rewrite words_join_sep by reflexivity.
  rewrite <- (join_split_c nl t) at 2. rewrite words_join_sep by reflexivity.
  rewrite split_nl_eq. rewrite map_map. f_equal.
  apply map_ext_in. intros l Hl. apply words_strip.
  unfold no_exotic_space in *. pose proof (split_c_pieces_forallb _ nl t H) as HF.
  rewrite Forall_forall in HF. now apply HF.
Qed.

(* textwrap.indent with a blank prefix, then lstrip of the first line: indent_all_but_first *)
Lemma words_indent_lines : forall prefix ls, allsp prefix ->
    concat (map words (indent_lines prefix ls)) = concat (map words ls).
Proof.
  intros prefix ls Hp. induction ls as [|x r IH]; [reflexivity|].
  cbn [indent_lines map concat]. rewrite IH. f_equal.
  destruct (forallb isspace x); [reflexivity|]. now apply words_app_allsp_l.
Qed.

Lemma indent_lines_no_nl : forall prefix ls, ~ In nl prefix -> Forall (fun l => ~ In nl l) ls ->
                                             Forall (fun l => ~ In nl l) (indent_lines prefix ls).
Proof.
  intros prefix ls Hp H. induction H as [|x r Hx Hr IH]; [constructor|].
  cbn [indent_lines]. constructor; [|assumption].
  destruct (forallb isspace x); [assumption|].
  intros Hin. apply in_app_or in Hin. tauto.
Qed.

Lemma indent_lines_nonnil : forall prefix ls, ls <> [] -> indent_lines prefix ls <> [].
Proof. intros prefix ls H. destruct ls; [congruence|discriminate]. Qed.

Lemma indent_lines_chars : forall prefix ls l x,
    In l (indent_lines prefix ls) -> In x l -> In x prefix \/ exists l0, In l0 ls /\ In x l0.
Proof.
  intros prefix ls. induction ls as [|a r IH]; intros l x Hl Hx; [destruct Hl|].
  cbn [indent_lines] in Hl. destruct Hl as [Hl|Hl].
  - destruct (forallb isspace a).
    + subst l. right. exists a. split; [now left|assumption].
    + subst l. apply in_app_or in Hx. destruct Hx as [Hx|Hx]; [now left|].
      right. exists a. split; [now left|assumption].
  - destruct (IH l x Hl Hx) as [H|[l0 [H0 H1]]]; [now left|].
    right. exists l0. split; [now right|assumption].
Qed.

Lemma indent_split_chars : forall prefix r l x,
    In l (indent_lines prefix (split_c nl r)) -> In x l -> In x prefix \/ In x r.
Proof.
  intros prefix r l x Hl Hx.
  destruct (indent_lines_chars _ _ _ _ Hl Hx) as [Hp|[l1 [H1 H2]]]; [left; exact Hp|right].
  exact (split_c_pieces_chars nl r l1 x H1 H2).
Qed.

Lemma repeat_tab_no_nl : forall n, ~ In nl (repeat_str tab n).
Proof.
  intros n H. apply mem_c_In in H.
  rewrite (mem_c_forallb_false (fun c => negb (ascii_eqb c nl)) nl (repeat_str tab n)) in H.
  - discriminate H.
  - apply repeat_str_forallb. reflexivity.
  - reflexivity.
Qed.

Lemma repeat_tab_no_exotic : forall n, no_exotic_space (repeat_str tab n) = true.
Proof. intros n. apply repeat_str_forallb. reflexivity. Qed.

(* the split after the join cancels: indent_all_but_first is the join of the indented lines of r,
   the first of them stripped on the left *)
Lemma iabf_eq : forall r n, exists l0 rest,
    indent_lines (repeat_str tab n) (split_c nl r) = l0 :: rest
    /\ indent_all_but_first r n false = join [nl] (lstrip l0 :: rest).
Proof.
  intros r n. unfold indent_all_but_first, indent. rewrite !split_nl_eq.
  rewrite split_c_join.
  - destruct (indent_lines (repeat_str tab n) (split_c nl r)) as [|l0 rest] eqn:El.
    + apply indent_lines_nonnil in El; [destruct El|apply split_c_nonnil].
    + exists l0, rest. split; reflexivity.
  - apply indent_lines_nonnil. apply split_c_nonnil.
  - apply indent_lines_no_nl; [apply repeat_tab_no_nl|apply split_c_pieces_no_sep].
Qed.

Lemma iabf_chars : forall r n x,
    In x (indent_all_but_first r n false) -> x = nl \/ In x (repeat_str tab n) \/ In x r.
Proof.
  intros r n x Hx. destruct (iabf_eq r n) as [l0 [rest [El E]]]. rewrite E in Hx.
  apply join_chars in Hx. destruct Hx as [[Hx|[]]|[l [Hl Hxl]]]; [left; symmetry; exact Hx|right].
  destruct Hl as [Hl|Hl].
  - subst l. apply (indent_split_chars _ r l0 x); [rewrite El; left; reflexivity|].
    exact (dropwhile_In isspace l0 x Hxl).
  - apply (indent_split_chars _ r l x); [rewrite El; right; exact Hl|exact Hxl].
Qed.

Lemma iabf_no_exotic : forall r n,
    no_exotic_space r = true -> no_exotic_space (indent_all_but_first r n false) = true.
Proof.
  intros r n Hr. apply no_exotic_iff. intros x Hx.
  destruct (iabf_chars r n x Hx) as [E|[Hp|Hin]].
  - subst x. reflexivity.
  - exact (no_exotic_In _ x (repeat_tab_no_exotic n) Hp).
  - exact (no_exotic_In r x Hr Hin).
Qed.

Lemma words_indent_all_but_first : forall r n, no_exotic_space r = true ->
    words (indent_all_but_first r n false) = words r.
Proof.
  intros r n H. destruct (iabf_eq r n) as [l0 [rest [El E]]]. rewrite E.
  rewrite (words_join_sep nl) by reflexivity. cbn [map concat].
  assert (Hl0 : no_exotic_space l0 = true).
  { apply no_exotic_iff. intros x Hx.
    destruct (indent_split_chars (repeat_str tab n) r l0 x) as [Hp|Hin];
      [rewrite El; left; reflexivity|exact Hx| |].
    - exact (no_exotic_In _ x (repeat_tab_no_exotic n) Hp).
    - exact (no_exotic_In r x H Hin). }
  rewrite words_lstrip by exact Hl0.
  change (words l0 ++ concat (map words rest)) with (concat (map words (l0 :: rest))).
  rewrite <- El, words_indent_lines by (apply repeat_str_forallb; reflexivity).
  rewrite <- (words_join_sep nl) by reflexivity. rewrite join_split_c. reflexivity.
Qed.

(* a chunk of kind k: non-empty, every character is a blank iff k, and "blank" means the same to the
   splitter (== sp) and to TextWrapper (tw_space) *)
Definition chunk_ok (k : bool) (c : str) : Prop :=
  c <> [] /\ forallb (fun x => Bool.eqb (spc x) k && Bool.eqb (tw_space x) k) c = true.

Fixpoint good (k : bool) (cs : list str) : Prop :=
  match cs with
  | [] => True
  | c :: r => chunk_ok k c /\ good (negb k) r
  end.

Definition wfc (cs : list str) : Prop := exists k, good k cs.

(* text in which the only whitespace is the plain space *)
Definition normal (s : str) : Prop := forallb (fun x => Bool.eqb (tw_space x) (spc x)) s = true.

Lemma replace_ws_normal : forall s, normal (replace_ws s).
Proof.
  intros s. unfold normal, replace_ws. rewrite forallb_forall. intros x Hx.
  apply in_map_iff in Hx. destruct Hx as [c [Hc _]].
  destruct (tw_space c) eqn:Ec.
  - subst x. reflexivity.
  - subst x. rewrite Ec. unfold spc. destruct (ascii_eqb c sp) eqn:E; [|reflexivity].
    apply ascii_eqb_eq in E. subst c. discriminate.
Qed.

Lemma chunk_ok_In : forall k c x, chunk_ok k c -> In x c -> spc x = k /\ tw_space x = k.
Proof.
  intros k c x [_ H] Hx. rewrite forallb_forall in H. specialize (H x Hx).
  apply andb_true_iff in H. destruct H as [H1 H2]. split; apply eqb_prop; assumption.
Qed.

Lemma chunk_ok_kind : forall k c, chunk_ok k c -> is_space_chunk c = k.
Proof.
  intros k c H. destruct c as [|x r]; [destruct H as [Hne _]; congruence|].
  apply (chunk_ok_In k (x :: r) x H). left. reflexivity.
Qed.

Lemma chunk_ok_space : forall c, chunk_ok true c -> allsp c.
Proof. intros c H. apply forallb_forall. intros x Hx. apply (chunk_ok_In true c x H Hx). Qed.

Lemma chunk_ok_word : forall c, chunk_ok false c -> nosp c.
Proof.
  intros c H. apply forallb_forall. intros x Hx.
  destruct (chunk_ok_In false c x H Hx) as [_ E]. rewrite E. reflexivity.
Qed.

Lemma chunk_ok_no_nl : forall k c, chunk_ok k c -> ~ In nl c.
Proof.
  intros k c H Hin. destruct (chunk_ok_In k c nl H Hin) as [H1 H2].
  rewrite <- H1 in H2. discriminate H2.
Qed.

Lemma chunk_ok_rev : forall cur k,
    cur <> [] -> normal (rev cur) -> forallb (fun x => Bool.eqb (spc x) k) cur = true ->
    chunk_ok k (rev cur).
Proof.
  intros cur k Hne Hn Hk. split.
  - intros E. apply (f_equal (@List.length ascii)) in E. rewrite rev_length in E.
    destruct cur; [congruence|discriminate E].
  - unfold normal in Hn. rewrite forallb_forall in *. intros y Hy.
    specialize (Hn y Hy). apply in_rev in Hy. specialize (Hk y Hy).
    apply eqb_prop in Hn. apply eqb_prop in Hk. rewrite Hn, Hk. now rewrite eqb_reflx.
Qed.

Lemma chunks_aux_spec : forall s cur k,
    normal (rev cur ++ s) -> cur <> [] -> forallb (fun x => Bool.eqb (spc x) k) cur = true ->
    good k (chunks_aux s cur k) /\ concat (chunks_aux s cur k) = rev cur ++ s.
Proof.
  intros s. induction s as [|c r IH]; intros cur k Hn Hne Hk.
  - assert (Hc : chunk_ok k (rev cur)).
    { apply chunk_ok_rev; try assumption. rewrite app_nil_r in Hn. exact Hn. }
    cbn [chunks_aux]. destruct cur as [|x cur']; [congruence|].
    cbn [good concat]. rewrite !app_nil_r. split; [|reflexivity]. split; [exact Hc|exact I].
  - assert (Hc : chunk_ok k (rev cur)).
    { apply chunk_ok_rev; try assumption.
      unfold normal in *. rewrite forallb_app in Hn. apply andb_true_iff in Hn. apply Hn. }
    cbn [chunks_aux]. destruct cur as [|x cur'] eqn:Ecur; [congruence|]. rewrite <- Ecur in *.
    fold (spc c). destruct (Bool.eqb (spc c) k) eqn:Eck.
    + assert (Hn' : normal (rev (c :: cur) ++ r)).
      { cbn [rev]. now rewrite <- app_assoc. }
      destruct (IH (c :: cur) k Hn') as [Hg Hcat]; [discriminate| |].
      { cbn [forallb]. now rewrite Eck. }
      split; [assumption|]. rewrite Hcat. cbn [rev]. now rewrite <- app_assoc.
    + assert (Hn' : normal (rev [c] ++ r)).
      { unfold normal in *. rewrite forallb_app in Hn. apply andb_true_iff in Hn. now destruct Hn. }
      destruct (IH [c] (spc c) Hn') as [Hg Hcat]; [discriminate| |].
      { cbn [forallb]. now rewrite eqb_reflx. }
      assert (Ek : spc c = negb k).
      { revert Eck. destruct (spc c), k; cbn; congruence. }
      cbn [good concat]. split.
      * split; [exact Hc|now rewrite <- Ek].
      * rewrite Hcat. reflexivity.
Qed.

Lemma chunks_spec : forall s, normal s -> wfc (chunks s) /\ concat (chunks s) = s.
Proof.
  intros s Hn. unfold chunks. destruct s as [|c r].
  - cbn [chunks_aux]. split; [exists true; exact I|reflexivity].
  - cbn [chunks_aux]. fold (spc c).
    destruct (chunks_aux_spec r [c] (spc c)) as [Hg Hc]; [exact Hn|discriminate| |].
    { cbn [forallb]. now rewrite eqb_reflx. }
    split; [now exists (spc c)|exact Hc].
Qed.

Lemma wfc_tail : forall c r, wfc (c :: r) -> wfc r.
Proof. intros c r [k [_ H]]. now exists (negb k). Qed.

Lemma good_app : forall a b k, good k (a ++ b) -> good k a /\ wfc b.
Proof.
  intros a. induction a as [|x r IH]; intros b k H.
  - split; [exact I|now exists k].
  - cbn [app good] in *. destruct H as [Hx Hr]. destruct (IH b (negb k) Hr) as [Ha Hb].
    split; [now split|assumption].
Qed.

Lemma wfc_app : forall a b, wfc (a ++ b) -> wfc a /\ wfc b.
Proof. intros a b [k H]. destruct (good_app a b k H) as [Ha Hb]. split; [now exists k|assumption]. Qed.

Definition wordsC (cs : list str) : list str := filter (fun c => negb (is_space_chunk c)) cs.

Lemma wordsC_app : forall a b, wordsC (a ++ b) = wordsC a ++ wordsC b.
Proof. intros a b. apply filter_app. Qed.

Lemma good_words : forall cs k, good k cs -> words (concat cs) = wordsC cs.
Proof.
  intros cs. induction cs as [|c r IH]; intros k H; [reflexivity|].
  cbn [good] in H. destruct H as [Hc Hr]. cbn [concat wordsC filter].
  rewrite (chunk_ok_kind k c Hc). destruct k.
  - cbn [negb]. rewrite words_app_allsp_l by now apply chunk_ok_space. now apply (IH false).
  - cbn [negb]. destruct r as [|c2 r2].
    + cbn [concat wordsC filter]. rewrite app_nil_r. apply words_word; [apply Hc|now apply chunk_ok_word].
    + cbn [good negb] in Hr. destruct Hr as [Hc2 Hr2].
      pose proof (IH true (conj Hc2 Hr2)) as IH'.
      cbn [concat] in *. destruct c2 as [|d c2']; [now destruct Hc2|].
      assert (Hd : tw_space d = true).
      { apply (chunk_ok_In true (d :: c2') d Hc2). left. reflexivity. }
      cbn [app]. rewrite words_word_sp; [|apply Hc|now apply chunk_ok_word|exact Hd].
      rewrite <- (words_cons_sp d) by exact Hd. cbn [app] in IH'. now rewrite IH'.
Qed.

Lemma wfc_words : forall cs, wfc cs -> words (concat cs) = wordsC cs.
Proof. intros cs [k H]. now apply (good_words cs k). Qed.

Lemma good_no_nl : forall cs k, good k cs -> ~ In nl (concat cs).
Proof.
  intros cs. induction cs as [|c r IH]; intros k H Hin; [destruct Hin|].
  cbn [good concat] in *. destruct H as [Hc Hr]. apply in_app_or in Hin. destruct Hin as [Hin|Hin].
  - now apply (chunk_ok_no_nl k c).
  - now apply (IH (negb k)).
Qed.

Lemma take_fit_spec : forall w cs n t r,
    take_fit w n cs = (t, r) -> cs = t ++ r /\ (n <= w -> n + List.length (concat t) <= w).
Proof.
  intros w cs. induction cs as [|c cs' IH]; intros n t r H; cbn [take_fit] in H.
  - inversion H; subst. split; [reflexivity|]. cbn [concat List.length]. lia.
  - destruct (Nat.leb (n + List.length c) w) eqn:E.
    + destruct (take_fit w (n + List.length c) cs') as [t' r'] eqn:Et. inversion H; subst.
      destruct (IH _ _ _ Et) as [Hcs Hlen]. split; [cbn [app]; f_equal; exact Hcs|].
      intros _. apply Nat.leb_le in E. cbn [concat]. rewrite app_length. specialize (Hlen E). lia.
    + inversion H; subst. split; [reflexivity|]. cbn [concat List.length]. lia.
Qed.

Lemma take_fit_first : forall w c cs n, n + List.length c <= w ->
    exists t r, take_fit w n (c :: cs) = (c :: t, r).
Proof.
  intros w c cs n H. cbn [take_fit]. apply Nat.leb_le in H. rewrite H.
  destruct (take_fit w (n + List.length c) cs) as [t r]. now exists t, r.
Qed.

Lemma take_fit_all : forall w cs n, n + List.length (concat cs) <= w -> take_fit w n cs = (cs, []).
Proof.
  intros w cs. induction cs as [|c cs' IH]; intros n H; [reflexivity|].
  cbn [concat] in H. rewrite app_length in H. cbn [take_fit].
  assert (E : Nat.leb (n + List.length c) w = true) by (apply Nat.leb_le; lia).
  rewrite E. rewrite IH by lia. reflexivity.
Qed.

Lemma drop_last_space_nil : drop_last_space [] = [].
Proof. reflexivity. Qed.

Lemma drop_last_space_snoc : forall l c,
    drop_last_space (l ++ [c]) = if is_space_chunk c then l else l ++ [c].
Proof.
  intros l c. unfold drop_last_space. rewrite rev_app_distr. cbn [rev app].
  destruct (is_space_chunk c); [apply rev_involutive|reflexivity].
Qed.

(* the first and the last chunk of a chunk list, by kind *)
Definition first_is_word (l : list str) : Prop :=
  match l with c :: _ => is_space_chunk c = false | [] => True end.
Definition last_is_word (l : list str) : Prop :=
  match rev l with c :: _ => is_space_chunk c = false | [] => True end.

Lemma good_snoc_kinds : forall l a b k, good k (l ++ [a; b]) -> is_space_chunk a = negb (is_space_chunk b).
Proof.
  intros l. induction l as [|x r IH]; intros a b k H.
  - cbn [app good] in H. destruct H as [Ha [Hb _]].
    rewrite (chunk_ok_kind _ _ Ha), (chunk_ok_kind _ _ Hb). now rewrite negb_involutive.
  - cbn [app good] in H. destruct H as [_ H]. now apply (IH a b (negb k)).
Qed.

Lemma rev_case : forall {A} (l : list A), l = [] \/ exists l' x, l = l' ++ [x].
Proof.
  intros A l. destruct l as [|x l' _] using rev_ind; [left; reflexivity|].
  right. exists l', x. reflexivity.
Qed.

Lemma last_is_word_snoc : forall l c, last_is_word (l ++ [c]) <-> is_space_chunk c = false.
Proof. intros l c. unfold last_is_word. rewrite rev_app_distr. reflexivity. Qed.

Lemma ends_with_space_concat : forall l c,
    wfc (l ++ [c]) -> ends_with_space (concat (l ++ [c])) = is_space_chunk c.
Proof.
  intros l c Hw. destruct (wfc_app _ _ Hw) as [_ [k [Hc _]]].
  rewrite (chunk_ok_kind k c Hc), concat_app. cbn [concat]. rewrite app_nil_r.
  unfold ends_with_space. rewrite last_c_app_nonnil by apply Hc.
  destruct (last_c c) as [x|] eqn:Ex.
  - apply (chunk_ok_In k c x Hc). apply last_c_In. exact Ex.
  - apply last_c_nil_iff in Ex. destruct Hc as [Hne _]. contradiction.
Qed.

Lemma drop_last_space_spec : forall l, wfc l ->
    exists tail, l = drop_last_space l ++ tail
                 /\ Forall (fun c => is_space_chunk c = true) tail
                 /\ last_is_word (drop_last_space l).
Proof.
  intros l Hw. destruct (rev_case l) as [E|[l' [c E]]].
  - subst l. exists []. split; [reflexivity|]. split; [constructor|exact I].
  - subst l. rewrite drop_last_space_snoc. destruct (is_space_chunk c) eqn:Ec.
    + exists [c]. split; [reflexivity|]. split; [constructor; [assumption|constructor]|].
      destruct (rev_case l') as [E2|[l2 [c2 E2]]]; subst l'; [exact I|].
      apply last_is_word_snoc.
      destruct Hw as [k Hk]. rewrite <- app_assoc in Hk. cbn [app] in Hk.
      rewrite (good_snoc_kinds l2 c2 c k Hk). now rewrite Ec.
    + exists []. rewrite app_nil_r. split; [reflexivity|]. split; [constructor|].
      apply last_is_word_snoc. exact Ec.
Qed.

(* [seg w hl cs ls]: the lines ls are concatenations of consecutive groups of chunks of cs, in order;
   between groups only blank chunks are dropped; every group fits the width or is one chunk alone
   (break_long_words=False: a word longer than the width overflows), ends with a word chunk and (once a
   line exists) starts with one *)
Inductive seg (w : nat) : bool -> list str -> list str -> Prop :=
| seg_nil : forall hl, seg w hl [] []
| seg_drop : forall hl c r ls, is_space_chunk c = true -> seg w hl r ls -> seg w hl (c :: r) ls
| seg_line : forall hl line r ls,
    line <> [] -> (List.length (concat line) <= w \/ exists c, line = [c]) ->
    (hl = true -> first_is_word line) -> last_is_word line ->
    seg w true r ls -> seg w hl (line ++ r) (concat line :: ls).

Lemma seg_drop_all : forall w hl tail r ls,
    Forall (fun c => is_space_chunk c = true) tail -> seg w hl r ls -> seg w hl (tail ++ r) ls.
Proof.
  intros w hl tail r ls H Hs. induction H as [|c t Hc Ht IH]; [assumption|].
  cbn [app]. now apply seg_drop.
Qed.

Lemma Forall_app_inv : forall {A} (P : A -> Prop) a b, Forall P (a ++ b) -> Forall P a /\ Forall P b.
Proof. intros A P a b. apply Forall_app. Qed.

Lemma first_is_word_prefix : forall a b, a <> [] -> first_is_word (a ++ b) -> first_is_word a.
Proof. intros a b Hne H. destruct a; [congruence|exact H]. Qed.

Lemma wrap_chunks_nil : forall fuel w hl, wrap_chunks fuel w [] hl = [].
Proof. intros fuel w hl. destruct fuel; reflexivity. Qed.

Lemma take_fit_nil_first : forall w n c r rest, take_fit w n (c :: r) = ([], rest) -> w < n + List.length c.
Proof.
  intros w n c r rest H. cbn [take_fit] in H. destruct (Nat.leb (n + List.length c) w) eqn:E.
  - destruct (take_fit w (n + List.length c) r). discriminate.
  - apply Nat.leb_gt in E. exact E.
Qed.

(* the long-word step of _wrap_chunks: when nothing fits on an empty line, the next chunk goes there alone *)
Definition long_step (w : nat) (taken rest : list str) : list str * list str :=
  match taken, rest with
  | [], c :: r => if Nat.ltb w (List.length c) then ([c], r) else (taken, rest)
  | _, _ => (taken, rest)
  end.

Lemma long_step_spec : forall w cs1 taken rest taken' rest',
    take_fit w 0 cs1 = (taken, rest) -> long_step w taken rest = (taken', rest') ->
    cs1 = taken' ++ rest'
    /\ (List.length (concat taken') <= w \/ exists c, taken' = [c])
    /\ (cs1 <> [] -> taken' <> []).
Proof.
  intros w cs1 taken rest taken' rest' Et Hl.
  destruct (take_fit_spec _ _ _ _ _ Et) as [Hcs1 Htl].
  specialize (Htl (Nat.le_0_l w)). cbn [plus] in Htl.
  unfold long_step in Hl. destruct taken as [|x t].
  - destruct rest as [|c r].
    + inversion Hl; subst taken' rest'. split; [exact Hcs1|]. split; [now left|].
      intros Hn. exfalso. apply Hn. exact Hcs1.
    + cbn [app] in Hcs1. subst cs1. pose proof (take_fit_nil_first _ _ _ _ _ Et) as Hlt. cbn [plus] in Hlt.
      apply Nat.ltb_lt in Hlt. rewrite Hlt in Hl. inversion Hl; subst.
      split; [reflexivity|]. split; [right; now exists c|discriminate].
  - inversion Hl; subst. split; [assumption || reflexivity|]. split; [now left|discriminate].
Qed.

(* one round of _wrap_chunks: the chunks that fit, or one long word, without a blank chunk at the
   end; and the chunks that are left *)
Definition wrap_round (w : nat) (cs : list str) : list str * list str :=
  let (taken, rest) := take_fit w 0 cs in
  let (taken', rest') := long_step w taken rest in
  (drop_last_space taken', rest').

Lemma wrap_chunks_step : forall f w c0 r0 hl,
    wrap_chunks (S f) w (c0 :: r0) hl =
    let (line, rest') := wrap_round w (if is_space_chunk c0 && hl then r0 else c0 :: r0) in
    match line with
    | [] => wrap_chunks f w rest' hl
    | _ => concat line :: wrap_chunks f w rest' true
    end.
Proof.
  intros f w c0 r0 hl. cbn [wrap_chunks]. unfold wrap_round, long_step.
  destruct (take_fit w 0 (if is_space_chunk c0 && hl then r0 else c0 :: r0)) as [taken rest].
  destruct taken as [|x t]; [|reflexivity].
  destruct rest as [|c r]; [reflexivity|]. destruct (Nat.ltb w (List.length c)); reflexivity.
Qed.

Lemma wrap_round_spec : forall w cs line rest',
    wfc cs -> wrap_round w cs = (line, rest') ->
    exists tail, cs = line ++ tail ++ rest'
                 /\ Forall (fun c => is_space_chunk c = true) tail
                 /\ last_is_word line
                 /\ (List.length (concat line) <= w \/ exists c, line = [c])
                 /\ (cs <> [] -> line ++ tail <> []).
Proof.
  intros w cs line rest' Hw H. unfold wrap_round in H.
  destruct (take_fit w 0 cs) as [taken rest] eqn:Et.
  destruct (long_step w taken rest) as [taken' rest''] eqn:El. inversion H; subst line rest''.
  destruct (long_step_spec w cs taken rest taken' rest' Et El) as [Hcs [Hfit Hne]].
  rewrite Hcs in Hw. destruct (wfc_app _ _ Hw) as [Hwt _].
  destruct (drop_last_space_spec taken' Hwt) as [tail [Htk [Htail Hlast]]].
  set (line := drop_last_space taken') in *. exists tail.
  split; [rewrite Hcs, Htk at 1; rewrite <- app_assoc; reflexivity|].
  split; [exact Htail|]. split; [exact Hlast|]. split; [|rewrite <- Htk; exact Hne].
  destruct Hfit as [Hfit|[c Hc]].
  - left. rewrite Htk, concat_app, app_length in Hfit. lia.
  - rewrite Hc in Htk. apply (f_equal (@List.length str)) in Htk. rewrite app_length in Htk.
    destruct line as [|l0 [|l1 lr]]; cbn [List.length] in Htk.
    + left. cbn [concat List.length]. lia.
    + right. exists l0. reflexivity.
    + lia.
Qed.

(* one round of wrap_chunks: a leading blank chunk is dropped once a line exists (Hgoal); then
   wrap_round_spec splits the rest into line ++ tail ++ rest', where tail holds only blank chunks;
   the fuel suffices for rest' (Hrest) because a round on a non-empty list consumes a chunk *)
Lemma wrap_seg : forall w fuel cs hl,
    List.length cs <= fuel -> wfc cs -> seg w hl cs (wrap_chunks fuel w cs hl).
Proof.
  intros w fuel. induction fuel as [|f IH]; intros cs hl Hlen Hw.
  - destruct cs; [constructor|cbn in Hlen; lia].
  - destruct cs as [|c0 r0]; [constructor|]. rewrite wrap_chunks_step.
    remember (is_space_chunk c0 && hl) as b eqn:Eb.
    remember (if b then r0 else c0 :: r0) as cs1 eqn:Ecs1.
    destruct (wrap_round w cs1) as [line rest'] eqn:Er.
    assert (Hw1 : wfc cs1).
    { rewrite Ecs1. destruct b; [now apply wfc_tail in Hw|assumption]. }
    destruct (wrap_round_spec w cs1 line rest' Hw1 Er)
      as [tail [Hcs1 [Htail [Hlast [Hfit Hne]]]]].
    assert (Hfirst : hl = true -> first_is_word cs1).
    { intros Ehl. rewrite Ecs1, Eb. rewrite Ehl, andb_true_r.
      destruct (is_space_chunk c0) eqn:E0; [|exact E0].
      destruct r0 as [|c1 r1]; [exact I|]. cbn [first_is_word].
      destruct Hw as [k [Hc0 [Hc1 _]]].
      rewrite (chunk_ok_kind _ _ Hc0) in E0. rewrite (chunk_ok_kind _ _ Hc1). now rewrite E0. }
    assert (Hrest : List.length rest' <= f).
    { cbn [List.length] in Hlen. pose proof (f_equal (@List.length str) Hcs1) as HL.
      rewrite !app_length in HL. destruct b.
      - rewrite Ecs1 in HL. lia.
      - rewrite Ecs1 in HL, Hne. cbn [List.length] in HL.
        assert (Hn : List.length (line ++ tail) <> 0).
        { intros E. apply length_zero_iff_nil in E. revert E. apply Hne. discriminate. }
        rewrite app_length in Hn. lia. }
    assert (Hwr : wfc rest').
    { rewrite Hcs1, app_assoc in Hw1. apply (wfc_app _ _ Hw1). }
    assert (Hgoal : forall res, seg w hl cs1 res -> seg w hl (c0 :: r0) res).
    { intros res Hres. rewrite Ecs1 in Hres. destruct b; [|assumption].
      symmetry in Eb. apply andb_true_iff in Eb. destruct Eb as [E _]. now apply seg_drop. }
    apply Hgoal. rewrite Hcs1. destruct line as [|l0 lr].
    + cbn [app]. apply seg_drop_all; [assumption|]. now apply IH.
    + apply seg_line.
      * discriminate.
      * exact Hfit.
      * intros Ehl. apply (first_is_word_prefix _ (tail ++ rest')); [discriminate|].
        rewrite <- Hcs1. now apply Hfirst.
      * exact Hlast.
      * apply seg_drop_all; [assumption|]. now apply IH.
Qed.

Lemma seg_words : forall w hl cs ls, seg w hl cs ls -> wfc cs -> concat (map words ls) = wordsC cs.
Proof.
  intros w hl cs ls H. induction H as [hl|hl c r ls Hc Hs IH|hl line r ls Hne Hlen Hf Hl Hs IH]; intros Hw.
  - reflexivity.
  - cbn [wordsC filter]. rewrite Hc. cbn [negb]. apply IH. now apply wfc_tail in Hw.
  - destruct (wfc_app _ _ Hw) as [Hwl Hwr]. cbn [map concat]. rewrite wordsC_app.
    rewrite IH by assumption. now rewrite wfc_words.
Qed.

Lemma single_word_line : forall c r, wfc ([c] ++ r) -> last_is_word [c] -> chunk_ok false c.
Proof.
  intros c r Hw Hl. destruct Hw as [k [Hc _]]. unfold last_is_word in Hl. cbn [rev app] in Hl.
  rewrite (chunk_ok_kind _ _ Hc) in Hl. now subst k.
Qed.

(* every line of a segmentation is the text of a well-formed group of chunks of cs that ends with a
   word and fits the width or is a single word: what holds of all such groups holds of all lines *)
Lemma seg_lines : forall w hl cs ls, seg w hl cs ls -> wfc cs ->
    forall P : str -> Prop,
    (forall line, incl line cs -> wfc line -> line <> [] -> last_is_word line ->
                  (List.length (concat line) <= w \/ exists c, line = [c] /\ chunk_ok false c) ->
                  P (concat line)) ->
    Forall P ls.
Proof.
  intros w hl cs ls H.
  induction H as [hl|hl c r ls Hc Hs IH|hl line r ls Hne Hlen Hf Hl Hs IH]; intros Hw P HP.
  - constructor.
  - apply IH; [now apply wfc_tail in Hw|]. intros line Hi. apply HP. now apply incl_tl.
  - destruct (wfc_app _ _ Hw) as [Hwl Hwr]. constructor.
    + apply HP; try assumption; [apply incl_appl; apply incl_refl|].
      destruct Hlen as [Hlen|[c Hc]]; [left; exact Hlen|right].
      exists c. split; [exact Hc|]. subst line. exact (single_word_line c r Hw Hl).
    + apply IH; [assumption|]. intros l Hi. apply HP. now apply incl_appr.
Qed.

Lemma seg_width : forall w hl cs ls, seg w hl cs ls -> wfc cs ->
    Forall (fun l => List.length l <= w \/ one_word l = true) ls.
Proof.
  intros w hl cs ls H Hw. apply (seg_lines w hl cs ls H Hw).
  intros line _ _ _ _ [Hlen|[c [E Hc]]]; [left; exact Hlen|right].
  subst line. cbn [concat]. rewrite app_nil_r. exact (chunk_ok_word c Hc).
Qed.

Lemma seg_width_strict : forall w hl cs ls, seg w hl cs ls -> wfc cs ->
    Forall (fun c => List.length c <= w) (wordsC cs) -> Forall (fun l => List.length l <= w) ls.
Proof.
  intros w hl cs ls H Hw Hfit. apply (seg_lines w hl cs ls H Hw).
  intros line Hi _ _ _ [Hlen|[c [E Hc]]]; [exact Hlen|].
  subst line. cbn [concat]. rewrite app_nil_r. rewrite Forall_forall in Hfit. apply Hfit.
  apply filter_In. split; [apply Hi; left; reflexivity|].
  rewrite (chunk_ok_kind _ _ Hc). reflexivity.
Qed.

Lemma seg_no_nl : forall w hl cs ls, seg w hl cs ls -> wfc cs -> Forall (fun l => ~ In nl l) ls.
Proof.
  intros w hl cs ls H Hw. apply (seg_lines w hl cs ls H Hw).
  intros line _ [k Hk] _ _ _. exact (good_no_nl line k Hk).
Qed.

Lemma seg_chars : forall w hl cs ls, seg w hl cs ls -> wfc cs ->
    Forall (fun l => forall x, In x l -> In x (concat cs)) ls.
Proof.
  intros w hl cs ls H Hw. apply (seg_lines w hl cs ls H Hw).
  intros line Hi _ _ _ _ x Hx. apply in_concat in Hx. destruct Hx as [c [Hc Hx]].
  apply in_concat. exists c. split; [apply Hi; exact Hc|exact Hx].
Qed.

Lemma line_starts_word : forall line, wfc line -> line <> [] -> first_is_word line ->
                                      starts_with_space (concat line) = false.
Proof.
  intros line [k Hk] Hne Hf. destruct line as [|c r]; [congruence|].
  destruct Hk as [[Hc _] _]. destruct c as [|x c']; [congruence|]. exact Hf.
Qed.

Lemma line_ends_word : forall line, wfc line -> line <> [] -> last_is_word line ->
                                    ends_with_space (concat line) = false.
Proof.
  intros line Hw Hne Hl. destruct (rev_case line) as [E|[l' [c E]]]; [congruence|]. subst line.
  rewrite (ends_with_space_concat l' c Hw). apply last_is_word_snoc in Hl. exact Hl.
Qed.

Lemma seg_ends : forall w hl cs ls, seg w hl cs ls -> wfc cs ->
                                    Forall (fun l => ends_with_space l = false) ls.
Proof.
  intros w hl cs ls H Hw. apply (seg_lines w hl cs ls H Hw).
  intros line _ Hwl Hne Hl _. exact (line_ends_word line Hwl Hne Hl).
Qed.

Lemma seg_starts : forall w hl cs ls, seg w hl cs ls -> hl = true -> wfc cs ->
                                      Forall (fun l => starts_with_space l = false) ls.
Proof.
  intros w hl cs ls H. induction H as [hl|hl c r ls Hc Hs IH|hl line r ls Hne Hlen Hf Hl Hs IH]; intros Ehl Hw.
  - constructor.
  - apply IH; [assumption|]. now apply wfc_tail in Hw.
  - destruct (wfc_app _ _ Hw) as [Hwl Hwr]. constructor; [apply line_starts_word; auto|now apply IH].
Qed.

Lemma seg_tail_starts : forall w hl cs ls, seg w hl cs ls -> wfc cs ->
                                           Forall (fun l => starts_with_space l = false) (tl ls).
Proof.
  intros w hl cs ls H. induction H as [hl|hl c r ls Hc Hs IH|hl line r ls Hne Hlen Hf Hl Hs IH]; intros Hw.
  - constructor.
  - apply IH. now apply wfc_tail in Hw.
  - destruct (wfc_app _ _ Hw) as [Hwl Hwr]. cbn [tl]. now apply (seg_starts w true r ls).
Qed.

Lemma fill_inv : forall w s r, fill w s = Ok r ->
    0 < w /\ mem_c tabch s = false
    /\ r = join [nl] (wrap_chunks (S (List.length (chunks (replace_ws s)))) w (chunks (replace_ws s)) false).
Proof.
  intros w s r H. unfold fill in H.
  destruct (mem_c tabch s) eqn:E1; [discriminate|].
  destruct (Nat.eqb w 0) eqn:E3; [discriminate|].
  apply Nat.eqb_neq in E3. inversion H; subst. split; [lia|]. split; reflexivity.
Qed.

Lemma fill_seg : forall w s r, fill w s = Ok r ->
    exists ls, r = join [nl] ls /\ seg w false (chunks (replace_ws s)) ls
               /\ wfc (chunks (replace_ws s)) /\ concat (chunks (replace_ws s)) = replace_ws s.
Proof.
  intros w s r H. destruct (fill_inv w s r H) as [Hw [_ Hr]].
  destruct (chunks_spec (replace_ws s) (replace_ws_normal s)) as [Hwf Hcat].
  eexists. split; [exact Hr|]. split; [|split; assumption].
  apply wrap_seg; [lia|assumption].
Qed.

Lemma split_nl_join_lines : forall ls, Forall (fun l => ~ In nl l) ls ->
    split_nl (join [nl] ls) = match ls with [] => [[]] | _ => ls end.
Proof.
  intros ls H. rewrite split_nl_eq. destruct ls as [|x r]; [reflexivity|].
  apply split_c_join; [discriminate|assumption].
Qed.

Lemma fill_words : forall w s r, fill w s = Ok r -> words r = words s.
Proof.
  intros w s r H. destruct (fill_seg w s r H) as [ls [Hr [Hseg [Hwf Hcat]]]].
  subst r. rewrite words_join_sep by reflexivity.
  rewrite (seg_words _ _ _ _ Hseg Hwf). rewrite <- wfc_words by assumption.
  rewrite Hcat. apply words_replace_ws.
Qed.

Lemma fill_width : forall w s r, fill w s = Ok r -> lines_le_or_word w r.
Proof.
  intros w s r H. destruct (fill_seg w s r H) as [ls [Hr [Hseg [Hwf Hcat]]]].
  subst r. unfold lines_le_or_word. pose proof (seg_no_nl _ _ _ _ Hseg Hwf) as Hnn.
  rewrite split_nl_join_lines by exact Hnn.
  destruct ls as [|x t].
  - constructor; [left; cbn; lia|constructor].
  - exact (seg_width w false _ _ Hseg Hwf).
Qed.

Lemma fill_width_strict : forall w s r, fill w s = Ok r ->
    Forall (fun u => List.length u <= w) (words s) -> lines_le w r.
Proof.
  intros w s r H Hfit. destruct (fill_seg w s r H) as [ls [Hr [Hseg [Hwf Hcat]]]].
  subst r. unfold lines_le. pose proof (seg_no_nl _ _ _ _ Hseg Hwf) as Hnn.
  rewrite split_nl_join_lines by exact Hnn.
  destruct ls as [|x t].
  - constructor; [cbn; lia|constructor].
  - apply (seg_width_strict w false _ _ Hseg Hwf).
    rewrite <- wfc_words by assumption. rewrite Hcat, words_replace_ws. exact Hfit.
Qed.

Lemma fill_edges : forall w s r, fill w s = Ok r -> clean_edges r.
Proof.
  intros w s r H. destruct (fill_seg w s r H) as [ls [Hr [Hseg [Hwf Hcat]]]].
  subst r. unfold clean_edges. pose proof (seg_no_nl _ _ _ _ Hseg Hwf) as Hnn. rewrite split_nl_join_lines by exact Hnn.
  pose proof (seg_ends _ _ _ _ Hseg Hwf) as He.
  pose proof (seg_tail_starts _ _ _ _ Hseg Hwf) as Hs.
  destruct ls as [|x t].
  - split; [reflexivity|constructor].
  - inversion He as [|x' t' Hx Ht]; subst. cbn [tl] in Hs. split; [assumption|].
    apply Forall_forall. intros l Hl. rewrite Forall_forall in Hs, Ht. split; [now apply Hs|now apply Ht].
Qed.

Lemma C18_fill_lemma : forall w s r, fill w s = Ok r -> C18_fill_at w s r.
Proof.
  intros w s r H. unfold C18_fill_at. split; [now apply (fill_width w s)|].
  split; [now apply (fill_words w s)|now apply (fill_edges w s)].
Qed.

(* characters of the output: those of the input (whitespace possibly turned into a blank or a newline) *)
Lemma fill_chars : forall w s r x, fill w s = Ok r -> In x r -> x = nl \/ x = sp \/ In x s.
Proof.
  intros w s r x H Hx. destruct (fill_seg w s r H) as [ls [Hr [Hseg [Hwf Hcat]]]]. subst r.
  apply join_chars in Hx. destruct Hx as [Hx|[l [Hl Hxl]]].
  - left. destruct Hx as [Hx|[]]. now symmetry.
  - pose proof (seg_chars _ _ _ _ Hseg Hwf) as Hc. rewrite Forall_forall in Hc.
    specialize (Hc l Hl x Hxl). rewrite Hcat in Hc. unfold replace_ws in Hc.
    apply in_map_iff in Hc. destruct Hc as [c [Hc Hin]].
    destruct (tw_space c); [right; left; now symmetry|]. subst c. right. now right.
Qed.

Lemma fill_no_exotic : forall w s r, fill w s = Ok r -> no_exotic_space s = true -> no_exotic_space r = true.
Proof.
  intros w s r H Hs. unfold no_exotic_space in *. rewrite forallb_forall in *. intros x Hx.
  destruct (fill_chars w s r x H Hx) as [E|[E|Hin]]; [subst x; reflexivity|subst x; reflexivity|now apply Hs].
Qed.

(* ReST prose: wrap, indent the continuation lines, re-join as the parser does: same words *)
Lemma C18_rest_prose_lemma : forall w line, no_exotic_space line = true -> C18_rest_prose_at w line.
Proof.
  intros w line Hn r H. pose proof (fill_no_exotic w line r H Hn) as Hr.
  pose proof (iabf_no_exotic r 1 Hr) as Hi.
  rewrite words_rejoin by assumption.
  rewrite words_indent_all_but_first by assumption.
  now apply (fill_words w line).
Qed.

Lemma replace_ws_id : forall s,
    forallb (fun c => negb (tw_space c) || ascii_eqb c sp) s = true -> replace_ws s = s.
Proof.
  intros s. induction s as [|c r IH]; intros H; [reflexivity|].
  cbn [forallb] in H. apply andb_true_iff in H. destruct H as [Hc Hr].
  unfold replace_ws in *. cbn [map]. rewrite IH by assumption. f_equal.
  destruct (tw_space c); [|reflexivity]. cbn [negb orb] in Hc. apply ascii_eqb_eq in Hc. now subst c.
Qed.

Lemma chunk_le_concat : forall (cs : list str) c, In c cs -> List.length c <= List.length (concat cs).
Proof.
  intros cs. induction cs as [|x r IH]; intros c H; [destruct H|].
  cbn [concat]. rewrite app_length. destruct H as [H|H]; [subst; lia|].
  specialize (IH c H). lia.
Qed.

Lemma one_line_clean_inv : forall s, one_line_clean s = true ->
    forallb (fun c => negb (tw_space c) || ascii_eqb c sp) s = true
    /\ ends_with_space s = false /\ mem_c tabch s = false.
Proof.
  intros s H. unfold one_line_clean in H. repeat (apply andb_true_iff in H; destruct H as [H ?]).
  repeat split; try assumption; now apply negb_true_iff.
Qed.

Lemma fill_short_id : forall w s, 0 < w -> one_line_clean s = true -> List.length s <= w -> fill w s = Ok s.
Proof.
  intros w s Hw Hc Hlen. destruct (one_line_clean_inv s Hc) as [Hch [Hend Htab]].
  unfold fill. rewrite Htab. assert (E0 : Nat.eqb w 0 = false) by (apply Nat.eqb_neq; lia). rewrite E0.
  rewrite (replace_ws_id s Hch).
  assert (Hn : normal s).
  { rewrite <- (replace_ws_id s Hch). apply replace_ws_normal. }
  destruct (chunks_spec s Hn) as [Hwf Hcat].
  f_equal. destruct (chunks s) as [|c0 r0] eqn:Ecs.
  - cbn [concat] in Hcat. subst s. reflexivity.
  - cbn [wrap_chunks]. rewrite andb_false_r.
    rewrite (take_fit_all w (c0 :: r0) 0) by (rewrite Hcat; cbn; lia).
    cbv iota beta.
    assert (Hd : drop_last_space (c0 :: r0) = c0 :: r0).
    { destruct (@rev_case str (c0 :: r0)) as [E|[l' [c E]]]; [discriminate|].
      rewrite E in *. rewrite drop_last_space_snoc.
      rewrite <- (ends_with_space_concat l' c Hwf), Hcat, Hend. reflexivity. }
    rewrite Hd. rewrite wrap_chunks_nil. cbn [join]. exact Hcat.
Qed.

Lemma nowrap_line_fill : forall w s, 0 < w -> nowrap_line w s = true -> fill w s = Ok s.
Proof.
  intros w s Hw H. unfold nowrap_line in H. apply andb_true_iff in H. destruct H as [Hc Hf].
  apply fill_short_id; [assumption|assumption|]. now apply Nat.leb_le.
Qed.

Lemma fill_guard_ok : forall w s, fill_guard w s = true -> exists r, fill w s = Ok r.
Proof.
  intros w s H. unfold fill_guard in H. apply andb_true_iff in H. destruct H as [Hw Htab].
  apply Nat.ltb_lt in Hw. apply negb_true_iff in Htab.
  unfold fill. rewrite Htab. assert (E0 : Nat.eqb w 0 = false) by (apply Nat.eqb_neq; lia). rewrite E0.
  eexists. reflexivity.
Qed.

Lemma fill_ok_guard : forall w s r, fill w s = Ok r -> fill_guard w s = true.
Proof.
  intros w s r H. destruct (fill_inv w s r H) as [Hw [Htab _]].
  unfold fill_guard. rewrite Htab. cbn [negb]. rewrite andb_true_r. now apply Nat.ltb_lt.
Qed.

Lemma C18_fill_partial_lemma : forall w s, fill_guard w s = true ->
                                           exists r, fill w s = Ok r /\ C18_fill_at w s r.
Proof.
  intros w s H. destruct (fill_guard_ok w s H) as [r Hr]. exists r. split; [assumption|].
  now apply C18_fill_lemma.
Qed.

Lemma plain_word_nosp : forall u, plain_word u = true -> u <> [] /\ nosp u.
Proof.
  intros u H. unfold plain_word in H. apply andb_true_iff in H. destruct H as [Hne Hch].
  split; [destruct u; [discriminate|discriminate]|exact Hch].
Qed.

Lemma words_join_plain : forall ws, forallb plain_word ws = true -> words (join [sp] ws) = ws.
Proof.
  intros ws H. rewrite words_join_sep by reflexivity. induction ws as [|u r IH]; [reflexivity|].
  cbn [forallb] in H. apply andb_true_iff in H. destruct H as [Hu Hr].
  destruct (plain_word_nosp u Hu) as [Hne Hc].
  cbn [map concat]. rewrite IH by assumption. rewrite words_word; [reflexivity|assumption|assumption].
Qed.

Lemma fill_guard_plain_words : forall w ws, 0 < w -> forallb plain_word ws = true ->
                                            fill_guard w (join [sp] ws) = true.
Proof.
  intros w ws Hw H. unfold fill_guard. assert (E : Nat.ltb 0 w = true) by now apply Nat.ltb_lt. rewrite E.
  cbn [andb]. apply negb_true_iff. destruct (mem_c tabch (join [sp] ws)) eqn:Et; [|reflexivity].
  apply mem_c_In in Et. apply join_chars in Et. destruct Et as [[Et|[]]|[u [Hu Hx]]]; [discriminate|].
  rewrite forallb_forall in H. destruct (plain_word_nosp u (H u Hu)) as [_ Hn].
  unfold nosp in Hn. rewrite forallb_forall in Hn. specialize (Hn _ Hx). discriminate.
Qed.

(* any words (hyphens, punctuation, any length), separated by single blanks: fill answers, the output has
   exactly these words, every line fits or is one of the words; and every line fits when every word does *)
Lemma C18_fill_plain_words_lemma : forall w ws, 0 < w -> forallb plain_word ws = true ->
    exists r, fill w (join [sp] ws) = Ok r /\ lines_le_or_word w r /\ words r = ws /\ clean_edges r
              /\ (Forall (fun u => List.length u <= w) ws -> lines_le w r).
Proof.
  intros w ws Hw H. destruct (fill_guard_ok w _ (fill_guard_plain_words w ws Hw H)) as [r Hr].
  exists r. split; [assumption|]. split; [exact (fill_width w _ r Hr)|]. split.
  - rewrite (fill_words w _ r Hr). now apply words_join_plain.
  - split; [exact (fill_edges w _ r Hr)|]. intros Hfit. apply (fill_width_strict w _ r Hr).
    now rewrite words_join_plain.
Qed.

