(* CliFacts: model/Cli.v -- which argument shapes main() rejects before anything runs, and that an
   accepted sync command cannot fail on the shape of its arguments (C20(i)).  General statements for
   arbitrary counts; the finite table of model/Cli.v comes under them because each of its shapes is well-formed.
   Last, the decisions of sync_properties and gen.  Defines the premises of those statements (nameless, names_wf,
   reject_spec). *)
From Coq Require Import List Ascii Bool Arith Lia.
From Coq Require String.
Import String.StringSyntax.
From DT Require Import PyStr Sexp PyVal FS Sync Cli ListFacts SyncFacts.
Import ListNotations.

(* a kind given with files but without its name *)
Definition nameless (s : sync_shape) (k : kind) : bool :=
  match ss_files s k, ss_names s k with
  | Some _, None => true
  | _, _ => false
  end.

(* argparse's append action: an option that is present was given at least once *)
Definition names_wf (s : sync_shape) : Prop := forall k n, ss_names s k = Some n -> 1 <= n.

Definition names_wf_b (s : sync_shape) : bool :=
  forallb (fun k => match ss_names s k with Some 0 => false | _ => true end) kinds_in_order.

Lemma names_wf_b_sound : forall s, names_wf_b s = true -> names_wf s.
Proof.
  intros s H k n Hn. unfold names_wf_b in H. rewrite forallb_forall in H.
  specialize (H k (kind_in_order k)). rewrite Hn in H. destruct n; [discriminate H|lia].
Qed.

Lemma decide_sync_eq : forall s,
    decide_sync s =
    match ss_files s (ss_truth s) with
    | None => Reject
    | Some _ =>
      if Nat.ltb (files_total s) 2 then Reject
      else if negb (ss_truth_file_exists s) then Reject
      else if existsb (nameless s) kinds_in_order then Reject
      else Run
    end.
Proof. reflexivity. Qed.

Lemma decide_sync_never_raises : forall s e, decide_sync s <> Raise e.
Proof.
  intros s e. rewrite decide_sync_eq. destruct (ss_files s (ss_truth s)) as [c0|]; [|discriminate].
  destruct (Nat.ltb (files_total s) 2); [discriminate|].
  destruct (negb (ss_truth_file_exists s)); [discriminate|].
  destruct (existsb (nameless s) kinds_in_order); discriminate.
Qed.

Lemma decide_sync_run_iff : forall s,
    decide_sync s = Run <->
    ss_files s (ss_truth s) <> None /\ 2 <= files_total s /\ ss_truth_file_exists s = true
    /\ forall k, nameless s k = false.
Proof.
  intros s. rewrite decide_sync_eq. split.
  - intros H. destruct (ss_files s (ss_truth s)) as [c0|]; [|discriminate H].
    destruct (Nat.ltb (files_total s) 2) eqn:E1; [discriminate H|].
    destruct (ss_truth_file_exists s); [|discriminate H]. cbn [negb] in H.
    destruct (existsb (nameless s) kinds_in_order) eqn:E2; [discriminate H|].
    split; [discriminate|]. split; [apply Nat.ltb_ge; exact E1|]. split; [reflexivity|].
    intros k. apply (existsb_false_In _ _ _ _ E2 (kind_in_order k)).
  - intros [H1 [H2 [H3 H4]]]. destruct (ss_files s (ss_truth s)) as [c0|]; [|contradiction H1; reflexivity].
    apply Nat.ltb_ge in H2. rewrite H2, H3. cbn [negb].
    destruct (existsb (nameless s) kinds_in_order) eqn:E2; [|reflexivity].
    apply existsb_exists in E2. destruct E2 as [k [_ Hk]]. rewrite H4 in Hk. discriminate Hk.
Qed.

(* C20(i): exactly these shapes are refused with a usage error *)
Lemma decide_sync_reject_iff : forall s,
    decide_sync s = Reject <->
    ss_files s (ss_truth s) = None \/ files_total s < 2 \/ ss_truth_file_exists s = false
    \/ exists k, ss_files s k <> None /\ ss_names s k = None.
Proof.
  intros s. rewrite decide_sync_eq. split.
  - intros H. destruct (ss_files s (ss_truth s)) as [c0|]; [|left; reflexivity]. right.
    destruct (Nat.ltb (files_total s) 2) eqn:E1; [left; apply Nat.ltb_lt; exact E1|]. right.
    destruct (ss_truth_file_exists s); [|left; reflexivity]. right. cbn [negb] in H.
    destruct (existsb (nameless s) kinds_in_order) eqn:E2; [|discriminate H].
    apply existsb_exists in E2. destruct E2 as [k [_ Hk]]. exists k. unfold nameless in Hk.
    destruct (ss_files s k) as [c|]; [|discriminate Hk]. destruct (ss_names s k) as [c1|]; [discriminate Hk|].
    split; [discriminate|reflexivity].
  - intros H. destruct (ss_files s (ss_truth s)) as [c0|] eqn:E0; [|reflexivity].
    destruct H as [H|[H|[H|[k [Hf Hn]]]]]; [discriminate H| | |].
    + apply Nat.ltb_lt in H. rewrite H. reflexivity.
    + rewrite H. destruct (Nat.ltb (files_total s) 2); reflexivity.
    + assert (E2 : existsb (nameless s) kinds_in_order = true).
      { apply existsb_exists. exists k. split; [apply kind_in_order|]. unfold nameless. rewrite Hn.
        destruct (ss_files s k) as [c|]; [reflexivity|contradiction Hf; reflexivity]. }
      rewrite E2. destruct (Nat.ltb (files_total s) 2); [reflexivity|].
      destruct (negb (ss_truth_file_exists s)); reflexivity.
Qed.

Definition is_none {A} (o : option A) : bool := match o with None => true | Some _ => false end.

Definition reject_spec (s : sync_shape) : bool :=
  is_none (ss_files s (ss_truth s)) || Nat.ltb (files_total s) 2 || negb (ss_truth_file_exists s)
  || existsb (nameless s) kinds_in_order.

Lemma decide_sync_reject_spec : forall s, decide_sync s = Reject <-> reject_spec s = true.
Proof.
  intros s. rewrite decide_sync_eq. unfold reject_spec.
  destruct (ss_files s (ss_truth s)); cbn [is_none orb]; [|split; reflexivity].
  destruct (Nat.ltb (files_total s) 2); cbn [orb]; [split; reflexivity|].
  destruct (ss_truth_file_exists s); cbn [negb orb]; [|split; reflexivity].
  destruct (existsb (nameless s) kinds_in_order); split; intros H; try reflexivity; discriminate H.
Qed.

Lemma fold_names_none : forall (s : sync_shape) l,
    (forall k, In k l -> match ss_files s k, ss_names s k with
                         | Some _, None => false
                         | Some _, Some 0 => false
                         | _, _ => true
                         end = true) ->
    fold_right (fun k acc =>
                  match ss_files s k, ss_names s k with
                  | Some _, None => Some TypeError
                  | Some _, Some 0 => Some IndexError
                  | _, _ => acc
                  end) None l = None.
Proof.
  intros s l. induction l as [|k r IHr]; intros H; [reflexivity|].
  cbn [fold_right]. rewrite IHr by (intros k' Hk'; apply H; right; exact Hk').
  specialize (H k (or_introl eq_refl)).
  destruct (ss_files s k) as [c|]; [|reflexivity].
  destruct (ss_names s k) as [[|n]|]; [discriminate H|reflexivity|discriminate H].
Qed.

Lemma names_complete_no_arg_error : forall s,
    names_complete s = true -> arg_level_error s = None.
Proof.
  intros s H. unfold names_complete in H. apply andb_true_iff in H. destruct H as [H1 H2].
  unfold arg_level_error. destruct (ss_names s (ss_truth s)) as [[|n]|]; try discriminate H2.
  apply fold_names_none. intros k Hk. rewrite forallb_forall in H1. apply (H1 k Hk).
Qed.

Lemma run_names_complete : forall s,
    names_wf s -> decide_sync s = Run -> names_complete s = true.
Proof.
  intros s Hwf H. apply decide_sync_run_iff in H. destruct H as [H1 [_ [_ H4]]].
  unfold names_complete. apply andb_true_iff. split.
  - apply forallb_forall. intros k _. specialize (H4 k). unfold nameless in H4.
    destruct (ss_files s k) as [c|]; [|reflexivity].
    destruct (ss_names s k) as [[|n]|] eqn:EN; [|reflexivity|discriminate H4].
    specialize (Hwf k 0 EN). lia.
  - specialize (H4 (ss_truth s)). unfold nameless in H4.
    destruct (ss_files s (ss_truth s)) as [c0|]; [|contradiction H1; reflexivity].
    destruct (ss_names s (ss_truth s)) as [[|n]|] eqn:EN; [|reflexivity|discriminate H4].
    specialize (Hwf (ss_truth s) 0 EN). lia.
Qed.

(* C20(i), the full statement: an accepted sync command does not fail on its argument shape *)
Theorem run_no_arg_error : forall s,
    names_wf s -> decide_sync s = Run -> arg_level_error s = None.
Proof.
  intros s Hwf H. apply names_complete_no_arg_error. apply run_names_complete; assumption.
Qed.

(* without well-formedness the guard is still needed: a name option present zero times *)
Lemma run_arg_error_needs_wf :
  exists s, decide_sync s = Run /\ arg_level_error s = Some IndexError.
Proof.
  exists (mkSyncShape KClass (fun _ => Some 1) (fun _ => Some 0) true). split; reflexivity.
Qed.

Lemma all_sync_shapes_length : List.length all_sync_shapes = 4374.
Proof. vm_compute. reflexivity. Qed.

Lemma table_wf_b : forallb names_wf_b all_sync_shapes = true.
Proof. vm_compute. reflexivity. Qed.

Lemma table_wf : forall s, In s all_sync_shapes -> names_wf s.
Proof.
  intros s Hs. apply names_wf_b_sound. pose proof table_wf_b as H. rewrite forallb_forall in H.
  apply H. exact Hs.
Qed.

(* every shape of the table is well-formed, so the general theorem applies to it *)
Lemma table_run_no_arg_error : forall s, In s all_sync_shapes ->
    decide_sync s = Run -> names_complete s = true /\ arg_level_error s = None.
Proof.
  intros s Hs Hr. pose proof (run_names_complete s (table_wf s Hs) Hr) as Hc.
  split; [exact Hc|apply names_complete_no_arg_error; exact Hc].
Qed.

Lemma in_all_sync_shapes : forall t fa fc ff na nc nf ex,
    In fa counts -> In fc counts -> In ff counts -> In na counts -> In nc counts -> In nf counts ->
    In (mkSyncShape t (fun_of_triple fa fc ff) (fun_of_triple na nc nf) ex) all_sync_shapes.
Proof.
  intros t fa fc ff na nc nf ex Hfa Hfc Hff Hna Hnc Hnf. unfold all_sync_shapes.
  apply in_flat_map. exists t. split; [apply kind_in_order|].
  apply in_flat_map. exists fa. split; [exact Hfa|].
  apply in_flat_map. exists fc. split; [exact Hfc|].
  apply in_flat_map. exists ff. split; [exact Hff|].
  apply in_flat_map. exists na. split; [exact Hna|].
  apply in_flat_map. exists nc. split; [exact Hnc|].
  apply in_flat_map. exists nf. split; [exact Hnf|].
  apply in_map_iff. exists ex. split; [reflexivity|]. destruct ex; cbn [In]; auto.
Qed.

Lemma table_nonvacuous :
  (exists s, In s all_sync_shapes /\ decide_sync s = Run)
  /\ (exists s, In s all_sync_shapes /\ decide_sync s = Reject /\ ss_truth_file_exists s = true
                /\ files_total s >= 2 /\ ss_files s (ss_truth s) <> None).
Proof.
  assert (H0 : In None counts) by (left; reflexivity).
  assert (H1 : In (Some 1) counts) by (right; left; reflexivity).
  split.
  - exists (mkSyncShape KClass (fun_of_triple None (Some 1) (Some 1))
                        (fun_of_triple None (Some 1) (Some 1)) true).
    split; [apply in_all_sync_shapes; assumption|reflexivity].
  - exists (mkSyncShape KClass (fun_of_triple None (Some 1) (Some 1))
                        (fun_of_triple None (Some 1) None) true).
    split; [apply in_all_sync_shapes; assumption|]. split; [reflexivity|]. split; [reflexivity|].
    split; [vm_compute; lia|discriminate].
Qed.

Lemma decide_sync_properties_run_iff : forall c i o,
    decide_sync_properties c i o = Run <-> c = true /\ i = true /\ o = true.
Proof.
  intros [] [] []; cbn; split; intros H; try discriminate H; auto;
    destruct H as [H1 [H2 H3]]; discriminate.
Qed.

Lemma decide_sync_properties_reject_iff : forall c i o,
    decide_sync_properties c i o = Reject <-> c = false \/ i = false \/ o = false.
Proof.
  intros [] [] []; cbn; split; intros H; try discriminate H; auto;
    destruct H as [H|[H|H]]; discriminate.
Qed.

(* an accepted sync_properties invocation has as many --input-param as --output-param (c is counts_equal) *)
Lemma decide_sync_properties_run_counts : forall c i o, decide_sync_properties c i o = Run -> c = true.
Proof. intros c i o H. apply decide_sync_properties_run_iff in H. tauto. Qed.

Lemma decide_gen_run_iff : forall o, decide_gen o = Run <-> o = false.
Proof. intros []; cbn; split; intros H; try discriminate H; reflexivity. Qed.

Lemma decide_gen_raise_iff : forall o, decide_gen o = Raise IOError <-> o = true.
Proof. intros []; cbn; split; intros H; try discriminate H; reflexivity. Qed.

Lemma decide_gen_never_rejects : forall o, decide_gen o <> Reject.
Proof. intros []; discriminate. Qed.
