(* C07Facts: what each parameter of parse.function's result contains (documented information wins,
   the signature fills the gaps), the refutation of the full statement and the guarded theorem. *)
From Coq Require Import List Ascii Bool Arith ZArith Lia Permutation.
From Coq Require String.
Import String.StringSyntax.
From DT Require Import PyStr Sexp PyVal TyExpr PureUtils Defaults PyAst IR Merge ParseSig C12Spec C07Spec
     PyStrFacts ListFacts MergeFacts C12Facts ParseSigFacts.
From DT Require PureUtilsFacts DefaultsFacts EmitAstFacts.
Import ListNotations.

Lemma fold_outcome_get_other : forall op l tp tp' k,
  fold_outcome (inter_step op) l tp = Ok tp' -> ~ In k l -> od_get k tp' = od_get k tp.
Proof.
  intros op l; induction l as [|x r IH]; intros tp tp' k H Hk; cbn [fold_outcome] in H.
  - inversion H; reflexivity.
  - destruct (inter_step op x tp) as [d|] eqn:E; cbn [bind] in H; [|discriminate].
    rewrite (IH _ _ _ H) by (intros Hin; apply Hk; right; exact Hin).
    destruct (inter_step_Ok _ _ _ _ E) as (t & o & t' & _ & _ & _ & ->).
    apply od_get_set_other. intros ->. apply Hk; left; reflexivity.
Qed.

Lemma fold_outcome_get_in : forall op l tp tp' k t o, NoDup l -> In k l ->
  fold_outcome (inter_step op) l tp = Ok tp' -> od_get k tp = Some t -> od_get k op = Some o ->
  exists t', merge_param t o = Ok t' /\ od_get k tp' = Some t'.
Proof.
  intros op l; induction l as [|x r IH]; intros tp tp' k t o Hnd Hin H Ht Ho; [destruct Hin|].
  inversion Hnd as [|? ? Hx Hr]; subst. cbn [fold_outcome] in H.
  destruct (inter_step op x tp) as [d|] eqn:E; cbn [bind] in H; [|discriminate].
  destruct Hin as [->|Hin].
  - destruct (inter_step_Ok _ _ _ _ E) as (t0 & o0 & t' & Et0 & Eo0 & Em & ->).
    rewrite Ht in Et0. injection Et0 as <-. rewrite Ho in Eo0. injection Eo0 as <-.
    exists t'. split; [exact Em|].
    rewrite (fold_outcome_get_other _ _ _ _ _ H Hx). apply od_get_set_same.
  - apply (IH d tp' k t o Hr Hin H); [|exact Ho].
    assert (Hne : x <> k) by (intros ->; tauto).
    destruct (inter_step_Ok _ _ _ _ E) as (t0 & o0 & t' & _ & _ & _ & ->).
    rewrite od_get_set_other by exact Hne. exact Ht.
Qed.

Lemma merge_params_get_both : forall pi tp op r k t o, perm_ok pi ->
  merge_params pi tp op = Ok r -> od_get k tp = Some t -> od_get k op = Some o ->
  exists t', merge_param t o = Ok t' /\ od_get k r = Some t'.
Proof.
  intros pi tp op r k t o Hpi H Ht Ho. unfold merge_params in H.
  destruct tp as [|t0 tr]; [discriminate|]. destruct op as [|o0 orr]; [discriminate|].
  remember (t0 :: tr) as tp eqn:Etp. remember (o0 :: orr) as op eqn:Eop.
  destruct (inter_loop (pi (inter_keys op tp)) op tp) as [tp1|] eqn:E; cbn [bind] in H; [|discriminate].
  injection H as <-.
  unfold inter_loop in E.
  destruct (fold_outcome_get_in op (pi (inter_keys op tp)) tp tp1 k t o) as [t' [Hm Hg]]; auto.
  - eapply Permutation_NoDup; [apply Permutation_sym, Hpi|apply NoDup_dedup].
  - eapply Permutation_in; [apply Permutation_sym, Hpi|]. apply inter_keys_spec.
    split; eapply od_get_Some_In_keys; eauto.
  - exists t'. split; [exact Hm|]. rewrite append_missing_get_old; [exact Hg|].
    rewrite (fold_outcome_keys _ _ _ _ E). eapply od_get_Some_In_keys; eauto.
Qed.

Lemma merge_params_get_new : forall pi tp op r k, perm_ok pi ->
  merge_params pi tp op = Ok r -> od_get k tp = None -> od_get k r = od_get k op.
Proof.
  intros pi tp op r k Hpi H Ht. unfold merge_params in H.
  destruct tp as [|t0 tr]; [inversion H; reflexivity|]. destruct op as [|o0 orr].
  - inversion H; subst. rewrite Ht. reflexivity.
  - remember (t0 :: tr) as tp eqn:Etp. remember (o0 :: orr) as op eqn:Eop.
    destruct (inter_loop (pi (inter_keys op tp)) op tp) as [tp1|] eqn:E; cbn [bind] in H; [|discriminate].
    injection H as <-. apply append_missing_get_new.
    unfold inter_loop in E. rewrite (fold_outcome_keys _ _ _ _ E). apply od_get_None_iff; exact Ht.
Qed.

(* the merged map at a name of the other map: the target's entry with its gaps filled when the target has one, the
   other's entry as it is otherwise *)
Lemma merge_params_get : forall pi tp op m k o q, perm_ok pi ->
  merge_params pi tp op = Ok m -> od_get k op = Some o -> od_get k m = Some q ->
  match od_get k tp with Some t => merge_param t o = Ok q | None => q = o end.
Proof.
  intros pi tp op m k o q Hpi Hm Ho Hq. destruct (od_get k tp) as [t|] eqn:Et.
  - destruct (merge_params_get_both pi tp op m k t o Hpi Hm Et Ho) as (t' & Hmp & Hgm).
    rewrite Hq in Hgm. injection Hgm as <-. exact Hmp.
  - rewrite (merge_params_get_new pi tp op m k Hpi Hm Et), Ho in Hq. injection Hq as <-. reflexivity.
Qed.

Lemma In_od_get : forall {A} k (v : A) l, NoDup (od_keys l) -> In (k, v) l -> od_get k l = Some v.
Proof.
  intros A k v l; induction l as [|[k0 v0] l IH]; intros Hnd Hin; [destruct Hin|].
  cbn [od_keys map fst] in Hnd. inversion Hnd as [|? ? Hk Hl]; subst. cbn [od_get].
  destruct Hin as [Hin|Hin].
  - inversion Hin; subst. rewrite str_eqb_refl; reflexivity.
  - destruct (str_eqb k k0) eqn:E.
    + apply str_eqb_eq in E; subst. exfalso. apply Hk. change (In k0 (od_keys l)).
      eapply od_get_Some_In_keys. apply IH; [exact Hl|exact Hin].
    + apply IH; assumption.
Qed.

Lemma od_get_map2_func : forall args (ds : list (option expr)) k, List.length args <= List.length ds ->
  NoDup (map a_name args) -> In k (map a_name args) ->
  exists x d, In x args /\ a_name x = k
              /\ od_get k (map2 func_arg2param args ds) = Some (snd (func_arg2param x d))
              /\ forall kind, List.find (fun p => str_eqb (s_name p) k)
                                (map2 (fun x d => mkSig (a_name x) kind d (a_ann x)) args ds)
                              = Some (mkSig k kind d (a_ann x)).
Proof.
  induction args as [|x args IH]; intros ds k Hlen Hnd Hin; [destruct Hin|].
  destruct ds as [|d ds]; [cbn in Hlen; lia|].
  cbn [map] in Hnd, Hin. inversion Hnd as [|? ? Hx Hr]; subst.
  cbn [map2 od_get func_arg2param fst List.find s_name].
  destruct (str_eqb k (a_name x)) eqn:E.
  - apply str_eqb_eq in E; subst k. exists x, d. split; [left; reflexivity|]. split; [reflexivity|].
    split; [reflexivity|]. intros kind. rewrite str_eqb_refl. reflexivity.
  - destruct Hin as [Hin|Hin]; [subst; rewrite str_eqb_refl in E; discriminate|].
    destruct (IH ds k) as (y & dy & Hy & Hn & Hg & Hf); [cbn in Hlen; lia|exact Hr|exact Hin|].
    exists y, dy. split; [right; exact Hy|]. split; [exact Hn|]. split; [exact Hg|].
    intros kind. rewrite str_eqb_sym, E. apply Hf.
Qed.

Lemma find_app_l : forall {A} (f : A -> bool) l1 l2 x, List.find f l1 = Some x -> List.find f (l1 ++ l2) = Some x.
Proof.
  intros A f l1; induction l1 as [|y l1 IH]; intros l2 x H; [discriminate|]. cbn [app List.find] in *.
  destruct (f y); [exact H|apply IH; exact H].
Qed.

Lemma find_app_r : forall {A} (f : A -> bool) l1 l2, (forall y, In y l1 -> f y = false) ->
  List.find f (l1 ++ l2) = List.find f l2.
Proof.
  intros A f l1; induction l1 as [|y l1 IH]; intros l2 H; [reflexivity|]. cbn [app List.find].
  rewrite (H y) by (left; reflexivity). apply IH. intros z Hz; apply H; right; exact Hz.
Qed.

Lemma map2_sig_In_name : forall kind args (ds : list (option expr)) p,
  In p (map2 (fun x d => mkSig (a_name x) kind d (a_ann x)) args ds) -> In (s_name p) (map a_name args).
Proof.
  intros kind; induction args as [|x args IH]; intros ds p H; [destruct H|].
  destruct ds as [|d ds]; [destruct H|]. cbn [map2 In map] in *.
  destruct H as [<-|H]; [left; reflexivity|right; eapply IH; exact H].
Qed.

(* py_signature when self/cls carries no default: the kept positional arguments with right-aligned
   defaults, the keyword-only ones, the ** one *)
Lemma py_signature_spec : forall n a b dc r, fd_facts a ->
  List.length (ar_defaults a) <= List.length (pos_args a) ->
  py_signature (SFunc n a b dc r) =
  Some (map2 (fun x d => mkSig (a_name x) PosOrKw d (a_ann x)) (pos_args a)
             (pad_defaults (List.length (pos_args a)) (map Some (ar_defaults a)))
        ++ map2 (fun x d => mkSig (a_name x) KwOnly d (a_ann x)) (ar_kwonly a) (ar_kw_defaults a)
        ++ match ar_kwarg a with Some x => [mkSig (a_name x) VarKw None (a_ann x)] | None => [] end).
Proof.
  intros n a b dc r F Hself. destruct F as [Hv Hd Hk _ _].
  unfold py_signature, py_signature_raw.
  assert (E1 : Nat.ltb (List.length (ar_args a)) (List.length (ar_defaults a)) = false) by (apply Nat.ltb_ge; exact Hd).
  assert (E2 : Nat.eqb (List.length (ar_kwonly a)) (List.length (ar_kw_defaults a)) = true) by (apply Nat.eqb_eq; exact Hk).
  rewrite E1, E2, Hv. cbn [orb negb app].
  unfold pos_args, get_function_type in *. unfold pad_defaults. rewrite map_length.
  destruct (ar_args a) as [|x args] eqn:Ea.
  - assert (Hstat : str_eqb (L "static") (L "static") = true) by reflexivity. rewrite Hstat in *.
    cbn [map2 app List.length].
    destruct (ar_kwonly a) as [|y ys]; destruct (ar_kw_defaults a) as [|d ds]; cbn [List.length] in Hk; try lia.
    + cbn [map2 app]. destruct (ar_kwarg a); reflexivity.
    + cbn [map2 app s_kind andb]. reflexivity.
  - destruct (str_eqb (a_name x) (L "self") || str_eqb (a_name x) (L "cls")) eqn:Es.
    + assert (Hns : str_eqb (a_name x) (L "static") = false).
      { apply orb_true_iff in Es. destruct Es as [Es|Es]; apply str_eqb_eq in Es; rewrite Es; reflexivity. }
      rewrite Hns in *. cbn [tl List.length] in *.
      replace (S (List.length args) - List.length (ar_defaults a)) with (S (List.length args - List.length (ar_defaults a))) by lia.
      cbn [repeat app map2 s_kind s_name andb]. rewrite Es. reflexivity.
    + assert (Hstat : str_eqb (L "static") (L "static") = true) by reflexivity. rewrite Hstat in *.
      destruct (repeat None (List.length (x :: args) - List.length (ar_defaults a)) ++ map Some (ar_defaults a))
        as [|d0 ds0] eqn:Eds.
      * exfalso. apply (f_equal (@List.length _)) in Eds. rewrite app_length, repeat_length, map_length in Eds.
        cbn [List.length] in *. lia.
      * cbn [map2 app s_kind s_name andb]. rewrite Es. reflexivity.
Qed.

Lemma unquote_NoneStr : unquote NoneStr = NoneStr.
Proof. vm_compute. reflexivity. Qed.

(* the value a scalar default ends as *)
Definition norm_scalar (v : pyval) : dval :=
  if in_none_types v then DV (VStr NoneStr)
  else match v with VStr s => DV (VStr (unquote s)) | _ => DV v end.

(* the final type-deletion step *)
Definition typ_final (d : dval) (t : str) : fld str :=
  if negb (dval_is_NoneStr d) && code_quoted_dval d then (if contains [ch 91] t then Has t else Missing) else Has t.

(* the last two steps of _infer_default *)
Definition infer_tail (q : gparam) (d : dval) (tn : option str) : outcome gparam :=
  do typ5 <- (if fld_is_none (g_typ q) && negb (dval_is_NoneStr d)
              then match tn with
                   | Some n => Ok (Has n)
                   | None => match dval_type_name d with Some n => Ok (Has n) | None => Err Unmodelled end
                   end
              else Ok (g_typ q));
  if negb (dval_is_NoneStr d) && code_quoted_dval d then
    match typ5 with
    | Missing => Err KeyError
    | FNone => Err TypeError
    | Has t => if contains [ch 91] t then Ok (mkG (g_doc q) typ5 (Some d))
               else Ok (mkG (g_doc q) Missing (Some d))
    end
  else Ok (mkG (g_doc q) typ5 (Some d)).

Lemma infer_tail_spec : forall q d tn p1, infer_tail q d tn = Ok p1 ->
  g_doc p1 = g_doc q /\ g_default p1 = Some d /\ (forall t, g_typ q = Has t -> g_typ p1 = typ_final d t).
Proof.
  intros q d tn p1 H. unfold infer_tail in H.
  destruct (g_typ q) as [| |t] eqn:Et; cbn [fld_is_none andb] in H.
  (* no type text: nothing to show about the type, whichever branch returned *)
  1, 2: destruct (negb (dval_is_NoneStr d)); cbn [bind andb] in H;
    [destruct (match tn with Some n => Ok (Has n) | None => match dval_type_name d with Some n => Ok (Has n) | None => Err Unmodelled end end) as [[| |nm]|];
       cbn [bind] in H; destruct (code_quoted_dval d); try discriminate; try (destruct (contains [ch 91] nm))|];
    inversion H; subst; cbn [g_doc g_default g_typ]; (split; [reflexivity|]); (split; [reflexivity|]);
    intros t' Ht'; discriminate.
  cbn [bind] in H.
  assert (Hp1 : p1 = mkG (g_doc q) (typ_final d t) (Some d)).
  { unfold typ_final. destruct (negb (dval_is_NoneStr d) && code_quoted_dval d);
      [destruct (contains [ch 91] t)|]; inversion H; reflexivity. }
  subst p1. cbn [g_doc g_default g_typ]. split; [reflexivity|]. split; [reflexivity|].
  intros t' Ht'. inversion Ht'; reflexivity.
Qed.

Lemma infer_default_DV : forall q v p1, infer_default q (DV v) false = Ok p1 ->
  g_doc p1 = g_doc q /\ g_default p1 = Some (norm_scalar v)
  /\ (forall t, g_typ q = Has t -> g_typ p1 = typ_final (norm_scalar v) t).
Proof.
  intros q v p1 H. unfold infer_default in H. cbn [bind andb dval_in_none_types] in H.
  unfold norm_scalar.
  destruct (in_none_types v) eqn:Env.
  - destruct (needs_quoting (fget (g_typ q))) as [nq|]; cbn [bind] in H; [|discriminate].
    rewrite orb_true_r in H. cbn [bind] in H. rewrite unquote_NoneStr in H.
    apply (infer_tail_spec q (DV (VStr NoneStr)) None p1 H).
  - destruct (needs_quoting (fget (g_typ q))) as [nq|]; cbn [bind] in H; [|discriminate].
    destruct v as [|bb|z|f|s].
    + vm_compute in Env. discriminate.
    + rewrite orb_false_r in H. destruct nq; cbn [bind] in H; apply (infer_tail_spec q _ None p1 H).
    + rewrite orb_false_r in H. destruct nq; cbn [bind] in H; apply (infer_tail_spec q _ None p1 H).
    + rewrite orb_false_r in H. destruct nq; cbn [bind] in H; apply (infer_tail_spec q _ None p1 H).
    + rewrite orb_true_r in H. cbn [bind] in H. apply (infer_tail_spec q _ None p1 H).
Qed.

Lemma infer_default_DE_const : forall q v,
  infer_default q (DE (EConst v)) false = infer_default q (DV (none_to_NoneStr v)) false.
Proof. intros q v. reflexivity. Qed.

Lemma expected_nonconst : forall e, is_const e = false ->
  expected_sig_default e = match lit_eval e with
                           | Ok lv => Some (dval_of_lval lv)
                           | Err ValueError => Some (DV (VStr (code_quote e)))
                           | Err _ => None
                           end.
Proof. intros e H. destruct e; try reflexivity. discriminate. Qed.

Lemma infer_default_DE_nonconst : forall q e p1, is_const e = false ->
  infer_default q (DE e) false = Ok p1 ->
  exists dv, expected_sig_default e = Some dv /\ g_doc p1 = g_doc q /\ g_default p1 = Some dv
             /\ (forall t, g_typ q = Has t -> g_typ p1 = typ_final dv t).
Proof.
  intros q e p1 Hc H. rewrite (expected_nonconst e Hc). unfold infer_default in H.
  assert (Hd1 : exists o, (match DE e with
                           | DE (EConst v) => Ok (DV (none_to_NoneStr v))
                           | DE (EOpaque src) => if opaque_maybe_const src then Err Unmodelled else Ok (DE e)
                           | _ => Ok (DE e)
                           end) = o /\ (o = Ok (DE e) \/ o = Err Unmodelled)).
  { eexists; split; [reflexivity|]. destruct e; try (left; reflexivity); try discriminate.
    destruct (opaque_maybe_const src); [right|left]; reflexivity. }
  destruct Hd1 as [o [Ho Hcase]]. rewrite Ho in H. destruct Hcase as [-> | ->]; cbn [bind] in H; [|discriminate].
  cbn [dval_in_none_types andb bind] in H.
  destruct (expr_ok e); cbn [negb] in H; [|discriminate].
  destruct (lit_eval e) as [lv|er] eqn:El.
  - cbn [bind] in H. exists (dval_of_lval lv). split; [reflexivity|].
    apply (infer_tail_spec q (dval_of_lval lv) (Some (lval_type_name lv)) p1 H).
  - destruct er; try discriminate. cbn [bind] in H.
    change (bt3 ++ paren_wrap_code (rstrip_chars [nl] (show_expr e)) ++ bt3) with (code_quote e) in H.
    exists (DV (VStr (code_quote e))). split; [reflexivity|].
    apply (infer_tail_spec q (DV (VStr (code_quote e))) None p1 H).
Qed.

Definition truthy_doc (f : fld str) : fld str :=
  match f with Has (c :: r) => Has (c :: r) | _ => Missing end.

Lemma snt_post_spec : forall p1 rp, snt_post p1 true = Ok rp ->
  g_default rp = g_default p1
  /\ g_doc rp = (match truthy_doc (g_doc p1) with Has s => Has (norm_doc s) | x => x end)
  /\ (forall t, g_typ p1 = Has t -> g_typ rp = Has (typ_after_prose (truthy_doc (g_doc p1)) t)).
Proof.
  intros p1 rp H.
  (* every successful branch builds a record with the default untouched: name its type field, read the rest off *)
  assert (R : exists T, rp = mkG (match truthy_doc (g_doc p1) with Has s => Has (norm_doc s) | x => x end) T (g_default p1)
                        /\ forall t, g_typ p1 = Has t -> T = Has (typ_after_prose (truthy_doc (g_doc p1)) t)).
  { unfold snt_post in H. cbv zeta in H. unfold typ_after_prose, prose_says_optional, truthy_doc.
    destruct (g_doc p1) as [| |[|c r]].
    1-3: injection H as <-; eexists; split; [reflexivity|]; intros t ->; cbn [andb];
         destruct (endswith google_opt t); reflexivity.
    change (rstrip (join [sp] (map strip (split [nl] (c :: r))))) with (norm_doc (c :: r)) in H.
    destruct (startswith (L "(Optional)") (norm_doc (c :: r)) || startswith (L "Optional") (norm_doc (c :: r))).
    - destruct (g_typ p1) as [| |t];
        [injection H as <-; eexists; split; [reflexivity|intros t' Ht'; discriminate Ht']|discriminate H|].
      destruct (endswith google_opt t) eqn:Eg;
        (match type of H with context [startswith (L "Optional[") ?u] => destruct (startswith (L "Optional[") u) eqn:Es end;
         injection H as <-; eexists; (split; [reflexivity|]); intros t' Ht'; injection Ht' as <-; rewrite Eg, Es; reflexivity).
    - injection H as <-. eexists. split; [reflexivity|]. intros t ->. cbn [andb].
      destruct (endswith google_opt t); reflexivity. }
  destruct R as (T & -> & HT). cbn [g_default g_doc g_typ]. auto.
Qed.

Definition sig_gparam (x : arg) (d : option expr) : gparam := snd (func_arg2param x d).

Definition ann_text (x : arg) : option str :=
  option_map (fun e => rstrip_chars [nl] (show_expr e)) (a_ann x).

Lemma merge_param_sig : forall t x d q,
  (forall s, ann_text x = Some s -> s <> []) ->
  merge_param t (sig_gparam x d) = Ok q ->
  g_doc q = g_doc t
  /\ g_typ q = (if fld_is_none (g_typ t) then match ann_text x with Some s => Has s | None => g_typ t end else g_typ t)
  /\ g_default q = (if default_in_none_types (g_default t)
                    then match d with Some e => Some (DE e) | None => g_default t end else g_default t).
Proof.
  intros [td ty tv] x d q Hann H. unfold merge_param, sig_gparam, func_arg2param, ann_text in *.
  cbn [snd g_doc g_typ g_default fld_truthy andb] in *. rewrite andb_false_r in H.
  (* the signature entry has no prose; its annotation, when there is one, is a non-empty text *)
  destruct (a_ann x) as [e|]; cbn [option_map fld_truthy] in *.
  - destruct (rstrip_chars [nl] (show_expr e)) as [|c s]; [exfalso; apply (Hann [] eq_refl); reflexivity|].
    cbn [fld_truthy] in H. rewrite andb_true_r in H. cbn [g_doc g_typ g_default] in H. revert H.
    destruct (fld_is_none ty); cbn [g_doc g_typ g_default]; destruct (default_in_none_types tv); destruct d;
      cbn [option_map bind not_in_none_frozenset]; intros H; injection H as <-; repeat split; reflexivity.
  - rewrite andb_false_r in H. cbn [g_doc g_typ g_default] in H. revert H.
    destruct (fld_is_none ty); destruct (default_in_none_types tv); destruct d;
      cbn [option_map bind not_in_none_frozenset]; intros H; injection H as <-; repeat split; reflexivity.
Qed.

Definition final_of (q : gparam) : option dval :=
  match g_default q with
  | None => None
  | Some (DV v) => Some (norm_scalar v)
  | Some (DE (EConst v)) => Some (norm_scalar (none_to_NoneStr v))
  | Some (DE e) => expected_sig_default e
  | Some (DO r) => None
  end.

Lemma snt_param_analysis : forall k q rp, kwargs_like k = false -> snt_param k q false true = Ok rp ->
  (forall r, g_default q <> Some (DO r)) ->
  g_default rp = final_of q
  /\ (g_default q <> None -> exists dv, g_default rp = Some dv)
  /\ g_doc rp = (match truthy_doc (g_doc q) with Has s => Has (norm_doc s) | x => x end)
  /\ (forall t, g_typ q = Has t ->
        (match final_of q with Some dv => typ_final dv t = Has t | None => True end) ->
        g_typ rp = Has (typ_after_prose (truthy_doc (g_doc q)) t)).
Proof.
  intros k q rp Hk H Hdo. unfold snt_param, snt_pre in H. rewrite Hk in H. unfold final_of.
  (* once _infer_default has settled the default dv: snt_post keeps it and rewrites prose and type *)
  assert (Fin : forall p1 dv, g_doc p1 = g_doc q -> g_default p1 = Some dv ->
                  (forall t, g_typ q = Has t -> g_typ p1 = typ_final dv t) -> snt_post p1 true = Ok rp ->
                  g_default rp = Some dv
                  /\ (g_default q <> None -> exists dv', g_default rp = Some dv')
                  /\ g_doc rp = (match truthy_doc (g_doc q) with Has s => Has (norm_doc s) | x => x end)
                  /\ (forall t, g_typ q = Has t -> typ_final dv t = Has t ->
                                g_typ rp = Has (typ_after_prose (truthy_doc (g_doc q)) t))).
  { intros p1 dv Hd1 Hv1 Ht1 Hp. destruct (snt_post_spec _ _ Hp) as (Hv & Hd & Ht).
    rewrite Hv, Hv1, Hd, Hd1. split; [reflexivity|]. split; [intros _; eexists; reflexivity|]. split; [reflexivity|].
    intros t Hqt Hfin. rewrite Hd1 in Ht. apply Ht. rewrite (Ht1 t Hqt). exact Hfin. }
  destruct (g_default q) as [[v|e|r]|] eqn:Ed.
  - destruct (infer_default q (DV v) false) as [p1|] eqn:Ei; cbn [bind] in H; [|discriminate].
    destruct (infer_default_DV _ _ _ Ei) as (Hd1 & Hv1 & Ht1). exact (Fin p1 _ Hd1 Hv1 Ht1 H).
  - destruct (is_const e) eqn:Ec.
    + destruct e; try discriminate. rewrite infer_default_DE_const in H.
      destruct (infer_default q (DV (none_to_NoneStr v)) false) as [p1|] eqn:Ei; cbn [bind] in H; [|discriminate].
      destruct (infer_default_DV _ _ _ Ei) as (Hd1 & Hv1 & Ht1). exact (Fin p1 _ Hd1 Hv1 Ht1 H).
    + destruct (infer_default q (DE e) false) as [p1|] eqn:Ei; cbn [bind] in H; [|discriminate].
      destruct (infer_default_DE_nonconst _ _ _ Ec Ei) as (dv & He & Hd1 & Hv1 & Ht1).
      assert (Hm : (match e with EConst v => Some (norm_scalar (none_to_NoneStr v)) | _ => expected_sig_default e end) = Some dv).
      { destruct e; try exact He. discriminate. }
      rewrite Hm. exact (Fin p1 dv Hd1 Hv1 Ht1 H).
  - exfalso. apply (Hdo r). reflexivity.
  - cbn [bind] in H. destruct (snt_post_spec _ _ H) as (Hv & Hd & Ht).
    rewrite Hv, Hd, Ed. split; [reflexivity|]. split; [intros Hx; exfalso; apply Hx; reflexivity|]. split; [reflexivity|].
    intros t Hqt _. apply Ht; exact Hqt.
Qed.

Lemma fld_str_eqb_refl : forall f, fld_str_eqb f f = true.
Proof. destruct f; cbn [fld_str_eqb]; auto using str_eqb_refl. Qed.

Lemma norm_scalar_eqb_refl : forall v, dval_eqb (norm_scalar v) (norm_scalar v) = true.
Proof. intros v. apply EmitAstFacts.dval_eqb_refl. Qed.

Lemma param_class_None : forall dp sp, param_class dp sp = None ->
  (doc_default_given dp = None -> forall s, s_default sp = Some (EConst (VStr s)) -> str_default_altered s = false)
  /\ type_dropped (final_default dp sp) (eff_typ dp sp) = false.
Proof.
  intros dp sp H. unfold param_class in H.
  destruct (needs_quoting (eff_typ dp sp)) as [nq|]; [|discriminate].
  unfold final_default in *.
  destruct (doc_default_given dp) as [dv|] eqn:Edd.
  - split; [discriminate|]. destruct (s_default sp); destruct (type_dropped _ _); try discriminate; reflexivity.
  - destruct (s_default sp) as [e|] eqn:Es.
    + destruct e as [v|id|e1 at1|e1 s1|es|es|ks vs|f args kws|op e1|src];
        try (match type of H with (if ?c then _ else _) = None => destruct c eqn:Ed; [discriminate|] end;
             split; [intros _ s0 Hs0; discriminate|first [exact Ed|reflexivity]]).
      destruct v as [|bb|z|fl|s];
        try (match type of H with (if ?c then _ else _) = None => destruct c eqn:Ed; [discriminate|] end;
             split; [intros _ s0 Hs0; discriminate|first [exact Ed|reflexivity]]).
      destruct (str_default_altered s) eqn:Ea; [discriminate|].
      match type of H with (if ?c then _ else _) = None => destruct c eqn:Ed; [discriminate|] end.
      split; [|first [exact Ed|reflexivity]]. intros _ s0 Hs0. inversion Hs0; subst; exact Ea.
    + split; [intros _ s He; discriminate|]. destruct (type_dropped _ _); [discriminate|reflexivity].
Qed.

Lemma typ_final_not_dropped : forall dv t, type_dropped (Some dv) (Some t) = false -> typ_final dv t = Has t.
Proof.
  intros dv t H. unfold type_dropped in H. unfold typ_final.
  destruct (code_quoted_dval dv); destruct (dval_is_NoneStr dv); destruct (contains [ch 91] t); cbn in *; try reflexivity; discriminate.
Qed.

Lemma norm_scalar_const : forall v, (forall s, v = VStr s -> str_default_altered s = false) ->
  norm_scalar (none_to_NoneStr v) = DV (none_to_NoneStr v).
Proof.
  intros v H. destruct v as [|b|z|f|s]; cbn [none_to_NoneStr].
  - unfold norm_scalar. rewrite PureUtilsFacts.in_none_types_NoneStr. reflexivity.
  - reflexivity.
  - reflexivity.
  - reflexivity.
  - specialize (H s eq_refl). unfold str_default_altered in H. apply negb_false_iff in H. apply str_eqb_eq in H.
    unfold norm_scalar. destruct (in_none_types (VStr s)); rewrite H; reflexivity.
Qed.

Definition doc_default_scalar (dp : option gparam) : Prop :=
  match dp with
  | Some t => match g_default t with Some (DV _) => True | None => True | _ => False end
  | None => True
  end.

(* the entry handed to _set_name_and_type, in the spec's terms: documented prose, type and default win, the signature
   fills the gaps; a documented default that counts is a scalar that is not None-like *)
Lemma merged_entry : forall k kind dp x d q,
  (forall s, ann_text x = Some s -> s <> []) ->
  doc_default_scalar dp ->
  (match dp with Some t => merge_param t (sig_gparam x d) = Ok q | None => q = sig_gparam x d end) ->
  truthy_doc (g_doc q) = doc_prose dp
  /\ fget (g_typ q) = eff_typ dp (mkSig k kind d (a_ann x))
  /\ ((exists v, doc_default_given dp = Some (DV v) /\ in_none_types v = false /\ g_default q = Some (DV v))
      \/ (exists e, doc_default_given dp = None /\ d = Some e /\ g_default q = Some (DE e))
      \/ (doc_default_given dp = None /\ d = None
          /\ (g_default q = None \/ exists v, g_default q = Some (DV v) /\ in_none_types v = true))).
Proof.
  intros k kind dp x d q Hann Hsc Hres. unfold eff_typ, doc_typ_given, doc_default_given, doc_prose, truthy_doc. cbn [s_ann].
  fold (ann_text x). destruct dp as [t|].
  - destruct (merge_param_sig _ _ _ _ Hann Hres) as (H1 & H2 & H3). rewrite H1, H2, H3. cbn [doc_default_scalar] in Hsc.
    split; [destruct (g_doc t) as [| |[|c r]]; reflexivity|].
    split; [destruct (g_typ t); cbn [fld_is_none fget]; try reflexivity; destruct (ann_text x); reflexivity|].
    destruct (default_in_none_types (g_default t)) eqn:E.
    + destruct d as [e|]; [right; left; exists e; auto|right; right].
      split; [reflexivity|]. split; [reflexivity|].
      destruct (g_default t) as [[v|e|r]|]; try contradiction; [right; exists v; auto|left; reflexivity].
    + destruct (g_default t) as [[v|e|r]|]; try contradiction; [left; exists v; auto|discriminate E].
  - subst q. unfold sig_gparam, func_arg2param, ann_text. cbn [snd g_doc g_typ g_default].
    split; [reflexivity|]. split; [destruct (a_ann x); reflexivity|].
    destruct d as [e|]; [right; left; exists e; auto|right; right; auto].
Qed.

Lemma param_faithful_lemma : forall k kind dp x d q rp,
  kwargs_like k = false ->
  (forall s, ann_text x = Some s -> s <> []) ->
  doc_default_scalar dp ->
  (match dp with Some t => merge_param t (sig_gparam x d) = Ok q | None => q = sig_gparam x d end) ->
  snt_param k q false true = Ok rp ->
  param_class dp (mkSig k kind d (a_ann x)) = None ->
  param_faithful dp (mkSig k kind d (a_ann x)) rp = true.
Proof.
  intros k kind dp x d q rp Hk Hann Hsc Hres Hsnt Hcls.
  destruct (merged_entry k kind dp x d q Hann Hsc Hres) as (Hprose & Heff & Hqv).
  set (sp := mkSig k kind d (a_ann x)) in *.
  destruct (param_class_None _ _ Hcls) as (Hsig & Hdrop).
  destruct (snt_param_analysis k q rp Hk Hsnt) as (Hv & Hsome & Hd & Ht).
  { intros r Hr. destruct Hqv as [(v & _ & _ & E)|[(e & _ & _ & E)|(_ & _ & [E|(v & E & _)])]];
      rewrite E in Hr; discriminate Hr. }
  (* the default the result ends with is the one the spec predicts, and it does not make _infer_default drop the type *)
  assert (Key : (match doc_default_given dp, s_default sp with
                 | Some dv, _ => opt_dval_eqb (g_default rp) (Some (norm_doc_default dv))
                 | None, Some e => match expected_sig_default e with
                                   | Some x => opt_dval_eqb (g_default rp) (Some x)
                                   | None => false
                                   end
                 | None, None => match g_default rp with None => true | Some x => dval_is_NoneStr x end
                 end) = true
                /\ forall t, eff_typ dp sp = Some t ->
                             match final_of q with Some dv => typ_final dv t = Has t | None => True end).
  { rewrite Hv. unfold final_of. unfold final_default in Hdrop. cbn [s_default sp] in *.
    destruct Hqv as [(v & Edd & Hv0 & E)|[(e & Edd & -> & E)|(Edd & -> & E)]]; rewrite Edd in *.
    - assert (En : norm_scalar v = norm_doc_default (DV v)) by (unfold norm_scalar; rewrite Hv0; destruct v; reflexivity).
      rewrite E. split; [rewrite <- En; apply EmitAstFacts.dval_eqb_refl|].
      intros t Et. rewrite Et, <- En in Hdrop. apply typ_final_not_dropped. exact Hdrop.
    - assert (Ef : match e with EConst v => Some (norm_scalar (none_to_NoneStr v)) | _ => expected_sig_default e end
                   = expected_sig_default e).
      { destruct e as [v| | | | | | | | |]; try reflexivity.
        cbn [expected_sig_default]. rewrite (norm_scalar_const v); [reflexivity|]. intros s ->. apply (Hsig eq_refl s eq_refl). }
      destruct Hsome as (dv & Hdv); [rewrite E; discriminate|].
      rewrite Hv in Hdv. unfold final_of in Hdv. rewrite E, Ef in *. rewrite Hdv in *.
      split; [apply EmitAstFacts.dval_eqb_refl|].
      intros t Et. rewrite Et in Hdrop. apply typ_final_not_dropped. exact Hdrop.
    - destruct E as [E|(v & E & Hv0)]; rewrite E; [split; [reflexivity|intros t _; exact I]|].
      unfold norm_scalar, typ_final. rewrite Hv0. cbn [dval_is_NoneStr]. rewrite str_eqb_refl. split; reflexivity. }
  destruct Key as [Kd Kt].
  assert (Htyp : forall t, eff_typ dp sp = Some t -> g_typ rp = Has (typ_after_prose (doc_prose dp) t)).
  { intros t Et. rewrite <- Hprose. apply Ht; [|apply Kt; exact Et].
    rewrite Et in Heff. destruct (g_typ q); try discriminate Heff. injection Heff as ->. reflexivity. }
  unfold param_faithful. rewrite Kd, andb_true_r. apply andb_true_iff. split.
  - rewrite Hd, Hprose. apply fld_str_eqb_refl.
  - unfold eff_typ in Htyp. cbn [s_ann sp] in *.
    destruct (doc_typ_given dp) as [t|]; [rewrite (Htyp t eq_refl); apply fld_str_eqb_refl|].
    destruct (a_ann x) as [a|]; [|reflexivity]. rewrite (Htyp _ eq_refl). apply fld_str_eqb_refl.
Qed.

Lemma snt_kwarg_lemma : forall k p rp,
  snt_param k (mkG (g_doc p) (g_typ p) (Some (DV (VStr NoneStr)))) false true = Ok rp ->
  kwarg_faithful (Some p) rp = true.
Proof.
  intros k p rp H. unfold snt_param, snt_pre in H. cbn [g_doc g_typ g_default] in H.
  assert (G : forall p1, g_doc p1 = g_doc p -> g_default p1 = Some (DV (VStr NoneStr)) -> snt_post p1 true = Ok rp ->
              kwarg_faithful (Some p) rp = true).
  { intros p1 Hd1 Hv1 Hp. destruct (snt_post_spec _ _ Hp) as (Hv & Hd & _).
    unfold kwarg_faithful. rewrite Hv, Hv1, Hd, Hd1. apply andb_true_iff. split.
    - assert (E : doc_prose (Some p) = truthy_doc (g_doc p)).
      { unfold doc_prose, truthy_doc. destruct (g_doc p) as [| |[|c r]]; reflexivity. }
      rewrite E. apply fld_str_eqb_refl.
    - cbn [opt_dval_eqb dval_eqb pyval_eqb]. apply str_eqb_refl. }
  destruct (kwargs_like k).
  - cbn [bind] in H. eapply G; [| |exact H]; reflexivity.
  - destruct (infer_default _ (DV (VStr NoneStr)) false) as [p1|] eqn:Ei; cbn [bind] in H; [|discriminate].
    destruct (infer_default_DV _ _ _ Ei) as (Hd1 & Hv1 & _). cbn [g_doc] in Hd1.
    eapply G; [exact Hd1| |exact H]. rewrite Hv1. unfold norm_scalar. rewrite PureUtilsFacts.in_none_types_NoneStr. reflexivity.
Qed.

Lemma list_eqb_str_refl : forall l, list_eqb str_eqb l l = true.
Proof. induction l as [|x l IH]; cbn [list_eqb]; [reflexivity|]. rewrite str_eqb_refl, IH. reflexivity. Qed.

Lemma first_some_class_None : forall l, first_some_class l = None -> forall x, In x l -> x = None.
Proof.
  induction l as [|[k|] l IH]; intros H x Hx; [destruct Hx|discriminate|].
  destruct Hx as [<-|Hx]; [reflexivity|apply IH; assumption].
Qed.

Lemma pad_defaults_exact : forall {A} (ds : list (option A)) n, n = List.length ds -> pad_defaults n ds = ds.
Proof. intros A ds n ->. unfold pad_defaults. rewrite Nat.sub_diag. reflexivity. Qed.

Lemma pos_args_incl : forall a x, In x (pos_args a) -> In x (ar_args a).
Proof.
  intros a x H. unfold pos_args in H. destruct (str_eqb _ _); [exact H|].
  destruct (ar_args a); [destruct H|right; exact H].
Qed.

Lemma find_none_by_name : forall kind args (ds : list (option expr)) k, ~ In k (map a_name args) ->
  forall y, In y (map2 (fun x d => mkSig (a_name x) kind d (a_ann x)) args ds) -> str_eqb (s_name y) k = false.
Proof.
  intros kind args ds k Hk y Hy. apply str_eqb_neq. intros Heq. apply Hk. rewrite <- Heq.
  eapply map2_sig_In_name; exact Hy.
Qed.

(* the signature entry of a positional / keyword-only name, on both sides *)
Lemma sig_entry : forall n a b dc rr k, fd_facts a ->
  List.length (ar_defaults a) <= List.length (pos_args a) -> In k (sig_pos_names a) ->
  exists x dflt kind, In x (ar_args a ++ ar_kwonly a) /\ kind <> VarKw
    /\ od_get k (sig_pairs a (pos_args a)) = Some (sig_gparam x dflt)
    /\ sig_param_of (SFunc n a b dc rr) k = Some (mkSig k kind dflt (a_ann x)).
Proof.
  intros n a b dc rr k F Hself Hk.
  pose proof (NoDup_app_l _ _ (ff_nodup a F)) as HS. unfold sig_pos_names in HS, Hk.
  unfold sig_param_of. rewrite (py_signature_spec _ _ _ _ _ F Hself).
  unfold sig_pairs. rewrite od_get_app.
  rewrite (pad_defaults_exact (ar_kw_defaults a)) by apply (ff_kw a F).
  destruct (in_dec (list_eq_dec ascii_dec) k (map a_name (pos_args a))) as [Hp|Hp].
  - destruct (od_get_map2_func (pos_args a) (pad_defaults (List.length (pos_args a)) (map Some (ar_defaults a))) k)
      as (x & dflt & Hx & Hn & Hg & Hf); [apply pad_defaults_length|apply (NoDup_app_l _ _ HS)|exact Hp|].
    exists x, dflt, PosOrKw. split; [apply in_or_app; left; apply pos_args_incl; exact Hx|]. split; [discriminate|].
    rewrite Hg. split; [reflexivity|]. apply find_app_l. apply Hf.
  - assert (Hkw : In k (map a_name (ar_kwonly a))) by (apply in_app_or in Hk; tauto).
    assert (Hnone : od_get k (map2 func_arg2param (pos_args a)
                                   (pad_defaults (List.length (pos_args a)) (map Some (ar_defaults a)))) = None).
    { apply od_get_None_iff. unfold od_keys. rewrite map2_func_arg2param_keys by apply pad_defaults_length. exact Hp. }
    rewrite Hnone.
    destruct (od_get_map2_func (ar_kwonly a) (ar_kw_defaults a) k) as (x & dflt & Hx & Hn & Hg & Hf).
    + rewrite (ff_kw a F). lia.
    + clear - HS. induction (map a_name (pos_args a)) as [|y l IH]; [exact HS|].
      cbn [app] in HS. inversion HS; subst. apply IH; assumption.
    + exact Hkw.
    + exists x, dflt, KwOnly. split; [apply in_or_app; right; exact Hx|]. split; [discriminate|].
      rewrite Hg. split; [reflexivity|].
      rewrite find_app_r by (apply find_none_by_name; exact Hp).
      apply find_app_l. apply Hf.
Qed.

Lemma sig_entry_kw : forall n a b dc rr karg, fd_facts a ->
  List.length (ar_defaults a) <= List.length (pos_args a) -> ar_kwarg a = Some karg ->
  sig_param_of (SFunc n a b dc rr) (a_name karg) = Some (mkSig (a_name karg) VarKw None (a_ann karg)).
Proof.
  intros n a b dc rr karg F Hself Hk.
  pose proof (kwarg_fresh a karg F Hk) as Hnd. unfold sig_pos_names in Hnd.
  unfold sig_param_of. rewrite (py_signature_spec _ _ _ _ _ F Hself). rewrite Hk.
  rewrite find_app_r by (apply find_none_by_name; intros Hin; apply Hnd; apply in_or_app; left; exact Hin).
  rewrite find_app_r by (apply find_none_by_name; intros Hin; apply Hnd; apply in_or_app; right; exact Hin).
  cbn [List.find s_name]. rewrite str_eqb_refl. reflexivity.
Qed.

Lemma wf_fd_ann : forall n a b dc rr x, wf_fd (SFunc n a b dc rr) = true -> In x (ar_args a ++ ar_kwonly a) ->
  forall s, ann_text x = Some s -> s <> [].
Proof.
  intros n a b dc rr x H Hx s Hs. cbn [wf_fd] in H. apply andb_true_iff in H. destruct H as [_ H].
  rewrite forallb_forall in H. specialize (H x Hx). unfold ann_text in Hs.
  destruct (a_ann x) as [e|]; [|discriminate]. cbn [option_map] in Hs. inversion Hs; subst.
  destruct (rstrip_chars [nl] (show_expr e)); [discriminate|]. discriminate.
Qed.

Lemma wf_doc_scalar : forall d n a b dc rr k, wf_doc d (SFunc n a b dc rr) = true ->
  doc_default_scalar (od_get k (doc_params d (SFunc n a b dc rr))).
Proof.
  intros d n a b dc rr k H. unfold wf_doc in H. cbn [fd_arguments] in H.
  apply andb_true_iff in H. destruct H as [_ H]. rewrite forallb_forall in H.
  unfold doc_default_scalar. destruct (od_get k _) as [t|] eqn:E; [|exact I].
  apply od_get_Some_In in E. specialize (H _ E). cbn [snd] in H.
  destruct (g_default t) as [[v|e|r]|]; try exact I; discriminate.
Qed.


Lemma finding_class_C07_None : forall d n a b dc rr,
  finding_class_C07 d (SFunc n a b dc rr) = None ->
  order_guard d (SFunc n a b dc rr) = true
  /\ List.length (ar_defaults a) <= List.length (pos_args a)
  /\ existsb kwargs_like (sig_pos_names a) = false
  /\ exists r0 l, parse_default id_perm id_perm d (SFunc n a b dc rr) = Ok r0
                  /\ py_signature (SFunc n a b dc rr) = Some l
                  /\ forall sp, In sp l -> s_kind sp <> VarKw ->
                                param_class (od_get (s_name sp) (doc_params d (SFunc n a b dc rr))) sp = None.
Proof.
  intros d n a b dc rr Efc. set (fd := SFunc n a b dc rr) in *.
  unfold finding_class_C07 in Efc. cbn [fd_arguments fd] in Efc. fold fd in Efc.
  destruct (match kwarg_name a with Some _ => negb (kwarg_documented d a fd) | None => false end) eqn:C1; [discriminate|].
  match type of Efc with (if ?c then _ else _) = None => destruct c; [discriminate|] end.
  destruct (Nat.ltb (List.length (pos_args a)) (List.length (ar_defaults a))) eqn:C4; [discriminate|].
  destruct (existsb kwargs_like (sig_pos_names a)); [discriminate|].
  destruct (parse_default id_perm id_perm d fd) as [r0|er]; [|destruct er; discriminate].
  destruct (py_signature fd) as [l|]; [|discriminate].
  split; [|split; [apply Nat.ltb_ge; exact C4|split; [reflexivity|]]].
  - unfold order_guard. cbn [fd_arguments fd]. fold fd.
    destruct (kwarg_name a); [apply negb_false_iff in C1; exact C1|reflexivity].
  - exists r0, l. split; [reflexivity|]. split; [reflexivity|]. intros sp Hsp Hkind.
    pose proof (first_some_class_None _ Efc _ (in_map _ _ _ Hsp)) as Hc. cbn beta in Hc.
    destruct (s_kind sp); try exact Hc. exfalso; apply Hkind; reflexivity.
Qed.

(* an entry of the result, traced back through _set_name_and_type to the merged map *)
Lemma result_entry : forall pi pj d n a b dc rr r k rp,
  fd_facts a -> doc_facts d (SFunc n a b dc rr) a ->
  C07_domain d (SFunc n a b dc rr) = true -> order_guard d (SFunc n a b dc rr) = true ->
  parse_function pi pj d (SFunc n a b dc rr) false true None None = Ok r -> In (k, rp) (ir_params r) ->
  In k (sig_pos_names a ++ opt_list (kwarg_name a))
  /\ exists tparams app m q,
       kw_split a (doc_params d (SFunc n a b dc rr)) = Ok (tparams, app)
       /\ merge_params pi tparams (sig_pairs a (pos_args a)) = Ok m
       /\ od_get k (append_kw app (sort_by_sig (sig_pos_names a) m)) = Some q
       /\ snt_param k q false true = Ok rp.
Proof.
  intros pi pj d n a b dc rr r k rp F D Hdom Hog H Hin. set (fd := SFunc n a b dc rr) in *.
  pose proof (parse_function_names _ _ _ _ _ _ _ _ _ Hdom H) as Hnames.
  pose proof (proj2 (order_guard_iff d fd Hdom) Hog) as Horder.
  destruct (parse_function_structure _ _ _ _ _ _ _ _ _ _ _ _ _ F D H) as (tparams & app & m & Ekw & Em & Esn & Ekeys).
  fold fd in Ekw, Ekeys.
  set (ps := append_kw app (sort_by_sig (sig_pos_names a) m)) in *.
  assert (Hnd1 : NoDup (od_keys ps)) by (rewrite Ekeys; apply expected_names_NoDup; assumption).
  assert (Hok1 : forallb name_ok (od_keys ps) = true).
  { rewrite Ekeys. eapply forallb_sub; [|apply (ff_ok a F)]. intros k' Hk'. eapply expected_names_sub; eauto. }
  assert (Hgr : od_get k (ir_params r) = Some rp).
  { apply In_od_get; [rewrite Hnames; apply expected_names_NoDup; assumption|exact Hin]. }
  pose proof (od_get_Some_In_keys _ _ _ Hgr) as Hkr. split.
  - rewrite <- (sig_names_spec n a b dc rr F). fold fd. rewrite <- Horder, <- Hnames. exact Hkr.
  - rewrite (set_names_and_types_keys _ _ _ _ Hnd1 Hok1 Esn) in Hkr.
    destruct (od_get_In_keys _ _ Hkr) as [q Hq].
    destruct (set_names_and_types_get _ _ _ _ _ _ Hnd1 Hok1 Esn Hq) as (rp' & Hsnt & Hgr').
    rewrite Hgr in Hgr'. injection Hgr' as <-. exists tparams, app, m, q. auto.
Qed.

Lemma C07_partial_lemma : forall pi pj d fd, perm_ok pi -> perm_ok pj -> guard_C07 d fd = true -> C07_at pi pj d fd.
Proof.
  intros pi pj d fd Hpi Hpj Hg. unfold guard_C07 in Hg. apply andb_true_iff in Hg. destruct Hg as [Hdom Hcls].
  pose proof Hdom as Hdom0. unfold C07_domain in Hdom. apply andb_true_iff in Hdom. destruct Hdom as [Hwf Hdoc].
  destruct (wf_fd_facts _ Hwf) as (n & a & b & dc & rr & -> & F).
  pose proof (wf_doc_facts _ _ _ _ _ _ Hdoc) as D.
  destruct (finding_class_C07 d (SFunc n a b dc rr)) eqn:Efc; [discriminate|]. clear Hcls.
  destruct (finding_class_C07_None _ _ _ _ _ _ Efc) as (Hog & Hself & Hnokw & r0 & l & Hrun & Hsig & Hparam).
  set (fd := SFunc n a b dc rr) in *.
  exists r0. split.
  { unfold parse_default. rewrite parse_function_canonical by assumption. exact Hrun. }
  unfold parse_default in Hrun.
  unfold C07_check. apply andb_true_iff. split.
  { rewrite (parse_function_names _ _ _ _ _ _ _ _ _ Hdom0 Hrun), (proj2 (order_guard_iff d fd Hdom0) Hog).
    apply list_eqb_str_refl. }
  assert (HS : NoDup (sig_pos_names a)) by (apply (NoDup_app_l _ _ (ff_nodup a F))).
  rewrite forallb_forall. intros [k rp] Hin.
  destruct (result_entry _ _ _ _ _ _ _ _ _ _ _ F D Hdom0 Hog Hrun Hin) as (Hk & tparams & app & m & q & Ekw & Em & Hq & Hsnt).
  fold fd in Ekw, Hq.
  unfold result_param_ok. cbn [fst snd].
  apply in_app_or in Hk. destruct Hk as [HkS|Hkk].
  - (* a positional / keyword-only parameter *)
    destruct (sig_entry n a b dc rr k F Hself HkS) as (x & dflt & kind & Hx & Hkind & Hgo & Hsp).
    fold fd in Hsp. rewrite Hsp. cbn [s_kind].
    (* the merged entry before _set_name_and_type *)
    destruct (kw_split_get_other _ _ _ _ (sort_by_sig (sig_pos_names a) m) k Ekw) as [Hqm Htp].
    { intros karg Hka Heq. apply (kwarg_fresh a karg F Hka). rewrite Heq. exact HkS. }
    rewrite Hqm, (sort_by_sig_get (sig_pos_names a) m k HS) in Hq.
    assert (Hres : match od_get k (doc_params d fd) with
                   | Some t => merge_param t (sig_gparam x dflt) = Ok q
                   | None => q = sig_gparam x dflt
                   end).
    { rewrite <- Htp. apply (merge_params_get id_perm tparams (sig_pairs a (pos_args a)) m k _ q id_perm_ok); assumption. }
    assert (Hpf : param_faithful (od_get k (doc_params d fd)) (mkSig k kind dflt (a_ann x)) rp = true).
    { eapply param_faithful_lemma; [| | |exact Hres|exact Hsnt|].
      * apply not_true_iff_false. intros Hkl. rewrite <- not_true_iff_false in Hnokw. apply Hnokw.
        apply existsb_exists. exists k. split; assumption.
      * eapply wf_fd_ann; [exact Hwf|exact Hx].
      * eapply wf_doc_scalar; exact Hdoc.
      * unfold sig_param_of in Hsp. rewrite Hsig in Hsp. apply find_some in Hsp.
        apply (Hparam (mkSig k kind dflt (a_ann x)) (proj1 Hsp) Hkind). }
    destruct kind; try exact Hpf. exfalso; apply Hkind; reflexivity.
  - (* the ** parameter *)
    unfold kwarg_name in Hkk. destruct (ar_kwarg a) as [karg|] eqn:Eka; cbn [option_map opt_list] in Hkk; [|destruct Hkk].
    destruct Hkk as [<-|[]].
    pose proof (sig_entry_kw n a b dc rr karg F Hself Eka) as Hskw. fold fd in Hskw. rewrite Hskw. cbn [s_kind].
    pose proof Hog as C1. unfold order_guard, kwarg_documented, kwarg_name in C1. cbn [fd_arguments fd] in C1.
    rewrite Eka in C1. cbn [option_map] in C1.
    apply mem_str_In in C1. destruct (od_get_In_keys _ _ C1) as [p Hp]. fold fd in Hp.
    rewrite (kw_split_get_kwarg _ _ _ _ _ karg p Ekw Eka Hp) in Hq. injection Hq as <-.
    rewrite Hp. eapply snt_kwarg_lemma; exact Hsnt.
Qed.

(* the full statement is false: an undocumented ** parameter is dropped *)
(* def f(a, **kwargs):
       pass                                                            *)
Definition wit_fd : stmt :=
  SFunc (L "f") (mkArguments [mkArg (L "a") None] [] [] [] None (Some (mkArg (L "kwargs") None)))
        [SOther (L "Pass") (L "pass") []] [] None.

Definition wit_doc : option ir := None.

Lemma wit_in_domain : C07_domain wit_doc wit_fd = true.
Proof. vm_compute. reflexivity. Qed.

Lemma wit_result_names : exists r, parse_default id_perm id_perm wit_doc wit_fd = Ok r
                                   /\ od_keys (ir_params r) = [L "a"] /\ sig_names wit_fd = [L "a"; L "kwargs"].
Proof. eexists. split; [vm_compute; reflexivity|]. split; vm_compute; reflexivity. Qed.

Lemma C07_refuted_lemma : ~ C07_statement.
Proof.
  intros H. destruct (H id_perm id_perm wit_doc wit_fd id_perm_ok id_perm_ok wit_in_domain) as (r & Hr & Hc).
  destruct wit_result_names as (r' & Hr' & Hk & Hs). rewrite Hr in Hr'. inversion Hr'; subst r'.
  unfold C07_check in Hc. apply andb_true_iff in Hc. destruct Hc as [Hc _].
  rewrite Hk, Hs in Hc. vm_compute in Hc. discriminate.
Qed.

(* the witness of the order defect that fix cc5b15e removed now holds:
   def f(a, b):  documenting only b *)
Definition old_wit_fd : stmt :=
  SFunc (L "f") (mkArguments [mkArg (L "a") None; mkArg (L "b") None] [] [] [] None None)
        [SExpr (EConst (VStr (L "Doc." ++ [nl; nl] ++ L ":param b: the b"))); SOther (L "Pass") (L "pass") []] [] None.

Definition old_wit_doc : option ir :=
  Some (mkIR FNone (Has (L "static")) (Has (L "Doc.")) [(L "b", mkG (Has (L "the b")) Missing None)] FNone None).

(* def g(self, a: int, b=5, *, c: str = "x", **kwargs):
       """Doc.

       :param a: the a
       :param b: the b. Defaults to 5
       :param kwargs: extra
       :type kwargs: ```dict```"""
       return a                                                        *)
Definition nv_fd : stmt :=
  SFunc (L "g")
        (mkArguments [mkArg (L "self") None; mkArg (L "a") (Some (EName (L "int"))); mkArg (L "b") None]
                     [EConst (VInt 5)]
                     [mkArg (L "c") (Some (EName (L "str")))] [Some (EConst (VStr (L "x")))]
                     None (Some (mkArg (L "kwargs") None)))
        [SExpr (EConst (VStr (L "Doc."))); SReturn (Some (EName (L "a")))] [] None.

Definition nv_doc : option ir :=
  Some (mkIR FNone (Has (L "static")) (Has (L "Doc."))
             [(L "a", mkG (Has (L "the a")) Missing None);
              (L "b", mkG (Has (L "the b. Defaults to 5")) Missing (Some (DV (VInt 5))));
              (L "kwargs", mkG (Has (L "extra")) (Has (L "Optional[dict]")) (Some (DV (VStr NoneStr))))]
             FNone None).

(* names and order for whole input classes, whatever the defaults and annotations are *)
Lemma C07_names_lemma : forall pi pj d fd it ww ft fnm r, C07_domain d fd = true -> order_guard d fd = true ->
  parse_function pi pj d fd it ww ft fnm = Ok r -> od_keys (ir_params r) = sig_names fd.
Proof.
  intros pi pj d fd it ww ft fnm r Hdom Hog H.
  rewrite (parse_function_names _ _ _ _ _ _ _ _ _ Hdom H). apply order_guard_iff; assumption.
Qed.

(* nothing documented, no ** parameter: always the source order *)
Lemma C07_names_undocumented : forall pi pj d fd it ww ft fnm r, C07_domain d fd = true ->
  doc_names d fd = [] -> (match fd_arguments fd with Some a => kwarg_name a = None | None => False end) ->
  parse_function pi pj d fd it ww ft fnm = Ok r -> od_keys (ir_params r) = sig_names fd.
Proof.
  intros pi pj d fd it ww ft fnm r Hdom Hd Hk H. apply (C07_names_lemma pi pj d fd it ww ft fnm r Hdom); [|exact H].
  unfold order_guard. destruct (fd_arguments fd) as [a|]; [|destruct Hk]. rewrite Hk. reflexivity.
Qed.

(* no ** parameter: the source order whatever the docstring documents, in whatever order *)
Lemma C07_names_no_kwarg : forall pi pj d fd it ww ft fnm r a, C07_domain d fd = true ->
  fd_arguments fd = Some a -> kwarg_name a = None ->
  parse_function pi pj d fd it ww ft fnm = Ok r -> od_keys (ir_params r) = sig_names fd.
Proof.
  intros pi pj d fd it ww ft fnm r a Hdom Ha Hk H. apply (C07_names_lemma pi pj d fd it ww ft fnm r Hdom); [|exact H].
  unfold order_guard. rewrite Ha, Hk. reflexivity.
Qed.

(* a documented ** parameter: the source order too *)
Lemma C07_names_kwarg_documented : forall pi pj d fd it ww ft fnm r a, C07_domain d fd = true ->
  fd_arguments fd = Some a -> kwarg_documented d a fd = true ->
  parse_function pi pj d fd it ww ft fnm = Ok r -> od_keys (ir_params r) = sig_names fd.
Proof.
  intros pi pj d fd it ww ft fnm r a Hdom Ha Hk H. apply (C07_names_lemma pi pj d fd it ww ft fnm r Hdom); [|exact H].
  unfold order_guard. rewrite Ha, Hk. destruct (kwarg_name a); reflexivity.
Qed.

(* an undocumented ** parameter is the only thing that can be missing *)
Lemma C07_missing_only_kwarg : forall pi pj d fd it ww ft fnm r a, C07_domain d fd = true ->
  fd_arguments fd = Some a -> parse_function pi pj d fd it ww ft fnm = Ok r ->
  od_keys (ir_params r) = sig_names fd
  \/ (exists k, kwarg_name a = Some k /\ sig_names fd = od_keys (ir_params r) ++ [k]).
Proof.
  intros pi pj d fd it ww ft fnm r a Hdom Ha H. rewrite (parse_function_names _ _ _ _ _ _ _ _ _ Hdom H).
  unfold C07_domain in Hdom. apply andb_true_iff in Hdom. destruct Hdom as [Hwf Hdoc].
  destruct (wf_fd_facts _ Hwf) as (n & a' & b & dc & rr & -> & F). cbn [fd_arguments] in Ha. inversion Ha; subst a'.
  pose proof (wf_doc_facts _ _ _ _ _ _ Hdoc) as D.
  rewrite (expected_names_domain _ _ _ _ _ _ D), (sig_names_spec _ _ _ _ _ F).
  destruct (kwarg_documented d a (SFunc n a b dc rr)) eqn:Ek; [left; reflexivity|].
  destruct (kwarg_name a) as [k|]; cbn [opt_list]; [right; exists k; rewrite app_nil_r; split; reflexivity|left; reflexivity].
Qed.

Lemma filter_mem_app : forall (f : str -> bool) l1 l2, filter f (l1 ++ l2) = filter f l1 ++ filter f l2.
Proof. intros. apply filter_app. Qed.

(* the __init__ parameters keep their order in the merged interface when the class attributes that are
   also __init__ parameters form, in class order, a prefix of them *)
Lemma class_order_lemma : forall tnames inames : list str, NoDup inames ->
  class_order_guard tnames inames = true -> init_names_in_merged tnames inames = inames.
Proof.
  intros T I HI Hg. unfold init_names_in_merged, class_merged_names, class_order_guard in *.
  rewrite filter_app.
  set (P := filter (fun k => mem_str k I) T) in *.
  assert (E : filter (fun k => mem_str k I) (filter (fun k => negb (mem_str k T)) I)
              = filter (fun k => negb (mem_str k P)) I).
  { clear Hg HI. subst P. induction I as [|y I' IH] in T |- *; [reflexivity|].
    rewrite filter_comm.
    rewrite (filter_all (fun k => mem_str k (y :: I')) (y :: I')) by (intros k Hk; apply mem_str_In; exact Hk).
    apply filter_ext_in. intros k Hk. f_equal.
    destruct (mem_str k T) eqn:E1.
    - symmetry. apply mem_str_In. apply filter_In. split; [apply mem_str_In; exact E1|apply mem_str_In; exact Hk].
    - symmetry. apply mem_str_false. intros Hin. apply filter_In in Hin. destruct Hin as [Hin _].
      apply mem_str_In in Hin. congruence. }
  rewrite E. apply prefix_then_rest; assumption.
Qed.

