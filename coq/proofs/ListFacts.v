(* ListFacts: facts about lists in general (filter, forallb/existsb against Forall/Forall2, NoDup)
   that the standard library of 8.16 does not have. *)
From Coq Require Import List Bool.
Import ListNotations.

(* brings a concatenation into right-nested form *)
Ltac norm_app := repeat first [rewrite <- app_assoc | rewrite app_nil_r | progress (cbn [app])].

Lemma filter_all : forall {A} (p : A -> bool) l, (forall x, In x l -> p x = true) -> filter p l = l.
Proof.
  intros A p l; induction l as [|x r IH]; intros H; cbn; [reflexivity|].
  rewrite (H x (or_introl eq_refl)). f_equal. apply IH. intros y Hy. apply H. right. exact Hy.
Qed.

Lemma filter_none : forall {A} (p : A -> bool) l, (forall x, In x l -> p x = false) -> filter p l = [].
Proof.
  intros A p l; induction l as [|x r IH]; intros H; cbn; [reflexivity|].
  rewrite (H x (or_introl eq_refl)). apply IH. intros y Hy. apply H. right. exact Hy.
Qed.

Lemma filter_comm : forall {A} (p q : A -> bool) l, filter p (filter q l) = filter q (filter p l).
Proof.
  intros A p q l. induction l as [|x r IH]; [reflexivity|]. cbn [filter].
  destruct (q x) eqn:Eq; destruct (p x) eqn:Ep; cbn [filter]; rewrite ?Eq, ?Ep, IH; reflexivity.
Qed.

Lemma filter_rev : forall {A} (f : A -> bool) l, filter f (rev l) = rev (filter f l).
Proof.
  intros A f l. induction l as [|x l IH]; [reflexivity|].
  cbn [rev filter]. rewrite filter_app, IH. cbn [filter].
  destruct (f x); [reflexivity|apply app_nil_r].
Qed.

Lemma forallb_skipn : forall {A} (p : A -> bool) m l, forallb p l = true -> forallb p (skipn m l) = true.
Proof.
  intros A p m. induction m as [|m IH]; intros l Hl; [exact Hl|].
  destruct l as [|x l]; [reflexivity|].
  cbn [forallb] in Hl. apply andb_true_iff in Hl. cbn [skipn]. apply IH. apply Hl.
Qed.

Lemma negb_existsb : forall {A} (f : A -> bool) l, negb (existsb f l) = forallb (fun x => negb (f x)) l.
Proof.
  intros A f l. induction l as [|x r IH]; [reflexivity|]. cbn [existsb forallb].
  rewrite negb_orb, IH. reflexivity.
Qed.

Lemma existsb_false_In : forall (A : Type) (f : A -> bool) l x,
    existsb f l = false -> In x l -> f x = false.
Proof.
  intros A f l x H Hin. destruct (f x) eqn:E; [|reflexivity].
  rewrite (proj2 (existsb_exists f l) (ex_intro _ x (conj Hin E))) in H. discriminate H.
Qed.

Lemma Forall_forallb_true : forall (A : Type) (f : A -> bool) l,
    Forall (fun x => f x = true) l -> forallb f l = true.
Proof. intros A f l H. apply forallb_forall. apply Forall_forall. exact H. Qed.

Lemma forallb_true_Forall : forall (A : Type) (f : A -> bool) l,
    forallb f l = true -> Forall (fun x => f x = true) l.
Proof. intros A f l H. apply Forall_forall. apply forallb_forall. exact H. Qed.

Lemma existsb_false_Forall : forall (A : Type) (f : A -> bool) l,
    existsb f l = false -> Forall (fun x => f x = false) l.
Proof. intros A f l H. apply Forall_forall. intros x. apply existsb_false_In. exact H. Qed.

Lemma Forall_existsb_false : forall (A : Type) (f : A -> bool) l,
    Forall (fun x => f x = false) l -> existsb f l = false.
Proof.
  intros A f l H. induction H as [|x l Hx Hl IH]; [reflexivity|].
  cbn [existsb]. rewrite Hx, IH. reflexivity.
Qed.

Lemma forallb_map_Forall : forall (A B : Type) (g : A -> B) (f : B -> bool) (f' : A -> bool) l,
    Forall (fun x => f (g x) = f' x) l -> forallb f (map g l) = forallb f' l.
Proof.
  intros A B g f f' l H. induction H as [|x l Hx Hl IH]; [reflexivity|].
  cbn [map forallb]. rewrite Hx, IH. reflexivity.
Qed.

Lemma existsb_map_Forall : forall (A B : Type) (g : A -> B) (f : B -> bool) (f' : A -> bool) l,
    Forall (fun x => f (g x) = f' x) l -> existsb f (map g l) = existsb f' l.
Proof.
  intros A B g f f' l H. induction H as [|x l Hx Hl IH]; [reflexivity|].
  cbn [map existsb]. rewrite Hx, IH. reflexivity.
Qed.

Lemma Forall2_impl : forall (A B : Type) (R S : A -> B -> Prop), (forall x y, R x y -> S x y) ->
    forall l l', Forall2 R l l' -> Forall2 S l l'.
Proof. intros A B R S H l l' HR. induction HR; constructor; auto. Qed.

Lemma Forall2_forallb_eq : forall (A : Type) (f : A -> bool) l l',
    Forall2 (fun x y => f y = f x) l l' -> forallb f l' = forallb f l.
Proof.
  intros A f l l' H. induction H as [|x y l l' Hxy Hl IH]; [reflexivity|].
  cbn [forallb]. rewrite Hxy, IH. reflexivity.
Qed.

Lemma Forall2_forallb_keeps : forall (A : Type) (f : A -> bool) l l',
    Forall2 (fun x y => f x = true -> f y = true) l l' -> forallb f l = true -> forallb f l' = true.
Proof.
  intros A f l l' H. induction H as [|x y l l' Hxy Hl IH]; intros Hf; [reflexivity|].
  cbn [forallb] in *. apply andb_true_iff in Hf. destruct Hf as [H1 H2].
  rewrite (Hxy H1), (IH H2). reflexivity.
Qed.

Lemma Forall2_existsb_keeps : forall (A : Type) (f : A -> bool) l l',
    Forall2 (fun x y => f x = false -> f y = false) l l' -> existsb f l = false -> existsb f l' = false.
Proof.
  intros A f l l' H. induction H as [|x y l l' Hxy Hl IH]; intros Hf; [reflexivity|].
  cbn [existsb] in *. apply orb_false_iff in Hf. destruct Hf as [H1 H2].
  rewrite (Hxy H1), (IH H2). reflexivity.
Qed.

Lemma NoDup_app_inv : forall (A : Type) (l1 l2 : list A),
    NoDup (l1 ++ l2) -> NoDup l1 /\ NoDup l2 /\ (forall x, In x l1 -> ~ In x l2).
Proof.
  intros A l1 l2. induction l1 as [|a l1 IH]; cbn [app]; intros H.
  - split; [constructor|]. split; [exact H|]. intros x [].
  - inversion H as [|a' l' Hn Hd]. subst. destruct (IH Hd) as [H1 [H2 H3]].
    split; [constructor; [intros Hi; apply Hn; apply in_or_app; left; exact Hi|exact H1]|].
    split; [exact H2|]. intros x [Hx|Hx].
    + subst x. intros Hi. apply Hn. apply in_or_app. right. exact Hi.
    + apply H3. exact Hx.
Qed.

Lemma NoDup_snoc : forall {A} (l : list A) x, NoDup l -> ~ In x l -> NoDup (l ++ [x]).
Proof.
  intros A l x Hl Hx. apply NoDup_rev in Hl. rewrite <- (rev_involutive (l ++ [x])).
  apply NoDup_rev. rewrite rev_app_distr. cbn [rev app]. constructor; [|exact Hl].
  intros Hin. apply Hx. apply in_rev. exact Hin.
Qed.

Lemma NoDup_map_filter : forall {K A} (f : K * A -> bool) (l : list (K * A)),
    NoDup (map fst l) -> NoDup (map fst (filter f l)).
Proof.
  intros K A f l. induction l as [|x l IH]; intros H; [constructor|].
  cbn [map] in H. inversion H as [|y l' Hnotin Hnd]; subst.
  cbn [filter]. destruct (f x); [|apply IH; exact Hnd].
  cbn [map]. constructor; [|apply IH; exact Hnd].
  intros Hin. apply Hnotin. apply in_map_iff in Hin. destruct Hin as [z [Ez Hz]].
  apply filter_In in Hz. rewrite <- Ez. apply in_map. apply Hz.
Qed.

Lemma hd_error_In : forall {A} (l : list A) c, hd_error l = Some c -> In c l.
Proof. intros A [|x l] c H; [discriminate H|]. injection H as H. left. exact H. Qed.

(* membership in the concatenation of two optional singletons *)
Lemma in_flag2 : forall {A} (b1 b2 : bool) (k1 k2 c : A),
    In c ((if b1 then [k1] else []) ++ (if b2 then [k2] else [])) -> c = k1 \/ c = k2.
Proof.
  intros A b1 b2 k1 k2 c H. apply in_app_or in H.
  destruct H as [H|H].
  - destruct b1; [|destruct H]. destruct H as [H|[]]. left. symmetry. exact H.
  - destruct b2; [|destruct H]. destruct H as [H|[]]. right. symmetry. exact H.
Qed.
