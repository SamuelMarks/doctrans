(* Cli: doctrans.__main__.main — validation and dispatch of the three sub-commands as a decision
   function over the shape of the parsed arguments and the existence bits of the files named.
   (argparse's own rejections — missing required option, invalid --truth/--type choice — happen
   before this code and never touch the file system.)  Definitions only. *)
From Coq Require Import List Ascii Bool Arith ZArith.
From Coq Require String.
Import String.StringSyntax.
From DT Require Import PyStr Sexp PyVal FS Sync.
Import ListNotations.

(* how many times an `append` option was given: None when absent *)
Definition count_opt := option nat.    (* Some n with n >= 1 when given n times *)

Record sync_shape : Type := mkSyncShape {
  ss_truth : kind;
  ss_files : kind -> count_opt;
  ss_names : kind -> count_opt;
  ss_truth_file_exists : bool          (* path.isfile(first file of the truth kind) *)
}.

Inductive decision : Type :=
| Reject            (* parser.error: usage message, exit status 2, nothing else happens *)
| Run               (* the command function is called *)
| Raise (e : err).  (* main itself raises *)

Definition files_total (s : sync_shape) : nat :=
  fold_right (fun k n => match ss_files s k with Some c => c + n | None => n end) 0 kinds_in_order.

(* main(): the `sync` branch *)
Definition decide_sync (s : sync_shape) : decision :=
  match ss_files s (ss_truth s) with
  | None => Reject
  | Some _ =>
    if Nat.ltb (files_total s) 2 then Reject
    else if negb (ss_truth_file_exists s) then Reject
    else if existsb (fun k => match ss_files s k, ss_names s k with
                              | Some _, None => true
                              | _, _ => false
                              end) kinds_in_order then Reject   (* --x given without --x-name *)
    else Run
  end.

(* what ground_truth then does with the argument shape alone, before any file is touched for a
   kind: the truth's name, and per kind that has files, its name *)
Definition arg_level_error (s : sync_shape) : option err :=
  match ss_names s (ss_truth s) with
  | None => Some TypeError
  | Some 0 => Some IndexError
  | Some _ =>
    fold_right (fun k acc =>
                  match ss_files s k, ss_names s k with
                  | Some _, None => Some TypeError
                  | Some _, Some 0 => Some IndexError
                  | _, _ => acc
                  end) None kinds_in_order
  end.

(* the guard of the proved region of C20(i): every kind that has files also has a name *)
Definition names_complete (s : sync_shape) : bool :=
  forallb (fun k => match ss_files s k, ss_names s k with
                    | Some _, None => false
                    | Some _, Some 0 => false
                    | _, _ => true
                    end) kinds_in_order
  && match ss_names s (ss_truth s) with Some (S _) => true | _ => false end.

(* sync_properties: as many --input-param as --output-param (usage error since the /repo fix; the mismatch used to reach
   a bare assert inside sync_properties and end in a traceback), and both files must exist *)
Definition decide_sync_properties (counts_equal input_exists output_exists : bool) : decision :=
  if negb counts_equal then Reject
  else if negb input_exists then Reject else if negb output_exists then Reject else Run.

(* gen: refuses an existing output by raising IOError *)
Definition decide_gen (output_exists : bool) : decision :=
  if output_exists then Raise IOError else Run.

(* the finite table of option shapes: each option absent / once / twice.  C20(i) is proved for every shape
   (proofs/CliFacts.v); the shapes of this table come under it because each is well-formed *)
Definition counts : list count_opt := [None; Some 1; Some 2].
Definition all_kinds : list kind := kinds_in_order.

Definition fun_of_triple {A} (a b c : A) (k : kind) : A :=
  match k with KArgparse => a | KClass => b | KFunction => c end.

Definition all_sync_shapes : list sync_shape :=
  flat_map (fun t =>
  flat_map (fun fa => flat_map (fun fc => flat_map (fun ff =>
  flat_map (fun na => flat_map (fun nc => flat_map (fun nf =>
  map (fun ex => mkSyncShape t (fun_of_triple fa fc ff) (fun_of_triple na nc nf) ex) [true; false])
  counts) counts) counts) counts) counts) counts) all_kinds.

(* wire *)
Definition dec_count (e : sexp) : option count_opt := dec_option dec_nat e.

Definition enc_decision (d : decision) : sexp :=
  match d with
  | Reject => sym "reject"
  | Run => sym "run"
  | Raise e => SList [sym "raise"; enc_err e]
  end.

(* FAMILY: run_cli *)
Definition run_cli (fn : sexp) (args : list sexp) : option sexp :=
  if is_sym "decide_sync" fn then
    match args with
    | [t; fa; fc; ff; na; nc; nf; ex] =>
      match dec_kind t, dec_count fa, dec_count fc, dec_count ff, dec_count na, dec_count nc, dec_count nf, dec_bool ex with
      | Some t, Some fa, Some fc, Some ff, Some na, Some nc, Some nf, Some ex =>
        let s := mkSyncShape t (fun_of_triple fa fc ff) (fun_of_triple na nc nf) ex in
        Some (SList [enc_decision (decide_sync s); enc_option enc_err (arg_level_error s);
                     enc_bool (names_complete s)])
      | _, _, _, _, _, _, _, _ => None
      end
    | _ => None
    end
  else if is_sym "decide_sync_properties" fn then
    match args with
    | [c; a; b] => match dec_bool c, dec_bool a, dec_bool b with
                   | Some c, Some a, Some b => Some (enc_decision (decide_sync_properties c a b))
                   | _, _, _ => None
                   end
    | _ => None
    end
  else if is_sym "decide_gen" fn then
    match args with
    | [a] => option_map (fun a => enc_decision (decide_gen a)) (dec_bool a)
    | _ => None
    end
  else None.
