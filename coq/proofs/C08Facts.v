(* C08Facts: property C08 (conversion stabilises after one normalising pass).
   - the text to_docstring writes is a function of the interface fields of the IR, the options and indent_level
     only (nothing of a previous artefact enters); the local idempotence facts the property's anchors name (quote,
     unquote, set_default_doc) are in PureUtilsFacts / DefaultsFacts;
   - the fixed-point theorem from round-trip laws, in equational form (parse (emit i) = N i, N idempotent) and in
     relational form (parse (emit i) ~ i for a relation the emitter respects);
   - the ReST docstring kind: the relational form instantiated with the C01 ReST theorem; what remains a
     hypothesis is stated;
   - the executable form of the three emissions, a refutation over the whole domain (witness from a finding
     class), non-vacuity. *)
From Coq Require Import List Ascii Bool Arith ZArith Lia.
From Coq Require String.
Import String.StringSyntax.
From DT Require Import PyStr Sexp PyVal TyExpr PureUtils Defaults PyAst IR Extracted C17Spec DocParse C01Spec
     C05Spec C08Spec.
From DT Require Import PyStrFacts.
From DT Require DocParseFacts DocEmit C05Facts.
Import ListNotations.

Definition text_of {A} (o : outcome (str * A)) : outcome str :=
  match o with Ok (t, _) => Ok t | Err e => Err e end.

Lemma bind_fst_text_of : forall {A} (x : outcome (str * A)), (do r <- x; Ok (fst r)) = text_of x.
Proof. intros A [[t j]|e]; reflexivity. Qed.

(* The docstring text written by emitter_utils.to_docstring is determined by the summary, the parameters, the
   return entry, the options and indent_level: two IRs that agree on those three fields (whatever their name, type
   and carried body, i.e. whatever artefact they were parsed from) get the same text, with the same indentation.
   Of the return field only the entry is read: absent and None are not told apart. *)
Theorem to_docstring_text_entry : forall w i i' edd st il et est ww,
    ir_doc i = ir_doc i' -> ir_params i = ir_params i' -> fld_opt (ir_returns i) = fld_opt (ir_returns i') ->
    text_of (DocEmit.to_docstring w i edd st il et est ww) = text_of (DocEmit.to_docstring w i' edd st il et est ww).
Proof.
  intros w [n t d ps r b] [n' t' d' ps' r' b'] edd st il et est ww Hd Hp Hr.
  cbn [ir_doc ir_params ir_returns] in Hd, Hp, Hr. subst d' ps'.
  unfold DocEmit.to_docstring. destruct st; try reflexivity.
  cbn [ir_doc ir_params ir_returns].
  destruct (DocEmit.params_of ps) as [pl|]; [|reflexivity].
  destruct r as [| |g], r' as [| |g']; cbn [fld_opt] in Hr; try discriminate Hr; try (injection Hr as Hr; subst g');
    try (destruct (option_map Some (param_of_gparam g)) as [ret|]; [|reflexivity]); cbv zeta;
    repeat match goal with
           | |- text_of (bind ?x _) = text_of (bind ?x _) => destruct x; cbn [bind]
           end; reflexivity.
Qed.

Theorem to_docstring_text_lemma : forall w i i' edd st il et est ww,
    ir_doc i = ir_doc i' -> ir_params i = ir_params i' -> ir_returns i = ir_returns i' ->
    text_of (DocEmit.to_docstring w i edd st il et est ww) = text_of (DocEmit.to_docstring w i' edd st il et est ww).
Proof.
  intros w i i' edd st il et est ww Hd Hp Hr. apply to_docstring_text_entry; [exact Hd|exact Hp|rewrite Hr; reflexivity].
Qed.

Section FixpointEq.
  Variables (T Txt O : Type).
  Variable emit : O -> T -> outcome Txt.
  Variable parse : Txt -> outcome T.
  Variable N : T -> T.                       (* the normalisation one pass performs *)
  Variable D : T -> bool.
  Hypothesis LAW : forall o i t, D i = true -> emit o i = Ok t -> parse t = Ok (N i).
  Hypothesis CLOSED : forall i, D i = true -> D (N i) = true.
  Hypothesis IDEM : forall i, D i = true -> N (N i) = N i.

  Lemma emit_after_two_passes : forall o i, D i = true -> emit o (N (N i)) = emit o (N i).
  Proof. intros o i Hi. rewrite (IDEM i Hi). reflexivity. Qed.

  (* the three emissions: whenever the first two exist, the parses succeed and the third emission is the second *)
  Theorem second_third_equal : forall o i t1 t2,
      D i = true -> emit o i = Ok t1 -> emit o (N i) = Ok t2 ->
      exists i1 i2, parse t1 = Ok i1 /\ emit o i1 = Ok t2 /\ parse t2 = Ok i2 /\ emit o i2 = Ok t2.
  Proof.
    intros o i t1 t2 Hi H1 H2. exists (N i), (N i). split; [exact (LAW o i t1 Hi H1)|]. split; [exact H2|].
    split; [|exact H2]. rewrite (LAW o (N i) t2 (CLOSED i Hi) H2). rewrite (IDEM i Hi). reflexivity.
  Qed.
End FixpointEq.

Section FixpointRel.
  Variables (T Txt : Type).
  Variable emit : T -> outcome Txt.
  Variable parse : Txt -> outcome T.
  Variable R : T -> T -> bool.               (* "same interface": weaker than equality *)
  Variable D : T -> bool.
  Hypothesis RT : forall i, D i = true -> exists t i', emit i = Ok t /\ parse t = Ok i' /\ R i i' = true.
  (* the emitter does not see what R ignores *)
  Hypothesis RESP : forall i i', D i = true -> R i i' = true -> emit i' = emit i.

  Theorem emissions_equal_rel : forall i, D i = true ->
      exists t1 i1 t2 i2 t3,
        emit i = Ok t1 /\ parse t1 = Ok i1 /\ emit i1 = Ok t2 /\ parse t2 = Ok i2 /\ emit i2 = Ok t3
        /\ t2 = t3 /\ t1 = t2.
  Proof.
    intros i Hi. destruct (RT i Hi) as [t1 [i1 [He [Hp Hr]]]].
    assert (He1 : emit i1 = Ok t1) by (rewrite (RESP i i1 Hi Hr); exact He).
    exists t1, i1, t1, i1, t1. repeat split; assumption.
  Qed.
End FixpointRel.

(* From the C01 ReST theorem: on any domain inside its guard.  One obligation remains, because C01's conclusion is
   same_interface (= C05's preserved), not equality: the emitter must give the same text to IRs that same_interface
   identifies (absent-vs-empty fields and the spellings of None are what it ignores; hence the restriction to a
   domain).  What one gets is then stronger than the property: all three emissions are the same text. *)
Theorem C08_rest_from_C01_lemma : forall D : ir -> bool,
    (forall i, D i = true -> guard_C01_rest false i = true) ->
    (forall i i', D i = true -> preserved i i' = true -> emit_rest i' = emit_rest i) ->
    forall i, D i = true -> C08_rest_at i.
Proof.
  intros D Hin Hresp i Hi.
  assert (RT : forall j, D j = true -> exists t j', emit_rest j = Ok t /\ parse_rest t = Ok j' /\ preserved j j' = true).
  { intros j Hj. destruct (DocParseFacts.C01_rest_partial_lemma false j (Hin j Hj)) as [text [j' [Ht [_ [Hp Hs]]]]].
    exists text, j'. split; [exact Ht|]. split; [exact Hp|].
    rewrite <- C05Facts.same_interface_false_preserved. exact Hs. }
  destruct (emissions_equal_rel ir str emit_rest parse_rest preserved D RT Hresp i Hi)
    as [t1 [i1 [t2 [i2 [t3 [H1 [H2 [H3 [H4 [H5 [H6 _]]]]]]]]]]].
  exists t1, i1, t2, i2, t3. repeat split; assumption.
Qed.

Lemma C08_rest_at_b_sound : forall i, C08_rest_at_b i = true -> C08_rest_at i.
Proof.
  intros i H. unfold C08_rest_at_b in H.
  destruct (emit_rest i) as [t1|] eqn:E1; [|discriminate].
  destruct (parse_rest t1) as [i1|] eqn:E2; [|discriminate].
  destruct (emit_rest i1) as [t2|] eqn:E3; [|discriminate].
  destruct (parse_rest t2) as [i2|] eqn:E4; [|discriminate].
  destruct (emit_rest i2) as [t3|] eqn:E5; [|discriminate].
  apply str_eqb_eq in H. exists t1, i1, t2, i2, t3. repeat split; assumption.
Qed.

Lemma C08_rest_at_b_complete : forall i, C08_rest_at i -> C08_rest_at_b i = true.
Proof.
  intros i [t1 [i1 [t2 [i2 [t3 [H1 [H2 [H3 [H4 [H5 H6]]]]]]]]]].
  unfold C08_rest_at_b. rewrite H1, H2, H3, H4, H5. subst t3. apply str_eqb_refl.
Qed.

(* class code-quoted-default: under a str type the back-ticks are lost on the first pass and the value is quoted
   as a str on the second, so the second and third emissions differ *)
Definition w_code : ir :=
  C05Facts.mk_ir [(L "alpha", C05Facts.gp (L "str") (L "first one.") (Some (VStr (L "```[]```"))))].

Definition C08_statement : Prop :=
  forall i t1, c05_domain i = true -> emit_rest i = Ok t1 -> C08_rest_at i.

Lemma w_code_domain : c05_domain w_code = true.
Proof. vm_compute. reflexivity. Qed.

Lemma w_code_emits : exists t1, emit_rest w_code = Ok t1.
Proof. eexists. vm_compute. reflexivity. Qed.

Lemma w_code_drifts : C08_rest_at_b w_code = false.
Proof. vm_compute. reflexivity. Qed.

Lemma w_code_class : finding_class_C08 KRest w_code = Some K05_code_default.
Proof. vm_compute. reflexivity. Qed.

Lemma C08_refuted_lemma : ~ C08_statement.
Proof.
  intros H. destruct w_code_emits as [t1 E].
  pose proof (C08_rest_at_b_complete _ (H w_code t1 w_code_domain E)) as Hc.
  rewrite w_code_drifts in Hc. discriminate.
Qed.

Lemma w_safe_c08 : C08_rest_at_b C05Facts.w_safe = true.
Proof. vm_compute. reflexivity. Qed.

Lemma C08_nonvacuous_lemma :
  forallb (fun k => guard_C08 k C05Facts.w_safe) all_kinds = true /\ C08_rest_at C05Facts.w_safe.
Proof.
  split; [vm_compute; reflexivity|]. apply C08_rest_at_b_sound. exact w_safe_c08.
Qed.
