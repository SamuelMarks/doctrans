(* Param2AstFacts: what ast_utils.param2ast (model EmitAst.param2ast) emits for an entry with a declared type, as
   one equation (param2ast_typed): inside class_typ_ok / class_default_ok the annotation is the parse of the type
   text and the value is the constant the IR gives (None for the spellings of None, the neutral value of the type
   for an absent default).  The class codec (C02Compose) and the value-level agreement (C06ValuesFacts) both read
   it off this equation.  Before it, the closed facts about the four scalar type names (scalar_facts), which the
   argparse codec (C04Compose) uses as well. *)
From Coq Require Import List Ascii Bool Arith ZArith Lia.
From Coq Require String.
Import String.StringSyntax.
From DT Require Import PyStr Sexp PyVal TyExpr Extracted PureUtils Defaults PyAst IR EmitAst ParseAst.
From DT Require Import C02Spec C02Codec C04Spec C06Values.
From DT Require Import PyStrFacts PureUtilsFacts ParseAstFacts EmitAstFacts.
From DT Require DefaultsFacts.
Import ListNotations.

Lemma simple_cases : forall t,
    in_simple_types t = true -> str_eqb t (L "complex") = false ->
    t = L "int" \/ t = L "float" \/ t = L "str" \/ t = L "bool".
Proof.
  intros t H Hc. unfold in_simple_types, Extracted.simple_type_names in H. cbn [existsb] in H.
  repeat (apply orb_true_iff in H; destruct H as [H|H]); try discriminate H;
    try solve [apply str_eqb_eq in H; subst t; auto].
  rewrite H in Hc. discriminate Hc.
Qed.

Lemma scalar4_cases : forall T, scalar4 T = true -> T = L "int" \/ T = L "float" \/ T = L "str" \/ T = L "bool".
Proof.
  intros T H. unfold scalar4 in H.
  repeat (apply orb_true_iff in H; destruct H as [H|H]); apply str_eqb_eq in H; auto.
Qed.

(* closed facts about the four scalar type names, computed from the live constants: how the emitters and parsers
   classify the name (sf_simple .. sf_opt_list), that it parses to itself under any parse table, that only str needs
   quoting, and that the zero of the type is a falsy constant set_value leaves alone *)
Record scalar_facts (T : str) : Prop := mkSF {
  sf_simple : in_simple_types T = true;
  sf_req : existsb (str_eqb (casefold T)) required_words = negb (str_eqb T (L "bool"));
  sf_keep : contains (L "Optional") T || str_eqb T (L "Any") || str_eqb T (L "pickle.loads") || str_eqb T (L "loads") = false;
  sf_pickle : str_eqb T (L "pickle.loads") = false;
  sf_globals : str_eqb T (L "globals().__getitem__") = false;
  sf_loads : str_eqb T (L "loads") = false;
  sf_opt_start : startswith (L "Optional") T = false;
  sf_opt_in : contains (L "Optional") T = false;
  sf_opt_list : contains (L "Optional") (L "List[" ++ T ++ L "]") = false;
  sf_parse : forall pt, parse_expr_src pt T = Ok (EName T);
  sf_quoting : needs_quoting (Some T) = Ok (str_eqb T (L "str"));
  sf_zero : exists z, zero_of T = Ok z /\ simple_type_zero T = Some z /\ set_value z = EConst z
                      /\ type_name z = T /\ truthy z = false /\ in_none_types z = false
}.

Lemma scalar_name_facts : forall T,
    T = L "int" \/ T = L "float" \/ T = L "str" \/ T = L "bool" -> scalar_facts T.
Proof.
  intros T [E|[E|[E|E]]]; subst T; constructor; try (vm_compute; reflexivity);
    try (intros pt; vm_compute; reflexivity);
    (eexists; split; [vm_compute; reflexivity|]; repeat apply conj; vm_compute; reflexivity).
Qed.

Lemma simple_type_facts : forall t, in_simple_types t = true -> str_eqb t (L "complex") = false -> scalar_facts t.
Proof. intros t H Hc. apply scalar_name_facts. exact (simple_cases t H Hc). Qed.

Lemma scalar4_facts : forall T, scalar4 T = true -> scalar_facts T.
Proof. intros T H. apply scalar_name_facts. exact (scalar4_cases T H). Qed.

Lemma zero_of_generic : forall t, in_simple_types t = false -> zero_of t = Ok VNone.
Proof. intros t H. unfold zero_of. rewrite H. reflexivity. Qed.

Lemma neutral_value_zero : forall t z, zero_of t = Ok z -> neutral_value t = z.
Proof. intros t z H. unfold neutral_value. rewrite H. reflexivity. Qed.

Lemma neutral_value_generic : forall t, in_simple_types t = false -> neutral_value t = VNone.
Proof. intros t H. apply neutral_value_zero. apply zero_of_generic. exact H. Qed.

Lemma is_none_default_cases : forall v, is_none_default v = true -> v = VNone \/ v = VStr NoneStr.
Proof.
  intros [|b|z|r|s] H; cbn [is_none_default] in H; try discriminate H; [left; reflexivity|].
  apply str_eqb_eq in H. subst s. right. reflexivity.
Qed.

Lemma not_NoneStr : forall v, is_none_default v = false -> pyval_eqb v (VStr NoneStr) = false.
Proof. intros [|b|z|r|s] H; try reflexivity. exact H. Qed.

Lemma is_none_default_in_none : forall v, is_none_default v = true -> in_none_types v = true.
Proof. intros v H. destruct (is_none_default_cases v H); subst v; reflexivity. Qed.

Lemma plain_str_inv : forall s,
    plain_str s = true ->
    code_quoted s = false /\ in_none_types (VStr s) = false
    /\ set_value (VStr s) = EConst (VStr s) /\ set_value (VStr (quote s)) = EConst (VStr s).
Proof.
  intros s H. unfold plain_str in H.
  apply andb_true_iff in H. destruct H as [H H4]. apply andb_true_iff in H. destruct H as [H H3].
  apply andb_true_iff in H. destruct H as [H1 H2].
  apply negb_true_iff in H1. apply negb_true_iff in H2. apply str_eqb_eq in H3. apply str_eqb_eq in H4.
  unfold set_value. rewrite H3, H4. repeat split; assumption.
Qed.

(* the default of an entry once the spellings of None have become None *)
Definition plain_dv (d : option dval) : option pyval :=
  match d with Some (DV v) => Some (if is_none_default v then VNone else v) | _ => None end.

(* param2ast on an entry with a declared type and a plain default: the type is not inferred, the spellings of None
   become None, and what is emitted depends on the kind of type: needs quoting / scalar / generic *)
Lemma param2ast_by_kind : forall pt n gd t d,
    str_eqb t (L "dict") = false -> startswith [ch 42] t = false ->
    match d with Some (DE _) | Some (DO _) => False | _ => True end ->
    param2ast pt n (mkG gd (Has t) d)
    = (do nq0 <- needs_quoting (Some t);
       if nq0 then
         do annotation <- (if in_simple_types t then Ok (EName t) else parse_expr_src pt t);
         do value <- match plain_dv d with Some v => if truthy v then quote_val v else zero_of t | None => zero_of t end;
         Ok (ann_assign n annotation (set_value value), mkG gd (Has t) (option_map DV (plain_dv d)))
       else if in_simple_types t then
         do z <- zero_of t;
         Ok (ann_assign n (EName t)
               (set_value (match plain_dv d with
                           | Some v => if pyval_eqb v (VStr NoneStr) then VNone else if truthy v then v else z
                           | None => z
                           end)),
             mkG gd (Has t) (option_map DV (plain_dv d)))
       else do s0 <- generic_param2ast pt n t (mkG gd (Has t) (option_map DV (plain_dv d)));
            Ok (s0, mkG gd (Has t) (option_map DV (plain_dv d)))).
Proof.
  intros pt n gd t d Hdict Hstar Hd. unfold param2ast, plain_dv. cbn [typ_is_none g_typ bind].
  destruct d as [[v|e|o]|]; try contradiction; cbn [g_default g_doc g_typ bind fget option_map].
  - destruct (is_none_default v) eqn:En.
    + destruct (is_none_default_cases v En); subst v; cbn [pyval_eqb]; rewrite ?str_eqb_refl; cbn [bind g_typ g_default fget];
        rewrite Hdict, Hstar; reflexivity.
    + rewrite (not_NoneStr v En). cbn [bind g_typ g_default fget]. rewrite (not_NoneStr v En), Hdict, Hstar. reflexivity.
  - rewrite Hdict, Hstar. reflexivity.
Qed.

(* _generic_param2ast on a type text ast_parse_fix leaves alone *)
Lemma generic_param2ast_plain : forall pt n t gd dv,
    bracket_fix t = t ->
    generic_param2ast pt n t (mkG gd (Has t) (option_map DV dv))
    = (do ann <- parse_expr_src pt t;
       do value <- match dv with
                   | None => Ok (set_value VNone)
                   | Some (VStr s) =>
                     if code_none_inner s then Ok (set_value VNone)
                     else match parse_expr_src pt s with
                          | Ok e => Ok e
                          | Err SyntaxError => Ok (set_value (VStr (if code_quoted s then s else L "```" ++ s ++ L "```")))
                          | Err x => Err x
                          end
                   | Some v => Ok (set_value v)
                   end;
       Ok (ann_assign n ann value)).
Proof.
  intros pt n t gd dv Hbf. unfold generic_param2ast, ast_parse_fix. rewrite Hbf. cbn [g_default].
  destruct dv as [[| | | |]|]; reflexivity.
Qed.

(* inside the guard, whatever the kind of type, the annotation is the parse of the type text and the value is the
   default, or the zero of the type *)
Lemma param2ast_typed : forall pt n gd t d,
    class_typ_ok t = true -> class_default_ok t d = true ->
    (do r <- param2ast pt n (mkG gd (Has t) d); Ok (fst r))
    = (do ann <- parse_expr_src pt t; Ok (SAnnAssign (EName n) ann (Some (class_plain_value t d)))).
Proof.
  intros pt n gd t d Ht Hd.
  unfold class_typ_ok in Ht.
  apply andb_true_iff in Ht. destruct Ht as [Ht Hcx]. apply andb_true_iff in Ht. destruct Ht as [Ht Hstar].
  apply andb_true_iff in Ht. destruct Ht as [Ht Hdict]. apply andb_true_iff in Ht. destruct Ht as [Hq Hbf].
  destruct (needs_quoting (Some t)) as [nq|er] eqn:Hnq; [|discriminate Hq]. clear Hq.
  apply str_eqb_eq in Hbf. apply negb_true_iff in Hcx. apply negb_true_iff in Hstar. apply negb_true_iff in Hdict.
  unfold class_default_ok in Hd. rewrite Hnq in Hd. cbn [Ok_true] in Hd.
  (* annotation and zero, by kind of type *)
  assert (Hann : (if in_simple_types t then Ok (EName t) else parse_expr_src pt t) = parse_expr_src pt t).
  { destruct (in_simple_types t) eqn:Es; [|reflexivity]. symmetry. apply (sf_parse _ (simple_type_facts t Es Hcx)). }
  assert (Hz : exists z, zero_of t = Ok z /\ set_value z = EConst z /\ neutral_value t = z).
  { destruct (in_simple_types t) eqn:Es.
    - destruct (sf_zero _ (simple_type_facts t Es Hcx)) as [z [Hz [_ [Hs _]]]].
      exists z. split; [exact Hz|]. split; [exact Hs|apply neutral_value_zero; exact Hz].
    - exists VNone. rewrite (zero_of_generic t Es). repeat split. apply neutral_value_generic; exact Es. }
  destruct Hz as [z [Hz [Hsz Hnz]]].
  rewrite (param2ast_by_kind pt n gd t d Hdict Hstar) by (destruct d as [[v|e|o]|]; try exact I; discriminate Hd).
  rewrite (generic_param2ast_plain pt n t gd (plain_dv d) Hbf). unfold plain_dv.
  rewrite Hnq. cbn [bind]. unfold class_plain_value, ir_value. destruct nq.
  - (* a type that needs quoting: a truthy str is quoted and unquoted again, a falsy value is the zero *)
    rewrite Hann. destruct (parse_expr_src pt t) as [ann|e]; [|reflexivity]. cbn [bind].
    destruct d as [[v|e|o]|]; try discriminate Hd.
    + destruct (is_none_default v) eqn:En.
      * cbn [truthy]. rewrite Hz. cbn [bind fst]. rewrite Hsz, (is_none_default_in_none v En).
        apply negb_true_iff in Hd. rewrite (zero_of_generic t Hd) in Hz. inversion Hz. reflexivity.
      * destruct (in_none_types v) eqn:Enn; [discriminate Hd|].
        destruct (truthy v) eqn:Etr.
        -- destruct v as [|b|zz|r|s0]; try discriminate Hd. apply andb_true_iff in Hd. destruct Hd as [_ Hpl].
           destruct (plain_str_inv s0 Hpl) as [_ [_ [_ Hqq]]]. cbn [quote_val bind fst]. rewrite Hqq. reflexivity.
        -- cbn [orb] in Hd. apply DefaultsFacts.pyval_eqb_eq in Hd. rewrite Hz. cbn [bind fst]. rewrite Hsz, Hd, Hnz. reflexivity.
    + rewrite Hz. cbn [bind fst]. rewrite Hsz, Hnz. reflexivity.
  - destruct (in_simple_types t) eqn:Es.
    + (* int / float / bool *)
      rewrite Hz, (sf_parse _ (simple_type_facts t Es Hcx)). cbn [bind fst].
      destruct d as [[v|e|o]|]; try discriminate Hd.
      * destruct (is_none_default v) eqn:En; [discriminate Hd|].
        destruct (in_none_types v) eqn:Enn; [discriminate Hd|]. rewrite (not_NoneStr v En).
        destruct (truthy v) eqn:Etr.
        -- destruct v as [|b|zz|r|s0]; try reflexivity. cbn [orb] in Hd.
           destruct (plain_str_inv s0 Hd) as [_ [_ [Hqq _]]]. rewrite Hqq. reflexivity.
        -- cbn [orb] in Hd. apply DefaultsFacts.pyval_eqb_eq in Hd. rewrite Hsz, Hd, Hnz. reflexivity.
      * cbv iota. rewrite Hsz, Hnz. reflexivity.
    + (* a generic type that needs no quoting: the default is not a str *)
      destruct (parse_expr_src pt t) as [ann|e]; [|reflexivity]. cbn [bind].
      destruct d as [[v|e|o]|]; try discriminate Hd.
      * destruct (is_none_default v) eqn:En.
        -- cbn [bind set_value fst]. rewrite (is_none_default_in_none v En). reflexivity.
        -- destruct (in_none_types v) eqn:Enn; [discriminate Hd|].
           destruct v as [|b|zz|r|s0]; try reflexivity. cbn [orb] in Hd. destruct (truthy (VStr s0)); discriminate Hd.
      * cbn [bind set_value fst]. rewrite (neutral_value_generic t Es). reflexivity.
Qed.
