(* C05Ext -- beyond props/C05.v: the per-kind laws RT_k and the closure of the region are PROVED over concrete
   model-level converters, and every chain (any length, repetitions allowed) preserves the interface, with NO kind_law
   hypothesis.  Three parts: five of the seven kinds -- ReST, numpydoc, google, class, argparse -- on closed_dom (described
   here); all seven kinds on closed_dom7; a typed return entry over rest / function / method on closed_dom_ret (each
   described where it starts).  Lemmas in proofs/C05ClosedFacts.v (the two docstring
   links: proofs/C02DocLink.v, proofs/C03DocLinkMain.v); definitions in model/C05Closed.v.

   Converters (conv_model o k = parse_k o emit_k over the models; o : cenv holds the API options):
     rest = C05Spec.conv_rest;  numpydoc / google = C01SpecNG.text_of_o then DocParseNG.parse_ng (emit_default_doc=False);
     class = class_docstring_text (DocEmit.to_docstring), EmitAst.emit_class, class_docstring_ir, ParseAst.parse_class,
             any line length / emit_default_doc / word_wrap / class name / bases / decorators / infer_type;
     argparse = EmitAst.emit_argparse (word_wrap and wrap_description off, function_type static, any non-empty function
             name), ParseAst.parse_argparse_ast; the docstring text / docstring IR handed to them are ARBITRARY functions
             of the current description (parameters, description and return entry do not depend on them: props/C04.v).
   Domain: closed_dom o i (boolean, executable) = chain_safe closed_kinds i  (the region of props/C05.v for these kinds)
     && complete i  (summary; >= 1 parameter; every parameter has prose, a declared type and an explicit scalar default
        that is not a spelling of None; no return entry)
     && the guards of the per-kind theorems: guard_C01_rest false, guard_C01_ng (both styles), guard_C02_ast and
        doc_link_ok (ce_w o) (ce_edd o) (ce_ww o), guard_C04_ast -- the two code guards taken on the description without its
        carried body --
     && internal_ok i  (no carried body, or exactly the statement  return argument_parser  that parse.argparse_ast records).
   On this domain [preserved] determines summary and parameters exactly, so closure reduces to what each parser writes
   into the remaining fields.  Discharges, for these five kinds, the kind_law premises of C05_chain_preserved
   (props/C05.v) and the closure of the domain that C05_composition asks for.

   Shown by witnesses (the real emitters and parsers behave the same):
   - guard_C02_ast / guard_C04_ast are NOT closed under the argparse conversion: parse.argparse_ast records
     return argument_parser  as a carried body (C05_guards_not_closed_under_argparse); emit.class_ (emit_call off) and
     emit.argparse_function are shown to write the same artefact with or without that body;
   - inside chain_safe (class None) the class conversion turns the float default -0.0 into 0.0, and the argparse
     conversion strips a summary wrapped in quote marks: C05Spec.c05_class_of does not name either
     (C05_region_hole_negzero, C05_region_hole_quoted_summary).

   NOT proved in this first part:
   - the function and method kinds (KFunction, KMethod): conv_model declines them, so chains that mix them in are not
     covered on closed_dom; they are covered by conv_model7 on the smaller domain closed_dom7 (second part);
   - that the guards follow from chain_safe: they do NOT in general (the two holes above; C05_guard_conjuncts_docstring
     shows a float in exponent notation inside chain_safe, outside the guards of the C01 theorems, where only the
     numpydoc / google MODEL declines); whether [complete] follows from chain_safe closed_kinds is not proved either;
   - descriptions with a return entry (but see the third part for rest / function / method), parameters without
     default / prose, None defaults, chains over fewer kinds on the correspondingly larger regions chain_safe ks;
   - inherited from C01 / C02 / C04: the numpydoc / google printer is the specification printer (word_wrap off); the
     argparse emitter with word_wrap off; ast.unparse then ast.parse is the identity on emitted trees; that
     emit.docstring / parse_docstring succeed on the argparse function docstring. *)
From Coq Require Import List Bool.
From Coq Require String.
Import String.StringSyntax.
From DT Require Import PyStr PyVal Defaults PyAst IR.
From DT Require EmitAst ParseAst C01Spec C01SpecNG DocParseNG C05Spec C05Closed C02Codec C04Codec C05ClosedFacts.
From DT Require PureUtils C02DocLinkDefs C02DocLink C03Spec C03DocLinkDefs C03DocLinkMain.
Import ListNotations.

Theorem C05_law_rest : forall o, C05Spec.kind_law (C05Closed.conv_model o) (C05Closed.closed_dom o) C05Spec.KRest.
Proof. exact C05ClosedFacts.law_rest. Qed.
Print Assumptions C05_law_rest.

Theorem C05_law_numpydoc : forall o, C05Spec.kind_law (C05Closed.conv_model o) (C05Closed.closed_dom o) C05Spec.KNumpydoc.
Proof. exact C05ClosedFacts.law_numpydoc. Qed.
Print Assumptions C05_law_numpydoc.

Theorem C05_law_google : forall o, C05Spec.kind_law (C05Closed.conv_model o) (C05Closed.closed_dom o) C05Spec.KGoogle.
Proof. exact C05ClosedFacts.law_google. Qed.
Print Assumptions C05_law_google.

Theorem C05_law_class : forall o, C05Spec.kind_law (C05Closed.conv_model o) (C05Closed.closed_dom o) C05Spec.KClass.
Proof. exact C05ClosedFacts.law_class. Qed.
Print Assumptions C05_law_class.

Theorem C05_law_argparse : forall o, C05Closed.env_ok o = true ->
    C05Spec.kind_law (C05Closed.conv_model o) (C05Closed.closed_dom o) C05Spec.KArgparse.
Proof. exact C05ClosedFacts.law_argparse. Qed.
Print Assumptions C05_law_argparse.

(* the closure argument, once: same summary and parameters, no return entry, harmless carried body => in the domain *)
Theorem C05_domain_closed : forall o i i',
    C05Closed.closed_dom o i = true ->
    ir_doc i' = ir_doc i -> ir_params i' = ir_params i -> (forall g, ir_returns i' <> Has g) ->
    C05Closed.internal_ok i' = true ->
    C05Closed.closed_dom o i' = true.
Proof. exact C05ClosedFacts.closed_dom_fields. Qed.
Print Assumptions C05_domain_closed.

(* on complete descriptions preserved leaves no freedom *)
Theorem C05_complete_preserved_exact : forall i i', C05Closed.complete i = true -> C05Spec.preserved i i' = true ->
    ir_doc i' = ir_doc i /\ ir_params i' = ir_params i /\ (forall g, ir_returns i' <> Has g).
Proof. exact C05ClosedFacts.complete_preserved_eq. Qed.
Print Assumptions C05_complete_preserved_exact.

Theorem C05_chain_closed : forall o cs, C05Closed.env_ok o = true -> forallb C05Closed.closed_kind cs = true ->
    forall i, C05Closed.closed_dom o i = true ->
    exists i', C05Spec.chain (C05Closed.conv_model o) cs i = Ok i'
               /\ C05Spec.preserved i i' = true /\ C05Closed.closed_dom o i' = true.
Proof. exact C05ClosedFacts.chain_closed. Qed.
Print Assumptions C05_chain_closed.

Theorem C05_chain_closed_incl : forall o cs, C05Closed.env_ok o = true -> incl cs C05Closed.closed_kinds ->
    forall i, C05Closed.closed_dom o i = true ->
    exists i', C05Spec.chain (C05Closed.conv_model o) cs i = Ok i'
               /\ C05Spec.preserved i i' = true /\ C05Closed.closed_dom o i' = true.
Proof. exact C05ClosedFacts.chain_closed_incl. Qed.
Print Assumptions C05_chain_closed_incl.

Theorem C05_chain_closed_no_swap : forall o cs, C05Closed.env_ok o = true -> forallb C05Closed.closed_kind cs = true ->
    forall i, C05Closed.closed_dom o i = true ->
    exists i', C05Spec.chain (C05Closed.conv_model o) cs i = Ok i'
               /\ List.length (ir_params i) = List.length (ir_params i')
               /\ forall k n g, nth_error (ir_params i) k = Some (n, g) ->
                  exists g', nth_error (ir_params i') k = Some (n, g')
                             /\ C01Spec.same_typ g g' = true /\ C01Spec.same_prose g g' = true
                             /\ C01Spec.same_default_ir (g_default g) (g_default g') = true.
Proof. exact C05ClosedFacts.chain_closed_no_swap. Qed.
Print Assumptions C05_chain_closed_no_swap.

(* on the domain the chain returns summary and parameters unchanged, and no return entry *)
Theorem C05_chain_closed_exact : forall o cs, C05Closed.env_ok o = true -> forallb C05Closed.closed_kind cs = true ->
    forall i, C05Closed.closed_dom o i = true ->
    exists i', C05Spec.chain (C05Closed.conv_model o) cs i = Ok i' /\ ir_doc i' = ir_doc i /\ ir_params i' = ir_params i
               /\ (forall g, ir_returns i' <> Has g).
Proof. exact C05ClosedFacts.chain_closed_exact. Qed.
Print Assumptions C05_chain_closed_exact.

(* the domain lies inside the region of props/C05.v for these kinds *)
Theorem C05_closed_dom_in_region : forall o i,
    C05Closed.closed_dom o i = true -> C05Spec.chain_safe C05Closed.closed_kinds i = true.
Proof. exact C05ClosedFacts.closed_dom_in_region. Qed.
Print Assumptions C05_closed_dom_in_region.

(* the argparse conversion in closed form, with or without the remnant as carried body of the input *)
Theorem C05_argparse_with_remnant : forall pt i edd fc fr tc tr ds di ft' fnm,
    C05Closed.internal_ok i = true -> C04Codec.guard_C04_ast (C05Closed.clear_internal i) = true ->
    exists s,
      EmitAst.emit_argparse pt i edd (Some (fc :: fr)) (Some (tc :: tr)) false false (Ok ds) = Ok (s, i)
      /\ ParseAst.parse_argparse_ast (Ok di) s ft' fnm
         = Ok (mkIR (ParseAst.fld_of_opt fnm)
                    (Has (match ParseAst.truthy_opt_str ft' with Some t => t | None => L "static" end))
                    (ir_doc i) (C04Codec.norm_params_C04 false (ir_params i)) Missing
                    (Some (mkInternal C05Closed.argparse_remnant (Has (fc :: fr)) (Has (L "static"))))).
Proof. exact C05ClosedFacts.argparse_full. Qed.
Print Assumptions C05_argparse_with_remnant.

Theorem C05_emit_class_with_remnant : forall pt i cn bs ds ww tds s,
    C05Closed.internal_ok i = true ->
    EmitAst.emit_class pt (C05Closed.clear_internal i) false cn bs ds ww tds = Ok (s, C05Closed.clear_internal i) ->
    EmitAst.emit_class pt i false cn bs ds ww tds = Ok (s, i).
Proof. exact C05ClosedFacts.emit_class_remnant. Qed.
Print Assumptions C05_emit_class_with_remnant.

Theorem C05_guards_not_closed_under_argparse :
  match C05Closed.conv_argparse C05Closed.default_env C05Closed.w_closed with
  | Ok i' => negb (C02Codec.guard_C02_ast i') && negb (C04Codec.guard_C04_ast i')
             && C02Codec.guard_C02_ast C05Closed.w_closed && C04Codec.guard_C04_ast C05Closed.w_closed
             && C05Closed.internal_ok i' && C05Closed.closed_dom C05Closed.default_env i'
  | Err _ => false
  end = true.
Proof. exact C05ClosedFacts.guards_not_closed_under_argparse. Qed.
Print Assumptions C05_guards_not_closed_under_argparse.

(* five parameters (str, int, float, bool, Optional[int]; prose ending in a full stop or a comma; negative default) *)
Example C05_closed_nonvacuous :
  C05Closed.closed_dom C05Closed.default_env C05Closed.w_closed = true
  /\ List.length (ir_params C05Closed.w_closed) = 5.
Proof. exact C05ClosedFacts.w_closed_in_dom. Qed.
Print Assumptions C05_closed_nonvacuous.

(* also with emit_default_doc and word_wrap on for the class emitter *)
Example C05_closed_nonvacuous_edd : C05Closed.closed_dom C05ClosedFacts.env_edd C05Closed.w_closed = true.
Proof. exact C05ClosedFacts.w_closed_in_dom_edd. Qed.
Print Assumptions C05_closed_nonvacuous_edd.

Example C05_sample_chain :
  match C05Spec.chain (C05Closed.conv_model C05Closed.default_env) C05ClosedFacts.sample_chain C05Closed.w_closed with
  | Ok i' => C05Spec.preserved C05Closed.w_closed i' && C05Closed.closed_dom C05Closed.default_env i'
  | Err _ => false
  end = true.
Proof. exact C05ClosedFacts.sample_chain_runs. Qed.
Print Assumptions C05_sample_chain.

(* guard_C02_ast is needed: inside chain_safe, class None, -0.0 comes back as 0.0 through the class kind *)
Theorem C05_region_hole_negzero :
  C05Spec.chain_safe C05Closed.closed_kinds C05ClosedFacts.w_negzero = true
  /\ C05Closed.complete C05ClosedFacts.w_negzero = true
  /\ C05Spec.c05_class_of [C05Spec.KClass] C05ClosedFacts.w_negzero = None
  /\ C02Codec.guard_C02_ast C05ClosedFacts.w_negzero = false
  /\ match C05Closed.conv_class C05Closed.default_env C05ClosedFacts.w_negzero with
     | Ok i' => C05Spec.preserved C05ClosedFacts.w_negzero i' | Err _ => true end = false.
Proof. exact C05ClosedFacts.region_hole_negzero. Qed.
Print Assumptions C05_region_hole_negzero.

(* guard_C04_ast is needed: inside chain_safe, class None, a summary in quote marks loses them through argparse *)
Theorem C05_region_hole_quoted_summary :
  C05Spec.chain_safe C05Closed.closed_kinds C05ClosedFacts.w_quoted_summary = true
  /\ C05Closed.complete C05ClosedFacts.w_quoted_summary = true
  /\ C05Spec.c05_class_of [C05Spec.KArgparse] C05ClosedFacts.w_quoted_summary = None
  /\ C04Codec.guard_C04_ast C05ClosedFacts.w_quoted_summary = false
  /\ match C05Closed.conv_argparse C05Closed.default_env C05ClosedFacts.w_quoted_summary with
     | Ok i' => C05Spec.preserved C05ClosedFacts.w_quoted_summary i' | Err _ => true end = false.
Proof. exact C05ClosedFacts.region_hole_quoted_summary. Qed.
Print Assumptions C05_region_hole_quoted_summary.

(* the guards of the C01 theorems bound what is proved: inside chain_safe, outside them, the numpydoc / google model
   declines the text while the ReST model round-trips it *)
Theorem C05_guard_conjuncts_docstring :
  C05Spec.chain_safe C05Closed.closed_kinds C05ClosedFacts.w_exp_float = true
  /\ C05Closed.complete C05ClosedFacts.w_exp_float = true
  /\ C01Spec.guard_C01_rest false C05ClosedFacts.w_exp_float = false
  /\ C01SpecNG.guard_C01_ng DocParseNG.SGoogle C05ClosedFacts.w_exp_float = false
  /\ C01SpecNG.guard_C01_ng DocParseNG.SNumpydoc C05ClosedFacts.w_exp_float = false
  /\ C05Closed.conv_google C05ClosedFacts.w_exp_float = Err Unmodelled
  /\ match C05Spec.conv_rest C05ClosedFacts.w_exp_float with
     | Ok i' => C05Spec.preserved C05ClosedFacts.w_exp_float i' | Err _ => false end = true.
Proof. exact C05ClosedFacts.guard_conjuncts_docstring. Qed.
Print Assumptions C05_guard_conjuncts_docstring.

(* complete is needed: a parameter without default acquires one through the class kind *)
Theorem C05_complete_needed :
  C05Closed.complete C05ClosedFacts.w_no_default = false
  /\ C05Spec.chain_safe C05Closed.closed_kinds C05ClosedFacts.w_no_default = false
  /\ C02Codec.guard_C02_ast C05ClosedFacts.w_no_default = true
  /\ match C05Closed.conv_class C05Closed.default_env C05ClosedFacts.w_no_default with
     | Ok i' => C05Spec.preserved C05ClosedFacts.w_no_default i' | Err _ => true end = false.
Proof. exact C05ClosedFacts.complete_needed. Qed.
Print Assumptions C05_complete_needed.

(* conv_function / conv_method (model/C05Closed.v: conv_fn) = the composition C03_partial_closed is about:
   function_docstring_text (DocEmit.to_docstring as emit.function calls it), EmitAst.emit_function (function_name f),
   C03Spec.reparse_stmt (ast.unparse / ast.parse), function_docstring_ir (cleandoc, parse.docstring),
   ParseSig.parse_function; any inline_types / emit_as_kwonlyargs / indent_level / emit_separating_tab / word_wrap
   (fenv), emit_default_doc off.  conv_model7 extends conv_model by these two.
   Domain: closed_dom7 o f i = closed_dom o i && internal_ok7 i (a carried body does not come from a function named f)
     && for both kinds: C03Spec.guard_C03 and C03DocLinkDefs.doc_link_ok on core_view i (summary and parameters only; the
        C03 domain admits neither a carried body nor a Missing return field, which the class / argparse parsers write:
        emit.function and to_docstring are shown not to look at them: C05_conv_fn_core).
   env_ok7 o: the argparse function has a non-empty name OTHER than f (needed: C05_env_ok7_needed; as in the real code,
   emit.function splices the carried  return argument_parser  into f and parse.function invents a return entry).

   With these, NO kind_law hypothesis of C05_chain_preserved remains on closed_dom7.

   Enlarging the domain (C05_return_entry_blockers, C05_none_default_blockers; computed on the models, matching chain_safe):
   - a typed return entry with prose: carried by rest, function, method only; numpydoc, google and class give it the
     default 0, argparse drops it -- so it can only enter a domain for chains over {rest, function, method}: done below
     on the domain closed_dom_ret (C05_chain_closed_ret);
   - the default None under Optional[...]: only argparse blocks it (the default is lost).  For the other six kinds the
     obstacle is the shape of the per-kind theorems, not the code: every kind returns the spelling NoneStr, which
     [preserved] / same_interface identify with None, so the relation no longer determines the parameters and the
     guards would have to be shown invariant under the three spellings of None; C02 has a closed form
     (canon_default), C01 / C03 state a relation only.  Not done here.
   Still NOT proved: function / method with emit_default_doc on (a C03 finding class), the inherited gaps of C03Ext
   (cleandoc and reparse_stmt are models), and everything listed above for the five kinds. *)

Theorem C05_law7 : forall o f k, C05Closed.env_ok7 o = true ->
    C05Spec.kind_law (C05Closed.conv_model7 o f) (C05Closed.closed_dom7 o f) k.
Proof. exact C05ClosedFacts.law7. Qed.
Print Assumptions C05_law7.

(* the function / method conversion, with what it writes: summary and parameters unchanged, no return entry, no
   carried body *)
Theorem C05_conv_fn_closed : forall o f c r i,
    C05Closed.closed_dom7 o f i = true -> C05Closed.fn_guard o f (c :: r) i = true ->
    exists i', C05Closed.conv_fn o f (c :: r) i = Ok i'
               /\ C05ClosedFacts.core_eq i i' /\ ir_internal i' = None.
Proof. exact C05ClosedFacts.conv_fn_closed. Qed.
Print Assumptions C05_conv_fn_closed.

(* emit.function / to_docstring do not look at name, type, an absent return entry or a harmless carried body *)
Theorem C05_conv_fn_core : forall o f c r i,
    C05Closed.internal_ok i = true -> C05Closed.internal_ok7 i = true -> (forall g, ir_returns i <> Has g) ->
    C05Closed.conv_fn o f (c :: r) i = C05Closed.conv_fn o f (c :: r) (C05ClosedFacts.core i).
Proof. exact C05ClosedFacts.conv_fn_core. Qed.
Print Assumptions C05_conv_fn_core.

(* every chain over all seven kinds, any length, repetitions allowed, no law hypothesis *)
Theorem C05_chain_closed7 : forall o f cs, C05Closed.env_ok7 o = true ->
    forall i, C05Closed.closed_dom7 o f i = true ->
    exists i', C05Spec.chain (C05Closed.conv_model7 o f) cs i = Ok i'
               /\ C05Spec.preserved i i' = true /\ C05Closed.closed_dom7 o f i' = true.
Proof. exact C05ClosedFacts.chain_closed7. Qed.
Print Assumptions C05_chain_closed7.

Theorem C05_chain_closed7_no_swap : forall o f cs, C05Closed.env_ok7 o = true ->
    forall i, C05Closed.closed_dom7 o f i = true ->
    exists i', C05Spec.chain (C05Closed.conv_model7 o f) cs i = Ok i'
               /\ List.length (ir_params i) = List.length (ir_params i')
               /\ forall k n g, nth_error (ir_params i) k = Some (n, g) ->
                  exists g', nth_error (ir_params i') k = Some (n, g')
                             /\ C01Spec.same_typ g g' = true /\ C01Spec.same_prose g g' = true
                             /\ C01Spec.same_default_ir (g_default g) (g_default g') = true.
Proof. exact C05ClosedFacts.chain_closed7_no_swap. Qed.
Print Assumptions C05_chain_closed7_no_swap.

Theorem C05_chain_closed7_exact : forall o f cs, C05Closed.env_ok7 o = true ->
    forall i, C05Closed.closed_dom7 o f i = true ->
    exists i', C05Spec.chain (C05Closed.conv_model7 o f) cs i = Ok i' /\ ir_doc i' = ir_doc i /\ ir_params i' = ir_params i
               /\ (forall g, ir_returns i' <> Has g).
Proof. exact C05ClosedFacts.chain_closed7_exact. Qed.
Print Assumptions C05_chain_closed7_exact.

Theorem C05_closed_dom7_in_closed_dom : forall o f i,
    C05Closed.closed_dom7 o f i = true -> C05Closed.closed_dom o i = true.
Proof. exact C05ClosedFacts.closed_dom7_in_closed_dom. Qed.
Print Assumptions C05_closed_dom7_in_closed_dom.

(* the docstring links of C02 / C03, with the summary of the description read back *)
Theorem C05_function_doc_link_summary : forall w o i,
    C03Spec.guard_C03 o i = true -> C03DocLinkDefs.doc_link_ok w o i = true ->
    exists text d,
      C03DocLinkDefs.function_docstring_text w o i = Ok text
      /\ C03DocLinkDefs.function_docstring_ir text = Ok d
      /\ C03Spec.doc_agrees o i d = true
      /\ (forall d0, ir_doc i = Has d0 -> d0 <> [] -> ir_doc d = Has d0).
Proof. exact C03DocLinkMain.fn_doc_link_sum. Qed.
Print Assumptions C05_function_doc_link_summary.

Theorem C05_class_doc_link_summary : forall w edd ww i,
    C02Codec.guard_C02_ast i = true -> C02DocLinkDefs.doc_link_ok w edd ww i = true ->
    exists text d, C02DocLinkDefs.class_docstring_text w edd ww i = Ok text /\ C02DocLinkDefs.class_docstring_ir text = Ok d
                   /\ C02Codec.doc_agrees i d = true /\ ir_doc d = ir_doc i.
Proof. exact C02DocLink.doc_link_sum. Qed.
Print Assumptions C05_class_doc_link_summary.

(* non-vacuity: the five-parameter description is in the seven-kind domain for the API defaults of emit.function and for
   types in the docstring / positional arguments / indent 1 / no separating tab / no word wrap; a twelve-hop chain *)
Example C05_closed7_nonvacuous :
  C05Closed.env_ok7 C05Closed.default_env = true
  /\ C05Closed.closed_dom7 C05Closed.default_env C05Closed.default_fenv C05Closed.w_closed = true
  /\ C05Closed.closed_dom7 C05Closed.default_env (C05Closed.mkFE false false 1 false false) C05Closed.w_closed = true.
Proof. exact C05ClosedFacts.w_closed_in_dom7. Qed.
Print Assumptions C05_closed7_nonvacuous.

Example C05_sample_chain7 :
  match C05Spec.chain (C05Closed.conv_model7 C05Closed.default_env C05Closed.default_fenv) C05ClosedFacts.sample_chain7
                      C05Closed.w_closed with
  | Ok i' => C05Spec.preserved C05Closed.w_closed i'
             && C05Closed.closed_dom7 C05Closed.default_env C05Closed.default_fenv i'
  | Err _ => false
  end = true.
Proof. exact C05ClosedFacts.sample_chain7_runs. Qed.
Print Assumptions C05_sample_chain7.

Theorem C05_env_ok7_needed :
  C05Closed.env_ok C05ClosedFacts.env_fname_f = true /\ C05Closed.env_ok7 C05ClosedFacts.env_fname_f = false
  /\ C05Closed.closed_dom7 C05ClosedFacts.env_fname_f C05Closed.default_fenv C05Closed.w_closed = true
  /\ match C05Spec.chain (C05Closed.conv_model7 C05ClosedFacts.env_fname_f C05Closed.default_fenv)
                         [C05Spec.KArgparse; C05Spec.KFunction] C05Closed.w_closed with
     | Ok i' => negb (C05Spec.preserved C05Closed.w_closed i') && match ir_returns i' with Has _ => true | _ => false end
     | Err _ => false
     end = true.
Proof. exact C05ClosedFacts.env_ok7_needed. Qed.
Print Assumptions C05_env_ok7_needed.

Theorem C05_return_entry_blockers :
  map (fun k => C05ClosedFacts.passes k C05ClosedFacts.w_ret) C05Spec.all_kinds = [true; false; false; false; true; true; false]
  /\ map (fun k => C05Spec.chain_safe [k] C05ClosedFacts.w_ret) C05Spec.all_kinds = [true; false; false; false; true; true; false].
Proof. exact C05ClosedFacts.return_entry_blockers. Qed.
Print Assumptions C05_return_entry_blockers.

Theorem C05_none_default_blockers :
  map (fun k => C05ClosedFacts.passes k C05ClosedFacts.w_none) C05Spec.all_kinds = [true; true; true; true; true; true; false]
  /\ map (fun k => C05Spec.chain_safe [k] C05ClosedFacts.w_none) C05Spec.all_kinds = [true; true; true; true; true; true; false]
  /\ map (fun k => match C05Closed.conv_model7 C05Closed.default_env C05Closed.default_fenv k C05ClosedFacts.w_none with
                   | Ok i' => match ir_params i' with (_, g) :: _ => g_default g | [] => None end
                   | Err _ => None
                   end) C05Spec.all_kinds
     = [Some (DV (VStr PureUtils.NoneStr)); Some (DV (VStr PureUtils.NoneStr)); Some (DV (VStr PureUtils.NoneStr));
        Some (DV (VStr PureUtils.NoneStr)); Some (DV (VStr PureUtils.NoneStr)); Some (DV (VStr PureUtils.NoneStr)); None].
Proof. exact C05ClosedFacts.none_default_blockers. Qed.
Print Assumptions C05_none_default_blockers.

(* closed_dom_ret o f i = chain_safe [rest; function; method] i && complete_ret i (as complete, with a return entry that has
   prose and a type and no default) && guard_C01_rest false i && internal_ok i && internal_ok7 i
   && for both function kinds guard_C03 and doc_link_ok on ret_view i (summary, parameters, return entry).
   On it [preserved] determines summary, parameters AND the return entry (C05_complete_ret_preserved_exact). *)

Theorem C05_law_ret : forall o f k, C05Closed.ret_kind k = true ->
    C05Spec.kind_law (C05Closed.conv_model7 o f) (C05Closed.closed_dom_ret o f) k.
Proof. exact C05ClosedFacts.law_ret. Qed.
Print Assumptions C05_law_ret.

Theorem C05_chain_closed_ret : forall o f cs, forallb C05Closed.ret_kind cs = true ->
    forall i, C05Closed.closed_dom_ret o f i = true ->
    exists i', C05Spec.chain (C05Closed.conv_model7 o f) cs i = Ok i'
               /\ C05Spec.preserved i i' = true /\ C05Closed.closed_dom_ret o f i' = true.
Proof. exact C05ClosedFacts.chain_closed_ret. Qed.
Print Assumptions C05_chain_closed_ret.

Theorem C05_complete_ret_preserved_exact : forall i i',
    C05Closed.complete_ret i = true -> C05Spec.preserved i i' = true ->
    ir_doc i' = ir_doc i /\ ir_params i' = ir_params i /\ ir_returns i' = ir_returns i.
Proof. exact C05ClosedFacts.complete_ret_preserved_eq. Qed.
Print Assumptions C05_complete_ret_preserved_exact.

(* five parameters and a return entry; both option sets of emit.function; a six-hop chain *)
Example C05_closed_ret_nonvacuous :
  C05Closed.closed_dom_ret C05Closed.default_env C05Closed.default_fenv C05Closed.w_ret_closed = true
  /\ C05Closed.closed_dom_ret C05Closed.default_env (C05Closed.mkFE false false 1 false false) C05Closed.w_ret_closed = true
  /\ match C05Spec.chain (C05Closed.conv_model7 C05Closed.default_env C05Closed.default_fenv)
                         [C05Spec.KFunction; C05Spec.KRest; C05Spec.KMethod; C05Spec.KMethod; C05Spec.KRest; C05Spec.KFunction]
                         C05Closed.w_ret_closed with
     | Ok i' => C05Spec.preserved C05Closed.w_ret_closed i'
                && C05Closed.closed_dom_ret C05Closed.default_env C05Closed.default_fenv i'
     | Err _ => false
     end = true.
Proof. exact C05ClosedFacts.w_ret_closed_in_dom. Qed.
Print Assumptions C05_closed_ret_nonvacuous.
