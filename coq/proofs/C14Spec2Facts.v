(* The refined C14 classifier (model/C14Spec2.v) against C14Spec's: old classes and their names are kept, the class
   K14r_other_docstring_reformatted is added only where the old classifier is silent, only when the written file is given
   and differs from the expected one in docstrings alone; the refined guard lies inside the old one; classified samples and
   unclassified neighbours. *)
From Coq Require Import List Ascii Bool Arith ZArith.
From Coq Require String.
Import String.StringSyntax.
From DT Require Import PyStr PyVal PyAst Locate SyncProps C14Spec C14Spec2 RefineFacts.
Import ListNotations.

Lemma finding_class_C14_r_adds : forall x after c,
    finding_class_C14_r x after = Some c ->
    (exists k, finding_class_C14 x = Some k /\ c = K14r_old k)
    \/ (finding_class_C14 x = None /\ c = K14r_other_docstring_reformatted).
Proof.
  intros x after c H. destruct (refine_adds K14r_old _ _ c H) as [Hold|[Hnone Hnew]]; [left; exact Hold|].
  right. split; [exact Hnone|]. unfold new_class_C14 in Hnew.
  destruct after as [t|]; [|discriminate Hnew].
  destruct (addresses_resolve x && docstrings_only_differ x t); [|discriminate Hnew].
  injection Hnew as Hnew. symmetry. exact Hnew.
Qed.

Lemma finding_class_C14_r_old : forall x after k,
    finding_class_C14 x = Some k -> finding_class_C14_r x after = Some (K14r_old k).
Proof. intros x after k. apply (refine_old K14r_old). Qed.

(* a kept class keeps its name, so the KNOWN_FINDINGS lines of the old classes stay valid *)
Lemma class_name_C14_r_old : forall k, class_name_C14_r (K14r_old k) = class_name_C14 k.
Proof. reflexivity. Qed.

Lemma finding_class_C14_r_no_file : forall x,
    finding_class_C14_r x None = option_map K14r_old (finding_class_C14 x).
Proof. intros x. unfold finding_class_C14_r. destruct (finding_class_C14 x); reflexivity. Qed.

(* the new class is given only when the written file differs from the original output module outside the addressed
   positions, and only in docstrings that have one normal form: the two masked modules are equal after norm_module *)
Lemma new_class_C14_only_docstrings : forall x t,
    finding_class_C14_r x (Some t) = Some K14r_other_docstring_reformatted ->
    addresses_resolve x = true
    /\ list_eqb stmt_eqb (mask_module (somes (out_positions x)) (ci_out x)) (mask_module (somes (out_positions x)) t) = false
    /\ list_eqb stmt_eqb (norm_module (mask_module (somes (out_positions x)) (ci_out x)))
                         (norm_module (mask_module (somes (out_positions x)) t)) = true.
Proof.
  intros x t H. unfold finding_class_C14_r in H.
  destruct (finding_class_C14 x) as [k|]; [discriminate H|].
  unfold new_class_C14 in H.
  destruct (addresses_resolve x) eqn:Ha; cbn [andb] in H; [|discriminate H].
  destruct (docstrings_only_differ x t) eqn:Hd; [|discriminate H].
  unfold docstrings_only_differ in Hd. apply andb_true_iff in Hd. destruct Hd as [H1 H2].
  apply negb_true_iff in H1. repeat split; assumption.
Qed.

Lemma new_class_C14_needs_difference : forall x t,
    list_eqb stmt_eqb (mask_module (somes (out_positions x)) (ci_out x)) (mask_module (somes (out_positions x)) t) = true ->
    new_class_C14 x (Some t) = None.
Proof.
  intros x t H. unfold new_class_C14, docstrings_only_differ. rewrite H. cbn [negb andb].
  rewrite andb_false_r. reflexivity.
Qed.

Lemma guard_C14_r_inside : forall x after, guard_C14_r x after = true -> guard_C14 x = true.
Proof. intros x after. apply (refine_guard K14r_old). Qed.

(* input file `a: str = 1`, pair a -> x, no template *)
Definition wd_in : module := [SAnnAssign (EName (L "a")) (EName (L "str")) (Some (EConst (VInt 1)))].
Definition wd_x : stmt := SAnnAssign (EName (L "x")) (EName (L "int")) (Some (EConst (VInt 0))).
Definition wd_a : stmt := SAnnAssign (EName (L "a")) (EName (L "str")) (Some (EConst (VInt 1))).
Definition wd_env : sp_env := mkEnv [(EName (L "str"), L "str")] [].

Definition wd_g (doc : str) : stmt :=
  SFunc (L "g") (mkArguments [mkArg (L "c") (Some (EName (L "int")))] [] [] [] None None)
        [SExpr (EConst (VStr doc)); SReturn (Some (EName (L "c")))] [] None.

Definition wd_D (doc : str) : stmt := SClass (L "D") [] [SExpr (EConst (VStr doc)); wd_x] [].

Definition wd_call (out : module) : c14_input := mkC14 wd_env false wd_in [L "a"] out [L "x"] None [].

Definition nl1 : str := [nl].

(* blanks that end a line of a function docstring:  def g(c: int): <g doc___ / more>  comes back <g doc / more> *)
Definition wd1_out : module := [wd_g (L "g doc   " ++ nl1 ++ L "    more"); wd_x].
Definition wd1_after : module := [wd_g (L "g doc" ++ nl1 ++ L "    more"); wd_a].

Lemma trailing_blanks_classified :
  C14_domain (wd_call wd1_out) = true
  /\ finding_class_C14 (wd_call wd1_out) = None
  /\ C14_at_b (wd_call wd1_out) = true
  /\ finding_class_C14_r (wd_call wd1_out) (Some wd1_after) = Some K14r_other_docstring_reformatted.
Proof. vm_compute. repeat split; reflexivity. Qed.

(* a line of blanks only inside a function docstring comes back empty *)
Definition wd2_out : module := [wd_g (L "g doc" ++ nl1 ++ L "      " ++ nl1 ++ L "    more"); wd_x].
Definition wd2_after : module := [wd_g (L "g doc" ++ nl1 ++ nl1 ++ L "    more"); wd_a].

Lemma blank_only_line_classified :
  C14_domain (wd_call wd2_out) = true
  /\ finding_class_C14 (wd_call wd2_out) = None
  /\ C14_at_b (wd_call wd2_out) = true
  /\ finding_class_C14_r (wd_call wd2_out) (Some wd2_after) = Some K14r_other_docstring_reformatted.
Proof. vm_compute. repeat split; reflexivity. Qed.

(* an over-indented continuation line of a class docstring is moved to the indentation of the block *)
Definition wd3_out : module := [wd_D (L "Doc" ++ nl1 ++ L "      indented" ++ nl1 ++ L "    "); wd_x].
Definition wd3_after : module := [wd_D (L "Doc" ++ nl1 ++ L "    indented" ++ nl1 ++ L "    "); wd_a].

Lemma over_indented_line_classified :
  C14_domain (wd_call wd3_out) = true
  /\ finding_class_C14 (wd_call wd3_out) = None
  /\ C14_at_b (wd_call wd3_out) = true
  /\ finding_class_C14_r (wd_call wd3_out) (Some wd3_after) = Some K14r_other_docstring_reformatted.
Proof. vm_compute. repeat split; reflexivity. Qed.

(* not in the class: a docstring whose WORDS change; a string constant that is not a docstring although the same
   blanks are lost; a changed statement next to a reformatted docstring *)
Lemma changed_words_unclassified :
  finding_class_C14_r (wd_call wd1_out) (Some [wd_g (L "g doc" ++ nl1 ++ L "    less"); wd_a]) = None.
Proof. vm_compute. reflexivity. Qed.

Definition wd_banner (s : str) : stmt := SAssign [EName (L "BANNER")] (EConst (VStr s)).

Lemma text_constant_unclassified :
  finding_class_C14_r (wd_call [wd_banner (L "Usage:" ++ nl1 ++ L "    " ++ nl1 ++ L "  run"); wd_x])
                      (Some [wd_banner (L "Usage:" ++ nl1 ++ nl1 ++ L "  run"); wd_a]) = None.
Proof. vm_compute. reflexivity. Qed.

Lemma docstring_and_statement_unclassified :
  finding_class_C14_r (wd_call (wd_banner (L "v") :: wd1_out)) (Some (wd_banner (L "w") :: wd1_after)) = None.
Proof. vm_compute. reflexivity. Qed.

(* the same call when black has nothing to reformat: the files agree outside the addressed position, no class *)
Lemma stable_docstring_unclassified :
  finding_class_C14_r (wd_call [wd_g (L "g doc" ++ nl1 ++ L "    more"); wd_x])
                      (Some [wd_g (L "g doc" ++ nl1 ++ L "    more"); wd_a]) = None.
Proof. vm_compute. reflexivity. Qed.
