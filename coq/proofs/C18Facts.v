(* C18Facts: the docstring-level lemmas behind props/C18.v.
   - ReST :type lines: read back intact when they fit (partial), not in general (refuted by a witness);
   - nothing-needs-wrapping region: word_wrap on and off give byte-identical docstrings, three styles;
   - ReST entries: wrapping changes only whitespace (the words of the wrapped entry, also after the
     parser's re-join, are the words of its lines);
   - the layout of emit.docstring as a function of its three parts (assemble, ret_part, doc_part), used here and
     by the parse-level files. *)
From Coq Require Import List Ascii Bool Arith ZArith Lia.
From Coq Require String.
Import String.StringSyntax.
From DT Require Import PyStr Sexp PyVal TyExpr Extracted PureUtils Defaults PyAst IR Fill DocEmit C18Spec
     PyStrFacts SplitFacts FillFacts DocEmitFacts.
Import ListNotations.

Lemma one_line_clean_no_nl : forall s, one_line_clean s = true -> ~ In nl s.
Proof.
  intros s H Hin. destruct (one_line_clean_inv s H) as [Hch _].
  rewrite forallb_forall in Hch. specialize (Hch nl Hin). discriminate.
Qed.

Lemma type_of_type_line_exact : forall name typ,
    type_of_type_line name (rest_typ_line name typ) = Some typ.
Proof.
  intros name typ. unfold type_of_type_line, rest_typ_line.
  set (pre := L ":" ++ rest_key_typ name ++ L ": ```").
  assert (E : L ":" ++ rest_key_typ name ++ L ": ```" ++ typ ++ L "```" = pre ++ typ ++ L "```").
  { unfold pre. now rewrite <- !app_assoc. }
  rewrite E. rewrite startswith_app.
  assert (E2 : pre ++ typ ++ L "```" = (pre ++ typ) ++ L "```") by now rewrite app_assoc.
  rewrite E2 at 1. rewrite endswith_app. cbn [andb].
  assert (Hlen : Nat.leb (List.length pre + 3) (List.length (pre ++ typ ++ L "```")) = true).
  { apply Nat.leb_le. rewrite !app_length. cbn. lia. }
  rewrite Hlen. f_equal.
  replace (List.length (pre ++ typ ++ L "```") - 3) with (List.length pre + List.length typ)
    by (rewrite !app_length; cbn; lia).
  apply slice_app_mid.
Qed.

Lemma typ_line_unchanged : forall w name typ,
    0 < w -> nowrap_line w (rest_typ_line name typ) = true ->
    fill w (rest_typ_line name typ) = Ok (rest_typ_line name typ)
    /\ indent_all_but_first (rest_typ_line name typ) 1 false = rest_typ_line name typ.
Proof.
  intros w name typ Hw Hn. split; [exact (nowrap_line_fill w _ Hw Hn)|].
  unfold nowrap_line in Hn. apply andb_true_iff in Hn. destruct Hn as [Hc _].
  apply iabf_rest_typ_line. apply one_line_clean_no_nl. exact Hc.
Qed.

(* a :type line that fits (and is a clean single line) is read back intact, at every width *)
Lemma C18_type_line_partial_lemma : forall w name typ,
    0 < w -> nowrap_line w (rest_typ_line name typ) = true -> C18_type_line_at w name typ.
Proof.
  intros w name typ Hw Hn r Hr. destruct (typ_line_unchanged w name typ Hw Hn) as [Hf Hi].
  rewrite Hf in Hr. inversion Hr; subst r. rewrite Hi. apply type_of_type_line_exact.
Qed.

(* ... and a longer one is not: newline + indent end up inside the type *)
Lemma C18_type_line_refuted_lemma : ~ C18_type_line_statement.
Proof.
  intros H. specialize (H 20 (L "lr") (L "Literal['tf', 'sgd', 'mnist']")). unfold C18_type_line_at in H.
  destruct (fill 20 (rest_typ_line (L "lr") (L "Literal['tf', 'sgd', 'mnist']"))) as [r|e] eqn:E.
  - specialize (H ltac:(lia) r eq_refl). vm_compute in E. inversion E; subst r. vm_compute in H. discriminate.
  - vm_compute in E. discriminate.
Qed.

Lemma mapM_fill_nowrap : forall w ls, 0 < w -> forallb (nowrap_line w) ls = true ->
                                      mapM (fill_or_id true w) ls = Ok ls.
Proof.
  intros w ls Hw. induction ls as [|x r IH]; intros H; [reflexivity|].
  cbn [forallb] in H. apply andb_true_iff in H. destruct H as [Hx Hr].
  cbn [mapM fill_or_id]. rewrite (nowrap_line_fill w x Hw Hx). cbn [bind]. rewrite IH by assumption. reflexivity.
Qed.

Lemma emit_param_str_nowrap : forall w st edd name p,
    0 < w -> nowrap_entry w st edd (name, p) = true ->
    emit_param_str w name p st true true true edd = emit_param_str w name p st true true false edd.
Proof.
  intros w st edd name p Hw H. unfold nowrap_entry in H. cbn [fst snd] in H.
  destruct st.
  - unfold filled_lines in H. unfold emit_param_str.
    destruct (rest_raw_lines name p true true edd) as [[ls p']|e]; [|reflexivity].
    cbn [bind fst snd] in *. rewrite (mapM_fill_nowrap w ls Hw H). now rewrite mapM_id.
  - unfold filled_lines in H. unfold emit_param_str.
    destruct (truthy_fld (p_typ p)) as [t|].
    + destruct (truthy_fld (p_doc p)) as [d|].
      * destruct (sdd_doc name p edd) as [[d' p']|e]; [|discriminate].
        cbn [bind fst snd app forallb] in H.
        apply andb_true_iff in H. destruct H as [H1 H2]. apply andb_true_iff in H2. destruct H2 as [H2 _].
        cbn [fill_or_id]. rewrite (nowrap_line_fill w _ Hw H1). cbn [bind fst snd].
        rewrite (nowrap_line_fill w _ Hw H2). reflexivity.
      * cbn [bind app forallb] in H. apply andb_true_iff in H. destruct H as [H1 _].
        cbn [fill_or_id]. rewrite (nowrap_line_fill w _ Hw H1). reflexivity.
    + destruct (truthy_fld (p_doc p)) as [d|]; [|reflexivity].
      destruct (sdd_doc name p edd) as [[d' p']|e]; [|discriminate].
      cbn [bind fst snd app forallb] in H. apply andb_true_iff in H. destruct H as [H2 _].
      cbn [bind fill_or_id fst snd]. rewrite (nowrap_line_fill w _ Hw H2). reflexivity.
  - reflexivity.
Qed.

Lemma C18_nowrap_lemma : forall w st edd i,
    guard_nowrap w st edd i = true ->
    emit_docstring w st true edd i = emit_docstring w st false edd i.
Proof.
  intros w st edd i H. unfold guard_nowrap in H.
  apply andb_true_iff in H. destruct H as [H Hret].
  apply andb_true_iff in H. destruct H as [H Hps].
  apply andb_true_iff in H. destruct H as [Hw Hdoc]. apply Nat.ltb_lt in Hw.
  unfold emit_docstring.
  destruct (params_of (ir_params i)) as [ps|]; [|reflexivity].
  destruct (ir_doc i) as [| |d]; try discriminate.
  cbn [fill_or_id]. rewrite (nowrap_line_fill w d Hw Hdoc). cbn [bind].
  rewrite (emit_items_ext (fun k p => emit_param_str w k p st true true true edd)
                          (fun k p => emit_param_str w k p st true true false edd)).
  2:{ intros k p Hin. apply emit_param_str_nowrap; [assumption|].
      rewrite forallb_forall in Hps. now apply Hps. }
  destruct (emit_items (fun k p => emit_param_str w k p st true true false edd) ps) as [pl|e]; [|reflexivity].
  cbn [bind].
  destruct (ir_returns i) as [| |g]; try reflexivity.
  destruct (param_of_gparam g) as [p|]; [|reflexivity].
  rewrite (emit_param_str_nowrap w st edd (L "return_type") p Hw Hret). reflexivity.
Qed.

Lemma no_exotic_join_nl : forall ls, Forall (fun l => no_exotic_space l = true) ls ->
                                     no_exotic_space (join [nl] ls) = true.
Proof.
  intros ls H. apply no_exotic_iff. intros x Hx.
  apply join_chars in Hx. destruct Hx as [Hx|[l [Hl Hxl]]].
  - destruct Hx as [Hx|[]]. subst x. reflexivity.
  - rewrite Forall_forall in H. exact (no_exotic_In l x (H l Hl) Hxl).
Qed.

Lemma mapM_fill_words : forall w ls filled,
    Forall (fun l => no_exotic_space l = true) ls ->
    mapM (fill_or_id true w) ls = Ok filled ->
    concat (map words filled) = concat (map words ls)
    /\ Forall (fun l => no_exotic_space l = true) filled.
Proof.
  intros w ls. induction ls as [|x r IH]; intros filled Hn H.
  - cbn [mapM] in H. inversion H; subst. split; [reflexivity|constructor].
  - inversion Hn as [|x' r' Hx Hr]; subst.
    cbn [mapM fill_or_id] in H. destruct (fill w x) as [fx|e] eqn:Ex; [|discriminate]. cbn [bind] in H.
    destruct (mapM (fill_or_id true w) r) as [fr|e] eqn:Er; [|discriminate]. cbn [bind] in H.
    inversion H; subst. destruct (IH fr Hr eq_refl) as [IH1 IH2].
    split.
    + cbn [map concat]. rewrite IH1. now rewrite (fill_words w x fx Ex).
    + constructor; [now apply (fill_no_exotic w x)|assumption].
Qed.

Lemma words_join_iabf : forall ls, Forall (fun l => no_exotic_space l = true) ls ->
    words (join [nl] (map (fun s => indent_all_but_first s 1 false) ls)) = concat (map words ls).
Proof.
  intros ls H. rewrite words_join_sep by reflexivity. rewrite map_map. f_equal.
  apply map_ext_in. intros l Hl. rewrite Forall_forall in H. apply words_indent_all_but_first. now apply H.
Qed.

(* the ReST entry: with word_wrap on (inside Fill's fragment) the text has exactly the words of the raw
   lines, in order - as printed, and after the parser's re-join; word_wrap off gives the same words; the
   caller's param is not touched either way *)
Lemma C18_rest_entry_lemma : forall w name p ed et edd ls p' tw p1,
    rest_raw_lines name p ed et edd = Ok (ls, p') ->
    Forall (fun l => no_exotic_space l = true) ls ->
    emit_param_str w name p Rest ed et true edd = Ok (tw, p1) ->
    p1 = p
    /\ words tw = concat (map words ls)
    /\ words (rejoin tw) = concat (map words ls)
    /\ exists tu, emit_param_str w name p Rest ed et false edd = Ok (tu, p)
                  /\ words tu = concat (map words ls).
Proof.
  intros w name p ed et edd ls p' tw p1 Hraw Hn H.
  unfold emit_param_str in *. rewrite Hraw in *. cbn [bind fst snd] in *.
  destruct (mapM (fill_or_id true w) ls) as [filled|e] eqn:Em; [|discriminate].
  cbn [bind] in H. inversion H; subst. clear H.
  destruct (mapM_fill_words w ls filled Hn Em) as [Hw Hf].
  split; [reflexivity|].
  assert (Htw : words (join [nl] (map (fun s => indent_all_but_first s 1 false) filled)) = concat (map words ls)).
  { rewrite words_join_iabf by assumption. exact Hw. }
  split; [exact Htw|]. split.
  - rewrite words_rejoin; [exact Htw|].
    apply no_exotic_join_nl. apply Forall_forall. intros l Hl. apply in_map_iff in Hl.
    destruct Hl as [l0 [E Hl0]]. subst l. apply iabf_no_exotic. rewrite Forall_forall in Hf. now apply Hf.
  - rewrite mapM_id. cbn [bind]. eexists. split; [reflexivity|]. now apply words_join_iabf.
Qed.

Definition sample_ir : ir :=
  mkIR FNone (Has (L "static")) (Has (L "Train the model."))
       [(L "dataset_name", mkG (Has (L "name of dataset.")) (Has (L "str")) (Some (DV (VStr (L "mnist")))));
        (L "epochs", mkG (Has (L "number of epochs.")) (Has (L "int")) (Some (DV (VInt 5%Z))))]
       (Has (mkG (Has (L "the trained model.")) (Has (L "Model")) None)) None.

Lemma words_app_nl : forall a b, words (a ++ nl :: b) = words a ++ words b.
Proof. intros a b. now apply words_app_sp_mid. Qed.

Lemma words_join_allsp : forall sep ls, sep <> [] -> allsp sep -> words (join sep ls) = concat (map words ls).
Proof.
  intros sep ls Hne Hs. induction ls as [|x r IH]; [reflexivity|].
  destruct r as [|y r2].
  - cbn [join map concat]. now rewrite app_nil_r.
  - rewrite join_cons_cons. destruct sep as [|d sep']; [congruence|].
    apply allsp_cons in Hs. destruct Hs as [Hd Hs'].
    cbn [app]. rewrite words_app_sp_mid by assumption. rewrite words_app_allsp_l by assumption.
    rewrite IH. reflexivity.
Qed.

Lemma words_join_filter_nonempty : forall ls,
    words (join [nl] (filter nonempty ls)) = concat (map words ls).
Proof.
  intros ls. rewrite words_join_sep by reflexivity. induction ls as [|x r IH]; [reflexivity|].
  cbn [filter]. destruct x as [|c t]; cbn [nonempty map concat]; [exact IH|]. now rewrite IH.
Qed.

(* emit.docstring's final assembly, as a function of the three parts *)
Definition assemble (st : style) (doc : str) (param_lines : list str) (ret : str) : str :=
  let nl0 := match st with Rest => [] | _ => [nl] end in
  let nl1 := match st with Numpydoc => [nl] | _ => [] end in
  let param_lines' := match param_lines, st with
                      | [], _ => param_lines
                      | _, Rest => param_lines
                      | _, _ => arg_token st :: param_lines
                      end in
  let params := join (nl :: match st with Rest => [nl] | _ => [] end) param_lines' in
  [nl] ++ doc ++ [nl; nl] ++ nl0 ++ params ++ [nl] ++ ret ++ [nl] ++ nl1.

Definition ret_part (w : nat) (st : style) (ww edd : bool) (i : ir) : outcome (str * fld gparam) :=
  match ir_returns i with
  | Has g =>
    match param_of_gparam g with
    | None => Err Unmodelled
    | Some p =>
      do sp <- emit_param_str w (L "return_type") p st true true ww edd;
      Ok ((match st with Rest => [] | _ => nl :: return_token st end) ++ [nl] ++ fst sp,
          Has (gparam_of_param (snd sp)))
    end
  | other => Ok ([], other)
  end.

Definition doc_part (w : nat) (ww : bool) (i : ir) : outcome str :=
  match ir_doc i with
  | Missing => Err KeyError
  | FNone => if ww then Err AttributeError else Ok (L "None")
  | Has d => fill_or_id ww w d
  end.

Lemma emit_docstring_assemble : forall w st ww edd i,
    emit_docstring w st ww edd i =
    match params_of (ir_params i) with
    | None => Err Unmodelled
    | Some ps =>
      do doc <- doc_part w ww i;
      do pl <- emit_items (fun k p => emit_param_str w k p st true true ww edd) ps;
      do ret <- ret_part w st ww edd i;
      Ok (assemble st doc (fst pl) (fst ret), i)
    end.
Proof. reflexivity. Qed.

Lemma assemble_words : forall st doc pls ret,
    words (assemble st doc pls ret) =
    words doc
    ++ concat (map words (match pls, st with [], _ => pls | _, Rest => pls | _, _ => arg_token st :: pls end))
    ++ words ret.
Proof.
  intros st doc pls ret. unfold assemble.
  set (pls' := match pls, st with [], _ => pls | _, Rest => pls | _, _ => arg_token st :: pls end).
  change ([nl] ++ doc ++ [nl; nl] ++ ?x) with (nl :: (doc ++ nl :: nl :: x)).
  rewrite words_cons_sp by reflexivity. rewrite words_app_nl. rewrite words_cons_sp by reflexivity.
  f_equal.
  assert (Hj : words (join (nl :: match st with Rest => [nl] | _ => [] end) pls') = concat (map words pls')).
  { apply words_join_allsp; [discriminate|]. destruct st; reflexivity. }
  rewrite (words_app_allsp_l (match st with Rest => [] | _ => [nl] end)) by (destruct st; reflexivity).
  change (?p ++ [nl] ++ ret ++ [nl] ++ ?z) with (p ++ nl :: (ret ++ nl :: z)).
  rewrite words_app_nl, words_app_nl, Hj. f_equal.
  destruct st; [change (words []) with (@nil str)|rewrite (words_allsp [nl]) by reflexivity
                |change (words []) with (@nil str)]; apply app_nil_r.
Qed.

Lemma words_join2 : forall a b,
    words (join [nl] (filter nonempty (cat_options [Some a; Some b]))) = words a ++ words b.
Proof. intros a b. cbn [cat_options]. rewrite words_join_filter_nonempty. cbn [map concat]. now rewrite app_nil_r. Qed.

Lemma words_join1l : forall a,
    words (join [nl] (filter nonempty (cat_options [Some a; None]))) = words a.
Proof. intros a. cbn [cat_options]. rewrite words_join_filter_nonempty. cbn [map concat]. now rewrite app_nil_r. Qed.

Lemma words_join1r : forall b,
    words (join [nl] (filter nonempty (cat_options [None; Some b]))) = words b.
Proof. intros b. cbn [cat_options]. rewrite words_join_filter_nonempty. cbn [map concat]. now rewrite app_nil_r. Qed.

Lemma C18_entry_words : forall w st edd name p tw p1,
    plain_entry st edd (name, p) = true ->
    emit_param_str w name p st true true true edd = Ok (tw, p1) ->
    exists tu, emit_param_str w name p st true true false edd = Ok (tu, p1) /\ words tw = words tu.
Proof.
  intros w st edd name p tw p1 Hpl H. destruct st.
  - unfold plain_entry, filled_lines in Hpl. cbn [fst snd] in Hpl.
    destruct (rest_raw_lines name p true true edd) as [[ls p']|e] eqn:Eraw.
    + cbn [bind fst] in Hpl.
      assert (Hn : Forall (fun l => no_exotic_space l = true) ls).
      { apply Forall_forall. intros l Hl. rewrite forallb_forall in Hpl. now apply Hpl. }
      destruct (C18_rest_entry_lemma w name p true true edd ls p' tw p1 Eraw Hn H)
        as [E1 [Hw [_ [tu [Htu Hwu]]]]].
      subst p1. exists tu. split; [assumption|congruence].
    + unfold emit_param_str in H. rewrite Eraw in H. discriminate.
  - unfold emit_param_str in *.
    destruct (truthy_fld (p_typ p)) as [t|].
    + cbn [fill_or_id] in *.
      destruct (fill w (if is_return name then t else name ++ L " : " ++ t)) as [f1|e] eqn:E1; [|discriminate].
      cbn [bind] in *.
      destruct (truthy_fld (p_doc p)) as [d|].
      * destruct (sdd_doc name p edd) as [[d' p']|e]; [|discriminate]. cbn [bind fst snd] in *.
        destruct (fill w (indent tab d')) as [f2|e] eqn:E2; [|discriminate]. cbn [bind fst snd] in *.
        inversion H; subst. eexists. split; [reflexivity|].
        transitivity (words f1 ++ words f2); [exact (words_join2 f1 f2)|].
        rewrite (fill_words w _ f1 E1), (fill_words w _ f2 E2). symmetry. exact (words_join2 _ _).
      * cbn [bind fst snd] in *. inversion H; subst. eexists. split; [reflexivity|].
        transitivity (words f1); [exact (words_join1l f1)|].
        rewrite (fill_words w _ f1 E1). symmetry. exact (words_join1l _).
    + cbn [bind] in *. destruct (truthy_fld (p_doc p)) as [d|].
      * destruct (sdd_doc name p edd) as [[d' p']|e]; [|discriminate]. cbn [bind fst snd fill_or_id] in *.
        destruct (fill w (indent tab d')) as [f2|e] eqn:E2; [|discriminate]. cbn [bind fst snd] in *.
        inversion H; subst. eexists. split; [reflexivity|].
        transitivity (words f2); [exact (words_join1r f2)|].
        rewrite (fill_words w _ f2 E2). symmetry. exact (words_join1r _).
      * cbn [bind fst snd] in *. inversion H; subst. eexists. split; reflexivity.
  - (* Google: word_wrap is not consulted *)
    exists tw. split; [exact H|reflexivity].
Qed.

Lemma C18_items_words : forall w st edd ps lw ps1,
    forallb (plain_entry st edd) ps = true ->
    emit_items (fun k p => emit_param_str w k p st true true true edd) ps = Ok (lw, ps1) ->
    exists lu, emit_items (fun k p => emit_param_str w k p st true true false edd) ps = Ok (lu, ps1)
               /\ Forall2 (fun a b => words a = words b) lw lu.
Proof.
  intros w st edd ps. induction ps as [|[k p] r IH]; intros lw ps1 Hpl H.
  - cbn [emit_items] in *. inversion H; subst. exists []. split; [reflexivity|constructor].
  - cbn [forallb] in Hpl. apply andb_true_iff in Hpl. destruct Hpl as [Hp Hr].
    cbn [emit_items] in *.
    destruct (emit_param_str w k p st true true true edd) as [[tw p1]|e] eqn:E1; [|discriminate].
    cbn [bind fst snd] in H.
    destruct (emit_items (fun k p => emit_param_str w k p st true true true edd) r) as [[lw' ps']|e] eqn:E2;
      [|discriminate].
    cbn [bind fst snd] in H. inversion H; subst.
    destruct (C18_entry_words w st edd k p tw p1 Hp E1) as [tu [Etu Hw]].
    destruct (IH lw' ps' Hr eq_refl) as [lu [Elu Hf]].
    rewrite Etu. cbn [bind fst snd]. rewrite Elu. cbn [bind fst snd].
    exists (tu :: lu). split; [reflexivity|now constructor].
Qed.

Lemma Forall2_words_concat : forall a b, Forall2 (fun x y => words x = words y) a b ->
                                         concat (map words a) = concat (map words b).
Proof. intros a b H. induction H as [|x y a' b' Hxy Hr IH]; [reflexivity|]. cbn [map concat]. now rewrite Hxy, IH. Qed.

Lemma arg_lines_words : forall st lw lu, Forall2 (fun a b => words a = words b) lw lu ->
    concat (map words (match lw, st with [], _ => lw | _, Rest => lw | _, _ => arg_token st :: lw end))
    = concat (map words (match lu, st with [], _ => lu | _, Rest => lu | _, _ => arg_token st :: lu end)).
Proof.
  intros st lw lu Hf. pose proof (Forall2_words_concat _ _ Hf) as Hc.
  inversion Hf; subst; [reflexivity|]. destruct st; cbn [map concat] in *; congruence.
Qed.

(* the whole docstring: inside Fill's fragment, emit.docstring with word_wrap on succeeds only if it succeeds
   with word_wrap off, gives back the same IR, and the two texts have the same words in the same order *)
Lemma C18_docstring_words_lemma : forall w st edd i tw i1,
    ir_plain st edd i = true ->
    emit_docstring w st true edd i = Ok (tw, i1) ->
    exists tu, emit_docstring w st false edd i = Ok (tu, i1) /\ words tw = words tu.
Proof.
  intros w st edd i tw i1 Hpl H. rewrite emit_docstring_assemble in *.
  unfold ir_plain in Hpl. apply andb_true_iff in Hpl. destruct Hpl as [Hps Hret].
  destruct (params_of (ir_params i)) as [ps|]; [|discriminate].
  unfold doc_part in *. destruct (ir_doc i) as [| |d] eqn:Ed; try discriminate.
  cbn [fill_or_id] in *. destruct (fill w d) as [d'|e] eqn:Efd; [|discriminate]. cbn [bind] in *.
  destruct (emit_items (fun k p => emit_param_str w k p st true true true edd) ps) as [[lw ps1]|e] eqn:Ei;
    [|discriminate].
  destruct (C18_items_words w st edd ps lw ps1 Hps Ei) as [lu [Elu Hf]].
  rewrite Elu. cbn [bind fst snd] in *.
  unfold ret_part in *. destruct (ir_returns i) as [| |g].
  - cbn [bind fst snd] in *. inversion H; subst. eexists. split; [reflexivity|].
    rewrite !assemble_words, (fill_words w d d' Efd), (arg_lines_words st lw lu Hf). reflexivity.
  - cbn [bind fst snd] in *. inversion H; subst. eexists. split; [reflexivity|].
    rewrite !assemble_words, (fill_words w d d' Efd), (arg_lines_words st lw lu Hf). reflexivity.
  - destruct (param_of_gparam g) as [p|]; [|discriminate].
    destruct (emit_param_str w (L "return_type") p st true true true edd) as [[rw p1]|e] eqn:Er; [|discriminate].
    destruct (C18_entry_words w st edd _ p rw p1 Hret Er) as [ru [Eru Hwr]].
    rewrite Eru. cbn [bind fst snd] in *. inversion H; subst. eexists. split; [reflexivity|].
    rewrite !assemble_words, (fill_words w d d' Efd), (arg_lines_words st lw lu Hf).
    change (?h ++ [nl] ++ ?t) with (h ++ nl :: t). rewrite !words_app_nl, Hwr. reflexivity.
Qed.

(* ... and neither call writes into the caller's IR *)
Lemma C18_docstring_words_pure_lemma : forall w st edd i tw i1,
    ir_plain st edd i = true ->
    emit_docstring w st true edd i = Ok (tw, i1) ->
    i1 = i /\ exists tu, emit_docstring w st false edd i = Ok (tu, i) /\ words tw = words tu.
Proof.
  intros w st edd i tw i1 Hpl H. pose proof (emit_docstring_pure _ _ _ _ _ _ _ H) as E. subst i1.
  split; [reflexivity|]. exact (C18_docstring_words_lemma w st edd i tw i Hpl H).
Qed.
