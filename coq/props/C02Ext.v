(* C02Ext -- additions to props/C02.v: the docstring hypothesis doc_agrees of
   C02_partial is discharged.  Lemmas in proofs/C02DocLink.v; definitions in
   model/C02DocLinkDefs.v (class_docstring_text = DocEmit.to_docstring on the folded IR with indent_level 1,
   emit_types off; class_docstring_ir = emit.class_'s :param -> :cvar rewriting (EmitAst.class_docstring),
   ast.get_docstring's inspect.cleandoc (SyncProps.cleandoc, printable ASCII), parse.class_'s :cvar -> :param
   rewriting, DocParse.parse_dot_docstring with emit_default_doc=False).

   Proved here:
   - that doc_agrees follows from the DocEmit / DocParse models for the class docstring (C02_doc_link,
     C02_partial_closed) for every IR inside guard_C02_ast that also satisfies the boolean side condition
     doc_link_ok w emit_default_doc word_wrap i (model/C02DocLinkDefs.v): the summary and every documented prose are
     one clean printable-ASCII line without ReST field token and without announcement phrase, no prose ends in a
     backslash or starts with Optional, documented names do not end in kwargs, at least one PARAMETER is documented;
     with emit_default_doc the default sentence of a documented entry meets the guard of C17 and its value settles
     when read without a type; with word_wrap every line handed to textwrap.fill is one that fill leaves alone.
     guard_C02_ast alone is NOT enough (C02_doc_link_needs_side_condition; one computed witness per reason in
     C02_doc_link_witnesses).
   NOT proved here:
   - the link outside doc_link_ok where the real code nevertheless round-trips: names ending in kwargs, prose
     starting with Optional under an Optional[...] type, an empty summary, a documented return entry without any
     documented parameter, no documented entry at all (numpydoc reader, outside DocParse), non-ASCII prose
     (outside the cleandoc model), lines that textwrap.fill re-flows without changing the parse;
   - ast.unparse followed by ast.parse is the identity on the emitted tree (R1), and the other bullets of
     props/C02.v unchanged;
   - the link for prose ending in a backslash, in general: doc_link_ok excludes it although pure_utils.multiline keeps the
     backslash (C02_trailing_backslash_regression is one such point where the link holds); the clause is an
     over-restriction. *)
From Coq Require Import List Bool.
From Coq Require String.
Import String.StringSyntax.
From DT Require Import PyStr PyVal Defaults PyAst IR TyExpr EmitAst ParseAst C02Spec C06Spec C02Codec C02DocLinkDefs.
From DT Require C02DocLink.
Import ListNotations.

(* the link: inside the guard and the side condition, the text to_docstring produces for the class is read back by
   parse.docstring (after the two rewritings and cleandoc) as an IR d that agrees; any width w, both values of
   emit_default_doc and word_wrap, any number of parameters *)
Theorem C02_doc_link : forall w edd ww i,
    guard_C02_ast i = true -> doc_link_ok w edd ww i = true ->
    exists text d, class_docstring_text w edd ww i = Ok text /\ class_docstring_ir text = Ok d
                   /\ doc_agrees i d = true.
Proof. exact C02DocLink.C02_doc_link_lemma. Qed.
Print Assumptions C02_doc_link.

(* C02_partial with the docstring text and the docstring-derived IR instantiated by the composed models:
   no docstring hypothesis *)
Theorem C02_partial_closed : forall w pt i cn bs ds edd ww it ww',
    guard_C02_ast i = true -> doc_link_ok w edd ww i = true ->
    exists text s i',
      class_docstring_text w edd ww i = Ok text
      /\ emit_class pt i false cn bs ds ww (class_docstring_text w edd ww i) = Ok (s, i)
      /\ parse_class (Some (class_docstring_ir text)) (CStmt s) None it ww' = Ok i'
      /\ ir_params i' = norm_params_C02 (ir_params i)
      /\ ir_returns i' = norm_returns_C02 (ir_returns i)
      /\ same_interface_strict (zero_default_norm i) i' = true
      /\ same_interface (zero_default_norm i) i' = true
      /\ same_interface i i' = true.
Proof. exact C02DocLink.C02_partial_closed_lemma. Qed.
Print Assumptions C02_partial_closed.

(* the structural steps, re-exported: to_docstring in closed form, emit.class_'s rewriting, cleandoc *)
Theorem C02_class_docstring_closed_form : forall S e1 ps r,
    C02DocLink.sum_fine S -> C02DocLink.all_params (e1 :: ps) ->
    (forall e, In e ((e1 :: ps) ++ C02DocLink.ret_list r) -> C02DocLink.entry_fine e) ->
    class_docstring (C02DocLink.T1 S ((e1 :: ps) ++ C02DocLink.ret_list r))
    = C02DocLink.T3 S ((e1 :: ps) ++ C02DocLink.ret_list r).
Proof. exact C02DocLink.class_docstring_T1. Qed.
Print Assumptions C02_class_docstring_closed_form.

Theorem C02_cleandoc_closed_form : forall S es,
    C02DocLink.sum_fine S -> es <> [] -> (forall e, In e es -> C02DocLink.entry_plain e) ->
    SyncProps.cleandoc (C02DocLink.T3 S es) = C02DocLink.cleaned S es.
Proof. exact C02DocLink.cleandoc_T3. Qed.
Print Assumptions C02_cleandoc_closed_form.

(* a non-trivial IR (four parameters, defaults, an undocumented parameter, a return entry) meets the guard and the side
   condition for all four option combinations, and the composed models agree there *)
Theorem C02_doc_link_nonvacuous :
  guard_C02_ast C02DocLink.w_link_ok = true
  /\ forallb (fun o => doc_link_ok 100 (fst o) (snd o) C02DocLink.w_link_ok
                       && doc_link_b 100 (fst o) (snd o) C02DocLink.w_link_ok)
             [(false, false); (false, true); (true, false); (true, true)] = true.
Proof. exact C02DocLink.C02_doc_link_nonvacuous. Qed.
Print Assumptions C02_doc_link_nonvacuous.

(* the side condition is needed: inside guard_C02_ast, outside doc_link_ok, the link fails *)
Theorem C02_doc_link_witnesses :
  C02DocLink.link_fails true C02DocLink.w_no_terminal = true
  /\ C02DocLink.link_fails false C02DocLink.w_tab = true
  /\ C02DocLink.link_fails false C02DocLink.w_token = true
  /\ C02DocLink.link_fails false C02DocLink.w_announces = true
  /\ C02DocLink.link_fails false C02DocLink.w_no_entry = true.
Proof. exact C02DocLink.C02_doc_link_refuted_outside. Qed.
Print Assumptions C02_doc_link_witnesses.

Theorem C02_doc_link_needs_side_condition :
  ~ (forall w edd ww i, guard_C02_ast i = true ->
       exists text d, class_docstring_text w edd ww i = Ok text /\ class_docstring_ir text = Ok d
                      /\ doc_agrees i d = true).
Proof. exact C02DocLink.C02_doc_link_needs_side_condition. Qed.
Print Assumptions C02_doc_link_needs_side_condition.

(* prose ending in a backslash is inside the guard, in no finding class, and the docstring link holds there
   (pure_utils.multiline keeps the backslash), although doc_link_ok excludes it *)
Theorem C02_trailing_backslash_regression :
  finding_class_C02 (mkO02 false false) C02DocLink.w_backslash = None
  /\ finding_class_C02 (mkO02 true true) C02DocLink.w_backslash = None
  /\ C02_domain C02DocLink.w_backslash = true /\ guard_C02_ast C02DocLink.w_backslash = true
  /\ doc_link_b 100 false false C02DocLink.w_backslash = true.
Proof. exact C02DocLink.C02_trailing_backslash_regression. Qed.
Print Assumptions C02_trailing_backslash_regression.
