(* The refined C04 classifier (model/C04Spec2.v) against C04Spec's: old classes and their names are kept, the classes
   K4r_summary_quoted and K4r_help_quoted are added only where the old classifier is silent, the refined guard lies
   inside the old one; for each new class a classified sample, and an unclassified neighbour. *)
From Coq Require Import List Ascii Bool Arith ZArith.
From Coq Require String.
Import String.StringSyntax.
From DT Require Import PyStr PyVal Defaults IR C02Spec C04Spec C04Spec2 C04Codec C04Compose RefineFacts ListFacts.
Import ListNotations.

Lemma new_classes_C04_new : forall i c, In c (new_classes_C04 i) -> c = K4r_summary_quoted \/ c = K4r_help_quoted.
Proof. intros i c. apply in_flag2. Qed.

Lemma finding_class_C04_r_adds : forall o i c,
    finding_class_C04_r o i = Some c ->
    (exists k, finding_class_C04 o i = Some k /\ c = K4r_old k)
    \/ (finding_class_C04 o i = None /\ (c = K4r_summary_quoted \/ c = K4r_help_quoted)).
Proof.
  intros o i c H. destruct (refine_adds K4r_old _ _ c H) as [Hold|[Hnone Hnew]]; [left; exact Hold|].
  right. split; [exact Hnone|]. apply (new_classes_C04_new i). apply hd_error_In. exact Hnew.
Qed.

Lemma finding_class_C04_r_old : forall o i k,
    finding_class_C04 o i = Some k -> finding_class_C04_r o i = Some (K4r_old k).
Proof. intros o i k. apply (refine_old K4r_old). Qed.

(* a kept class keeps its name, so the KNOWN_FINDINGS lines of the old classes stay valid *)
Lemma c04_class_r_name_old : forall k, c04_class_r_name (K4r_old k) = c04_class_name k.
Proof. reflexivity. Qed.

Lemma guard_C04_r_inside : forall o i, guard_C04_r o i = true -> guard_C04 o i = true.
Proof. intros o i. apply (refine_guard K4r_old). Qed.

(* the point of theorem C05_region_hole_quoted_summary (props/C05Ext.v; the same description as
   C05ClosedFacts.w_quoted_summary): unnamed by the old classifier, named by the refined one, in the domain, and the
   composed model of the argparse round trip fails on it *)
Definition w4_quoted_summary : ir :=
  mkIR FNone (Has (L "static")) (Has (L "'quoted'")) [(L "x", PG4 (L "first.") (L "int") (Some (DV (VInt 1))))] FNone None.

Lemma quoted_summary_classified :
  finding_class_C04 o4 w4_quoted_summary = None
  /\ finding_class_C04_r o4 w4_quoted_summary = Some K4r_summary_quoted
  /\ C04_domain w4_quoted_summary = true /\ fails4 w4_quoted_summary = true.
Proof. vm_compute. repeat split; reflexivity. Qed.

(* the same mechanism on the help text of an option *)
Definition w4_quoted_help : ir := w4 (L "x") (PG4 (L "'quoted'") (L "int") (Some (DV (VInt 1)))).

Lemma quoted_help_classified :
  finding_class_C04 o4 w4_quoted_help = None
  /\ finding_class_C04_r o4 w4_quoted_help = Some K4r_help_quoted
  /\ C04_domain w4_quoted_help = true /\ fails4 w4_quoted_help = true.
Proof. vm_compute. repeat split; reflexivity. Qed.

(* a pair of quote marks alone, a quote mark at one end only, or different marks at the two ends are carried: not in
   the class *)
Lemma unbalanced_quotes_unclassified :
  forallb (fun s => match finding_class_C04_r o4 (mkIR FNone (Has (L "static")) (Has s)
                                                   [(L "x", PG4 (L "first.") (L "int") (Some (DV (VInt 1))))] FNone None)
                    with None => true | Some _ => false end)
          [L "''"; L "'quoted"; L "quoted'"; [ch 39; ch 97; ch 34]; L "it's"] = true.
Proof. vm_compute. reflexivity. Qed.
