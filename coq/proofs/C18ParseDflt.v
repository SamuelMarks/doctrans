(* C18ParseDflt: the sample for prose that ends with a whole default sentence ( d Defaults to s ) which the wrapper
   does not split, and the witness for a sentence that it does split.  The theorems are in C18Parse.v. *)
From Coq Require Import List Ascii Bool Arith ZArith Lia.
From Coq Require String.
Import String.StringSyntax.
From DT Require Import PyStr Sexp PyVal TyExpr PureUtils Defaults PyAst IR Extracted Fill C17Spec.
From DT Require Import DocEmit C18Spec DocParse C01Spec C18ParseSpec.
From DT Require Import PyStrFacts DefaultsFacts SplitFacts FillFacts DocEmitFacts C18Facts DocParseFacts C01RestLink C18Parse.
Import ListNotations.

(* a typed int default, an untyped parameter, a typed str default, a return entry; prose that wraps *)
Definition c18_dflt_ir : ir :=
  mkIR FNone (Has (L "static")) (Has (L "Summary words that go on and on for a while."))
       [(L "alpha", gp18 (L "first parameter with a long prose that needs wrapping.") (Some (L "int")) (Some (VInt 5)));
        (L "beta", gp18 (L "second one also quite long enough to wrap around the width limit") None None);
        (L "gamma", gp18 (L "third parameter, a string with a default, long prose.") (Some (L "str"))
                         (Some (VStr (L "a b c"))))]
       (Has (gp18 (L "the result value described at great length so that it wraps too") (Some (L "str")) None)) None.

Lemma c18_dflt_facts :
  guard_C01_rest true c18_dflt_ir = true /\ guard_C01_rest false c18_dflt_ir = true
  /\ guard_C18_rest_pieces_d 30 c18_dflt_ir = true /\ guard_C18_rest_pieces_d 50 c18_dflt_ir = true
  /\ guard_C18_rest_pieces 30 c18_dflt_ir = false
  /\ guard_nowrap 50 DocEmit.Rest true c18_dflt_ir = false
  /\ C18_rest_parse_at_b 42 false c18_dflt_ir = false.
Proof.
  assert (E : guard_C01_rest true c18_dflt_ir = true /\ guard_C01_rest false c18_dflt_ir = true
              /\ guard_C18_rest_pieces_d 30 c18_dflt_ir = true /\ guard_C18_rest_pieces_d 50 c18_dflt_ir = true
              /\ guard_C18_rest_pieces 30 c18_dflt_ir = false
              /\ guard_nowrap 50 DocEmit.Rest true c18_dflt_ir = false
              /\ C18_wrapped_read_b 42 false c18_dflt_ir = false) by (vm_compute; repeat split).
  destruct E as [C1 [C0 [P30 [P50 [Q30 [Hnw W]]]]]].
  exact (conj C1 (conj C0 (conj P30 (conj P50 (conj Q30 (conj Hnw (C18_rest_parse_at_b_wrapped _ _ _ W))))))).
Qed.

Lemma C18_rest_parse_d_nonvacuous_lemma :
  guard_C18_rest_parse_d 30 true c18_dflt_ir = true /\ guard_C18_rest_parse_d 30 false c18_dflt_ir = true
  /\ guard_C18_rest_parse_d 50 true c18_dflt_ir = true /\ guard_C18_rest_parse_d 50 false c18_dflt_ir = true
  /\ guard_C18_rest_parse 30 true c18_dflt_ir = false
  /\ guard_nowrap 50 DocEmit.Rest true c18_dflt_ir = false
  /\ guard_C18_rest_parse_d 42 true c18_dflt_ir = false /\ C18_rest_parse_at_b 42 false c18_dflt_ir = false.
Proof.
  destruct c18_dflt_facts as [C1 [C0 [P30 [P50 [Q30 [Hnw B42]]]]]].
  split; [exact (guard_C18_rest_parse_d_intro _ _ _ (Nat.lt_0_succ _) C1 P30)|].
  split; [exact (guard_C18_rest_parse_d_intro _ _ _ (Nat.lt_0_succ _) C0 P30)|].
  split; [exact (guard_C18_rest_parse_d_intro _ _ _ (Nat.lt_0_succ _) C1 P50)|].
  split; [exact (guard_C18_rest_parse_d_intro _ _ _ (Nat.lt_0_succ _) C0 P50)|].
  split; [exact (guard_C18_rest_parse_pieces_false _ _ _ Q30)|]. split; [exact Hnw|]. split; [|exact B42].
  exact (guard_C18_rest_parse_d_pieces_false _ _ _ (C18_rest_pieces_d_false _ _ _ (Nat.lt_0_succ _) C0 B42)).
Qed.

(* the typed parameter whose default sentence is split, read with emit_default_doc=False: inside the ReST guard of
   C01, inside guard_C18 (finding_class_C18 answers None), and the wrapped text reads back a different default
   (the line break and the indent are inside it); with emit_default_doc=True the same point is transparent *)
Lemma C18_default_split_typed_witness_lemma :
  guard_C01_rest false c18_w_default_split = true
  /\ finding_class_C18 30 (E_docstring DocEmit.Rest) c18_w_default_split = None
  /\ C18_rest_parse_at_b 30 false c18_w_default_split = false
  /\ C18_rest_parse_at_b 30 true c18_w_default_split = true
  /\ guard_C18_rest_parse_d 30 false c18_w_default_split = false
  /\ (exists tw dw pw, emit_docstring 30 DocEmit.Rest true true c18_w_default_split = Ok (tw, c18_w_default_split)
                       /\ parse_dot_docstring ng_unmodelled tw false true false = Ok dw
                       /\ ir_params dw = [(L "alpha", pw)]
                       /\ g_default pw = Some (DV (VStr (L "a b c d" ++ [nl] ++ L "    e f g h")))).
Proof.
  destruct c18_default_split_facts as [C0 [Hcls [_ [B0 B1]]]].
  split; [exact C0|]. split; [exact Hcls|]. split; [exact B0|]. split; [exact B1|].
  split; [exact (C18_rest_parse_d_guard_false _ _ _ B0)|].
  eexists. eexists. eexists. split; [vm_compute; reflexivity|]. split; [vm_compute; reflexivity|].
  split; [vm_compute; reflexivity|]. vm_compute. reflexivity.
Qed.
