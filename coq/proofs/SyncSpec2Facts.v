(* The refined sync classifiers (model/SyncSpec2.v) against SyncSpec's: each refinement returns the old class of
   model/SyncSpec.v wherever there is one, and otherwise only ever ADDS one of the two new classes, each under the
   law instance that names it; one computed lemma per recorded witness (old classifier None, refined classifier the new
   class). *)
From Coq Require Import List Ascii Bool Arith.
From Coq Require String.
Import String.StringSyntax.
From DT Require Import PyStr Sexp PyVal FS Sync SyncSpec SyncSpec2 RefineFacts.
Import ListNotations.

Lemma classify_install_r_old : forall d c k,
    classify_install d (ob2_base c) = Some k -> classify_install_r d c = Some (K2_old k).
Proof. intros d c k. apply (refine_old K2_old). Qed.

Lemma classify_repeat_r_old : forall d c0 c1 k,
    classify_repeat d (ob2_base c0) (option_map ob2_base c1) = Some k -> classify_repeat_r d c0 c1 = Some (K2_old k).
Proof. intros d c0 c1 k. apply (refine_old K2_old). Qed.

Lemma classify_target_r_old : forall d c0 c1 k,
    classify_target d (ob2_base c0) (option_map ob2_base c1) = Some k -> classify_target_r d c0 c1 = Some (K2_old k).
Proof. exact classify_repeat_r_old. Qed.

Lemma classify_frame_r_old : forall od ods wm tc,
    classify_frame_r od ods wm (option_map K2_old tc) = option_map K2_old (classify_frame od ods wm tc).
Proof.
  intros od ods wm tc. unfold classify_frame_r, classify_frame.
  destruct (od && wm); [reflexivity|]. destruct (ods && wm); reflexivity.
Qed.

Lemma classify_install_r_adds : forall d c k2,
    classify_install_r d c = Some k2 ->
    (exists k, classify_install d (ob2_base c) = Some k /\ k2 = K2_old k)
    \/ (classify_install d (ob2_base c) = None /\ standin_replaced_on d c = true /\ k2 = K2_standin_replaced).
Proof.
  intros d c k2 H. destruct (refine_adds K2_old _ _ k2 H) as [Hold|[Hnone Hnew]]; [left; exact Hold|].
  right. split; [exact Hnone|]. destruct (standin_replaced_on d c); [|discriminate Hnew].
  injection Hnew as Hnew. split; [reflexivity|]. symmetry. exact Hnew.
Qed.

Lemma classify_repeat_r_adds : forall d c0 c1 k2,
    classify_repeat_r d c0 c1 = Some k2 ->
    (exists k, classify_repeat d (ob2_base c0) (option_map ob2_base c1) = Some k /\ k2 = K2_old k)
    \/ (classify_repeat d (ob2_base c0) (option_map ob2_base c1) = None
        /\ (exists c, c1 = Some c /\ standin_replaced_on d c = true) /\ k2 = K2_standin_replaced).
Proof.
  intros d c0 c1 k2 H. destruct (refine_adds K2_old _ _ k2 H) as [Hold|[Hnone Hnew]]; [left; exact Hold|].
  right. split; [exact Hnone|]. destruct c1 as [c|]; [|discriminate Hnew].
  destruct (standin_replaced_on d c) eqn:S; [|discriminate Hnew].
  injection Hnew as Hnew. split; [exists c; split; [reflexivity|exact S]|]. symmetry. exact Hnew.
Qed.

Lemma classify_frame_r_adds : forall od ods wm tc k2,
    classify_frame_r od ods wm tc = Some k2 ->
    (exists k, classify_frame od ods wm None = Some k /\ k2 = K2_old k) \/ tc = Some k2.
Proof.
  intros od ods wm tc k2 H. destruct (refine_adds K2_old _ _ k2 H) as [Hold|[_ Hnew]]; [left; exact Hold|right; exact Hnew].
Qed.

Lemma classify_raise_r_adds : forall c k2,
    classify_raise_r c = Some k2 -> forward_declared_raises_on c = true /\ k2 = K2_forward_declared_raises.
Proof.
  intros c k2 H. unfold classify_raise_r in H.
  destruct (forward_declared_raises_on c) eqn:F; [|discriminate H].
  injection H as H. split; [reflexivity|]. symmetry. exact H.
Qed.

(* what each new class needs of the observations (so that a different way of failing is not absorbed) *)
Lemma standin_replaced_on_needs : forall d c,
    standin_replaced_on d c = true ->
    d = false /\ ob_found (ob2_base c) = true /\ ob_cmp (ob2_base c) = false /\ ob_replaced (ob2_base c) = true
    /\ ob_rebinding (ob2_base c) = false /\ ob2_standin_first c = true.
Proof.
  intros d c H. unfold standin_replaced_on in H. cbv zeta in H.
  rewrite !andb_true_iff, !negb_true_iff in H. tauto.
Qed.

Lemma forward_declared_raises_on_needs : forall c,
    forward_declared_raises_on c = true ->
    ob_found (ob2_base c) = true /\ ob2_found_assign c = true /\ ob2_fun_kind c = true /\ ob2_assert_before_emit c = true.
Proof.
  intros c H. unfold forward_declared_raises_on in H. rewrite !andb_true_iff in H. tauto.
Qed.

Lemma guard_sync_target_r_inside : forall d c0 c1,
    guard_sync_target_r d c0 c1 = true -> guard_sync_target d (ob2_base c0) (option_map ob2_base c1) = true.
Proof.
  intros d c0 c1 H. unfold guard_sync_target_r in H. unfold guard_sync_target.
  destruct (classify_install_r d c0); [discriminate H|].
  destruct (classify_target_r d c0 c1) as [k2|] eqn:E; [discriminate H|].
  destruct (classify_target d (ob2_base c0) (option_map ob2_base c1)) as [k|] eqn:E0; [|reflexivity].
  apply classify_target_r_old in E0. rewrite E0 in E. discriminate E.
Qed.

(* witnesses (the observations are those recorded from the unchanged /repo on the files under findings/) *)

(* (A) truth class ConfigClass (a: int = 5); target file: import sys / if sys.version_info < (3, 8): class ConfigClass
   (stand_in: int = 0) / class ConfigClass (stale, b: int = 1).  Every run: existed, found, differs, replaced; the
   definition is present, no enclosing class, no rebinding; the stand-in is what the rewrite meets first *)
Definition wA_call : call_obs2 := mkObs2 (mkObs true true false true true false false) true false false false.

Lemma standin_witness_install :
  classify_install false (ob2_base wA_call) = None
  /\ classify_install_r false wA_call = Some K2_standin_replaced.
Proof. vm_compute. split; reflexivity. Qed.

Lemma standin_witness_repeat :
  classify_target false (ob2_base wA_call) (Some (ob2_base wA_call)) = None
  /\ classify_target_r false wA_call (Some wA_call) = Some K2_standin_replaced.
Proof. vm_compute. split; reflexivity. Qed.

Lemma standin_witness_frame :
  classify_frame false false true (classify_target false (ob2_base wA_call) (Some (ob2_base wA_call))) = None
  /\ classify_frame_r false false true (classify_target_r false wA_call (Some wA_call)) = Some K2_standin_replaced.
Proof. vm_compute. split; reflexivity. Qed.

(* the same file without the conditional stand-in (the rewrite meets the definition itself): no class, old or new *)
Lemma standin_absent_unclassified :
  classify_install_r false (mkObs2 (mkObs true true false true true false false) false false false false) = None.
Proof. vm_compute. reflexivity. Qed.

(* (B) target file: train = None followed by def train with the keyword-only parameter a: int = 5.  Every run: existed, found (the assignment), the call raised
   AssertionError before the emitter was entered (so nothing compared, nothing replaced).  The old classifiers have no
   class for a raise; on this call's observations the old install classifier answers found-definition-not-replaced,
   which stands for a stale definition left in place (ABSORBS: interface), not for a raise *)
Definition wB_call : call_obs2 := mkObs2 (mkObs true true false false false false true) false true true true.

Lemma forward_declared_witness :
  classify_raise_r wB_call = Some K2_forward_declared_raises
  /\ classify_install false (ob2_base wB_call) = Some K_found_not_replaced
  /\ classify_target false (ob2_base wB_call) (Some (ob2_base wB_call)) = None.
Proof. vm_compute. repeat split; reflexivity. Qed.

(* a raise of the same target that is not that assertion (or a class target, or a found definition) stays unclassified *)
Lemma other_raises_unclassified :
  classify_raise_r (mkObs2 (mkObs true true false false false false true) false true true false) = None
  /\ classify_raise_r (mkObs2 (mkObs true true false false false false true) false true false true) = None
  /\ classify_raise_r (mkObs2 (mkObs true true false false false false false) false false true true) = None.
Proof. vm_compute. repeat split; reflexivity. Qed.
