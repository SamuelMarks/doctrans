(* C01 (extension) -- docstring round trip, numpydoc and Google styles: the scan link.
   Lemmas live in proofs/NGScanLink.v (which builds on proofs/DocParseNGFacts.v).

   The scan link is the hypothesis [scan_link_b style i = true] of C01.C01_ng_partial_modulo_scan: the indent-driven
   scanner of DocParseNG, run on the text the specification printer text_of_o writes for i, returns exactly the blocks
   scanned_of, and the text is over the alphabet.  It holds for every IR inside guard_C01_ng, for both styles, with
   no further side condition: any number of parameters, any length of summary / type / prose / default text, with or
   without a return entry (google; numpydoc with parameters; numpydoc with only a return entry; numpydoc with neither).

   Not proved: for numpydoc/google the round trip is stated about the specification printer C01SpecNG.text_of_o
   (word_wrap off, default sentences on); that this printer equals the DocEmit model / the real emitter is covered by
   the differential correspondence check, not by a theorem (the ReST style has C01RestLink for this).
   word_wrap=True emission is outside the statement.  Modelled, not verified: ast.parse/unparse on type strings,
   literal_eval/float on scalar text, ASCII-only text. *)
From Coq Require Import List.
From DT Require Import PyStr PyVal IR.
From DT Require DocParseNG C01SpecNG DocParseNGFacts NGScanLink.

(* the scan link itself: discharges the second hypothesis of C01.C01_ng_partial_modulo_scan *)
Theorem C01_ng_scan_link : forall style i,
    C01SpecNG.guard_C01_ng style i = true -> C01SpecNG.scan_link_b style i = true.
Proof. exact NGScanLink.scan_link_holds. Qed.
Print Assumptions C01_ng_scan_link.

Theorem C01_ng_scan_blocks : forall style i,
    C01SpecNG.guard_C01_ng style i = true ->
    exists text, C01SpecNG.text_of_o style i = Ok text
                 /\ forallb DocParseNG.in_alphabet text = true
                 /\ DocParseNG.scan_ng style text = Ok (C01SpecNG.scanned_of style i).
Proof. exact NGScanLink.scan_ng_guard. Qed.
Print Assumptions C01_ng_scan_blocks.

(* guard => the text is written, recognised as its own style, parsed, and the result is the same interface *)
Theorem C01_ng_partial : forall style i,
    C01SpecNG.guard_C01_ng style i = true -> C01SpecNG.C01_ng_at style i.
Proof. exact NGScanLink.C01_ng_partial. Qed.
Print Assumptions C01_ng_partial.

(* not vacuous: three parameters with str / int defaults and a return entry with a default; and two parameters
   (one without prose) with a return entry, no defaults -- both inside the guard in both styles *)
Theorem C01_ng_partial_nonvacuous :
  C01SpecNG.guard_C01_ng DocParseNG.SGoogle NGScanLink.w_ng = true
  /\ C01SpecNG.guard_C01_ng DocParseNG.SNumpydoc NGScanLink.w_ng = true
  /\ C01SpecNG.guard_C01_ng DocParseNG.SGoogle NGScanLink.w_ng_plain = true
  /\ C01SpecNG.guard_C01_ng DocParseNG.SNumpydoc NGScanLink.w_ng_plain = true.
Proof. exact NGScanLink.C01_ng_partial_nonvacuous. Qed.
Print Assumptions C01_ng_partial_nonvacuous.
