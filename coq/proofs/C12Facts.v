(* C12Facts: independence of parse_function / merge_inner_function from every set-iteration order,
   and the assembled C12 statement. *)
From Coq Require Import List Ascii Bool Arith ZArith Lia Permutation.
From Coq Require String.
Import String.StringSyntax.
From DT Require Import PyStr Sexp PyVal PureUtils Defaults PyAst IR Merge ParseSig C12Spec PyStrFacts MergeFacts.
Import ListNotations.

Lemma parse_function_perm : C12_function_statement.
Proof.
  intros pi pi' pj pj' d fd it ww ft fnm Hpi Hpi' Hpj Hpj'. unfold parse_function.
  destruct (pf_prepare d fd ft fnm) as [pp|e]; cbn [bind]; [|reflexivity].
  rewrite (ir_merge_perm pi pi' pj pj' _ _ Hpi Hpi' Hpj Hpj'). reflexivity.
Qed.

Lemma merge_inner_function_perm : C12_inner_statement.
Proof.
  intros p1 p1' q1 q1' p2 p2' q2 q2' c it t n d H1 H1' H2 H2' H3 H3' H4 H4'.
  unfold merge_inner_function.
  destruct (find_inner_function c n) as [[f|]|e]; cbn [bind]; try reflexivity.
  destruct f as [fname a body decos rets| | | | | |]; try reflexivity.
  rewrite (parse_function_perm p1 p1' q1 q1' _ _ _ _ _ _ H1 H1' H2 H2').
  destruct (parse_function p1' q1' d (SFunc fname a body decos rets) it true _ _) as [inner|e]; cbn [bind]; [|reflexivity].
  apply ir_merge_perm; assumption.
Qed.

Lemma state_independent : C12_state_statement.
Proof. intros S st st' pi pj d fd it ww ft fnm. reflexivity. Qed.

Lemma C12_lemma : C12_statement.
Proof.
  split; [|split; [|split; [|split]]].
  - exact join_non_none_perm.
  - exact ir_merge_perm.
  - exact parse_function_perm.
  - exact merge_inner_function_perm.
  - exact state_independent.
Qed.

Lemma parse_function_canonical : forall pi pj d fd it ww ft fnm, perm_ok pi -> perm_ok pj ->
  parse_function pi pj d fd it ww ft fnm = parse_function id_perm id_perm d fd it ww ft fnm.
Proof.
  intros. apply parse_function_perm; auto using id_perm_ok.
Qed.

(* the finding class of C12Spec: outside it every default of the parsed IR is a value with a
   process-independent text (no raw node) *)
Lemma C12_printable_lemma : forall pi pj d fd r, perm_ok pi -> perm_ok pj ->
  finding_class_C12 d fd = None ->
  parse_function pi pj d fd false true None None = Ok r -> ir_printable r.
Proof.
  intros pi pj d fd r Hpi Hpj Hc Hp.
  rewrite (parse_function_canonical pi pj) in Hp by assumption.
  unfold finding_class_C12 in Hc. rewrite Hp in Hc. unfold finding_class_C12_ir in Hc.
  destruct (ir_has_node_default r) eqn:E; [discriminate|].
  unfold ir_has_node_default in E. apply orb_false_iff in E. destruct E as [E1 E2].
  split.
  - intros k p Hin e He.
    assert (Hx : existsb (fun kv => gparam_has_node (snd kv)) (ir_params r) = true).
    { apply existsb_exists. exists (k, p). split; [exact Hin|]. cbn [snd]. unfold gparam_has_node. rewrite He. reflexivity. }
    congruence.
  - intros p Hr e He. rewrite Hr in E2. unfold gparam_has_node in E2. rewrite He in E2. discriminate.
Qed.

(* before fix 5000c02 the appended names depended on the set order *)
Lemma C12_old_code_refuted :
  exists pd pd' op tp, perm_ok pd /\ perm_ok pd' /\ append_missing_old pd op tp <> append_missing_old pd' op tp.
Proof.
  exists id_perm, rev_perm, [(L "a", g0); (L "b", g0)], [(L "c", g0)].
  split; [exact id_perm_ok|]. split; [exact rev_perm_ok|]. exact old_append_order_dependent.
Qed.

Example C12_nonvacuous_lemma :
  exists t o r, ir_merge id_perm id_perm t o = Ok r /\ ir_merge rev_perm rev_perm t o = Ok r
                /\ List.length (inter_keys (ir_params o) (ir_params t)) = 2.
Proof.
  set (t := mkIR FNone (Has (L "static")) (Has (L "Doc."))
                 [(L "b", mkG (Has (L "the b")) Missing None); (L "a", mkG (Has (L "the a")) Missing None)] FNone None).
  set (o := mkIR Missing Missing Missing
                 [(L "a", mkG FNone (Has (L "int")) None); (L "b", mkG FNone FNone (Some (DE (EConst (VInt 5)))));
                  (L "c", mkG FNone FNone None)] FNone None).
  exists t, o.
  assert (E : exists r, ir_merge id_perm id_perm t o = Ok r) by (eexists; vm_compute; reflexivity).
  destruct E as [r E]. exists r. split; [exact E|]. split; [|vm_compute; reflexivity].
  rewrite <- E. apply ir_merge_perm; auto using id_perm_ok, rev_perm_ok.
Qed.
