(* The refined C05 classifier (model/C05Spec2.v) against C05Spec's: old classes and their names are kept, the classes
   K5r_negative_zero and K5r_text_quoted are added only where the old classifier is silent and only on a chain through the
   kind that loses the value, chain_safe_r lies inside chain_safe; classified samples and unclassified neighbours. *)
From Coq Require Import List Ascii Bool Arith ZArith.
From Coq Require String.
Import String.StringSyntax.
From DT Require Import PyStr PyVal Defaults IR C05Spec C05Spec2 C05Closed.
From DT Require C02Spec2 C04Spec2 C05ClosedFacts.
From DT Require Import RefineFacts ListFacts.
Import ListNotations.

Lemma new_classes_C05_new : forall ks i c,
    In c (new_classes_C05 ks i) -> c = K5r_negative_zero \/ c = K5r_text_quoted.
Proof. intros ks i c. apply in_flag2. Qed.

Lemma c05_class_of_r_adds : forall ks i c,
    c05_class_of_r ks i = Some c ->
    (exists k, c05_class_of ks i = Some k /\ c = K5r_old k)
    \/ (c05_class_of ks i = None /\ (c = K5r_negative_zero \/ c = K5r_text_quoted)).
Proof.
  intros ks i c H. destruct (refine_adds K5r_old _ _ c H) as [Hold|[Hnone Hnew]]; [left; exact Hold|].
  right. split; [exact Hnone|]. apply (new_classes_C05_new ks i). apply hd_error_In. exact Hnew.
Qed.

Lemma c05_class_of_r_old : forall ks i k,
    c05_class_of ks i = Some k -> c05_class_of_r ks i = Some (K5r_old k).
Proof. intros ks i k. apply (refine_old K5r_old). Qed.

(* a kept class keeps its name, so the KNOWN_FINDINGS lines of the old classes stay valid *)
Lemma c05_class_r_name_old : forall k, c05_class_r_name (K5r_old k) = c05_class_name k.
Proof. reflexivity. Qed.

Lemma chain_safe_r_inside : forall ks i, chain_safe_r ks i = true -> chain_safe ks i = true.
Proof. intros ks i. apply (refine_guard K5r_old). Qed.

Lemma negative_zero_needs_class_kind : forall ks i,
    In K5r_negative_zero (new_classes_C05 ks i) -> through_class ks = true.
Proof.
  intros ks i H. unfold new_classes_C05 in H. apply in_app_or in H. destruct H as [H|H].
  - unfold neg_zero_entries in H. destruct (through_class ks); [reflexivity|]. cbn in H. contradiction.
  - destruct (quoted_summary ks i || nonempty_l (quoted_entries ks i)); cbn [In] in H;
      [destruct H as [H|[]]; discriminate H|contradiction].
Qed.

Lemma text_quoted_needs_argparse_kind : forall ks i,
    In K5r_text_quoted (new_classes_C05 ks i) -> through_argparse ks = true.
Proof.
  intros ks i H. unfold new_classes_C05 in H. apply in_app_or in H. destruct H as [H|H].
  - destruct (nonempty_l (neg_zero_entries ks i)); cbn [In] in H;
      [destruct H as [H|[]]; discriminate H|contradiction].
  - unfold quoted_summary, quoted_entries in H. destruct (through_argparse ks); [reflexivity|]. cbn in H. contradiction.
Qed.

(* the point of theorem C05_region_hole_negzero (props/C05Ext.v): unnamed by the old classifier on every chain over the
   closed kinds, named by the refined one on a chain through the class kind (and only there), in the domain, and the
   model of the class conversion fails on it *)
Lemma negative_zero_classified :
  c05_class_of closed_kinds C05ClosedFacts.w_negzero = None
  /\ c05_class_of [KClass] C05ClosedFacts.w_negzero = None
  /\ c05_class_of_r [KClass] C05ClosedFacts.w_negzero = Some K5r_negative_zero
  /\ c05_class_of_r [KRest; KClass; KArgparse] C05ClosedFacts.w_negzero = Some K5r_negative_zero
  /\ c05_class_of_r [KRest; KNumpydoc; KGoogle; KArgparse] C05ClosedFacts.w_negzero = None
  /\ c05_domain C05ClosedFacts.w_negzero = true
  /\ match conv_class default_env C05ClosedFacts.w_negzero with
     | Ok i' => preserved C05ClosedFacts.w_negzero i' | Err _ => true end = false.
Proof. vm_compute. repeat split; reflexivity. Qed.

(* the same default under Optional[float] is carried (the falsy test is made for scalar types only): not in the class *)
Lemma negative_zero_optional_unclassified :
  c05_class_of_r [KClass]
    (C05ClosedFacts.w1p (L "Sum.") (cg (L "first.") (L "Optional[float]") (VFloat (L "-0.0")))) = None.
Proof. vm_compute. reflexivity. Qed.

(* the point of theorem C05_region_hole_quoted_summary: the same for a chain through the argparse kind *)
Lemma quoted_summary_classified :
  c05_class_of closed_kinds C05ClosedFacts.w_quoted_summary = None
  /\ c05_class_of [KArgparse] C05ClosedFacts.w_quoted_summary = None
  /\ c05_class_of_r [KArgparse] C05ClosedFacts.w_quoted_summary = Some K5r_text_quoted
  /\ c05_class_of_r [KClass; KArgparse; KGoogle] C05ClosedFacts.w_quoted_summary = Some K5r_text_quoted
  /\ c05_class_of_r [KRest; KNumpydoc; KGoogle; KClass] C05ClosedFacts.w_quoted_summary = None
  /\ c05_domain C05ClosedFacts.w_quoted_summary = true
  /\ match conv_argparse default_env C05ClosedFacts.w_quoted_summary with
     | Ok i' => preserved C05ClosedFacts.w_quoted_summary i' | Err _ => true end = false.
Proof. vm_compute. repeat split; reflexivity. Qed.

(* the same mechanism on the prose of a parameter (the help text of the option) *)
Definition w5_quoted_help : ir := C05ClosedFacts.w1p (L "Sum.") (cg (L "'a' and 'b'") (L "int") (VInt 1)).

Lemma quoted_help_classified :
  c05_class_of [KArgparse] w5_quoted_help = None
  /\ c05_class_of_r [KArgparse] w5_quoted_help = Some K5r_text_quoted
  /\ c05_class_of_r [KClass] w5_quoted_help = None
  /\ c05_domain w5_quoted_help = true
  /\ match conv_argparse default_env w5_quoted_help with
     | Ok i' => preserved w5_quoted_help i' | Err _ => true end = false.
Proof. vm_compute. repeat split; reflexivity. Qed.

(* both at once: the list of new classes names both, the refined class is the first *)
Definition w5_both : ir := C05ClosedFacts.w1p (L "'quoted'") (cg (L "first.") (L "float") (VFloat (L "-0.0"))).

Lemma both_new_classes :
  c05_class_of [KClass; KArgparse] w5_both = None
  /\ new_classes_C05 [KClass; KArgparse] w5_both = [K5r_negative_zero; K5r_text_quoted]
  /\ new_classes_C05 [KArgparse] w5_both = [K5r_text_quoted]
  /\ new_classes_C05 [KClass] w5_both = [K5r_negative_zero]
  /\ new_classes_C05 [KRest] w5_both = [].
Proof. vm_compute. repeat split; reflexivity. Qed.

(* a pair of quote marks alone, a quote mark at one end only, or an apostrophe inside are carried: not in the class *)
Lemma unbalanced_quotes_unclassified :
  forallb (fun s => match c05_class_of_r [KArgparse] (C05ClosedFacts.w1p s (cg (L "first.") (L "int") (VInt 1)))
                    with None => true | Some _ => false end)
          [L "'quoted"; L "quoted'"; L "it's"] = true.
Proof. vm_compute. reflexivity. Qed.
