(* C01 — docstring round trip in ReST, numpydoc and Google styles.
   Lemmas live in proofs/{DocParseFacts,C01RestLink,DocParseNGFacts}.v. *)
From Coq Require Import List.
From DT Require Import PyStr PyVal IR.
From DT Require DocEmit DocParse C01Spec DocParseFacts C01RestLink.
From DT Require DocParseNG C01SpecNG DocParseNGFacts.

(* ---- ReST ---- *)

(* guard => emit with the DocEmit model (word_wrap off, default sentences on), the text is recognised as
   ReST, parse.docstring gives back the same interface; any number of parameters, both parse modes *)
Theorem C01_rest_partial : forall w edd i,
    C01Spec.guard_C01_rest edd i = true ->
    exists text i0 i',
      DocEmit.emit_docstring w DocEmit.Rest false true i = Ok (text, i0)
      /\ DocParse.detect_style (Some text) = DocParse.Rest
      /\ DocParse.parse_dot_docstring DocParse.ng_unmodelled text false true edd = Ok i'
      /\ C01Spec.same_interface edd i i' = true.
Proof. exact C01RestLink.C01_rest_partial_emit_lemma. Qed.
Print Assumptions C01_rest_partial.

Theorem C01_rest_partial_spec_printer : forall edd i,
    C01Spec.guard_C01_rest edd i = true -> C01Spec.C01_rest_at edd i.
Proof. exact DocParseFacts.C01_rest_partial_lemma. Qed.
Print Assumptions C01_rest_partial_spec_printer.

Theorem C01_rest_refuted : ~ DocParseFacts.C01_rest_statement.
Proof. exact DocParseFacts.C01_rest_refuted_lemma. Qed.
Print Assumptions C01_rest_refuted.

(* class-free: clean prose + declared type, no defaults *)
Theorem C01_rest_no_defaults : forall edd i, DocParseFacts.simple_ir i = true -> C01Spec.C01_rest_at edd i.
Proof. exact DocParseFacts.C01_rest_no_defaults_lemma. Qed.
Print Assumptions C01_rest_no_defaults.

(* the scanner on token-free blocks *)
Theorem C01_scan_rest_blocks : forall doc blocks,
    C01Spec.no_rest_token doc = true ->
    (forall b, In b blocks -> In (fst b) DocParse.rest_scan_tokens /\ C01Spec.no_rest_token (snd b) = true) ->
    blocks <> nil \/ doc <> nil ->
    DocParse.scan_rest (doc ++ concat (map DocParseFacts.blk blocks))
    = (false, doc) :: map (fun b => (true, DocParseFacts.blk b)) blocks.
Proof. exact DocParseFacts.scan_rest_blocks. Qed.
Print Assumptions C01_scan_rest_blocks.

(* style detection: the token sets of the three styles are disjoint (computed from the live constants) *)
Theorem C01_style_tokens_disjoint : DocParseFacts.tokens_disjoint = true.
Proof. exact DocParseFacts.style_tokens_disjoint. Qed.
Print Assumptions C01_style_tokens_disjoint.

Theorem C01_rest_return_only_round_trips :
  C01Spec.guard_C01_rest true DocParseFacts.w_return_only = true
  /\ C01Spec.guard_C01_rest false DocParseFacts.w_return_only = true
  /\ C01Spec.C01_rest_at_b true DocParseFacts.w_return_only = true
  /\ C01Spec.C01_rest_at_b false DocParseFacts.w_return_only = true.
Proof. exact DocParseFacts.w_return_only_round_trips. Qed.
Print Assumptions C01_rest_return_only_round_trips.

Theorem C01_rest_nonvacuous :
  C01Spec.guard_C01_rest true DocParseFacts.w_in_guard = true
  /\ C01Spec.guard_C01_rest false DocParseFacts.w_in_guard = true.
Proof. exact DocParseFacts.C01_rest_nonvacuous_lemma. Qed.
Print Assumptions C01_rest_nonvacuous.

(* ---- numpydoc and Google ---- *)

(* guard + the scan link (scanner output on the emitted text = the expected blocks; proved from the guard in
   props/C01Ext.v, C01_ng_scan_link) => style detected, parse succeeds, same interface *)
Theorem C01_ng_partial_modulo_scan : forall style i,
    C01SpecNG.guard_C01_ng style i = true -> C01SpecNG.scan_link_b style i = true ->
    C01SpecNG.C01_ng_at style i.
Proof. exact DocParseNGFacts.C01_ng_partial_modulo_scan. Qed.
Print Assumptions C01_ng_partial_modulo_scan.

(* text emitted in one style is never read as another *)
Theorem C01_ng_detect_style : forall style i,
    C01SpecNG.guard_C01_ng style i = true ->
    exists text, C01SpecNG.text_of_o style i = Ok text
                 /\ DocParseNG.detect_style text = C01SpecNG.style3_of style.
Proof. exact DocParseNGFacts.detect_style_guard. Qed.
Print Assumptions C01_ng_detect_style.

Theorem C01_ng_refuted : ~ DocParseNGFacts.C01_ng_statement.
Proof. exact DocParseNGFacts.C01_ng_refuted. Qed.
Print Assumptions C01_ng_refuted.
