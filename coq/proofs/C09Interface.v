(* C09Interface: the last step of property C09 -- from `stable` (the target is found at its location and compares
   equal to the re-emission of the truth; proofs/SyncFacts.v) to the property's own wording: the target, WHEN PARSED with
   the parser of its kind, describes the same interface as the truth.  The emit / parse / compare layers are the
   instance of model/C09Instance.v; the step is the composition with the round-trip theorems of the converter layers
   (C02_partial_closed for class targets, C04_partial for argparse targets, C03_partial at any identifier with the
   docstring link of C03 for function targets).  The tree layer stays abstract.  Section Step has the step for one
   target, Section Install the run target by target (with what each file held before); the premises that stay
   abstract (WRITTEN_PARSE_law, WRITTEN_REPARSE_law, EMITTED_REPARSE_law) and the predicates of the theorems are
   defined here; the samples ir9 / Toy9 / Toy9f at the end show the guards and theorems are not vacuous. *)
From Coq Require Import List Ascii Bool Arith ZArith Lia.
From Coq Require String.
Import String.StringSyntax.
From DT Require Import PyStr Sexp PyVal TyExpr PureUtils Defaults PyAst IR FS Sync.
From DT Require Import PyStrFacts FSFacts SyncFacts.
From DT Require Import EmitAst ParseAst C02Spec C02Codec C02DocLinkDefs C04Spec C04Codec C09Instance.
From DT Require EmitAstFacts C02DocLink C04Compose C03Spec.
From DT Require C06Spec C03DocLinkDefs C03DocLinkMain C03DocLink C03Compose DefaultsFacts.
Import ListNotations.

Lemma cmp_inst_true : forall aw o n, cmp_inst aw o n = true -> o = n \/ o = aw n.
Proof.
  intros aw o n H. unfold cmp_inst in H. apply orb_true_iff in H.
  destruct H as [H|H]; [left|right]; apply EmitAstFacts.stmt_eqb_eq; exact H.
Qed.

Lemma option_eqb_refl : forall (A : Type) (f : A -> A -> bool) (o : option A),
    (forall x, f x x = true) -> option_eqb f o o = true.
Proof. intros A f [x|] H; [apply H|reflexivity]. Qed.

Lemma stmt_eqb_refl : forall s, stmt_eqb s s = true.
Proof.
  assert (Hle : forall l, list_eqb expr_eqb l l = true).
  { intros l. apply EmitAstFacts.list_eqb_refl_Forall, Forall_forall. intros e _. apply EmitAstFacts.expr_eqb_refl. }
  assert (Hoe : forall o, option_eqb expr_eqb o o = true) by (intros o; apply option_eqb_refl, EmitAstFacts.expr_eqb_refl).
  assert (Ha : forall a, arg_eqb a a = true).
  { intros a. unfold arg_eqb. rewrite str_eqb_refl, Hoe. reflexivity. }
  assert (Hla : forall l, list_eqb arg_eqb l l = true).
  { intros l. apply EmitAstFacts.list_eqb_refl_Forall, Forall_forall. intros a _. apply Ha. }
  assert (Har : forall a, arguments_eqb a a = true).
  { intros a. unfold arguments_eqb. rewrite !Hla, Hle, !(option_eqb_refl _ _ _ Ha).
    rewrite EmitAstFacts.list_eqb_refl_Forall; [reflexivity|]. apply Forall_forall. intros o _. apply Hoe. }
  intros s. induction s as [n a b d r IH|n bs b d IH|t a v|ts v|e|e|t h bl IH] using EmitAstFacts.stmt_ind';
    cbn [stmt_eqb].
  - rewrite str_eqb_refl, Har, (EmitAstFacts.list_eqb_refl_Forall _ b IH), Hle, Hoe. reflexivity.
  - rewrite str_eqb_refl, !Hle, (EmitAstFacts.list_eqb_refl_Forall _ b IH). reflexivity.
  - rewrite !EmitAstFacts.expr_eqb_refl, Hoe. reflexivity.
  - rewrite Hle, EmitAstFacts.expr_eqb_refl. reflexivity.
  - apply EmitAstFacts.expr_eqb_refl.
  - apply Hoe.
  - rewrite !str_eqb_refl. apply EmitAstFacts.list_eqb_refl_Forall. eapply Forall_impl; [|exact IH].
    intros blk Hb. apply EmitAstFacts.list_eqb_refl_Forall. exact Hb.
Qed.

Lemma cmp_inst_refl : forall aw n, cmp_inst aw n n = true.
Proof. intros aw n. unfold cmp_inst. rewrite stmt_eqb_refl. reflexivity. Qed.

Lemma set_value_str_nl : forall z, set_value_str (nl :: z) = nl :: z.
Proof.
  intros z. unfold set_value_str.
  assert (E : forall q, ascii_eqb nl q = false -> both_ends q (nl :: z) = false).
  { intros q Hq. unfold both_ends. destruct (last_c (nl :: z)); [rewrite Hq; reflexivity|reflexivity]. }
  rewrite (E dq eq_refl), (E sq eq_refl). rewrite andb_false_r. reflexivity.
Qed.

Lemma parse_class_node_shape : forall it ww nm bs ds rest decos,
    parse_class_node it ww (SClass nm bs (SExpr (EConst (VStr ds)) :: rest) decos)
    = parse_class (Some (class_doc_ir_of_const ds)) (CStmt (SClass nm bs (SExpr (EConst (VStr ds)) :: rest) decos))
                  None it ww.
Proof. reflexivity. Qed.

(* emit.class_ -> parse.class_ at the node, no docstring hypothesis, at the options conformance uses; any class name *)
Theorem class_round_trip_node : forall w pt i cn it ww,
    guard_C09_class w i = true ->
    exists n i',
      emit_class_inst w pt i cn = Ok n
      /\ parse_class_node it ww n = Ok i'
      /\ ir_params i' = norm_params_C02 (ir_params i)
      /\ ir_returns i' = norm_returns_C02 (ir_returns i)
      /\ same_interface i i' = true.
Proof.
  intros w pt i cn it ww Hg. unfold guard_C09_class in Hg. apply andb_true_iff in Hg. destruct Hg as [Hg Hok].
  destruct (C02DocLink.C02_partial_closed_lemma w pt i cn [L "object"] [] false true it ww Hg Hok)
    as [text [s [i' [Ht [He [Hp [Hps [Hrs [_ [_ Hsame]]]]]]]]]].
  (* the text emit.class_ stores is the closed form T3, which starts with a line break: set_value's quote stripping
     does not apply to it, and the docstring constant of the emitted class IS class_docstring text *)
  destruct (C02DocLink.class_text_T3 w false true i Hg Hok) as [S [es [Ht' Hcd]]].
  rewrite Ht in Ht'. injection Ht' as Ht'. rewrite <- Ht' in Hcd. unfold C02DocLink.T3 in Hcd.
  destruct (EmitAstFacts.emit_class_inv _ _ _ _ _ _ _ _ _ _ He) as [ib [text2 [meth [attrs [_ [Htds [_ [_ [_ Hs]]]]]]]]].
  unfold set_value in Hs.
  rewrite Ht in Htds. injection Htds as Htds. subst text2.
  rewrite Hcd, set_value_str_nl, <- Hcd in Hs.
  exists s, i'. split; [unfold emit_class_inst; rewrite He; reflexivity|].
  split; [|split; [exact Hps|split; [exact Hrs|exact Hsame]]].
  rewrite Hs, parse_class_node_shape. change (class_doc_ir_of_const (class_docstring text)) with (class_docstring_ir text).
  rewrite <- Hs. exact Hp.
Qed.

Lemma emit_class_inst_type_ok : forall w pt i cn n, emit_class_inst w pt i cn = Ok n -> type_ok_inst KClass n = true.
Proof.
  intros w pt i cn n H. unfold emit_class_inst in H. apply DefaultsFacts.bind_Ok_inv in H.
  destruct H as [[s i0] [He H]]. injection H as <-.
  destruct (EmitAstFacts.emit_class_inv _ _ _ _ _ _ _ _ _ _ He) as [ib [text [meth [attrs [_ [_ [_ [_ [_ ->]]]]]]]]].
  reflexivity.
Qed.

Lemma map_outcome_agree : forall (f g : str * gparam -> outcome stmt) l,
    forallb (fun kv => outcome_stmt_eqb (f kv) (g kv)) l = true -> map_outcome f l = map_outcome g l.
Proof.
  intros f g l. induction l as [|kv l IH]; intros H; [reflexivity|].
  cbn [forallb] in H. apply andb_true_iff in H. destruct H as [H1 H2].
  cbn [map_outcome]. rewrite (IH H2). unfold outcome_stmt_eqb in H1.
  destruct (f kv) as [x|e]; [|discriminate H1]. destruct (g kv) as [y|e]; [|discriminate H1].
  apply EmitAstFacts.stmt_eqb_eq in H1. subst y. reflexivity.
Qed.

(* with the help texts left alone by textwrap.fill, word_wrap=True emits what word_wrap=False emits *)
Lemma emit_argparse_wrap_neutral : forall pt i fn ft wd ds,
    argparse_wrap_neutral pt i = true ->
    emit_argparse pt i false fn ft wd true ds = emit_argparse pt i false fn ft wd false ds.
Proof.
  intros pt i fn ft wd ds H. unfold emit_argparse.
  rewrite (map_outcome_agree _ _ _ H). reflexivity.
Qed.

(* emit.argparse_function -> parse.argparse_ast at the node, at the options conformance uses *)
Theorem argparse_round_trip_node : forall w pt i fc fr tc tr,
    guard_C09_argparse w pt i = true ->
    exists n i',
      emit_argparse_inst w pt i (fc :: fr) (Some (tc :: tr)) = Ok n
      /\ parse_argparse_node n = Ok i'
      /\ ir_params i' = norm_params_C04 false (ir_params i)
      /\ ir_doc i' = ir_doc i
      /\ same_interface_argparse (argparse_type_norm i) i' = true.
Proof.
  intros w pt i fc fr tc tr Hg. unfold guard_C09_argparse in Hg.
  apply andb_true_iff in Hg. destruct Hg as [Hg Hdl]. apply andb_true_iff in Hg. destruct Hg as [Hg Hwn].
  unfold argparse_doc_layer_ok in Hdl.
  destruct (argparse_docstring_text w i) as [ds|e] eqn:Eds; [|discriminate Hdl].
  destruct (argparse_doc_ir_of_const (Some (set_value_str (indent tab ds ++ tab)))) as [di|e] eqn:Edi;
    [|discriminate Hdl].
  destruct (C04Compose.C04_ast_partial_lemma pt i false fc fr tc tr ds di None None Hg)
    as [s [i' [He [Hp [Hps [Hdoc [_ Hsame]]]]]]].
  exists s, i'. split.
  - unfold emit_argparse_inst. rewrite Eds. rewrite (emit_argparse_wrap_neutral _ _ _ _ _ _ Hwn).
    exact (f_equal (fun x => do r <- x; Ok (fst r)) He).
  - split; [|split; [exact Hps|split; [exact Hdoc|exact Hsame]]].
    assert (Hshape : exists nm a rest decos rets,
               s = SFunc nm a (SExpr (EConst (VStr (set_value_str (indent tab ds ++ tab)))) :: rest) decos rets).
    { unfold emit_argparse in He. cbn [py_or bind] in He.
      destruct (get_internal_body (Some (fc :: fr)) (Some (tc :: tr)) i) as [ib'|]; [|discriminate He].
      cbn [bind] in He.
      destruct (match ir_doc i with
                | Missing => Err KeyError
                | FNone => if false then Err AttributeError else Ok VNone
                | Has d => do t <- fill_if false d; Ok (VStr t)
                end) as [desc'|]; [|discriminate He]. cbn [bind] in He.
      destruct (map_outcome _ (ir_params i)) as [ps'|]; [|discriminate He]. cbn [bind] in He.
      destruct (argparse_body_skip ib') as [sp'|]; [|discriminate He]. cbn [bind] in He.
      destruct (if last_is_return ib' then Ok [] else do r <- argparse_return pt i; Ok [r]) as [ret'|];
        [|discriminate He]. cbn [bind] in He.
      injection He as He. subst s. unfold set_value. do 5 eexists. reflexivity. }
    destruct Hshape as [nm [a [rest [decos [rets Hsh]]]]].
    unfold parse_argparse_node. rewrite Hsh. cbn [docstring_of]. rewrite Edi, <- Hsh. exact Hp.
Qed.

(* same_interface_fn (lookup by name, strict defaults, kind) implies the positional relation of the property *)
Lemma same_param_fn_weaken : forall a b, C03Spec.same_param_fn a b = true -> same_param a b = true.
Proof.
  intros a b H. unfold C03Spec.same_param_fn in H. unfold same_param.
  apply andb_true_iff in H. destruct H as [H Hd]. rewrite H. cbn [andb].
  unfold default_same in Hd. unfold default_ok.
  destruct (g_default a) as [v|]; destruct (g_default b) as [x|]; try discriminate Hd; [exact Hd|reflexivity].
Qed.

Lemma same_params_fn_weaken : forall a b,
    NoDup (map fst a) -> C03Spec.same_params_fn a b = true -> same_params same_param a b = true.
Proof.
  intros a b Hnd H. unfold C03Spec.same_params_fn in H. apply andb_true_iff in H. destruct H as [Hk Hf].
  apply (EmitAstFacts.list_eqb_eq_simple str_eqb _ _ (fun x y => proj1 (str_eqb_eq x y))) in Hk. unfold od_keys in Hk. rewrite forallb_forall in Hf.
  revert b Hk Hf. induction a as [|[n1 p1] a IH]; intros [|[n2 p2] b] Hk Hf; cbn [map] in Hk; try discriminate Hk;
    [reflexivity|].
  injection Hk as Hn Hk. cbn [fst] in Hn. subst n2. cbn [same_params].
  inversion Hnd as [|x l Hnotin Hnd']. subst x l.
  rewrite str_eqb_refl. cbn [andb].
  pose proof (Hf (n1, p1) (or_introl eq_refl)) as H1. cbn [fst snd od_get] in H1. rewrite str_eqb_refl in H1.
  rewrite (same_param_fn_weaken _ _ H1). cbn [andb].
  apply (IH Hnd' b Hk). intros kv Hin. pose proof (Hf kv (or_intror Hin)) as H2. cbn [od_get] in H2.
  destruct (str_eqb (fst kv) n1) eqn:E; [|exact H2].
  apply str_eqb_eq in E. contradiction Hnotin. rewrite <- E. apply in_map. exact Hin.
Qed.

Lemma same_interface_fn_weaken : forall ft i r,
    NoDup (map fst (ir_params i)) -> C03Spec.same_interface_fn ft i r = true -> same_interface i r = true.
Proof.
  intros ft i r Hnd H. unfold C03Spec.same_interface_fn in H.
  apply andb_true_iff in H. destruct H as [H _]. apply andb_true_iff in H. destruct H as [Hp Hr].
  unfold same_interface. rewrite (same_params_fn_weaken _ _ Hnd Hp). cbn [andb].
  unfold C03Spec.same_returns_fn in Hr. unfold same_returns.
  destruct (fget (ir_returns i)) as [x|]; destruct (fget (ir_returns r)) as [y|]; try discriminate Hr;
    [apply same_param_fn_weaken; exact Hr|reflexivity].
Qed.

Lemma emit_function_doc : forall pt i fn ft it kw text s i2,
    emit_function pt i fn ft it kw (Ok text) = Ok (s, i2) ->
    exists n a rest r, s = SFunc n a (SExpr (EConst (VStr (set_value_str text))) :: rest) [] r.
Proof.
  intros pt i fn ft it kw text s i2 H. unfold emit_function in H.
  apply DefaultsFacts.bind_Ok_inv in H. destruct H as [fname [_ H]].
  apply DefaultsFacts.bind_Ok_inv in H. destruct H as [ftype [_ H]].
  apply DefaultsFacts.bind_Ok_inv in H. destruct H as [afp [_ H]].
  apply DefaultsFacts.bind_Ok_inv in H. destruct H as [dfp [_ H]].
  apply DefaultsFacts.bind_Ok_inv in H. destruct H as [ib [_ H]].
  apply DefaultsFacts.bind_Ok_inv in H. destruct H as [rv [_ H]].
  cbn [bind] in H.
  apply DefaultsFacts.bind_Ok_inv in H. destruct H as [rets [_ H]].
  destruct fname as [n|]; [|discriminate H]. injection H as H _. subst s.
  unfold set_value. do 4 eexists. reflexivity.
Qed.

Lemma reparse_stmt_doc : forall n a x rest dc r s',
    C03Spec.reparse_stmt (SFunc n a (SExpr (EConst (VStr x)) :: rest) dc r) = Ok s' ->
    exists a' rest' dc' r', s' = SFunc n a' (SExpr (EConst (VStr x)) :: rest') dc' r'.
Proof.
  intros n a x rest dc r s' H. unfold C03Spec.reparse_stmt in H.
  destruct (negb (C06Spec.is_identifier n)); [discriminate H|].
  apply DefaultsFacts.bind_Ok_inv in H. destruct H as [a' [_ H]].
  apply DefaultsFacts.bind_Ok_inv in H. destruct H as [b' [Hb H]].
  apply DefaultsFacts.bind_Ok_inv in H. destruct H as [dc' [_ H]].
  apply DefaultsFacts.bind_Ok_inv in H. destruct H as [r' [_ H]].
  injection H as H. subst s'.
  cbn in Hb. apply DefaultsFacts.bind_Ok_inv in Hb. destruct Hb as [rest' [_ Hb]]. injection Hb as Hb. subst b'.
  do 4 eexists. reflexivity.
Qed.

(* emit.function -> (ast.unparse -> ast.parse) -> parse.function at the node, docstring read from the node; any identifier
   as name, function type ft, the options conformance leaves at their defaults *)
Theorem function_round_trip_canon : forall w pt i name ft,
    guard_C09_function_core w pt i name ft = true ->
    exists n n' i',
      emit_function_inst w pt i name (Some ft) = Ok n
      /\ C03Spec.reparse_stmt n = Ok n'
      /\ parse_function_node n' = Ok i'
      /\ C03Spec.same_interface_fn ft i i' = true
      /\ same_interface i i' = true.
Proof.
  intros w pt i name ft Hg. unfold guard_C09_function_core in Hg.
  apply andb_true_iff in Hg. destruct Hg as [Hg Huq]. apply andb_true_iff in Hg. destruct Hg as [Hg Hl].
  apply andb_true_iff in Hg. destruct Hg as [Hid Hg].
  set (o := sync_fopts pt ft) in *.
  destruct (C03DocLinkMain.C03_doc_link_lemma w o i Hg Hl) as [text [d [Ht [Hd Ha]]]].
  destruct (C03Compose.C03_partial_fields name o i text d Hid Hg Ha) as (a & b & ret & s' & r & He & Hre & Hp & Hs & _).
  remember (SFunc name a b [] ret) as s eqn:Edef. clear Edef.
  change (C03Spec.fo_pt o) with pt in He. change (C03Spec.fo_kind o) with ft in He, Hs.
  change (C03Spec.fo_inline o) with true in He. change (C03Spec.fo_kwonly o) with true in He.
  unfold fn_text_unquoted in Huq. fold o in Huq. rewrite Ht in Huq. apply str_eqb_eq in Huq.
  destruct (emit_function_doc _ _ _ _ _ _ _ _ _ He) as [n0 [a0 [rest [r0 Es]]]].
  rewrite Huq in Es.
  rewrite Es in Hre. destruct (reparse_stmt_doc _ _ _ _ _ _ _ Hre) as [a' [rest' [dc' [r' Es']]]].
  rewrite <- Es in Hre.
  exists s, s', r. split.
  - unfold emit_function_inst.
    change (C03DocLinkDefs.function_docstring_text w (sync_fopts pt []) i) with (C03DocLinkDefs.function_docstring_text w o i).
    rewrite Ht.
    exact (f_equal (fun x => do r <- x; Ok (fst r)) He).
  - split; [exact Hre|]. split; [|split; [exact Hs|]].
    + rewrite Es'. unfold parse_function_node. cbn [docstring_of]. rewrite Hd. cbn [bind]. rewrite <- Es'. exact Hp.
    + destruct (C03DocLink.guard_agree_facts o i Hg) as [Hnd _].
      apply (same_interface_fn_weaken ft i r Hnd Hs).
Qed.

(* with the emitted FunctionDef a fixed point of the re-parse: the round trip at the emitted node itself *)
Theorem function_round_trip_node : forall w pt i name ft,
    guard_C09_function w pt i name ft = true ->
    exists n i',
      emit_function_inst w pt i name (Some ft) = Ok n
      /\ parse_function_node n = Ok i'
      /\ C03Spec.same_interface_fn ft i i' = true
      /\ same_interface i i' = true.
Proof.
  intros w pt i name ft Hg. unfold guard_C09_function in Hg. apply andb_true_iff in Hg. destruct Hg as [Hc Hf].
  destruct (function_round_trip_canon w pt i name ft Hc) as [n [n' [i' [He [Hre [Hp [Hs Hs2]]]]]]].
  unfold fn_reparse_fixed in Hf. rewrite He, Hre in Hf. apply EmitAstFacts.stmt_eqb_eq in Hf. subst n'.
  exists n, i'. split; [exact He|]. split; [exact Hp|]. split; assumption.
Qed.

Lemma get_function_type_kinds : forall a, In (get_function_type a) function_kinds.
Proof.
  intros a. unfold get_function_type, function_kinds. destruct (ar_args a) as [|x l]; [left; reflexivity|].
  destruct (str_eqb (a_name x) (L "self")) eqn:E1.
  - apply str_eqb_eq in E1. cbn [orb]. rewrite E1. right. left. reflexivity.
  - destruct (str_eqb (a_name x) (L "cls")) eqn:E2; cbn [orb].
    + apply str_eqb_eq in E2. rewrite E2. right. right. left. reflexivity.
    + left. reflexivity.
Qed.

Lemma function_kinds_nonempty : forall ft, In ft function_kinds -> exists c r, ft = c :: r.
Proof. intros ft [<-|[<-|[<-|[]]]]; do 2 eexists; reflexivity. Qed.

(* what emit_inst does at the options read from a found node: the emitter of the kind, at the last component of the
   search and, for the two kinds whose node is a FunctionDef, at the function type of the found definition *)
Lemma emit_inst_found : forall w pt k i o search n,
    emit_inst w pt k i (opts_inst (Some o) search k) = Ok n ->
    match k with
    | KClass => emit_class_inst w pt i (last search (default_name k)) = Ok n
    | KArgparse => exists ft, In ft function_kinds
                              /\ emit_argparse_inst w pt i (last search (default_name k)) (Some ft) = Ok n
    | KFunction => exists ft, In ft function_kinds
                              /\ emit_function_inst w pt i (last search (default_name k)) (Some ft) = Ok n
    end.
Proof.
  intros w pt k i o search n He. destruct k; [|exact He|].
  all: cbn [emit_inst] in He; unfold opts_inst in He; cbn [so_ftype so_name] in He.
  all: destruct o as [nm a b d r| | | | | |]; cbn [bind] in He; try discriminate He.
  all: exists (get_function_type a); split; [apply get_function_type_kinds|exact He].
Qed.

Section Step.
  Variable tree : Type.
  Variable parse_file : path -> bytes -> outcome tree.
  Variable find : list str -> tree -> option stmt.
  Variable as_written : stmt -> stmt.
  Variables (w : nat) (pt : ptable) (it ww : bool).

  Notation stable_i :=
    (stable stmt tree ir sync_opts (emit_inst w pt) parse_file find (cmp_inst as_written) opts_inst type_ok_inst).

  (* PREMISE that stays abstract (no model of black / ast.unparse / ast.parse of a whole definition): the parser of
     kind k reads from the written form of an emitted node what it reads from the node.  conformance compares the
     found node with n AND with _as_written(n) = ast_parse(black(to_code(Module([n])))).body[0]; that form
     being n itself (what RENDER_PARSE says of files) would give this at once, but is false of the real code on docstrings (black
     re-indents them), which is why the comparison with the written form exists; class_doc_equiv_parse below reduces
     the premise for class targets to: the two nodes differ in the docstring constant only, and the two constants
     clean to the same docstring-derived IR. *)
  Definition WRITTEN_PARSE_law (k : kind) : Prop :=
    forall i o n, emit_inst w pt k i o = Ok n ->
                  parse_node_inst it ww k (as_written n) = parse_node_inst it ww k n.

  (* the round trip of kind k at the truth IR i, for the options read from whatever node is found *)
  Definition RT_at (k : kind) (search : list str) (i : ir) : Prop :=
    forall o n, emit_inst w pt k i (opts_inst (Some o) search k) = Ok n ->
                exists i', parse_node_inst it ww k n = Ok i' /\ same_interface_inst k i i' = true.

  (* the target is found at its location and what the kind's parser reads there has the interface of the truth *)
  Definition agrees_at (fs : fsys) (file : path) (search : list str) (k : kind) (i : ir) : Prop :=
    exists content t o i',
      fs_get file fs = Some content /\ parse_file file content = Ok t /\ find search t = Some o
      /\ parse_node_inst it ww k o = Ok i' /\ same_interface_inst k i i' = true.

  Lemma stable_agrees_gen : forall k fs file search i,
      WRITTEN_PARSE_law k -> RT_at k search i ->
      stable_i fs file search k i -> agrees_at fs file search k i.
  Proof.
    intros k fs file search i HW HRT H. apply stable_found in H.
    destruct H as [content [t [o [n [[H1 [H2 [H3 [H4 _]]]] H7]]]]].
    destruct (HRT o n H4) as [i' [Hp Hs]].
    exists content, t, o, i'. split; [exact H1|]. split; [exact H2|]. split; [exact H3|]. split; [|exact Hs].
    destruct (cmp_inst_true _ _ _ H7) as [E|E]; subst o; [exact Hp|].
    rewrite (HW _ _ _ H4). exact Hp.
  Qed.

  (* the node a round-trip theorem speaks of is the node emitted *)
  Lemma RT_close : forall k i (e : outcome stmt) n,
      e = Ok n ->
      (exists n' i', e = Ok n' /\ parse_node_inst it ww k n' = Ok i' /\ same_interface_inst k i i' = true) ->
      exists i', parse_node_inst it ww k n = Ok i' /\ same_interface_inst k i i' = true.
  Proof. intros k i e n He [n' [i' [He' H]]]. rewrite He in He'. injection He' as <-. exists i'. exact H. Qed.

  Lemma RT_at_class : forall search i, guard_C09_class w i = true -> RT_at KClass search i.
  Proof.
    intros search i Hg o n He. apply (RT_close KClass i _ n (emit_inst_found _ _ KClass _ _ _ _ He)).
    destruct (class_round_trip_node w pt i (last search (default_name KClass)) it ww Hg)
      as [n' [i' [He' [Hp [_ [_ Hs]]]]]].
    exists n', i'. split; [exact He'|]. split; [exact Hp|exact Hs].
  Qed.

  Lemma RT_at_argparse : forall search i,
      guard_C09_argparse w pt i = true -> last search (default_name KArgparse) <> [] ->
      RT_at KArgparse search i.
  Proof.
    intros search i Hg Hnm o n He. destruct (emit_inst_found _ _ KArgparse _ _ _ _ He) as [ft [Hin He1]].
    destruct (function_kinds_nonempty ft Hin) as [tc [tr ->]].
    destruct (last search (default_name KArgparse)) as [|fc fr]; [contradiction Hnm; reflexivity|].
    apply (RT_close KArgparse i _ n He1).
    destruct (argparse_round_trip_node w pt i fc fr tc tr Hg) as [n' [i' [He' [Hp [_ [_ Hs]]]]]].
    exists n', i'. split; [exact He'|]. split; [exact Hp|exact Hs].
  Qed.

  Lemma RT_at_function : forall search i,
      guard_C09_function_found w pt i (last search (default_name KFunction)) = true ->
      RT_at KFunction search i.
  Proof.
    intros search i Hg o n He. destruct (emit_inst_found _ _ KFunction _ _ _ _ He) as [ft [Hin He1]].
    apply (RT_close KFunction i _ n He1).
    unfold guard_C09_function_found in Hg. rewrite forallb_forall in Hg.
    destruct (function_round_trip_node w pt i _ ft (Hg ft Hin)) as [n' [i' [He' [Hp [_ Hs]]]]].
    exists n', i'. split; [exact He'|]. split; [exact Hp|exact Hs].
  Qed.

  (* class targets: a sufficient, structural form of WRITTEN_PARSE -- the written form differs from the node in the
     docstring constant only, and both constants are read as the same docstring-derived IR *)
  Definition class_doc_equiv (a b : stmt) : Prop :=
    exists nm bs d1 d2 rest decos,
      a = SClass nm bs (SExpr (EConst (VStr d1)) :: rest) decos
      /\ b = SClass nm bs (SExpr (EConst (VStr d2)) :: rest) decos
      /\ class_doc_ir_of_const d1 = class_doc_ir_of_const d2.

  Lemma class_doc_equiv_parse : forall a b,
      class_doc_equiv a b -> parse_class_node it ww a = parse_class_node it ww b.
  Proof.
    intros a b [nm [bs [d1 [d2 [rest [decos [Ea [Eb Hd]]]]]]]]. subst a b.
    rewrite !parse_class_node_shape. unfold parse_class. cbn [find_class is_class_other bind docstring_of tl].
    rewrite Hd. reflexivity.
  Qed.

  Lemma WRITTEN_PARSE_class_of_equiv :
      (forall i o n, emit_inst w pt KClass i o = Ok n -> class_doc_equiv (as_written n) n) ->
      WRITTEN_PARSE_law KClass.
  Proof. intros H i o n He. cbn [parse_node_inst]. apply class_doc_equiv_parse. apply (H i o n He). Qed.

  Variable rewrite : list str -> stmt -> tree -> tree * bool.

  Definition targets_agree (fs : fsys) (a : sync_args) (truth : path) (k : kind) (i : ir) : Prop :=
    forall files, sa_files a k = Some files ->
      exists nm, name_of a k = Ok nm
                 /\ forall file, In file files -> file <> truth ->
                                 agrees_at fs file (strip_split [ch 46] nm) k i.

  (* the name given for kind k does not end in a dot (its last component names the definition) *)
  Definition name_ends_named (a : sync_args) (k : kind) : Prop :=
    forall nm, name_of a k = Ok nm -> last (strip_split [ch 46] nm) (default_name k) <> [].


  (* from FIX alone (REPLACES is false of the Locate rewriter on FunctionDef nodes): agreement, or the rewriter
     declined a found definition that differs *)
  Definition declined_at (fs : fsys) (file : path) (search : list str) (k : kind) (i : ir) : Prop :=
    exists content t o n,
      fs_get file fs = Some content /\ parse_file file content = Ok t /\ find search t = Some o
      /\ emit_inst w pt k i (opts_inst (Some o) search k) = Ok n
      /\ cmp_inst as_written o n = false /\ snd (rewrite search n t) = false.

  Notation settled_i :=
    (settled stmt tree ir sync_opts (emit_inst w pt) parse_file find rewrite (cmp_inst as_written) opts_inst
             type_ok_inst).

  Lemma settled_agrees_or_declined : forall k fs file search i,
      WRITTEN_PARSE_law k -> RT_at k search i ->
      settled_i fs file search k i -> agrees_at fs file search k i \/ declined_at fs file search k i.
  Proof.
    intros k fs file search i HW HRT H. apply settled_found in H. destruct H as [content [t [o [n [Hf Hd]]]]].
    destruct (cmp_inst as_written o n) eqn:Ec.
    - left. apply (stable_agrees_gen k fs file search i HW HRT). apply stable_found.
      exists content, t, o, n. split; [exact Hf|exact Ec].
    - right. destruct Hd as [Hd|Hd]; [discriminate Hd|]. destruct Hf as [H1 [H2 [H3 [H4 _]]]].
      exists content, t, o, n.
      split; [exact H1|]. split; [exact H2|]. split; [exact H3|]. split; [exact H4|]. split; [exact Ec|exact Hd].
  Qed.

  Definition targets_settle (fs : fsys) (a : sync_args) (truth : path) (k : kind) (i : ir) : Prop :=
    forall files, sa_files a k = Some files ->
      exists nm, name_of a k = Ok nm
                 /\ forall file, In file files -> file <> truth ->
                                 agrees_at fs file (strip_split [ch 46] nm) k i
                                 \/ declined_at fs file (strip_split [ch 46] nm) k i.

End Step.

(* argparse targets: the same reduction.  parse.argparse_ast uses the docstring constant through the docstring-derived
   IR, and through its text only at a  return (..., ...)  statement *)
Lemma argparse_step_indep : forall di fb fb' st node,
    is_tuple_return node = false -> argparse_step di fb st node = argparse_step di fb' st node.
Proof.
  intros di fb fb' st node H. unfold argparse_step.
  destruct (argparse_stmt_declined node); [reflexivity|].
  destruct node as [n a b d r|n bs b d|t a v|ts v|e|e|t h bl]; try reflexivity.
  destruct e as [e|]; [|reflexivity].
  destruct e; try reflexivity. discriminate H.
Qed.

Lemma argparse_loop_indep : forall di fb fb' body st,
    forallb (fun s => negb (is_tuple_return s)) body = true ->
    argparse_loop di fb st body = argparse_loop di fb' st body.
Proof.
  intros di fb fb' body. induction body as [|x r IH]; intros st H; [reflexivity|].
  cbn [forallb] in H. apply andb_true_iff in H. destruct H as [Hx Hr]. apply negb_true_iff in Hx.
  cbn [argparse_loop]. rewrite (argparse_step_indep di fb fb' st x Hx).
  destruct (argparse_step di fb' st x) as [st'|e]; [|reflexivity]. cbn [bind]. apply IH. exact Hr.
Qed.

Definition argparse_doc_equiv (a b : stmt) : Prop :=
  exists nm args d1 d2 rest decos rets,
    a = SFunc nm args (SExpr (EConst (VStr d1)) :: rest) decos rets
    /\ b = SFunc nm args (SExpr (EConst (VStr d2)) :: rest) decos rets
    /\ argparse_doc_ir_of_const (Some d1) = argparse_doc_ir_of_const (Some d2)
    /\ forallb (fun s => negb (is_tuple_return s)) rest = true.

Lemma argparse_doc_equiv_parse : forall a b,
    argparse_doc_equiv a b -> parse_argparse_node a = parse_argparse_node b.
Proof.
  intros a b [nm [args [d1 [d2 [rest [decos [rets [Ea [Eb [Hd Hr]]]]]]]]]]. subst a b.
  unfold parse_argparse_node. cbn [docstring_of]. rewrite Hd.
  unfold parse_argparse_ast. cbn [is_func_other docstring_of tl].
  destruct (argparse_doc_ir_of_const (Some d2)) as [di|e]; [|reflexivity]. cbn [bind].
  rewrite (argparse_loop_indep di (SExpr (EConst (VStr d1)) :: rest) (SExpr (EConst (VStr d2)) :: rest) rest _ Hr).
  reflexivity.
Qed.

Lemma written_form_argparse : forall (as_written : stmt -> stmt) (w : nat) (pt : ptable) (it ww : bool),
    (forall i o n, emit_inst w pt KArgparse i o = Ok n -> argparse_doc_equiv (as_written n) n) ->
    WRITTEN_PARSE_law as_written w pt it ww KArgparse.
Proof.
  intros as_written w pt it ww H i o n He. cbn [parse_node_inst]. apply argparse_doc_equiv_parse. apply (H i o n He).
Qed.

(* function targets without the clause fn_reparse_fixed, from two parse-transparency premises instead.
   The parser reads from the written form what it reads from ast.parse(ast.unparse(n)): black is transparent *)
Definition WRITTEN_REPARSE_law (as_written : stmt -> stmt) (w : nat) (pt : ptable) : Prop :=
  forall i o n n', emit_inst w pt KFunction i o = Ok n -> C03Spec.reparse_stmt n = Ok n' ->
                   parse_function_node (as_written n) = parse_function_node n'.

(* the parser reads from the emitted node what it reads from its re-parse (negative numbers: Constant(-5) against
   UnaryOp(USub, 5)); concerns the disjunct cmp_ast(found, emitted) only *)
Definition EMITTED_REPARSE_law (w : nat) (pt : ptable) : Prop :=
  forall i o n n', emit_inst w pt KFunction i o = Ok n -> C03Spec.reparse_stmt n = Ok n' ->
                   parse_function_node n = parse_function_node n'.

Theorem stable_function_target_canon :
    forall (tree : Type) (parse_file : path -> bytes -> outcome tree) (find : list str -> tree -> option stmt)
      (as_written : stmt -> stmt) (w : nat) (pt : ptable) (it ww : bool) (fs : fsys) (file : path)
      (search : list str) (i : ir),
    WRITTEN_REPARSE_law as_written w pt -> EMITTED_REPARSE_law w pt ->
    guard_C09_function_found_core w pt i (last search (default_name KFunction)) = true ->
    stable stmt tree ir sync_opts (emit_inst w pt) parse_file find (cmp_inst as_written) opts_inst type_ok_inst
           fs file search KFunction i ->
    agrees_at tree parse_file find it ww fs file search KFunction i.
Proof.
  intros tree parse_file find as_written w pt it ww fs file search i HW HE Hg H. apply stable_found in H.
  destruct H as [content [t [o [n [[H1 [H2 [H3 [H4 _]]]] H7]]]]].
  destruct (emit_inst_found _ _ KFunction _ _ _ _ H4) as [ft [Hin He1]].
  unfold guard_C09_function_found_core in Hg. rewrite forallb_forall in Hg.
  destruct (function_round_trip_canon w pt i _ ft (Hg ft Hin)) as [n0 [n' [i' [He' [Hre [Hp [_ Hs]]]]]]].
  rewrite He1 in He'. injection He' as <-.
  exists content, t, o, i'. split; [exact H1|]. split; [exact H2|]. split; [exact H3|]. split; [|exact Hs].
  cbn [parse_node_inst]. destruct (cmp_inst_true _ _ _ H7) as [E|E]; subst o.
  - rewrite (HE _ _ _ _ H4 Hre). exact Hp.
  - rewrite (HW _ _ _ _ H4 Hre). exact Hp.
Qed.

Section Install.
  Variable tree : Type.
  Variable parse_file : path -> bytes -> outcome tree.
  Variable find : list str -> tree -> option stmt.
  Variable as_written : stmt -> stmt.
  Variables (w : nat) (pt : ptable) (it ww : bool).
  Variable rewrite : list str -> stmt -> tree -> tree * bool.
  Variable render_node : stmt -> outcome bytes.
  Variable render_tree : tree -> outcome bytes.
  Variable parse_truth : kind -> option stmt -> list str -> outcome ir.

  Notation stable_i :=
    (stable stmt tree ir sync_opts (emit_inst w pt) parse_file find (cmp_inst as_written) opts_inst type_ok_inst).
  Notation settled_i :=
    (settled stmt tree ir sync_opts (emit_inst w pt) parse_file find rewrite (cmp_inst as_written) opts_inst
             type_ok_inst).
  Notation conf_i :=
    (conform (emit_inst w pt) parse_file find rewrite (cmp_inst as_written) render_node render_tree opts_inst
             type_ok_inst).
  Notation FIX_i :=
    (FIX_law stmt tree ir sync_opts (emit_inst w pt) parse_file find rewrite (cmp_inst as_written) render_node
             render_tree opts_inst type_ok_inst).
  Notation gtruth_i :=
    (ground_truth (emit_inst w pt) parse_file find rewrite (cmp_inst as_written) render_node render_tree opts_inst
                  type_ok_inst parse_truth).
  Notation agrees_i := (agrees_at tree parse_file find it ww).
  Notation declined_i := (declined_at tree parse_file find as_written w pt rewrite).

  Notation WP := (WRITTEN_PARSE_law as_written w pt it ww).
  Notation RT := (RT_at w pt it ww).
  Notation truth_ir_i := (truth_ir stmt tree ir parse_file find parse_truth).

  (* the install phase: what the target file held has no definition at the location -- the file is missing, or it
     parses (an empty file included) and the finder finds nothing *)
  Definition install_pre_c (c : option bytes) (file : path) (search : list str) : Prop :=
    c = None
    \/ exists content t, c = Some content /\ parse_file file content = Ok t /\ find search t = None.

  (* one call, install phase: under FIX the outcome is never the declined one *)
  Lemma conform_install_stable : FIX_i -> forall fs file search k i fs' b pr,
      search <> [] -> install_pre_c (fs_get file fs) file search ->
      conf_i fs file search k i NoFault = (fs', Ok b, pr) -> stable_i fs' file search k i.
  Proof.
    intros HF fs file search k i fs' b pr Hs Hpre H. destruct b.
    - apply (HF _ _ _ _ _ _ _ Hs H).
    - exfalso.
      destruct (conform_false_settled _ _ _ _ _ _ _ _ _ _ _ _ _ _ _ _ _ _ _ _ _ H)
        as [content [t [o [n [H1 [H2 [H3 _]]]]]]].
      destruct Hpre as [Hn|[content' [t' [Hc [Hp Hf]]]]].
      + rewrite H1 in Hn. discriminate Hn.
      + rewrite H1 in Hc. injection Hc as Hc. subst content'. rewrite H2 in Hp. injection Hp as Hp. subst t'.
        rewrite H3 in Hf. discriminate Hf.
  Qed.

  (* what one successful call establishes of its file, c being what the file held before: settled, and stable
     when the call installed the definition *)
  Definition G_inst (c : option bytes) (fs' : fsys) (file : path) (s : list str) (k : kind) (i : ir) : Prop :=
    settled_i fs' file s k i /\ (install_pre_c c file s -> stable_i fs' file s k i).

  Lemma G_inst_ext : forall c fs1 fs2 file s k i,
      fs_get file fs1 = fs_get file fs2 -> G_inst c fs1 file s k i -> G_inst c fs2 file s k i.
  Proof.
    intros c fs1 fs2 file s k i Hg [H1 H2]. split.
    - eapply settled_ext; eassumption.
    - intros Hp. eapply stable_ext; [exact Hg|]. apply H2. exact Hp.
  Qed.

  Lemma G_inst_step : FIX_i -> forall fs file s k i fs' b pr,
      s <> [] -> conf_i fs file s k i (NoFaults file) = (fs', Ok b, pr) -> G_inst (fs_get file fs) fs' file s k i.
  Proof.
    intros HF fs file s k i fs' b pr Hs H. split.
    - apply (step_settled _ _ _ _ _ _ _ _ _ _ _ _ _ HF _ _ _ _ _ _ _ _ Hs H).
    - intros Hp. apply (conform_install_stable HF _ _ _ _ _ _ _ _ Hs Hp H).
  Qed.

  (* hence for one target whose kind round-trips: it agrees or was declined; it agrees if it was installed; and it
     agrees if the rewriter replaces whatever is found *)
  Lemma G_inst_target : forall k c fs1 file s i,
      WP k -> RT k s i -> G_inst c fs1 file s k i ->
      (agrees_i fs1 file s k i \/ declined_i fs1 file s k i)
      /\ (install_pre_c c file s -> agrees_i fs1 file s k i)
      /\ (REPLACES_law stmt tree find rewrite -> agrees_i fs1 file s k i).
  Proof.
    intros k c fs1 file s i HW HRT [Hset Hinst].
    split; [apply (settled_agrees_or_declined _ _ _ _ _ _ _ _ _ _ _ _ _ _ HW HRT Hset)|]. split.
    - intros Hp. apply (stable_agrees_gen _ _ _ _ _ _ _ _ _ _ _ _ _ HW HRT). apply Hinst. exact Hp.
    - intros HR. apply (stable_agrees_gen _ _ _ _ _ _ _ _ _ _ _ _ _ HW HRT).
      apply (settled_stable _ _ _ _ _ _ _ _ _ _ _ HR _ _ _ _ _ Hset).
  Qed.

  (* per target of kind k: it agrees or was declined; and it agrees when it was installed in this run *)
  Definition targets_settle_install (fs fs1 : fsys) (a : sync_args) (truth : path) (k : kind) (i : ir) : Prop :=
    forall files, sa_files a k = Some files ->
      exists nm, name_of a k = Ok nm
                 /\ forall file, In file files -> file <> truth ->
                      (agrees_i fs1 file (strip_split [ch 46] nm) k i
                       \/ declined_i fs1 file (strip_split [ch 46] nm) k i)
                      /\ (install_pre_c (fs_get file fs) file (strip_split [ch 46] nm) ->
                          agrees_i fs1 file (strip_split [ch 46] nm) k i).


  (* the three per-kind statements are all_G at that kind, at three per-file predicates *)
  Lemma targets_read : forall fs fs1 a truth k i,
      (targets_agree tree parse_file find it ww fs1 a truth k i <-> all_G ir agrees_i fs1 a truth [k] i)
      /\ (targets_settle tree parse_file find as_written w pt it ww rewrite fs1 a truth k i
          <-> all_G ir (fun fs' file s k i => agrees_i fs' file s k i \/ declined_i fs' file s k i) fs1 a truth [k] i)
      /\ (targets_settle_install fs fs1 a truth k i
          <-> all_G ir (fun fs' file s k i => (agrees_i fs' file s k i \/ declined_i fs' file s k i)
                                              /\ (install_pre_c (fs_get file fs) file s -> agrees_i fs' file s k i))
                    fs1 a truth [k] i).
  Proof.
    intros fs fs1 a truth k i. split; [|split]; apply iff_sym, all_G_single.
  Qed.

  Lemma targets_settle_of_install : forall fs fs1 a truth k i,
      targets_settle_install fs fs1 a truth k i ->
      targets_settle tree parse_file find as_written w pt it ww rewrite fs1 a truth k i.
  Proof.
    intros fs fs1 a truth k i H files Hfiles. destruct (H files Hfiles) as [nm [Hnm Hall]].
    exists nm. split; [exact Hnm|]. intros file Hin Hne. apply (Hall file Hin Hne).
  Qed.

  (* the run, kind by kind, from FIX alone: the truth still converts to the same IR, and every target of a kind
     that round-trips is in the three states of G_inst_target *)
  Theorem run_targets : FIX_i ->
      forall fs a truth fs1 eff pr,
        sync_args_ok a truth ->
        gtruth_i fs a truth NoFaults = (fs1, Ok eff, pr) ->
        exists i,
          truth_ir_i fs1 a truth = Ok i /\ truth_ir_i fs a truth = Ok i
          /\ forall k, WP k -> (forall nm, name_of a k = Ok nm -> RT k (strip_split [ch 46] nm) i) ->
                        targets_settle_install fs fs1 a truth k i
                        /\ (REPLACES_law stmt tree find rewrite ->
                            targets_agree tree parse_file find it ww fs1 a truth k i).
  Proof.
    intros HF fs a truth fs1 eff pr Hok H.
    destruct (ground_truth_establish _ _ _ _ _ _ _ _ _ _ _ _ _ _ G_inst G_inst_ext NoFaults (G_inst_step HF)
                                     _ _ _ _ _ _ Hok H) as [i [Hir1 [Hir0 HG]]].
    exists i. split; [exact Hir1|]. split; [exact Hir0|]. intros k HW HRT.
    pose proof (fun nm file Hnm => G_inst_target k (fs_get file fs) fs1 file _ i HW (HRT nm Hnm)) as Hone.
    split.
    - apply (targets_read fs fs1 a truth k i).
      apply (all_G_kind _ _ _ _ _ _ _ _ _ HG (kind_in_order k)). intros nm file Hnm HGf.
      destruct (Hone nm file Hnm HGf) as [H1 [H2 _]]. split; assumption.
    - intros HR. apply (targets_read fs fs1 a truth k i).
      apply (all_G_kind _ _ _ _ _ _ _ _ _ HG (kind_in_order k)). intros nm file Hnm HGf.
      apply (Hone nm file Hnm HGf). exact HR.
  Qed.

  Definition function_guard_args (a : sync_args) (i : ir) : Prop :=
    forall nm, name_of a KFunction = Ok nm ->
               guard_C09_function_found w pt i (last (strip_split [ch 46] nm) (default_name KFunction)) = true.


  (* the closed kinds meet the round-trip premise on their guards *)
  Lemma kind_clauses : forall a i (T : kind -> Prop),
      (forall k, WP k -> (forall nm, name_of a k = Ok nm -> RT k (strip_split [ch 46] nm) i) -> T k) ->
      (WP KClass -> guard_C09_class w i = true -> T KClass)
      /\ (WP KArgparse -> guard_C09_argparse w pt i = true -> name_ends_named a KArgparse -> T KArgparse)
      /\ (WP KFunction -> function_guard_args a i -> T KFunction).
  Proof.
    intros a i T Hgen. split; [|split].
    - intros HW Hg. apply (Hgen KClass HW). intros nm _. apply RT_at_class. exact Hg.
    - intros HW Hg Hnm. apply (Hgen KArgparse HW). intros nm En. apply RT_at_argparse; [exact Hg|apply (Hnm nm En)].
    - intros HW Hg. apply (Hgen KFunction HW). intros nm En. apply RT_at_function. apply (Hg nm En).
  Qed.

  Theorem interface_agreement :
      FIX_i -> REPLACES_law stmt tree find rewrite ->
      forall fs a truth fs1 eff pr,
        sync_args_ok a truth ->
        gtruth_i fs a truth NoFaults = (fs1, Ok eff, pr) ->
        exists i,
          truth_ir_i fs1 a truth = Ok i
          /\ truth_ir_i fs a truth = Ok i
          /\ (WP KClass -> guard_C09_class w i = true -> targets_agree tree parse_file find it ww fs1 a truth KClass i)
          /\ (WP KArgparse -> guard_C09_argparse w pt i = true -> name_ends_named a KArgparse ->
              targets_agree tree parse_file find it ww fs1 a truth KArgparse i)
          (* any kind, from the round trip of that kind as a premise *)
          /\ (forall k, WP k -> (forall nm, name_of a k = Ok nm -> RT k (strip_split [ch 46] nm) i) ->
                        targets_agree tree parse_file find it ww fs1 a truth k i).
  Proof.
    intros HF HR fs a truth fs1 eff pr Hok H.
    destruct (run_targets HF _ _ _ _ _ _ Hok H) as [i [Hir1 [Hir0 Hall]]].
    assert (Hgen : forall k, WP k -> (forall nm, name_of a k = Ok nm -> RT k (strip_split [ch 46] nm) i) ->
                             targets_agree tree parse_file find it ww fs1 a truth k i).
    { intros k HW HRT. apply (Hall k HW HRT). exact HR. }
    destruct (kind_clauses a i _ Hgen) as [Hc [Ha _]].
    exists i. repeat (split; [assumption|]). exact Hgen.
  Qed.

  Theorem interface_agreement_settled :
      FIX_i ->
      forall fs a truth fs1 eff pr,
        sync_args_ok a truth ->
        gtruth_i fs a truth NoFaults = (fs1, Ok eff, pr) ->
        exists i,
          truth_ir_i fs1 a truth = Ok i
          /\ (WP KClass -> guard_C09_class w i = true ->
              targets_settle tree parse_file find as_written w pt it ww rewrite fs1 a truth KClass i)
          /\ (WP KArgparse -> guard_C09_argparse w pt i = true -> name_ends_named a KArgparse ->
              targets_settle tree parse_file find as_written w pt it ww rewrite fs1 a truth KArgparse i)
          /\ (forall k, WP k -> (forall nm, name_of a k = Ok nm -> RT k (strip_split [ch 46] nm) i) ->
                        targets_settle tree parse_file find as_written w pt it ww rewrite fs1 a truth k i).
  Proof.
    intros HF fs a truth fs1 eff pr Hok H.
    destruct (run_targets HF _ _ _ _ _ _ Hok H) as [i [Hir1 [_ Hall]]].
    assert (Hgen : forall k, WP k -> (forall nm, name_of a k = Ok nm -> RT k (strip_split [ch 46] nm) i) ->
                             targets_settle tree parse_file find as_written w pt it ww rewrite fs1 a truth k i).
    { intros k HW HRT. apply (targets_settle_of_install fs), (Hall k HW HRT). }
    destruct (kind_clauses a i _ Hgen) as [Hc [Ha _]].
    exists i. repeat (split; [assumption|]). exact Hgen.
  Qed.

  Theorem interface_agreement_install : FIX_i ->
      forall fs a truth fs1 eff pr,
        sync_args_ok a truth ->
        gtruth_i fs a truth NoFaults = (fs1, Ok eff, pr) ->
        exists i,
          truth_ir_i fs1 a truth = Ok i
          /\ forall k, WP k -> (forall nm, name_of a k = Ok nm -> RT k (strip_split [ch 46] nm) i) ->
                       targets_settle_install fs fs1 a truth k i.
  Proof.
    intros HF fs a truth fs1 eff pr Hok H.
    destruct (run_targets HF _ _ _ _ _ _ Hok H) as [i [Hir1 [_ Hall]]].
    exists i. split; [exact Hir1|]. intros k HW HRT. apply (Hall k HW HRT).
  Qed.

  (* FIX alone (REPLACES is false of the Locate rewriter on FunctionDef nodes): every function target agrees, or is a
     found definition that differs and that the rewriter declined (the recorded finding found-definition-not-replaced);
     and a function target that was installed by this run (file missing, or nothing found at the location) agrees *)
  Theorem function_targets_settle_install : FIX_i ->
      forall fs a truth fs1 eff pr,
        sync_args_ok a truth ->
        gtruth_i fs a truth NoFaults = (fs1, Ok eff, pr) ->
        exists i,
          truth_ir stmt tree ir parse_file find parse_truth fs1 a truth = Ok i
          /\ (WRITTEN_PARSE_law as_written w pt it ww KFunction -> function_guard_args a i ->
              targets_settle_install fs fs1 a truth KFunction i).
  Proof.
    intros HF fs a truth fs1 eff pr Hok H.
    destruct (interface_agreement_install HF _ _ _ _ _ _ Hok H) as [i [Hir Hall]].
    exists i. split; [exact Hir|]. apply (kind_clauses a i _ Hall).
  Qed.

  Theorem function_targets_agree : FIX_i -> REPLACES_law stmt tree find rewrite ->
      forall fs a truth fs1 eff pr,
        sync_args_ok a truth ->
        gtruth_i fs a truth NoFaults = (fs1, Ok eff, pr) ->
        exists i,
          truth_ir stmt tree ir parse_file find parse_truth fs1 a truth = Ok i
          /\ (WRITTEN_PARSE_law as_written w pt it ww KFunction -> function_guard_args a i ->
              targets_agree tree parse_file find it ww fs1 a truth KFunction i).
  Proof.
    intros HF HR fs a truth fs1 eff pr Hok H.
    destruct (interface_agreement HF HR _ _ _ _ _ _ Hok H) as [i [Hir [_ [_ [_ Hall]]]]].
    exists i. split; [exact Hir|]. apply (kind_clauses a i _ Hall).
  Qed.
End Install.

Definition gp9 (d t : str) (v : pyval) : gparam := mkG (Has d) (Has t) (Some (DV v)).

(* a truth with three parameters, each with a default *)
Definition ir9 : ir :=
  mkIR FNone (Has (L "static")) (Has (L "Train a model."))
       [(L "epochs", gp9 (L "number of passes.") (L "int") (VInt 5));
        (L "name", gp9 (L "name of the run,") (L "str") (VStr (L "mnist")));
        (L "rate", gp9 (L "the learning rate") (L "float") (VFloat (L "0.5")))]
       FNone None.

Definition node9 : stmt :=
  match emit_inst 100 [] KClass ir9 (opts_inst None [L "Config"] KClass) with
  | Ok n => n
  | Err _ => SReturn None
  end.

(* a toy tree layer: the file holding the text C9 parses to the module [node9]; find takes the first statement *)
Module Toy9.
  Definition parse_file (p : path) (c : bytes) : outcome (list stmt) :=
    if str_eqb c (L "C9") then Ok [node9] else Ok [].
  Definition find (s : list str) (t : list stmt) : option stmt := hd_error t.
  Definition fs : fsys := [(L "target.py", L "C9")].
End Toy9.

Lemma ir9_in_guard : guard_C09_class 100 ir9 = true.
Proof. vm_compute. reflexivity. Qed.

(* the class target of the example: in the guard, stable, hence -- by the theorem -- parsed with the same interface;
   and what the parser reads is spelled out *)
Example class_target_example :
  guard_C09_class 100 ir9 = true
  /\ agrees_at (list stmt) Toy9.parse_file Toy9.find false true Toy9.fs (L "target.py") [L "Config"] KClass ir9
  /\ (exists i', parse_node_inst false true KClass node9 = Ok i'
                 /\ map fst (ir_params i') = [L "epochs"; L "name"; L "rate"]
                 /\ map (fun kv => g_default (snd kv)) (ir_params i')
                    = [Some (DV (VInt 5)); Some (DV (VStr (L "mnist"))); Some (DV (VFloat (L "0.5")))]
                 /\ same_interface ir9 i' = true).
Proof.
  destruct (class_round_trip_node 100 [] ir9 (L "Config") false true ir9_in_guard) as [n [i' [He [Hp [Hps [_ Hs]]]]]].
  assert (He' : emit_inst 100 [] KClass ir9 (opts_inst None [L "Config"] KClass) = Ok n) by exact He.
  assert (En : node9 = n) by (unfold node9; rewrite He'; reflexivity).
  split; [exact ir9_in_guard|]. split.
  - apply (stable_agrees_gen (list stmt) Toy9.parse_file Toy9.find (fun n => n) 100 [] false true KClass).
    + intros i o n0 _. reflexivity.
    + apply RT_at_class. exact ir9_in_guard.
    + exists (L "C9"), [node9], node9, node9.
      split; [reflexivity|]. split; [reflexivity|]. split; [reflexivity|].
      split; [rewrite En; exact He'|]. split; [discriminate|].
      split; [rewrite En; apply (emit_class_inst_type_ok _ _ _ _ _ He)|apply cmp_inst_refl].
  - (* what the parser reads follows from the round trip: the parameters are those of the truth, normalised *)
    exists i'. rewrite En, Hps. split; [exact Hp|]. split; [reflexivity|]. split; [reflexivity|exact Hs].
Qed.

(* the docstring of the argparse function depends on the truth through its return entry only, so ir9 and ir9_long
   below share it; computed here once, with the fact that it is read back without raising *)
Definition adoc9 : str :=
  Eval vm_compute in match argparse_docstring_text 100 ir9 with Ok t => t | Err _ => [] end.

Lemma adoc9_val : forall ps,
    argparse_docstring_text 100 (mkIR FNone (Has (L "static")) (Has (L "Train a model.")) ps FNone None) = Ok adoc9.
Proof. intros ps. vm_compute. reflexivity. Qed.

Lemma adoc9_reads : is_ok (argparse_doc_ir_of_const (Some (set_value_str (indent tab adoc9 ++ tab)))) = true.
Proof. vm_compute. reflexivity. Qed.

(* the same truth as an argparse target: in the guard of the argparse round trip, which it passes at the node *)
Definition node9a : stmt :=
  match emit_inst 100 [] KArgparse ir9
                  (opts_inst (Some (SFunc (L "set_cli_args") no_arguments [] [] None)) [L "set_cli_args"] KArgparse) with
  | Ok n => n
  | Err _ => SReturn None
  end.

Example argparse_target_example :
  guard_C09_argparse 100 [] ir9 = true
  /\ emit_inst 100 [] KArgparse ir9
               (opts_inst (Some (SFunc (L "set_cli_args") no_arguments [] [] None)) [L "set_cli_args"] KArgparse)
     = Ok node9a
  /\ (exists i', parse_node_inst false true KArgparse node9a = Ok i'
                 /\ map fst (ir_params i') = [L "epochs"; L "name"; L "rate"]
                 /\ same_interface_inst KArgparse ir9 i' = true).
Proof.
  assert (Hg : guard_C09_argparse 100 [] ir9 = true).
  { unfold guard_C09_argparse, argparse_doc_layer_ok.
    rewrite (adoc9_val _ : argparse_docstring_text 100 ir9 = _), adoc9_reads. vm_compute. reflexivity. }
  assert (Hname : exists fc fr tc tr, L "set_cli_args" = fc :: fr /\ L "static" = tc :: tr)
    by (do 4 eexists; split; reflexivity).
  destruct Hname as [fc [fr [tc [tr [En Et]]]]].
  destruct (argparse_round_trip_node 100 [] ir9 fc fr tc tr Hg) as [n [i' [He [Hp [Hps [_ Hs]]]]]].
  rewrite <- En, <- Et in He.
  assert (He' : emit_inst 100 [] KArgparse ir9
                  (opts_inst (Some (SFunc (L "set_cli_args") no_arguments [] [] None)) [L "set_cli_args"] KArgparse)
                = Ok n) by exact He.
  assert (En9 : node9a = n) by (unfold node9a; rewrite He'; reflexivity).
  split; [exact Hg|]. rewrite En9. split; [exact He'|].
  exists i'. rewrite Hps. split; [exact Hp|]. split; [reflexivity|exact Hs].
Qed.

(* the clause argparse_wrap_neutral is needed: inside guard_C04_ast, a help text longer than the line length is
   re-flowed by word_wrap=True (the option conformance leaves on) and comes back with a line break in it.
   Real code: emit.argparse_function then parse.argparse_ast on this IR returns the help text with a newline after
   the word final. *)
Definition long_help9 : str :=
  L "number of passes over the data set that the optimiser makes before it stops and reports the final loss value".

Definition ir9_long : ir :=
  mkIR FNone (Has (L "static")) (Has (L "Train a model."))
       [(L "epochs", gp9 long_help9 (L "int") (VInt 5))] FNone None.

Lemma argparse_wrap_needed :
  guard_C04_ast ir9_long = true /\ argparse_wrap_neutral [] ir9_long = false
  /\ argparse_doc_layer_ok 100 ir9_long = true
  /\ match emit_argparse_inst 100 [] ir9_long (L "set_cli_args") (Some (L "static")) with
     | Ok n => match parse_argparse_node n with
               | Ok i' => same_interface_argparse (argparse_type_norm ir9_long) i' = false
               | Err _ => False
               end
     | Err _ => False
     end.
Proof.
  unfold argparse_doc_layer_ok, emit_argparse_inst. rewrite !(adoc9_val _ : argparse_docstring_text 100 ir9_long = _), adoc9_reads.
  vm_compute. repeat split; reflexivity.
Qed.

Definition node9f : stmt :=
  match emit_inst 100 [] KFunction ir9
                  (opts_inst (Some (SFunc (L "train") no_arguments [] [] None)) [L "train"] KFunction) with
  | Ok n => n
  | Err _ => SReturn None
  end.

(* a toy tree layer whose rewriter never replaces (as the Locate rewriter on FunctionDef nodes): every rendering is the
   text F9, which parses to the module [node9f]; any other text parses to the empty module *)
Module Toy9f.
  Definition parse_file (p : path) (c : bytes) : outcome (list stmt) :=
    if str_eqb c (L "F9") then Ok [node9f] else Ok [].
  Definition find (s : list str) (t : list stmt) : option stmt := hd_error t.
  Definition rewrite (s : list str) (n : stmt) (t : list stmt) : list stmt * bool := (t, false).
  Definition render_node (n : stmt) : outcome bytes := Ok (L "F9").
  Definition render_tree (t : list stmt) : outcome bytes := Ok (L "F9").
  Definition fs : fsys := [(L "target.py", L "F9")].
  Definition conf (fs0 : fsys) :=
    conform (emit_inst 100 []) parse_file find rewrite (cmp_inst (fun n => n)) render_node render_tree opts_inst
            type_ok_inst fs0 (L "target.py") [L "train"] KFunction ir9 NoFault.
End Toy9f.

(* the docstring text emit.function gives this truth, whatever the function type; the guard and every emission below
   would each compute it again, so it is computed here and put in *)
Definition fdoc9 : str :=
  Eval vm_compute in
    match C03DocLinkDefs.function_docstring_text 100 (sync_fopts [] []) ir9 with Ok t => t | Err _ => [] end.

Lemma fdoc9_val : forall ft, C03DocLinkDefs.function_docstring_text 100 (sync_fopts [] ft) ir9 = Ok fdoc9.
Proof. intros ft. vm_compute. reflexivity. Qed.

Lemma ir9_function_guard : guard_C09_function_found 100 [] ir9 (L "train") = true.
Proof.
  unfold guard_C09_function_found, function_kinds. cbn [forallb].
  unfold guard_C09_function, guard_C09_function_core, fn_text_unquoted, fn_reparse_fixed, emit_function_inst.
  rewrite !fdoc9_val. vm_compute. reflexivity.
Qed.

(* creating or appending the function: the emission when no node was found *)
Lemma emit9f_none : exists n, emit_inst 100 [] KFunction ir9 (opts_inst None [L "train"] KFunction) = Ok n.
Proof.
  unfold emit_inst, opts_inst, emit_function_inst. cbn [so_ftype so_name bind]. rewrite fdoc9_val.
  eexists. vm_compute. reflexivity.
Qed.

(* the emitted function, evaluated once: a found node of this shape reads the same options back, and what
   parse.function reads from it *)
Lemma node9f_val : exists n,
    emit_inst 100 [] KFunction ir9
              (opts_inst (Some (SFunc (L "train") no_arguments [] [] None)) [L "train"] KFunction) = Ok n
    /\ opts_inst (Some n) [L "train"] KFunction
       = opts_inst (Some (SFunc (L "train") no_arguments [] [] None)) [L "train"] KFunction
    /\ type_ok_inst KFunction n = true
    /\ exists i', parse_node_inst false true KFunction n = Ok i'
                  /\ map fst (ir_params i') = [L "epochs"; L "name"; L "rate"]
                  /\ map (fun kv => g_default (snd kv)) (ir_params i')
                     = [Some (DV (VInt 5)); Some (DV (VStr (L "mnist"))); Some (DV (VFloat (L "0.5")))]
                  /\ C03Spec.same_interface_fn (L "static") ir9 i' = true
                  /\ same_interface_inst KFunction ir9 i' = true.
Proof.
  unfold emit_inst at 1, opts_inst at 1, emit_function_inst. cbn [so_ftype so_name bind]. rewrite fdoc9_val.
  eexists. split; [vm_compute; reflexivity|]. split; [reflexivity|]. split; [reflexivity|].
  eexists. split; [vm_compute; reflexivity|]. repeat apply conj; vm_compute; reflexivity.
Qed.

Example function_target_point :
  match emit_inst 100 [] KFunction ir9
                  (opts_inst (Some (SFunc (L "train") no_arguments [] [] None)) [L "train"] KFunction) with
  | Ok n => match parse_node_inst false true KFunction n with
            | Ok i' => same_interface_inst KFunction ir9 i' = true
                       /\ map fst (ir_params i') = [L "epochs"; L "name"; L "rate"]
            | Err _ => False
            end
  | Err _ => False
  end.
Proof.
  destruct node9f_val as [n [He [_ [_ [i' [Hp [Hn [_ [_ Hs]]]]]]]]]. rewrite He, Hp. split; assumption.
Qed.

(* the truth ir9 (three parameters with defaults) and the function target train: inside the guard for every function
   type a found node can have; the stable target agrees by the theorem; what parse.function reads; and the install
   phase: conform on a missing file and on an empty file creates / appends and the result is stable *)
Example function_target_example :
  guard_C09_function_found 100 [] ir9 (L "train") = true
  /\ agrees_at (list stmt) Toy9f.parse_file Toy9f.find false true Toy9f.fs (L "target.py") [L "train"] KFunction ir9
  /\ (exists i', parse_node_inst false true KFunction node9f = Ok i'
                 /\ map fst (ir_params i') = [L "epochs"; L "name"; L "rate"]
                 /\ map (fun kv => g_default (snd kv)) (ir_params i')
                    = [Some (DV (VInt 5)); Some (DV (VStr (L "mnist"))); Some (DV (VFloat (L "0.5")))]
                 /\ C03Spec.same_interface_fn (L "static") ir9 i' = true)
  /\ Toy9f.conf [] = (Toy9f.fs, Ok true, [])
  /\ (exists fs', Toy9f.conf [(L "target.py", [])] = (fs', Ok true, [])
                  /\ fs_get (L "target.py") fs' = Some (L "F9")).
Proof.
  destruct node9f_val as [n [He [Ho [Ht [i' [Hp [Hn [Hd [Hfn _]]]]]]]]].
  assert (En : node9f = n) by (unfold node9f; rewrite He; reflexivity).
  split; [exact ir9_function_guard|]. split.
  - apply (stable_agrees_gen (list stmt) Toy9f.parse_file Toy9f.find (fun n => n) 100 [] false true KFunction).
    + intros i o n0 _. reflexivity.
    + apply RT_at_function. exact ir9_function_guard.
    + exists (L "F9"), [node9f], node9f, node9f.
      split; [reflexivity|]. split; [reflexivity|]. split; [reflexivity|].
      split; [rewrite En, Ho; exact He|]. split; [discriminate|]. split; [rewrite En; exact Ht|apply cmp_inst_refl].
  - split; [rewrite En; exists i'; repeat split; assumption|].
    destruct emit9f_none as [n0 He0]. unfold Toy9f.conf, conform.
    split; [cbn [fs_get]; rewrite He0; reflexivity|].
    eexists. split; [cbn -[emit_inst opts_inst] in He0 |- *; rewrite He0; reflexivity|reflexivity].
Qed.

(* the clause fn_reparse_fixed is a limit of the proof, not of the code: with a negative default the emitted node is not
   a fixed point of the re-parse (Constant(-5) against UnaryOp(USub, 5)), the core guard holds, and the parser reads
   the same interface from both *)
Definition ir9_neg : ir :=
  mkIR FNone (Has (L "static")) (Has (L "Train a model."))
       [(L "epochs", gp9 (L "number of passes.") (L "int") (VInt (-5)))] FNone None.

