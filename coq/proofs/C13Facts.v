(* C13Facts: the three AST emitters return the IR they were handed (exact footprints: none), hence
   non-interference for every sequence of calls, by induction over the sequence (any length). *)
From Coq Require Import List Ascii Bool Arith ZArith Lia.
From Coq Require String.
Import String.StringSyntax.
From DT Require Import PyStr Sexp PyVal TyExpr PureUtils Defaults PyAst IR EmitAst C13Spec PyStrFacts DefaultsFacts EmitAstFacts.
Import ListNotations.

(* emit.class_ leaves its argument alone (it works on a deep copy) *)
Lemma emit_class_ir : forall pt i ec cn bs ds ww tds s i2,
    emit_class pt i ec cn bs ds ww tds = Ok (s, i2) -> i2 = i.
Proof.
  intros pt i ec cn bs ds ww tds s i2 H.
  destruct (emit_class_inv _ _ _ _ _ _ _ _ _ _ H) as (ib & text & meth & attrs & _ & _ & _ & _ & Hi & _). exact Hi.
Qed.

(* emit.function: to_docstring works on copies of the param dicts *)
Lemma emit_function_ir : forall pt i fn ft it kw tds s i2,
    emit_function pt i fn ft it kw tds = Ok (s, i2) -> i2 = i.
Proof.
  intros pt i fn ft it kw tds s i2 H.
  destruct (emit_function_inv _ _ _ _ _ _ _ _ _ H) as (n & ftype & afp & dfp & b & rv & text & r & _ & _ & _ & _ & _ & _ & _ & _ & _ & Hi).
  exact Hi.
Qed.

(* emit.argparse_function: param2argparse_param works on a copy of each param dict *)
Lemma emit_argparse_ir : forall pt i edd fn ft wd ww ds s i2,
    emit_argparse pt i edd fn ft wd ww ds = Ok (s, i2) -> i2 = i.
Proof.
  intros pt i edd fn ft wd ww ds s i2 H.
  destruct (emit_argparse_inv _ _ _ _ _ _ _ _ _ _ H)
    as (n & ftype & b & dtext & desc & ps & spliced & ret & _ & _ & _ & _ & _ & _ & _ & _ & Hi & _).
  exact Hi.
Qed.

Section Frame.
  Variable pt : ptable.
  Variable td : td_opts -> ir -> outcome str.
  Variable dsf : bool -> ir -> outcome str.
  Variable doc_op : doc_opts -> ir -> outcome (str * ir).

  Lemma run_op_frame : forall o i a i',
      (is_docstring o = true -> doc_stable_on doc_op i) ->
      run_op pt td dsf doc_op o i = Ok (a, i') -> i' = i.
  Proof.
    intros o i a i' Hd H. destruct o as [ec cn bs ds ww edd|n t ww edd il tb it kw|edd n t wd ww|o];
      cbn [run_op] in H; apply bind_Ok_inv in H; destruct H as [[s i2] [He H]]; injection H as _ Hi; subst i'; cbn.
    - eapply emit_class_ir; eauto.
    - eapply emit_function_ir; eauto.
    - eapply emit_argparse_ir; eauto.
    - eapply (Hd eq_refl); eauto.
  Qed.

  Lemma C13_frame_lemma : forall ops i,
      (existsb is_docstring ops = true -> doc_stable_on doc_op i) ->
      run_shared pt td dsf doc_op ops i = run_fresh pt td dsf doc_op ops i.
  Proof.
    induction ops as [|o r IH]; intros i Hd; [reflexivity|]. cbn [run_shared run_fresh].
    destruct (run_op pt td dsf doc_op o i) as [[a i']|e] eqn:E; [|reflexivity]. cbn [bind fst snd].
    assert (Hi : i' = i).
    { eapply run_op_frame; eauto. intros Ho. apply Hd. cbn. now rewrite Ho. }
    subst i'. rewrite IH; [reflexivity|]. intros Hr. apply Hd. cbn. rewrite Hr. apply orb_true_r.
  Qed.

  Fixpoint run_shared_ir (ops : list op) (i : ir) : outcome (list artefact * ir) :=
    match ops with
    | [] => Ok ([], i)
    | o :: r => do x <- run_op pt td dsf doc_op o i; do rest <- run_shared_ir r (snd x);
                Ok (fst x :: fst rest, snd rest)
    end.

  Lemma run_shared_ir_fst : forall ops i,
      run_shared pt td dsf doc_op ops i = do r <- run_shared_ir ops i; Ok (fst r).
  Proof.
    induction ops as [|o r IH]; intros i; [reflexivity|]. cbn [run_shared run_shared_ir].
    destruct (run_op pt td dsf doc_op o i) as [[a i']|e]; [|reflexivity]. cbn [bind fst snd].
    rewrite IH. destruct (run_shared_ir r i') as [[l i2]|e]; reflexivity.
  Qed.

  Lemma fold_left_Err : forall ops e,
      fold_left (fun acc o => do st <- acc; do x <- run_op pt td dsf doc_op o (snd st);
                              Ok (fst st ++ [fst x], snd x)) ops (Err e) = Err e.
  Proof. induction ops as [|o r IH]; intros e; [reflexivity|]. cbn. apply IH. Qed.

  Lemma run_shared_fold_gen : forall ops acc i,
      fold_left (fun acc o => do st <- acc; do x <- run_op pt td dsf doc_op o (snd st);
                              Ok (fst st ++ [fst x], snd x)) ops (Ok (acc, i))
      = do r <- run_shared_ir ops i; Ok (acc ++ fst r, snd r).
  Proof.
    induction ops as [|o r IH]; intros acc i; cbn [fold_left run_shared_ir bind fst snd].
    - now rewrite app_nil_r.
    - destruct (run_op pt td dsf doc_op o i) as [[a i']|e]; cbn [bind fst snd].
      + rewrite IH. destruct (run_shared_ir r i') as [[l i2]|e]; cbn [bind fst snd]; [|reflexivity].
        now rewrite <- app_assoc.
      + apply fold_left_Err.
  Qed.

  Lemma run_shared_fold_spec : forall ops i,
      run_shared pt td dsf doc_op ops i = do r <- run_shared_fold pt td dsf doc_op ops i; Ok (fst r).
  Proof.
    intros ops i. unfold run_shared_fold. rewrite run_shared_fold_gen, run_shared_ir_fst.
    destruct (run_shared_ir ops i) as [[l i2]|e]; reflexivity.
  Qed.
End Frame.

Lemma C13_lemma : C13_statement.
Proof.
  intros pt td dsf doc_op Hp ops i. apply C13_frame_lemma. intros _ o t i' H. eapply Hp; eauto.
Qed.

Lemma C13_emitters_lemma : C13_emitters_statement.
Proof.
  intros pt td dsf doc_op ops i Hn. apply C13_frame_lemma. rewrite Hn. discriminate.
Qed.

(* the hypothesis on emit.docstring cannot be dropped: a docstring layer that writes into the shared param
   dicts (here: one that appends a default sentence to every doc, as set_default_doc does) changes what the
   argparse emitter, which reads the prose, produces next *)
Definition w_td : td_opts -> ir -> outcome str := fun _ _ => Ok [].
Definition w_dsf : bool -> ir -> outcome str := fun _ _ => Ok [].
Definition w_doc_op : doc_opts -> ir -> outcome (str * ir) :=
  fun _ i => Ok ([], mkIR (ir_name i) (ir_type i) (ir_doc i)
                         (map (fun kv => (fst kv, mkG (match g_doc (snd kv) with
                                                       | Has d => Has (d ++ L ". Defaults to 5")
                                                       | x => x
                                                       end) (g_typ (snd kv)) (g_default (snd kv))))
                              (ir_params i))
                         (ir_returns i) (ir_internal i)).

Definition w_ir : ir :=
  mkIR (Has (L "f")) (Has (L "static")) (Has (L "Summary."))
       [(L "x", mkG (Has (L "the x")) (Has (L "int")) (Some (DV (VInt 5))))] FNone None.

Definition w_ops : list op :=
  [OpDocstring (mkDocOpts false true);
   OpArgparse false (Some (L "set_cli_args")) (Some (L "static")) false false].

Definition w_ir_ok : ir :=
  mkIR (Has (L "f")) (Has (L "static")) (Has (L "Summary."))
       [(L "x", mkG (Has (L "the x.")) Missing (Some (DV (VInt 5))));
        (L "y", mkG (Has (L "the y")) (Has (L "Optional[str]")) None)]
       (Has (mkG (Has (L "result.")) (Has (L "int")) None)) None.

Definition w_ops_ok : list op :=
  [OpArgparse false (Some (L "set_cli_args")) (Some (L "static")) false false;
   OpClass false (L "C") [L "object"] [] false false;
   OpFunction (Some (L "f")) (Some (L "static")) false true 0 false true false;
   OpArgparse true (Some (L "set_cli_args")) (Some (L "static")) false false;
   OpFunction (Some (L "f")) (Some (L "static")) false false 0 false true false].

