(* C06: emitted code is valid Python that behaves as the IR says - the emitter's side.
   Lemmas in proofs/C06Facts.v.  Model: EmitAst; spec and read-off functions: C06Spec.
   Partial by construction: that CPython reads the artefact as py_signature_of / class_attrs_of /
   argparse_table_of say, that the text survives unparse / re-parse and emit.file with or without black,
   is CPython / black behaviour: executed on every generated case by harness/prop_C06.py. *)
From Coq Require Import List Bool.
From Coq Require String.
Import String.StringSyntax.
From DT Require Import PyStr PyVal PyAst IR EmitAst C06Spec C06Facts.
Import ListNotations.

(* "the function has exactly that signature" is false of the faithful model: a parameter without a default
   is emitted with default None (def f(x: int = None)) *)
Theorem C06_function_refuted : ~ C06_function_statement.
Proof. exact C06_function_refuted_lemma. Qed.
Print Assumptions C06_function_refuted.

(* every parameter carries a default node; names, order and kinds are those of the IR; **kwargs last *)
Theorem C06_function_signature : forall pt i fn ft it kw tds n a body d r i2,
    emit_function pt i fn ft it kw tds = Ok (SFunc n a body d r, i2) ->
    exists ftype ps,
      py_or ft (ir_type i) = Ok ftype
      /\ map_outcome (emitted_param_sig pt it kw) (filter no_kwargs (ir_params i)) = Ok ps
      /\ py_signature_of (SFunc n a body d r) = Some (first_arg ftype ++ ps ++ kwarg_sig i, r).
Proof. exact emit_function_signature. Qed.
Print Assumptions C06_function_signature.

(* len defaults <= len args, len kw_defaults = len kwonlyargs: what CPython's compiler demands *)
Theorem C06_function_default_alignment : forall pt i fn ft it kw tds n a body d r i2,
    emit_function pt i fn ft it kw tds = Ok (SFunc n a body d r, i2) ->
    List.length (ar_defaults a) <= List.length (ar_args a)
    /\ List.length (ar_kw_defaults a) = List.length (ar_kwonly a)
    /\ List.length (ar_defaults a) + List.length (ar_kw_defaults a)
       = List.length (filter no_kwargs (ir_params i)).
Proof. exact emit_function_counts. Qed.
Print Assumptions C06_function_default_alignment.

Theorem C06_function_names : forall pt i fn ft it kw tds n a body d r i2,
    emit_function pt i fn ft it kw tds = Ok (SFunc n a body d r, i2) ->
    exists ftype, py_or ft (ir_type i) = Ok ftype
      /\ map a_name (ar_args a ++ ar_kwonly a)
         = map a_name (fn_args0 ftype) ++ map fst (filter no_kwargs (ir_params i))
      /\ ar_vararg a = None /\ ar_kwarg a = fn_kwarg i.
Proof. exact emit_function_names. Qed.
Print Assumptions C06_function_names.

(* well-formedness of the emitted argument list reduces to the IR's names being distinct identifiers and no
   Name(None) annotation (typ present-but-None with inline types): the length conditions always hold *)
Theorem C06_function_wf : forall pt i fn ft it kw tds n a body d r i2,
    emit_function pt i fn ft it kw tds = Ok (SFunc n a body d r, i2) ->
    forallb (fun x => is_identifier (a_name x) && ann_ok (a_ann x)) (all_args a) = true ->
    nodupb (map a_name (all_args a)) = true ->
    wf_arguments a = true.
Proof. exact emit_function_wf. Qed.
Print Assumptions C06_function_wf.

Theorem C06_function_no_annotations : forall pt i fn ft kw tds n a body d r i2,
    emit_function pt i fn ft false kw tds = Ok (SFunc n a body d r, i2) ->
    forallb (fun x => ann_ok (a_ann x)) (all_args a) = true /\ r = None.
Proof. exact emit_function_no_annotations. Qed.
Print Assumptions C06_function_no_annotations.

(* inside the guard (every non-kwargs parameter has a scalar, non-code default that set_value writes as it
   is) the emitted function has the signature the IR describes *)
Theorem C06_function_partial : forall pt i fn ft it kw tds s i2 ftype,
    guard_C06_function i = true ->
    emit_function pt i fn ft it kw tds = Ok (s, i2) ->
    py_or ft (ir_type i) = Ok ftype ->
    exists sg, spec_signature pt i ftype it kw = Ok sg /\ option_map fst (py_signature_of s) = Some sg.
Proof. exact C06_function_partial_lemma. Qed.
Print Assumptions C06_function_partial.

Theorem C06_class_attr_names : forall pt i ec cn bs ds ww tds s i',
    emit_class pt i ec cn bs ds ww tds = Ok (s, i') ->
    map (fun x => fst (fst x)) (class_attrs_of s) = od_keys (ir_params (class_fold_returns i)).
Proof. exact emit_class_attr_names. Qed.
Print Assumptions C06_class_attr_names.

Theorem C06_argparse_options : forall pt i edd fn ft wd ww ds n a body d r i2,
    emit_argparse pt i edd fn ft wd ww ds = Ok (SFunc n a body d r, i2) ->
    exists doc desc adds tail,
      body = doc :: desc :: adds ++ tail
      /\ is_add_argument doc = None /\ is_add_argument desc = None
      /\ Forall2 (fun kv s => exists kws, is_add_argument s = Some (spec_option (fst kv), kws)) (ir_params i) adds.
Proof. exact emit_argparse_options. Qed.
Print Assumptions C06_argparse_options.

Example C06_nonvacuous :
  guard_C06_function w6_ir_ok = true
  /\ exists s i2, emit_function [] w6_ir_ok (Some (L "f")) (Some (L "self")) true true (Ok []) = Ok (s, i2)
                  /\ wf_python s = true.
Proof. split; [reflexivity|]. eexists. eexists. split; [vm_compute; reflexivity|]. vm_compute. reflexivity. Qed.
Print Assumptions C06_nonvacuous.
