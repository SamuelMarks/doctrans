(* C16: implementation bodies are carried through conversions verbatim.  The lemmas
   live in proofs/C16Facts.v.  Model: EmitAst (the three splice sites), spec and guards: C16Spec.
   The parse side of the round trip (what parse.function / parse.argparse_ast store in `_internal`, and
   that parse.function takes the return default from the body's last return) and the round trip itself are in
   props/C16Ext.v; the oracle of harness/prop_C16.py runs the whole round trip on the implementation. *)
From Coq Require Import List.
From Coq Require String.
Import String.StringSyntax.
From DT Require Import PyStr PyVal PyAst IR EmitAst C16Spec C16Facts.
Import ListNotations.

(* the full statement is false of the faithful model *)
Theorem C16_refuted : ~ C16_statement.
Proof. intros [H _]. now apply C16_function_refuted_lemma. Qed.
Print Assumptions C16_refuted.

Theorem C16_function_refuted : ~ (forall b rv, function_body_splice b rv = b).
Proof. exact C16_function_refuted_lemma. Qed.
Print Assumptions C16_function_refuted.

Theorem C16_argparse_refuted : ~ (forall b, argparse_body_skip b = Ok b).
Proof. exact C16_argparse_refuted_lemma. Qed.
Print Assumptions C16_argparse_refuted.

(* RewriteName is scope-blind: `def inner(a): return a` becomes `return self.a` *)
Theorem C16_call_refuted : ~ (forall ids s, ids <> [] -> rewrite_stmt ids s = subst_stmt ids s).
Proof. exact C16_call_refuted_lemma. Qed.
Print Assumptions C16_call_refuted.

(* the emitted body is the docstring followed by the splice of the carried body (re-attached only when
   name and type match) and the generated return *)
Theorem C16_function_emitted : forall pt i fn ft it kw tds n a body d r i2,
    emit_function pt i fn ft it kw tds = Ok (SFunc n a body d r, i2) ->
    exists text b rv fname ftype,
      py_or fn (ir_name i) = Ok fname /\ py_or ft (ir_type i) = Ok ftype
      /\ get_internal_body fname ftype i = Ok b
      /\ function_return_val pt i = Ok rv
      /\ body = SExpr (set_value (VStr text)) :: function_body_splice b rv.
Proof. exact emit_function_body. Qed.
Print Assumptions C16_function_emitted.

(* no statement dropped, duplicated or reordered: the splice is the body minus at most its final Return,
   followed by the generated return *)
Theorem C16_function_structure : forall b r,
    function_body_splice b (Some r) = strip_final_return b ++ [r]
    /\ exists tail, b = strip_final_return b ++ tail
                    /\ (tail = [] \/ exists x, tail = [x] /\ is_return x = true).
Proof. intros b r. split; [apply splice_struct | apply strip_final_return_prefix]. Qed.
Print Assumptions C16_function_structure.

Theorem C16_function_no_default : forall b, function_body_splice b None = b.
Proof. exact splice_none. Qed.
Print Assumptions C16_function_no_default.

Theorem C16_function_partial : forall b rv, guard_C16_function b rv = true -> function_body_splice b rv = b.
Proof. exact C16_function_partial_lemma. Qed.
Print Assumptions C16_function_partial.

Theorem C16_function_one_final_return : forall b r, is_return r = true ->
    last_is_return (function_body_splice b (Some r)) = true
    /\ (last_is_return b = true -> last_is_return (strip_final_return b) = true ->
        exists b' x y, b = b' ++ [x; y]).
Proof. exact splice_final_return. Qed.
Print Assumptions C16_function_one_final_return.

Theorem C16_internal_body_matches : forall n t i b,
    get_internal_body n t i = Ok b ->
    b = [] \/ exists it, ir_internal i = Some it /\ b = in_body it
                         /\ fld_eq_opt (in_from_name it) n = true /\ fld_eq_opt (in_from_type it) t = true.
Proof. exact get_internal_body_spec. Qed.
Print Assumptions C16_internal_body_matches.

Theorem C16_argparse_emitted : forall pt i edd fn ft wd ww ds n a body d r i2,
    emit_argparse pt i edd fn ft wd ww ds = Ok (SFunc n a body d r, i2) ->
    exists doc desc adds b tail fname ftype,
      py_or fn (ir_name i) = Ok fname /\ py_or ft (ir_type i) = Ok ftype
      /\ get_internal_body fname ftype i = Ok b
      /\ argparse_tail pt i b = Ok tail
      /\ List.length adds = List.length (ir_params i)
      /\ body = doc :: desc :: adds ++ tail.
Proof. exact emit_argparse_body. Qed.
Print Assumptions C16_argparse_emitted.

Theorem C16_argparse_partial : forall b, argparse_guard b = true -> argparse_body_skip b = Ok b.
Proof. exact C16_argparse_partial_lemma. Qed.
Print Assumptions C16_argparse_partial.

Theorem C16_argparse_one_final_return : forall pt i b tail,
    argparse_guard b = true -> argparse_tail pt i b = Ok tail ->
    (last_is_return b = true /\ tail = b)
    \/ (last_is_return b = false /\ exists r, tail = b ++ [r] /\ is_return r = true).
Proof. exact argparse_tail_spec. Qed.
Print Assumptions C16_argparse_one_final_return.

Theorem C16_call_partial : forall ids b,
    guard_C16_call ids b = true -> rewrite_body ids b = Ok (map (subst_stmt ids) b).
Proof. exact C16_call_partial_lemma. Qed.
Print Assumptions C16_call_partial.

Theorem C16_call_statement_level : forall ids s, ids <> [] -> no_shadow ids s = true ->
    rewrite_stmt ids s = subst_stmt ids s.
Proof. exact rewrite_stmt_subst. Qed.
Print Assumptions C16_call_statement_level.

(* emit.class_ never reaches RewriteName's "empty set: rewrite every name" branch *)
Theorem C16_class_call_body : forall pt i cn bs ds ww tds n bases body decos i2 s0 rest,
    emit_class pt i true cn bs ds ww tds = Ok (SClass n bases body decos, i2) ->
    (match ir_internal i with Some it => in_body it | None => [] end) = s0 :: rest ->
    (ir_params i = [] /\ In (call_meth (s0 :: rest)) body)
    \/ (ir_params i <> [] /\ exists b', rewrite_body (od_keys (ir_params i)) (s0 :: rest) = Ok b'
                                        /\ In (call_meth b') body).
Proof. exact emit_class_call_body. Qed.
Print Assumptions C16_class_call_body.

Example C16_nonvacuous :
  guard_C16_call [L "a"; L "b"] w_body = true
  /\ guard_C16_function w_body (Some (SReturn (Some (ETuple [EName (L "t"); EName (L "b")])))) = true
  /\ argparse_guard w_body = true
  /\ rewrite_body [L "a"; L "b"] w_body <> Ok w_body.
Proof. vm_compute. repeat split; try reflexivity. discriminate. Qed.
Print Assumptions C16_nonvacuous.
