(* DefaultsFacts: pyval_eqb and bind; lemmas about model/Defaults.v (location_within, scan_default,
   coerce_default, extract_default, set_default_doc); the characters of printed numbers (numchar)
   and what the readers of a value text do on them; the lemmas behind props/C17.v, with the
   definitions its statements use (prose_ok, value_ok). *)
From Coq Require Import List Ascii Bool Arith ZArith NArith Lia.
From Coq Require String.
Import String.StringSyntax.
From DT Require Import PyStr Sexp PyVal TyExpr PureUtils Defaults C17Spec PyStrFacts.
Import ListNotations.

Lemma pyval_eqb_refl : forall v, pyval_eqb v v = true.
Proof.
  intros [|b|z|r|s]; cbn [pyval_eqb].
  - reflexivity.
  - apply Bool.eqb_reflx.
  - apply Z.eqb_refl.
  - apply str_eqb_refl.
  - apply str_eqb_refl.
Qed.

Lemma pyval_eqb_eq : forall a b, pyval_eqb a b = true <-> a = b.
Proof.
  intros a b. split.
  - destruct a as [|x|x|x|x], b as [|y|y|y|y]; cbn [pyval_eqb]; intros H;
      try discriminate H; try reflexivity.
    + apply Bool.eqb_prop in H. subst. reflexivity.
    + apply Z.eqb_eq in H. subst. reflexivity.
    + apply str_eqb_eq in H. subst. reflexivity.
    + apply str_eqb_eq in H. subst. reflexivity.
  - intros H. subst. apply pyval_eqb_refl.
Qed.

Lemma bind_Ok_inv : forall {A B} (x : outcome A) (f : A -> outcome B) b,
    bind x f = Ok b -> exists a, x = Ok a /\ f a = Ok b.
Proof.
  intros A B x f b H. destruct x as [a|e]; cbn [bind] in H; [|discriminate].
  exists a. split; [reflexivity|exact H].
Qed.

(* unlike the injection tactic this leaves the two terms as they are written *)
Lemma Ok_inj : forall {A} (a b : A), Ok a = Ok b -> a = b.
Proof. intros A a b H. injection H as H. exact H. Qed.

Lemma fget_fld_of_opt : forall {A} (o : option A), fget (fld_of_opt o) = o.
Proof. intros A [a|]; reflexivity. Qed.

Lemma location_within_none : forall norm container elems,
    (forall e, In e elems -> find (norm e) (norm container) = None) ->
    location_within norm container elems = None.
Proof.
  intros norm container elems. induction elems as [|e r IHr]; intros H; [reflexivity|].
  cbn [location_within]. rewrite (H e (or_introl eq_refl)).
  rewrite IHr by (intros e' He'; apply H; right; exact He').
  destruct (Nat.ltb (List.length container) (List.length e)); reflexivity.
Qed.

Lemma location_within_Some_inv : forall norm container elems i j e,
    location_within norm container elems = Some (i, j, e) ->
    In e elems /\ find (norm e) (norm container) = Some i /\ j = i + List.length e.
Proof.
  intros norm container elems i j e. induction elems as [|x r IHr]; intros H; [discriminate|].
  cbn [location_within] in H.
  destruct (Nat.ltb (List.length container) (List.length x)).
  - destruct (IHr H) as [H1 H2]. split; [right; exact H1|exact H2].
  - destruct (find (norm x) (norm container)) as [k|] eqn:Hk.
    + injection H as Hi Hj He. subst. split; [left; reflexivity|]. split; [exact Hk|reflexivity].
    + destruct (IHr H) as [H1 H2]. split; [right; exact H1|exact H2].
Qed.

Lemma no_announce_nil : no_announce [] = true.
Proof. reflexivity. Qed.

Lemma no_announce_In : forall line e,
    no_announce line = true -> In e default_announces ->
    find (casefold e) (casefold line) = None.
Proof.
  intros line e H He. unfold no_announce in H. rewrite forallb_forall in H.
  specialize (H e He). apply negb_true_iff in H. apply contains_false_iff. exact H.
Qed.

Definition shift_loc (n : nat) (r : nat * nat * str) : nat * nat * str :=
  let '(i, j, e) := r in (n + i, n + j, e).

Lemma location_within_shift : forall norm c c' n elems,
    (forall s, List.length (norm s) = List.length s) ->
    List.length c <= List.length c' ->
    (forall e, In e elems ->
               find (norm e) (norm c') = option_map (Nat.add n) (find (norm e) (norm c))) ->
    location_within norm c' elems = option_map (shift_loc n) (location_within norm c elems).
Proof.
  intros norm c c' n elems Hlen Hle. induction elems as [|e r IH]; intros H; [reflexivity|].
  cbn [location_within]. rewrite (H e (or_introl eq_refl)).
  rewrite IH by (intros e' He'; apply H; right; exact He').
  destruct (Nat.ltb_spec (List.length c') (List.length e)) as [E1|E1];
    destruct (Nat.ltb_spec (List.length c) (List.length e)) as [E2|E2].
  - reflexivity.
  - lia.
  - rewrite (find_None_too_long (norm e) (norm c)) by (rewrite !Hlen; exact E2). reflexivity.
  - destruct (find (norm e) (norm c)) as [i|]; [|reflexivity].
    cbn [option_map shift_loc]. rewrite Nat.add_assoc. reflexivity.
Qed.

(* characters that may end the prose: they occur in no announcement phrase *)
Definition sep_char_ok (l : ascii) (elems : list str) : bool :=
  forallb (fun e => negb (mem_c (lower_c l) (casefold e)) && negb (startswith [sp] (casefold e))) elems.

Lemma terminal_sep_ok : forall l,
    ascii_eqb l (ch 46) || ascii_eqb l (ch 44) = true -> sep_char_ok l default_announces = true.
Proof.
  intros l H. apply orb_true_iff in H. destruct H as [H|H]; apply ascii_eqb_eq in H; subst l;
    vm_compute; reflexivity.
Qed.

Lemma location_within_sentence : forall d x l,
    last_c d = Some l -> sep_char_ok l default_announces = true -> no_announce d = true ->
    location_within casefold (d ++ sp :: x) default_announces
    = option_map (shift_loc (List.length d + 1)) (location_within casefold x default_announces).
Proof.
  intros d x l Hl Hok Hno. unfold sep_char_ok in Hok. rewrite forallb_forall in Hok.
  apply location_within_shift.
  - apply casefold_length.
  - rewrite app_length. cbn [List.length]. lia.
  - intros e He. specialize (Hok e He). apply andb_true_iff in Hok. destruct Hok as [Hmem Hsep].
    apply negb_true_iff in Hmem. apply negb_true_iff in Hsep.
    rewrite casefold_app, casefold_cons. change (lower_c sp) with sp. rewrite find_app_sep.
    + rewrite casefold_length. reflexivity.
    + apply no_announce_In; assumption.
    + intros l' Hl'. rewrite last_c_casefold, Hl in Hl'. injection Hl' as Hl'. subst l'. exact Hmem.
    + exact Hsep.
Qed.

(* p and t differ at a position both have *)
Fixpoint mismatch (p t : str) : bool :=
  match p, t with
  | x :: p', y :: t' => negb (ascii_eqb x y) || mismatch p' t'
  | _, _ => false
  end.

Lemma mismatch_startswith : forall p t x, mismatch p t = true -> startswith p (t ++ x) = false.
Proof.
  induction p as [|a p IHp]; intros t x H; destruct t as [|b t]; cbn [mismatch] in H;
    try discriminate H.
  cbn [app startswith]. apply orb_true_iff in H. destruct H as [H|H].
  - apply negb_true_iff in H. rewrite H. reflexivity.
  - rewrite (IHp t x H). apply andb_false_r.
Qed.

(* no occurrence of p can begin inside A, whatever follows A *)
Definition no_inner_start (p A : str) : bool :=
  forallb (fun j => mismatch p (skipn j A)) (seq 0 (List.length A)).

Lemma find_app_no_inner : forall p A x,
    no_inner_start p A = true ->
    find p (A ++ x) = option_map (Nat.add (List.length A)) (find p x).
Proof.
  intros p A x HA. apply find_app_skip. intros j Hj. apply mismatch_startswith.
  unfold no_inner_start in HA. rewrite forallb_forall in HA. apply HA. apply in_seq. lia.
Qed.

(* whatever the value text, if it contains no announcement phrase the search lands on the phrase:
   each phrase either occurs in the phrase written, and then still first there, or cannot begin
   inside it *)
Lemma value_announce_ok_no_announce : forall a x,
    no_announce x = true -> value_announce_ok a x = true.
Proof.
  intros a x Hx. unfold value_announce_ok.
  rewrite (location_within_shift casefold (announce_text a) (announce_text a ++ x) 0).
  - destruct a; reflexivity.
  - apply casefold_length.
  - rewrite app_length. lia.
  - intros e He. rewrite casefold_app.
    assert (Hst : forallb (fun e' => match find (casefold e') (casefold (announce_text a)) with
                                     | Some _ => true
                                     | None => no_inner_start (casefold e')
                                                              (casefold (announce_text a))
                                     end) default_announces = true)
      by (destruct a; vm_compute; reflexivity).
    rewrite forallb_forall in Hst. specialize (Hst e He).
    destruct (find (casefold e) (casefold (announce_text a))) as [i|] eqn:Ei.
    + apply find_app_l. exact Ei.
    + rewrite (find_app_no_inner _ _ _ Hst), (no_announce_In x e Hx He). reflexivity.
Qed.

Definition not_dot (c : ascii) : bool := negb (ascii_eqb c (ch 46)).

Lemma scan_default_no_dot : forall s depth,
    forallb not_dot s = true -> scan_default s depth = s.
Proof.
  induction s as [|c r IHr]; intros depth H; [reflexivity|].
  cbn [forallb] in H. apply andb_true_iff in H. destruct H as [Hc Hr].
  unfold not_dot in Hc. apply negb_true_iff in Hc.
  cbn [scan_default]. rewrite Hc. cbn [andb]. rewrite IHr by exact Hr. reflexivity.
Qed.

Lemma scan_default_digits : forall s, forallb isdigit s = true -> scan_default s 0 = s.
Proof.
  intros s H. apply scan_default_no_dot. apply (forallb_impl isdigit); [|exact H].
  intros c Hc. apply negb_true_iff. exact (ascii_eqb_class_false isdigit c (ch 46) Hc eq_refl).
Qed.

Lemma scan_default_True : scan_default (L "True") 0 = L "True".
Proof. reflexivity. Qed.
Lemma scan_default_False : scan_default (L "False") 0 = L "False".
Proof. reflexivity. Qed.
Lemma scan_default_None : scan_default (L "None") 0 = L "None".
Proof. reflexivity. Qed.

Lemma scan_default_prefix : forall s depth, exists r, s = scan_default s depth ++ r.
Proof.
  induction s as [|c s IHs]; intros depth.
  - exists []. reflexivity.
  - cbn [scan_default].
    destruct (ascii_eqb c (ch 46) && match s with [] => true | d :: _ => negb (isdigit d) end
              && Nat.eqb depth 0).
    + exists (c :: s). reflexivity.
    + destruct (IHs (if is_par c then S depth else depth)) as [r Hr].
      exists r. cbn [app]. rewrite <- Hr. reflexivity.
Qed.

(* a full stop followed by a digit does not stop the scan: decimals survive *)
Lemma scan_default_dot_digit : forall c r depth,
    isdigit c = true ->
    scan_default (ch 46 :: c :: r) depth = ch 46 :: scan_default (c :: r) depth.
Proof.
  intros c r depth Hc. cbn [scan_default]. rewrite Hc.
  rewrite ascii_eqb_refl. cbn [negb andb]. reflexivity.
Qed.

Definition announce_safe (c : ascii) : bool :=
  forallb (fun e => negb (mem_c (lower_c c) (casefold e))) default_announces.

Lemma default_announces_nonnil : forall e, In e default_announces -> casefold e <> [].
Proof.
  intros e He. cbn [default_announces In] in He.
  destruct He as [He|[He|[He|[He|[]]]]]; subst e; discriminate.
Qed.

Lemma no_announce_safe : forall s, forallb announce_safe s = true -> no_announce s = true.
Proof.
  intros s Hs. unfold no_announce. apply forallb_forall. intros e He.
  apply negb_true_iff. apply contains_false_iff.
  pose proof (default_announces_nonnil e He) as Hne.
  rewrite <- (app_nil_l (casefold s)), find_app_disjoint.
  - rewrite find_nil_r. destruct (casefold e); [contradiction|reflexivity].
  - exact Hne.
  - unfold casefold at 2. apply forallb_forall. intros c Hc.
    apply in_map_iff in Hc. destruct Hc as [c0 [Hc0 Hin]]. subst c.
    rewrite forallb_forall in Hs. specialize (Hs c0 Hin).
    unfold announce_safe in Hs. rewrite forallb_forall in Hs. exact (Hs e He).
Qed.

Definition numchar (c : ascii) : bool := mem_c c (L "0123456789-.").

Lemma intchar_numchar : forall c, intchar c = true -> numchar c = true.
Proof.
  intros c H. unfold intchar in H. apply orb_true_iff in H. destruct H as [H|H].
  - apply mem_c_In. apply (in_or_app (L "0123456789") (L "-.")). left. apply isdigit_In. exact H.
  - apply ascii_eqb_eq in H. subst c. reflexivity.
Qed.

(* what the readers of a value text react to is absent from numbers: the characters of the
   announcement phrases, those stripped from the value, blanks, the characters that begin a name or
   a quoted text; the last test is the one literal_eval puts before float() *)
Lemma numchar_facts : forall c,
    numchar c = true ->
    announce_safe c = true
    /\ negb (mem_c c strip_set) = true
    /\ negb (ascii_eqb c sp || ascii_eqb c tabch) = true
    /\ isalpha_c c || ascii_eqb c (ch 95) = false
    /\ ascii_eqb c (ch 34) || ascii_eqb c (ch 39) = false
    /\ isdigit c || ascii_eqb c (ch 46) || ascii_eqb c (ch 45) || ascii_eqb c (ch 43) = true.
Proof.
  intros c H. apply mem_c_In in H. revert c H. apply Forall_forall.
  repeat (apply Forall_cons; [vm_compute; repeat split; reflexivity|]). apply Forall_nil.
Qed.

Lemma no_announce_number : forall s, forallb numchar s = true -> no_announce s = true.
Proof.
  intros s H. apply no_announce_safe. apply (forallb_impl numchar); [|exact H].
  intros c Hc. exact (proj1 (numchar_facts c Hc)).
Qed.

Lemma strip_chars_number : forall s, forallb numchar s = true -> strip_chars strip_set s = s.
Proof.
  intros s H. apply strip_chars_forallb. apply (forallb_impl numchar); [|exact H].
  intros c Hc. exact (proj1 (proj2 (numchar_facts c Hc))).
Qed.

Lemma in_none_types_number : forall s, forallb numchar s = true -> in_none_types (VStr s) = false.
Proof.
  intros s Hs. unfold in_none_types.
  apply (existsb_str_eqb_forallb numchar); [exact Hs|]. vm_compute. reflexivity.
Qed.

Lemma literal_eval_number_text : forall s,
    s <> [] -> forallb numchar s = true ->
    strip_by (fun c => ascii_eqb c sp || ascii_eqb c tabch) s = s
    /\ str_eqb s (L "None") = false /\ str_eqb s (L "True") = false
    /\ str_eqb s (L "False") = false
    /\ is_bare_word s = false /\ quoted_simple s = None.
Proof.
  intros s Hnn Hs. split.
  { apply strip_by_forallb. apply (forallb_impl numchar); [|exact Hs].
    intros c Hc. destruct (numchar_facts c Hc) as [_ [_ [Hblank _]]]. exact Hblank. }
  split; [exact (str_eqb_forallb_false numchar s (L "None") Hs eq_refl)|].
  split; [exact (str_eqb_forallb_false numchar s (L "True") Hs eq_refl)|].
  split; [exact (str_eqb_forallb_false numchar s (L "False") Hs eq_refl)|].
  destruct s as [|c r]; [contradiction|].
  cbn [forallb] in Hs. apply andb_true_iff in Hs. destruct Hs as [Hc _].
  destruct (numchar_facts c Hc) as [_ [_ [_ [Hws [Hq _]]]]].
  unfold is_bare_word, quoted_simple. rewrite Hws, Hq. split; reflexivity.
Qed.

Lemma value_announce_ok_inv : forall a s,
    value_announce_ok a s = true ->
    exists e, location_within casefold (announce_text a ++ s) default_announces
              = Some (0, List.length (announce_text a), e).
Proof.
  intros a s H. unfold value_announce_ok in H.
  destruct (location_within casefold (announce_text a ++ s) default_announces)
    as [[[i j] e]|]; [|discriminate].
  destruct i as [|i]; [|discriminate].
  apply Nat.eqb_eq in H. subst j. exists e. reflexivity.
Qed.

Lemma coerce_default_None_eq : forall s,
    coerce_default None s =
    if isdecimal s then Ok (VInt (Z.of_N (N_of_dec s)))
    else if signed_decimal s then
      match Z_of_dec_signed s with Some z => Ok (VInt z) | None => Err Unmodelled end
    else if str_eqb s (L "True") then Ok (VBool true)
    else if str_eqb s (L "False") then Ok (VBool false)
    else match float_of_str s with
         | Ok r => Ok (VFloat r)
         | Err ValueError => Ok (VStr s)
         | Err e => Err e
         end.
Proof. reflexivity. Qed.

Lemma coerce_default_typed_eq : forall t s,
    in_simple_types t = true -> in_none_types (VStr s) = false ->
    coerce_default (Some t) s = (do lit <- literal_eval_scalar s; coerce t lit).
Proof.
  intros t s Ht Hs. unfold coerce_default. rewrite Ht, Hs. reflexivity.
Qed.

Lemma coerce_default_int_untyped : forall z, coerce_default None (dec_of_Z z) = Ok (VInt z).
Proof.
  intros z. rewrite coerce_default_None_eq. destruct z as [|p|p].
  - reflexivity.
  - rewrite (isdecimal_dec_of_Z_nonneg (Zpos p)) by lia.
    rewrite (N_of_dec_of_Z_nonneg (Zpos p)) by lia. reflexivity.
  - rewrite isdecimal_dec_of_Z_neg.
    assert (Hsd : signed_decimal (dec_of_Z (Zneg p)) = true).
    { cbn [dec_of_Z signed_decimal]. rewrite ascii_eqb_refl. cbn [orb andb].
      apply isdecimal_dec_of_N. }
    rewrite Hsd, Z_of_dec_signed_dec_of_Z. reflexivity.
Qed.

Lemma dec_of_Z_numchars : forall z, forallb numchar (dec_of_Z z) = true.
Proof.
  intros z. apply (forallb_impl intchar); [exact intchar_numchar|apply dec_of_Z_intchars].
Qed.

Lemma literal_eval_scalar_int : forall z, literal_eval_scalar (dec_of_Z z) = Ok (VInt z).
Proof.
  intros z.
  destruct (literal_eval_number_text _ (dec_of_Z_nonnil z) (dec_of_Z_numchars z))
    as [E1 [E2 [E3 [E4 [E5 E6]]]]].
  assert (Hlead : str_eqb (dec_of_Z (Z.abs z))
                          (match dec_of_Z z with
                           | c :: r => if isdigit c then dec_of_Z z else r
                           | [] => dec_of_Z z
                           end) = true).
  { destruct z as [|p|p].
    - reflexivity.
    - cbn [Z.abs dec_of_Z].
      destruct (dec_of_N_head_digit (Npos p)) as [c [r [Hs Hc]]].
      rewrite Hs, Hc. apply str_eqb_refl.
    - cbn [Z.abs dec_of_Z]. change (isdigit (ch 45)) with false. apply str_eqb_refl. }
  unfold literal_eval_scalar.
  rewrite E1, E2, E3, E4, E5, E6, (Z_of_dec_signed_dec_of_Z z), Hlead. reflexivity.
Qed.

Lemma in_simple_types_int : in_simple_types (L "int") = true.
Proof. vm_compute. reflexivity. Qed.

Lemma coerce_default_int_typed : forall z,
    coerce_default (Some (L "int")) (dec_of_Z z) = Ok (VInt z).
Proof.
  intros z. rewrite coerce_default_typed_eq.
  - rewrite literal_eval_scalar_int. reflexivity.
  - exact in_simple_types_int.
  - apply in_none_types_number. apply dec_of_Z_numchars.
Qed.

Lemma extract_default_not_found : forall line rs announces typ emit,
    location_within casefold line announces = None ->
    extract_default line rs announces typ emit = Ok (line, None).
Proof. intros line rs announces typ emit H. unfold extract_default. rewrite H. reflexivity. Qed.

(* prose that announces nothing is never altered *)
Lemma extract_default_no_announce : forall line rs typ emit,
    no_announce line = true ->
    extract_default line rs default_announces typ emit = Ok (line, None).
Proof.
  intros line rs typ emit H. apply extract_default_not_found. apply location_within_none.
  intros e He. apply no_announce_In; assumption.
Qed.

Lemma slice_to_z_pred : forall (s : str) n, slice_to_z s (Z.of_nat (S n) - 1) = firstn n s.
Proof.
  intros s n. unfold slice_to_z.
  replace (Z.of_nat (S n) - 1)%Z with (Z.of_nat n) by lia.
  destruct (Z.ltb_spec (Z.of_nat n) 0) as [Hlt|Hge]; [lia|].
  rewrite Nat2Z.id. reflexivity.
Qed.

(* the sentence  d ++ " " ++ phrase ++ s : the value text s is found and read and, on removal,
   exactly the prose d is left; whatever the coercion of s gives *)
Lemma extract_default_sentence_gen : forall d l A s t e rs edd,
    last_c d = Some l -> sep_char_ok l default_announces = true -> no_announce d = true ->
    location_within casefold (A ++ s) default_announces = Some (0, List.length A, e) ->
    scan_default s 0 = s ->
    strip_chars strip_set s = s ->
    negb (startswith [ch 40] s) && endswith (L ").") s = false ->
    extract_default (d ++ [sp] ++ A ++ s) rs default_announces t edd
    = (do v <- coerce_default t s; Ok (if edd then d ++ [sp] ++ A ++ s else d, Some v)).
Proof.
  intros d l A s t e rs edd Hl Hok Hno Hloc Hscan Hstrip Hparen.
  change (d ++ [sp] ++ A ++ s) with (d ++ sp :: (A ++ s)).
  assert (Hskip : skipn (List.length d + 1 + List.length A) (d ++ sp :: (A ++ s)) = s).
  { rewrite <- Nat.add_assoc. rewrite skipn_app_exact_plus.
    cbn [Nat.add skipn]. apply skipn_app_exact. }
  assert (Hlen : List.length d + 1 + List.length A + List.length s
                 = List.length (d ++ sp :: (A ++ s))).
  { rewrite app_length. cbn [List.length]. rewrite app_length. lia. }
  unfold strip_set in Hstrip.
  assert (Hfirst : slice_to_z (d ++ sp :: (A ++ s)) (Z.of_nat (List.length d + 1 + 0) - 1) = d).
  { replace (List.length d + 1 + 0) with (S (List.length d)) by lia.
    rewrite slice_to_z_pred. rewrite <- (Nat.add_0_r (List.length d)).
    rewrite firstn_app_exact_plus. cbn [firstn]. apply app_nil_r. }
  unfold extract_default.
  rewrite (location_within_sentence d (A ++ s) l Hl Hok Hno), Hloc.
  cbn [option_map shift_loc]. cbv zeta.
  rewrite Hskip, Hscan, Hstrip.
  destruct (startswith [ch 40] s); [|cbn [negb andb] in Hparen; rewrite Hparen].
  all: destruct (coerce_default t s) as [v|er]; cbn [bind]; [|reflexivity].
  all: destruct edd; [reflexivity|].
  all: rewrite Hfirst, Hlen; destruct rs.
  all: rewrite skipn_all; cbn [takewhile List.length]; rewrite ?Nat.add_0_r, ?skipn_all.
  all: rewrite app_nil_r; reflexivity.
Qed.

Lemma extract_default_sentence : forall d l A s t e v2 rs,
    last_c d = Some l -> sep_char_ok l default_announces = true -> no_announce d = true ->
    location_within casefold (A ++ s) default_announces = Some (0, List.length A, e) ->
    scan_default s 0 = s ->
    strip_chars strip_set s = s ->
    negb (startswith [ch 40] s) && endswith (L ").") s = false ->
    coerce_default t s = Ok v2 ->
    extract_default (d ++ [sp] ++ A ++ s) rs default_announces t true
    = Ok (d ++ [sp] ++ A ++ s, Some v2)
    /\ extract_default (d ++ [sp] ++ A ++ s) rs default_announces t false = Ok (d, Some v2).
Proof.
  intros d l A s t e v2 rs Hl Hok Hno Hloc Hscan Hstrip Hparen Hco.
  rewrite !(extract_default_sentence_gen d l A s t e rs _ Hl Hok Hno Hloc Hscan Hstrip Hparen).
  rewrite Hco. split; reflexivity.
Qed.

Lemma endswith_kwargs_x : endswith (L "kwargs") (L "x") = false.
Proof. reflexivity. Qed.

Lemma param_eta : forall p, mkParam (p_doc p) (p_typ p) (p_default p) = p.
Proof. intros [d t v]. reflexivity. Qed.

Lemma set_default_doc_no_default : forall name p,
    p_default p = None -> p_doc p <> FNone -> set_default_doc name p true = Ok p.
Proof.
  intros name p Hd Hdoc. unfold set_default_doc.
  destruct (p_doc p) as [| |doc]; [reflexivity|contradiction|].
  rewrite Hd. cbn [negb]. rewrite andb_false_r. reflexivity.
Qed.

Lemma set_default_doc_no_announce : forall name p doc,
    p_doc p = Has doc -> no_announce doc = true -> set_default_doc name p false = Ok p.
Proof.
  intros name p doc Hdoc Hno. unfold set_default_doc. rewrite Hdoc.
  destruct (contains (L "Defaults") doc || contains (L "defaults") doc); cbn [negb andb].
  - rewrite (extract_default_no_announce doc true None false Hno). cbn [bind fst].
    rewrite <- Hdoc. rewrite param_eta. reflexivity.
  - destruct (p_default p); reflexivity.
Qed.

Lemma set_default_doc_writes : forall name d l t v sv,
    last_c d = Some l ->
    contains (L "Defaults") d || contains (L "defaults") d = false ->
    (let v' := if pyval_eqb v (VStr NoneStr) then VNone else v in
     negb (pyval_eqb v' VNone) || negb (endswith (L "kwargs") name) = true
     /\ shown_default v' t = Ok sv) ->
    set_default_doc name (mkParam (Has d) (fld_of_opt t) (Some v)) true
    = Ok (mkParam (Has ((if ascii_eqb l (ch 46) || ascii_eqb l (ch 44) then d else d ++ [ch 46])
                        ++ L " Defaults to " ++ py_str sv))
                  (fld_of_opt t)
                  (Some (if pyval_eqb v (VStr NoneStr) then VNone else v))).
Proof.
  intros name d l t v sv Hl Hdef Hv. cbv zeta in Hv. destruct Hv as [Hkw Hsv].
  unfold set_default_doc. cbn [p_doc p_typ p_default]. rewrite Hdef. cbn [negb andb].
  rewrite Hkw, Hl, fget_fld_of_opt, Hsv. reflexivity.
Qed.

Lemma contains_Defaults_sentence : forall x y : str,
    contains (L "Defaults") (x ++ L " Defaults to " ++ y) = true.
Proof.
  intros x y. change (L " Defaults to ") with ([sp] ++ L "Defaults" ++ L " to ").
  rewrite <- !app_assoc. rewrite app_assoc. apply contains_app_mid.
Qed.

Lemma set_default_doc_mentions : forall name doc typ dflt,
    contains (L "Defaults") doc || contains (L "defaults") doc = true ->
    set_default_doc name (mkParam (Has doc) typ dflt) true = Ok (mkParam (Has doc) typ dflt).
Proof.
  intros name doc typ dflt H. unfold set_default_doc. cbn [p_doc p_default]. rewrite H.
  destruct dflt; reflexivity.
Qed.

(* second application with emit_default_doc = True is a no-op: the sentence written contains
   the word Defaults *)
Lemma set_default_doc_idem : forall name p p',
    set_default_doc name p true = Ok p' -> set_default_doc name p' true = Ok p'.
Proof.
  intros name [doc typ dflt] p' H. unfold set_default_doc in H. cbn [p_doc p_typ p_default] in H.
  destruct doc as [| |doc]; [injection H as H; subst; reflexivity|discriminate|].
  cbn [negb] in H. rewrite andb_false_r in H.
  destruct dflt as [dflt|].
  2:{ injection H as H. subst p'. apply set_default_doc_no_default; [reflexivity|discriminate]. }
  destruct (contains (L "Defaults") doc || contains (L "defaults") doc) eqn:Hdef; cbn [negb andb] in H.
  { injection H as H. subst p'. apply set_default_doc_mentions. exact Hdef. }
  set (dflt' := if pyval_eqb dflt (VStr NoneStr) then VNone else dflt) in *.
  destruct (negb (pyval_eqb dflt' VNone) || negb (endswith (L "kwargs") name)) eqn:Hkw.
  - destruct (last_c doc) as [c|]; [|discriminate].
    apply bind_Ok_inv in H. destruct H as [shown [_ H]]. apply Ok_inj in H. subst p'.
    apply set_default_doc_mentions. rewrite contains_Defaults_sentence. reflexivity.
  - injection H as H. subst p'.
    apply orb_false_iff in Hkw. destruct Hkw as [Hn Hk].
    apply negb_false_iff in Hn. apply pyval_eqb_eq in Hn.
    unfold set_default_doc. cbn [p_doc p_typ p_default]. rewrite Hdef. cbn [negb andb].
    rewrite Hn. change (pyval_eqb VNone (VStr NoneStr)) with false. cbn iota.
    change (pyval_eqb VNone VNone) with true. cbn [negb orb]. rewrite Hk. reflexivity.
Qed.

Definition prose_ok (d : str) : bool :=
  C17_domain d && ends_with_terminal d
  && negb (contains (L "Defaults") d || contains (L "defaults") d).

Lemma prose_ok_inv : forall d,
    prose_ok d = true ->
    d <> [] /\ no_announce d = true
    /\ (exists l, last_c d = Some l /\ ascii_eqb l (ch 46) || ascii_eqb l (ch 44) = true)
    /\ contains (L "Defaults") d || contains (L "defaults") d = false.
Proof.
  intros d H. unfold prose_ok, C17_domain in H.
  apply andb_true_iff in H. destruct H as [H Hdef].
  apply andb_true_iff in H. destruct H as [H Hterm].
  apply andb_true_iff in H. destruct H as [Hne Hno].
  split. { destruct d; [discriminate|discriminate]. }
  split; [exact Hno|]. split.
  - unfold ends_with_terminal in Hterm. destruct (last_c d) as [l|]; [|discriminate].
    exists l. split; [reflexivity|exact Hterm].
  - apply negb_true_iff in Hdef. exact Hdef.
Qed.

Lemma shown_value_inv : forall v t s,
    shown_value v t = Ok s ->
    exists sv, shown_default (if pyval_eqb v (VStr NoneStr) then VNone else v) t = Ok sv
               /\ s = py_str sv.
Proof.
  intros v t s H. unfold shown_value in H. cbv zeta in H.
  apply bind_Ok_inv in H. destruct H as [sv [Hsv H]]. injection H as H.
  exists sv. split; [exact Hsv|symmetry; exact H].
Qed.

(* the sentence has the shape  prose, space, phrase, value text  for every phrase *)
Lemma render_sentence : forall a d v t s l,
    last_c d = Some l -> ascii_eqb l (ch 46) || ascii_eqb l (ch 44) = true ->
    contains (L "Defaults") d || contains (L "defaults") d = false ->
    shown_value v t = Ok s ->
    render a d v t = Ok (d ++ [sp] ++ announce_text a ++ s).
Proof.
  intros a d v t s l Hl Hterm Hdef Hs.
  destruct a; try (unfold render; rewrite Hs; reflexivity).
  destruct (shown_value_inv v t s Hs) as [sv [Hsv Es]]. subst s.
  unfold render.
  rewrite (set_default_doc_writes (L "x") d l t v sv Hl Hdef).
  - rewrite Hterm. cbn [bind p_doc].
    assert (Hsw : startswith (d ++ L " Defaults to ") (d ++ L " Defaults to " ++ py_str sv) = true).
    { rewrite app_assoc. apply startswith_app. }
    rewrite Hsw. reflexivity.
  - cbv zeta. split; [|exact Hsv]. rewrite endswith_kwargs_x. cbn [negb]. apply orb_true_r.
Qed.

(* the per-value part of the guard *)
Definition value_ok (a : announce) (v : pyval) (t : option str) : bool :=
  match shown_value v t with
  | Ok s =>
    value_announce_ok a s
    && str_eqb (scan_default s 0) s
    && str_eqb (strip_chars strip_set s) s
    && negb (negb (startswith [ch 40] s) && endswith (L ").") s)
    && match coerce_default t s with Ok v2 => same_default v v2 | Err _ => false end
  | Err _ => false
  end.

(* value_ok is the negation of the value classes of finding_class_C17, prose_ok that of the prose
   classes together with the domain *)
Lemma guard_C17_eq : forall a d v t, guard_C17 a d v t = prose_ok d && value_ok a v t.
Proof.
  intros a d v t. unfold guard_C17, finding_class_C17, prose_ok, value_ok.
  destruct (C17_domain d), (ends_with_terminal d),
    (contains (L "Defaults") d || contains (L "defaults") d); try reflexivity.
  destruct (shown_value v t) as [s|e]; [|reflexivity].
  destruct (value_announce_ok a s), (str_eqb (scan_default s 0) s),
    (str_eqb (strip_chars strip_set s) s),
    (negb (startswith [ch 40] s) && endswith (L ").") s); try reflexivity.
  destruct (coerce_default t s) as [v2|[]]; try reflexivity.
  destruct (same_default v v2); [reflexivity|]. destruct v, t; reflexivity.
Qed.

Lemma guard_C17_split : forall a d v t,
    guard_C17 a d v t = true <-> prose_ok d = true /\ value_ok a v t = true.
Proof. intros a d v t. rewrite guard_C17_eq. apply andb_true_iff. Qed.

Lemma guard_C17_false_iff : forall a d v t,
    guard_C17 a d v t = false <->
    C17_domain d = false \/ exists k, finding_class_C17 a d v t = Some k.
Proof.
  intros a d v t. unfold guard_C17. destruct (C17_domain d); cbn [andb].
  - destruct (finding_class_C17 a d v t) as [k|]; split.
    + intros _. right. exists k. reflexivity.
    + reflexivity.
    + discriminate.
    + intros [H|[k H]]; discriminate.
  - split; [intros _; left; reflexivity|reflexivity].
Qed.

Lemma value_ok_inv : forall a v t,
    value_ok a v t = true ->
    exists s v2,
      shown_value v t = Ok s /\ value_announce_ok a s = true /\ scan_default s 0 = s
      /\ strip_chars strip_set s = s
      /\ negb (startswith [ch 40] s) && endswith (L ").") s = false
      /\ coerce_default t s = Ok v2 /\ same_default v v2 = true.
Proof.
  intros a v t Hv. unfold value_ok in Hv.
  destruct (shown_value v t) as [s|e0] eqn:Hs; [|discriminate].
  apply andb_true_iff in Hv. destruct Hv as [Hv Hco].
  apply andb_true_iff in Hv. destruct Hv as [Hv Hparen].
  apply andb_true_iff in Hv. destruct Hv as [Hv Hstrip].
  apply andb_true_iff in Hv. destruct Hv as [Hann Hscan].
  apply str_eqb_eq in Hscan. apply str_eqb_eq in Hstrip. apply negb_true_iff in Hparen.
  destruct (coerce_default t s) as [v2|e1] eqn:Hc; [|discriminate].
  exists s, v2. repeat split; assumption.
Qed.

Lemma C17_of_prose_value : forall a d v t,
    prose_ok d = true -> value_ok a v t = true -> C17_at a d v t.
Proof.
  intros a d v t Hp Hv.
  destruct (prose_ok_inv d Hp) as [Hne [Hno [[l [Hl Hterm]] Hdef]]].
  destruct (value_ok_inv a v t Hv) as [s [v2 [Hs [Hann [Hscan [Hstrip [Hparen [Hc Hsame]]]]]]]].
  destruct (value_announce_ok_inv a s Hann) as [e Hloc].
  destruct (extract_default_sentence d l (announce_text a) s t e v2 true
              Hl (terminal_sep_ok l Hterm) Hno Hloc Hscan Hstrip Hparen Hc) as [E1 E2].
  exists (d ++ [sp] ++ announce_text a ++ s).
  split; [apply (render_sentence a d v t s l Hl Hterm Hdef Hs)|].
  split; exists v2; (split; [assumption|exact Hsame]).
Qed.

(* completeness of the finding classes: outside every class the property holds *)
Lemma C17_partial_lemma : forall a d v t, guard_C17 a d v t = true -> C17_at a d v t.
Proof.
  intros a d v t H. apply guard_C17_split in H. destruct H as [Hp Hv].
  apply C17_of_prose_value; assumption.
Qed.

Lemma C17_at_b_complete : forall a d v t, C17_at a d v t -> C17_at_b a d v t = true.
Proof.
  intros a d v t [line [Hr [[v1 [E1 S1]] [v2 [E2 S2]]]]].
  unfold C17_at_b. rewrite Hr, E1, E2, S1, S2, !str_eqb_refl. reflexivity.
Qed.

Lemma C17_at_b_sound : forall a d v t, C17_at_b a d v t = true -> C17_at a d v t.
Proof.
  intros a d v t H. unfold C17_at_b in H.
  destruct (render a d v t) as [line|e] eqn:Hr; [|discriminate].
  apply andb_true_iff in H. destruct H as [H1 H2].
  destruct (extract_default line true default_announces t true) as [[l1 [v1|]]|e1] eqn:E1;
    try discriminate.
  destruct (extract_default line true default_announces t false) as [[l2 [v2|]]|e2] eqn:E2;
    try discriminate.
  apply andb_true_iff in H1. destruct H1 as [H1 S1]. apply str_eqb_eq in H1. subst l1.
  apply andb_true_iff in H2. destruct H2 as [H2 S2]. apply str_eqb_eq in H2. subst l2.
  exists line. split; [exact Hr|]. split; [exists v1|exists v2]; split; assumption.
Qed.

(* the statement over the whole domain is false of the model: prose without terminal punctuation *)
Definition C17_statement_model : Prop :=
  forall a d v t, C17_domain d = true -> C17_at a d v t.

Lemma C17_refuted_lemma : ~ C17_statement_model.
Proof.
  intros H.
  assert (Hd : C17_domain (L "x") = true) by (vm_compute; reflexivity).
  pose proof (C17_at_b_complete _ _ _ _ (H ADefaultsTo (L "x") (VInt 5) None Hd)) as Hb.
  vm_compute in Hb. discriminate Hb.
Qed.

(* a second witness, with prose of the good shape: the value text is cut at its full stop *)
Lemma C17_refuted_value_cut :
  prose_ok (L "x.") = true /\ ~ C17_at ADefaultsTo (L "x.") (VStr (L "a.b")) (Some (L "str")).
Proof.
  split; [vm_compute; reflexivity|]. intros H. apply C17_at_b_complete in H.
  vm_compute in H. discriminate H.
Qed.

Lemma same_default_refl : forall v, unquote_val v = v -> same_default v v = true.
Proof. intros v H. unfold same_default. rewrite H, pyval_eqb_refl. reflexivity. Qed.

Lemma shown_value_int : forall z t, shown_value (VInt z) t = Ok (dec_of_Z z).
Proof. reflexivity. Qed.

(* the four tests of value_ok on the value text, and the reading back; P is any class of characters
   that holds the text and does not hold ")." *)
Lemma value_ok_intro : forall a v t s v2 (P : ascii -> bool),
    shown_value v t = Ok s -> value_announce_ok a s = true -> scan_default s 0 = s ->
    strip_chars strip_set s = s -> forallb P s = true -> forallb P (L ").") = false ->
    coerce_default t s = Ok v2 -> same_default v v2 = true -> value_ok a v t = true.
Proof.
  intros a v t s v2 P Hs Ha Hscan Hstrip HP HP' Hco Hsame. unfold value_ok.
  rewrite Hs, Ha, Hscan, Hstrip, Hco, Hsame, !str_eqb_refl.
  destruct (endswith (L ").") s) eqn:He.
  - apply (endswith_forallb P) in He; [congruence|exact HP].
  - rewrite andb_false_r. reflexivity.
Qed.

Lemma value_ok_number : forall a v t s v2,
    shown_value v t = Ok s -> forallb numchar s = true -> scan_default s 0 = s ->
    coerce_default t s = Ok v2 -> same_default v v2 = true -> value_ok a v t = true.
Proof.
  intros a v t s v2 Hs Hn Hscan Hco Hsame.
  apply (value_ok_intro a v t s v2 numchar); try assumption.
  - apply value_announce_ok_no_announce. apply no_announce_number. exact Hn.
  - apply strip_chars_number. exact Hn.
  - reflexivity.
Qed.

Lemma value_ok_int : forall a z t,
    coerce_default t (dec_of_Z z) = Ok (VInt z) -> value_ok a (VInt z) t = true.
Proof.
  intros a z t Hco.
  apply (value_ok_number a (VInt z) t (dec_of_Z z) (VInt z)).
  - reflexivity.
  - apply dec_of_Z_numchars.
  - apply scan_default_no_dot. apply (forallb_impl intchar); [|apply dec_of_Z_intchars].
    intros c Hc. apply negb_true_iff. exact (ascii_eqb_class_false intchar c (ch 46) Hc eq_refl).
  - exact Hco.
  - apply same_default_refl. reflexivity.
Qed.

Lemma value_ok_int_untyped : forall a z, value_ok a (VInt z) None = true.
Proof. intros a z. apply value_ok_int. apply coerce_default_int_untyped. Qed.

Lemma value_ok_int_typed : forall a z, value_ok a (VInt z) (Some (L "int")) = true.
Proof. intros a z. apply value_ok_int. apply coerce_default_int_typed. Qed.

Lemma value_ok_bool_untyped : forall a b, value_ok a (VBool b) None = true.
Proof. intros [] []; vm_compute; reflexivity. Qed.

Lemma value_ok_bool_typed : forall a b, value_ok a (VBool b) (Some (L "bool")) = true.
Proof. intros [] []; vm_compute; reflexivity. Qed.

Lemma value_ok_none : forall a, value_ok a VNone None = true.
Proof. intros []; vm_compute; reflexivity. Qed.

