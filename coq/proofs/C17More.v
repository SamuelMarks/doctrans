(* C17More: value_ok for further classes of values, which props/C17.v turns into corollaries of
   C17_partial: plain str values (declared str: written quoted and read back through literal_eval;
   undeclared: bare words that do not read as another type) and plain decimal floats lie inside the
   guard, for all four announcement phrases.  The classes (plain_word, bare_word,
   canonical_plain_float) are defined here. *)
From Coq Require Import List Ascii Bool Arith ZArith NArith Lia.
From Coq Require String.
Import String.StringSyntax.
From DT Require Import PyStr Sexp PyVal Extracted TyExpr PureUtils Defaults C17Spec
     PyStrFacts PureUtilsFacts DefaultsFacts.
Import ListNotations.

Definition special_chars : str :=
  [ch 34; ch 39; ch 92; ch 46; ch 96; ch 40; ch 41; ch 91; ch 93; ch 123; ch 125].

(* printable ASCII other than quote marks, backslash, full stop, back-tick and brackets *)
Definition plain_char (c : ascii) : bool :=
  Nat.leb 32 (code c) && Nat.leb (code c) 126 && negb (mem_c c special_chars).

Definition word_start (c : ascii) : bool := isalpha_c c || ascii_eqb c (ch 95).

Lemma plain_not_dot : forall s, forallb plain_char s = true -> forallb not_dot s = true.
Proof.
  intros s. apply forallb_impl. intros c Hc. apply negb_true_iff.
  exact (ascii_eqb_class_false plain_char c (ch 46) Hc eq_refl).
Qed.

Lemma plain_char_nonblank : forall c,
    plain_char c = true -> ascii_eqb c sp = false ->
    isspace c = false /\ mem_c c strip_set = false.
Proof.
  intros c Hp Hsp.
  assert (F : implb (plain_char c) (ascii_eqb c sp || negb (isspace c || mem_c c strip_set))
              = true).
  { apply (ascii_range_forallb (fun x => implb (plain_char x) (ascii_eqb x sp
                                            || negb (isspace x || mem_c x strip_set))) 32 95).
    - vm_compute. reflexivity.
    - unfold plain_char in Hp. apply andb_true_iff in Hp. destruct Hp as [Hp _].
      apply andb_true_iff in Hp. destruct Hp as [H1 H2]. apply Nat.leb_le in H1, H2. lia. }
  rewrite Hp, Hsp in F. apply negb_true_iff in F. apply orb_false_iff in F. exact F.
Qed.

Lemma word_start_range : forall c, word_start c = true -> 65 <= code c < 65 + 58.
Proof.
  intros c H. unfold word_start in H. apply orb_true_iff in H. destruct H as [H|H].
  - apply isalpha_c_code in H. lia.
  - apply ascii_eqb_eq in H. subst c. change (code (ch 95)) with 95. lia.
Qed.

Lemma word_start_facts : forall c,
    word_start c = true ->
    isdigit c = false /\ ascii_eqb c (ch 45) = false /\ ascii_eqb c (ch 43) = false
    /\ ascii_eqb c (ch 46) = false /\ isspace c = false /\ mem_c c strip_set = false.
Proof.
  intros c H.
  assert (F : implb (word_start c)
                    (negb (isdigit c || ascii_eqb c (ch 45) || ascii_eqb c (ch 43)
                           || ascii_eqb c (ch 46) || isspace c || mem_c c strip_set)) = true).
  { apply (ascii_range_forallb
             (fun x => implb (word_start x)
                             (negb (isdigit x || ascii_eqb x (ch 45) || ascii_eqb x (ch 43)
                                    || ascii_eqb x (ch 46) || isspace x || mem_c x strip_set)))
             65 58); [vm_compute; reflexivity|apply word_start_range; exact H]. }
  rewrite H in F. apply negb_true_iff in F.
  repeat (apply orb_false_iff in F; destruct F as [F ?]). repeat split; assumption.
Qed.

Lemma str_eqb_head_false : forall c r w, startswith [c] w = false -> str_eqb (c :: r) w = false.
Proof.
  intros c r [|y w] H; [reflexivity|]. cbn [startswith] in H. rewrite andb_true_r in H.
  cbn [str_eqb]. rewrite H. reflexivity.
Qed.

Lemma existsb_str_eqb_head : forall c r l,
    forallb (fun y => negb (startswith [c] y)) l = true -> existsb (str_eqb (c :: r)) l = false.
Proof.
  intros c r l. induction l as [|y l IHl]; intros H; [reflexivity|].
  cbn [forallb] in H. apply andb_true_iff in H. destruct H as [Hy Hl].
  apply negb_true_iff in Hy. cbn [existsb]. rewrite (str_eqb_head_false c r y Hy).
  cbn [orb]. apply IHl. exact Hl.
Qed.

Lemma unquote_plain : forall s, forallb plain_char s = true -> unquote s = s.
Proof.
  intros s Hs. apply unquote_id_marks. intros q Hq [Hh _].
  destruct s as [|c r]; [discriminate Hh|]. injection Hh as Hh. subst c.
  cbn [forallb] in Hs. apply andb_true_iff in Hs. destruct Hs as [Hc _].
  destruct Hq as [Hq|Hq]; subst q; vm_compute in Hc; discriminate Hc.
Qed.

Lemma same_default_plain_str : forall s,
    forallb plain_char s = true -> same_default (VStr s) (VStr s) = true.
Proof.
  intros s Hs. apply same_default_refl. cbn [unquote_val]. rewrite (unquote_plain s Hs). reflexivity.
Qed.

(* non-empty, plain characters only (blanks allowed anywhere), no announcement phrase inside *)
Definition plain_word (s : str) : bool :=
  negb (match s with [] => true | _ => false end) && forallb plain_char s && no_announce s.

Lemma plain_word_inv : forall s,
    plain_word s = true ->
    (exists c r, s = c :: r /\ plain_char c = true)
    /\ forallb plain_char s = true /\ no_announce s = true.
Proof.
  intros s H. unfold plain_word in H.
  apply andb_true_iff in H. destruct H as [H Hno].
  apply andb_true_iff in H. destruct H as [Hne Hpc].
  split; [|split; assumption].
  destruct s as [|c r]; [discriminate Hne|]. exists c, r. split; [reflexivity|].
  cbn [forallb] in Hpc. apply andb_true_iff in Hpc. apply Hpc.
Qed.

Lemma quote_plain : forall s,
    s <> [] -> forallb plain_char s = true -> quote s = dq :: s ++ [dq].
Proof.
  intros [|c r] Hne Hs; [contradiction|].
  cbn [forallb] in Hs. apply andb_true_iff in Hs. destruct Hs as [Hc _].
  destruct (last_c (c :: r)) as [d|] eqn:Hl.
  - rewrite (quote_eq c r d Hl).
    rewrite (ascii_eqb_class_false plain_char c sq Hc eq_refl).
    rewrite (ascii_eqb_class_false plain_char c dq Hc eq_refl).
    cbn [orb]. rewrite andb_false_r. reflexivity.
  - apply last_c_nil_iff in Hl. discriminate Hl.
Qed.

Lemma needs_quoting_str : needs_quoting (Some (L "str")) = Ok true.
Proof. vm_compute. reflexivity. Qed.

Lemma shown_value_str_typed : forall s,
    plain_word s = true -> shown_value (VStr s) (Some (L "str")) = Ok (dq :: s ++ [dq]).
Proof.
  intros s H. destruct (plain_word_inv s H) as [[c [r [Es Hc]]] [Hpc Hno]].
  unfold shown_value. cbv zeta. cbn [pyval_eqb].
  rewrite (str_eqb_forallb_false plain_char s NoneStr Hpc eq_refl).
  unfold shown_default. rewrite needs_quoting_str. cbn [bind quote_val].
  rewrite (quote_plain s) by (subst s; discriminate || exact Hpc). reflexivity.
Qed.

Lemma no_announce_in_quotes : forall q s,
    announce_safe q = true -> no_announce s = true -> no_announce (q :: s ++ [q]) = true.
Proof.
  intros q s Hq Hs. unfold no_announce. rewrite forallb_forall. intros e He.
  apply negb_true_iff. apply contains_false_iff.
  unfold announce_safe in Hq. rewrite forallb_forall in Hq.
  pose proof (Hq e He) as Hqe. apply negb_true_iff in Hqe.
  pose proof (default_announces_nonnil e He) as Hne.
  rewrite casefold_cons, casefold_app. change (casefold [q]) with [lower_c q].
  change (lower_c q :: casefold s ++ [lower_c q]) with ([lower_c q] ++ casefold s ++ [lower_c q]).
  rewrite find_app_skip.
  - rewrite find_app_disjoint; [|exact Hne|cbn [forallb]; rewrite Hqe; reflexivity].
    rewrite (no_announce_In s e Hs He). reflexivity.
  - intros j Hj. cbn [List.length] in Hj. replace j with 0 by lia. cbn [skipn app].
    destruct (casefold e) as [|y p]; [contradiction|].
    rewrite mem_c_cons in Hqe. apply orb_false_iff in Hqe. destruct Hqe as [Hy _].
    cbn [startswith]. rewrite ascii_eqb_sym, Hy. reflexivity.
Qed.

Lemma in_simple_types_str : in_simple_types (L "str") = true.
Proof. vm_compute. reflexivity. Qed.

Lemma none_types_not_quoted :
  forallb (fun y => negb (startswith [dq] y)) Extracted.none_types_strs = true.
Proof. vm_compute. reflexivity. Qed.

Lemma last_c_quoted : forall s : str, last_c (dq :: s ++ [dq]) = Some dq.
Proof. intros s. apply (last_c_app_single (dq :: s) dq). Qed.

Lemma quoted_simple_dq : forall s,
    forallb plain_char s = true -> quoted_simple (dq :: s ++ [dq]) = Some s.
Proof.
  intros s Hs. unfold quoted_simple.
  change (ascii_eqb dq (ch 34) || ascii_eqb dq (ch 39)) with true. cbv iota.
  rewrite rev_app_distr. cbn [rev app]. rewrite rev_involutive.
  rewrite (mem_c_forallb_false plain_char dq s Hs eq_refl).
  rewrite (mem_c_forallb_false plain_char (ch 92) s Hs eq_refl).
  rewrite (mem_c_forallb_false plain_char nl s Hs eq_refl).
  rewrite ascii_eqb_refl. reflexivity.
Qed.

Lemma literal_eval_scalar_quoted : forall s,
    forallb plain_char s = true -> literal_eval_scalar (dq :: s ++ [dq]) = Ok (VStr s).
Proof.
  intros s Hs. unfold literal_eval_scalar.
  rewrite (strip_by_id _ (dq :: s ++ [dq])).
  - rewrite (str_eqb_head_false dq (s ++ [dq]) (L "None") eq_refl).
    rewrite (str_eqb_head_false dq (s ++ [dq]) (L "True") eq_refl).
    rewrite (str_eqb_head_false dq (s ++ [dq]) (L "False") eq_refl).
    change (is_bare_word (dq :: s ++ [dq])) with false. cbv iota.
    rewrite (quoted_simple_dq s Hs). reflexivity.
  - intros c Hc. injection Hc as Hc. subst c. reflexivity.
  - intros c Hc. rewrite (last_c_quoted s) in Hc. injection Hc as Hc. subst c.
    reflexivity.
Qed.

Lemma coerce_default_str_typed : forall s,
    forallb plain_char s = true ->
    coerce_default (Some (L "str")) (dq :: s ++ [dq]) = Ok (VStr s).
Proof.
  intros s Hs. rewrite coerce_default_typed_eq.
  - rewrite (literal_eval_scalar_quoted s Hs). reflexivity.
  - exact in_simple_types_str.
  - unfold in_none_types. apply existsb_str_eqb_head. exact none_types_not_quoted.
Qed.

Lemma value_ok_str_typed : forall a s,
    plain_word s = true -> value_ok a (VStr s) (Some (L "str")) = true.
Proof.
  intros a s H. destruct (plain_word_inv s H) as [_ [Hpc Hno]].
  assert (Hnd : forallb not_dot (dq :: s ++ [dq]) = true).
  { cbn [forallb]. rewrite forallb_app, (plain_not_dot s Hpc). reflexivity. }
  apply (value_ok_intro a _ _ (dq :: s ++ [dq]) (VStr s) not_dot).
  - apply shown_value_str_typed. exact H.
  - apply value_announce_ok_no_announce. apply no_announce_in_quotes; [reflexivity|exact Hno].
  - apply scan_default_no_dot. exact Hnd.
  - apply strip_chars_id.
    + intros c Hc. injection Hc as Hc. subst c. reflexivity.
    + intros c Hc. rewrite (last_c_quoted s) in Hc. injection Hc as Hc. subst c. reflexivity.
  - exact Hnd.
  - reflexivity.
  - apply coerce_default_str_typed. exact Hpc.
  - apply same_default_plain_str. exact Hpc.
Qed.

Definition float_word (w : str) : bool :=
  str_eqb w (L "inf") || str_eqb w (L "infinity") || str_eqb w (L "nan").

(* a plain word that begins with a letter or underscore, does not end with a blank, and is not
   one of the words that read as bool or float *)
Definition bare_word (s : str) : bool :=
  plain_word s
  && match s with c :: _ => word_start c | [] => false end
  && negb (endswith [sp] s)
  && negb (str_eqb s (L "True")) && negb (str_eqb s (L "False"))
  && negb (float_word (casefold s)).

Lemma shown_value_str_untyped : forall s,
    forallb plain_char s = true -> shown_value (VStr s) None = Ok s.
Proof.
  intros s Hpc. unfold shown_value. cbv zeta. cbn [pyval_eqb].
  rewrite (str_eqb_forallb_false plain_char s NoneStr Hpc eq_refl). reflexivity.
Qed.

Lemma float_syntax_word : forall c r,
    word_start c = true ->
    (forall l, last_c (c :: r) = Some l -> isspace l = false) ->
    float_word (casefold (c :: r)) = false ->
    float_syntax (c :: r) = false.
Proof.
  intros c r Hc Hlast Hfw.
  destruct (word_start_facts c Hc) as [Hdig [Hm [Hp [Hdot [Hsp _]]]]].
  unfold float_syntax.
  assert (Hstrip : strip (c :: r) = c :: r).
  { unfold strip. apply strip_by_id; [|exact Hlast].
    intros c0 Hc0. injection Hc0 as Hc0. subst c0. exact Hsp. }
  rewrite Hstrip. cbv zeta. rewrite Hp, Hm. cbn [orb].
  unfold unsigned_float_syntax. cbv zeta. unfold float_word in Hfw. rewrite Hfw, Hdot.
  cbn [digitpart_rest]. rewrite Hdig.
  destruct (ascii_eqb c (ch 95)); reflexivity.
Qed.

Lemma bare_word_inv : forall s,
    bare_word s = true ->
    forallb plain_char s = true /\ no_announce s = true
    /\ (exists c r, s = c :: r /\ word_start c = true)
    /\ (forall l, last_c s = Some l -> isspace l = false /\ mem_c l strip_set = false)
    /\ str_eqb s (L "True") = false /\ str_eqb s (L "False") = false
    /\ float_word (casefold s) = false.
Proof.
  intros s H. unfold bare_word in H.
  apply andb_true_iff in H. destruct H as [H Hfw]. apply negb_true_iff in Hfw.
  apply andb_true_iff in H. destruct H as [H HF]. apply negb_true_iff in HF.
  apply andb_true_iff in H. destruct H as [H HT]. apply negb_true_iff in HT.
  apply andb_true_iff in H. destruct H as [H Hend]. apply negb_true_iff in Hend.
  apply andb_true_iff in H. destruct H as [Hpw Hws].
  destruct (plain_word_inv s Hpw) as [_ [Hpc Hno]].
  split; [exact Hpc|]. split; [exact Hno|]. split; [|split; [|repeat split; assumption]].
  - destruct s as [|c r]; [discriminate Hws|]. exists c, r. split; [reflexivity|exact Hws].
  - intros l Hl. apply plain_char_nonblank.
    + rewrite forallb_forall in Hpc. apply Hpc. apply last_c_In. exact Hl.
    + destruct (ascii_eqb l sp) eqn:E; [|reflexivity]. apply ascii_eqb_eq in E. subst l.
      apply endswith_single in Hl. rewrite Hl in Hend. discriminate Hend.
Qed.

Lemma coerce_default_bare_word : forall s,
    bare_word s = true -> coerce_default None s = Ok (VStr s).
Proof.
  intros s H.
  destruct (bare_word_inv s H) as [_ [_ [[c [r [Es Hws]]] [Hlast [HT [HF Hfw]]]]]]. subst s.
  destruct (word_start_facts c Hws) as [Hdig [Hm [Hp _]]].
  rewrite coerce_default_None_eq.
  assert (Hdec : isdecimal (c :: r) = false).
  { unfold isdecimal. cbn [forallb]. rewrite Hdig. reflexivity. }
  assert (Hsd : signed_decimal (c :: r) = false).
  { unfold signed_decimal. rewrite Hm, Hp. reflexivity. }
  rewrite Hdec, Hsd, HT, HF.
  unfold float_of_str. rewrite (float_syntax_word c r Hws); [reflexivity| |exact Hfw].
  intros l Hl. apply (Hlast l Hl).
Qed.

Lemma value_ok_str_untyped : forall a s, bare_word s = true -> value_ok a (VStr s) None = true.
Proof.
  intros a s H.
  destruct (bare_word_inv s H) as [Hpc [Hno [[c [r [Es Hws]]] [Hlast _]]]].
  apply (value_ok_intro a _ _ s (VStr s) not_dot).
  - apply shown_value_str_untyped. exact Hpc.
  - apply value_announce_ok_no_announce. exact Hno.
  - apply scan_default_no_dot. apply plain_not_dot. exact Hpc.
  - apply strip_chars_id.
    + intros c0 Hc0. rewrite Es in Hc0. injection Hc0 as Hc0. subst c0.
      destruct (word_start_facts c Hws) as [_ [_ [_ [_ [_ Hstrip]]]]]. exact Hstrip.
    + intros l Hl. apply (Hlast l Hl).
  - apply plain_not_dot. exact Hpc.
  - reflexivity.
  - apply coerce_default_bare_word. exact H.
  - apply same_default_plain_str. exact Hpc.
Qed.

Definition floatchar (c : ascii) : bool :=
  isdigit c || ascii_eqb c (ch 45) || ascii_eqb c (ch 46).

(* every full stop is followed by a digit *)
Fixpoint dot_digit_ok (s : str) : bool :=
  match s with
  | [] => true
  | c :: r =>
    (if ascii_eqb c (ch 46) then match r with d :: _ => isdigit d | [] => false end else true)
    && dot_digit_ok r
  end.

(* text of the shape [-]digits.digits that float() maps to itself *)
Definition canonical_plain_float (r : str) : bool :=
  forallb floatchar r && mem_c (ch 46) r && dot_digit_ok r
  && match float_of_str r with Ok r' => str_eqb r' r | Err _ => false end.

Lemma scan_default_dot_digit_ok : forall s depth,
    dot_digit_ok s = true -> scan_default s depth = s.
Proof.
  induction s as [|c r IHr]; intros depth H; [reflexivity|].
  cbn [dot_digit_ok] in H. apply andb_true_iff in H. destruct H as [Hc Hr].
  cbn [scan_default].
  assert (Hstop : ascii_eqb c (ch 46)
                  && match r with [] => true | d :: _ => negb (isdigit d) end
                  && Nat.eqb depth 0 = false).
  { destruct (ascii_eqb c (ch 46)); [|reflexivity].
    destruct r as [|d r']; [discriminate Hc|]. rewrite Hc. reflexivity. }
  rewrite Hstop, (IHr _ Hr). reflexivity.
Qed.

Lemma floatchar_numchar : forall c, floatchar c = true -> numchar c = true.
Proof.
  intros c H. unfold floatchar in H. apply orb_true_iff in H. destruct H as [H|H].
  - apply intchar_numchar. exact H.
  - apply ascii_eqb_eq in H. subst c. reflexivity.
Qed.

Lemma isdecimal_with_dot : forall s, mem_c (ch 46) s = true -> isdecimal s = false.
Proof.
  intros [|c r] H; [reflexivity|]. unfold isdecimal.
  destruct (forallb isdigit (c :: r)) eqn:E; [|reflexivity].
  rewrite (mem_c_forallb_false isdigit (ch 46) _ E eq_refl) in H. discriminate H.
Qed.

Lemma float_text_numchars : forall r, forallb floatchar r = true -> forallb numchar r = true.
Proof. intros r. apply forallb_impl. exact floatchar_numchar. Qed.

Record float_text_facts (r : str) : Prop := {
  ftf_chars : forallb floatchar r = true;
  ftf_dot : mem_c (ch 46) r = true;
  ftf_scan : dot_digit_ok r = true;
  ftf_float : float_of_str r = Ok r
}.

Lemma canonical_plain_float_inv : forall r, canonical_plain_float r = true -> float_text_facts r.
Proof.
  intros r H. unfold canonical_plain_float in H.
  apply andb_true_iff in H. destruct H as [H Hf].
  apply andb_true_iff in H. destruct H as [H Hscan].
  apply andb_true_iff in H. destruct H as [Hch Hdot].
  destruct (float_of_str r) as [r'|e] eqn:E; [|discriminate Hf].
  apply str_eqb_eq in Hf. subst r'. constructor; assumption.
Qed.

Lemma float_text_head : forall r, float_text_facts r ->
    exists c r', r = c :: r' /\ floatchar c = true
                 /\ (ascii_eqb c (ch 46) = false -> mem_c (ch 46) r' = true).
Proof.
  intros r [Hch Hdot _ _]. destruct r as [|c r']; [discriminate Hdot|].
  exists c, r'. split; [reflexivity|]. split.
  - cbn [forallb] in Hch. apply andb_true_iff in Hch. apply Hch.
  - intros Hc. rewrite mem_c_cons in Hdot. rewrite ascii_eqb_sym, Hc in Hdot. exact Hdot.
Qed.

Lemma signed_forms_with_dot : forall r, float_text_facts r ->
    isdecimal r = false /\ signed_decimal r = false /\ Z_of_dec_signed r = None.
Proof.
  intros r F. pose proof (ftf_dot r F) as Hdot.
  pose proof (isdecimal_with_dot r Hdot) as Hdec.
  destruct (float_text_head r F) as [c [r' [Er [Hc Hrest]]]]. subst r.
  split; [exact Hdec|].
  unfold signed_decimal, Z_of_dec_signed.
  rewrite (ascii_eqb_class_false floatchar c (ch 43) Hc eq_refl).
  destruct (ascii_eqb c (ch 45)) eqn:Hm.
  - assert (Hnd : ascii_eqb c (ch 46) = false).
    { apply ascii_eqb_eq in Hm. subst c. reflexivity. }
    rewrite (isdecimal_with_dot r' (Hrest Hnd)). split; reflexivity.
  - rewrite Hdec. split; reflexivity.
Qed.

Lemma coerce_default_float_untyped : forall r,
    float_text_facts r -> coerce_default None r = Ok (VFloat r).
Proof.
  intros r F. destruct (signed_forms_with_dot r F) as [Hdec [Hsd _]].
  rewrite coerce_default_None_eq, Hdec, Hsd.
  rewrite (str_eqb_forallb_false floatchar r (L "True") (ftf_chars r F) eq_refl).
  rewrite (str_eqb_forallb_false floatchar r (L "False") (ftf_chars r F) eq_refl).
  rewrite (ftf_float r F). reflexivity.
Qed.

Lemma float_syntax_of_float : forall r r', float_of_str r = Ok r' -> float_syntax r = true.
Proof.
  intros r r' H. unfold float_of_str in H.
  destruct (float_syntax r); [reflexivity|discriminate H].
Qed.

Lemma literal_eval_scalar_float : forall r,
    float_text_facts r -> literal_eval_scalar r = Ok (VFloat r).
Proof.
  intros r F. pose proof (float_text_numchars r (ftf_chars r F)) as Hn.
  destruct (signed_forms_with_dot r F) as [_ [_ Hz]].
  assert (Hnn : r <> []).
  { intros E. pose proof (ftf_dot r F) as Hdot. rewrite E in Hdot. discriminate Hdot. }
  destruct (literal_eval_number_text r Hnn Hn) as [E1 [E2 [E3 [E4 [E5 E6]]]]].
  assert (Hall : forallb (fun x => isdigit x || ascii_eqb x (ch 46) || ascii_eqb x (ch 45)
                                   || ascii_eqb x (ch 43)) r = true).
  { apply (forallb_impl numchar); [|exact Hn].
    intros x Hx. destruct (numchar_facts x Hx) as [_ [_ [_ [_ [_ Hfloat]]]]]. exact Hfloat. }
  unfold literal_eval_scalar.
  rewrite E1, E2, E3, E4, E5, E6, Hz, Hall, (float_syntax_of_float r r (ftf_float r F)).
  rewrite andb_false_r. cbn [negb andb]. rewrite (ftf_float r F). reflexivity.
Qed.

Lemma in_simple_types_float : in_simple_types (L "float") = true.
Proof. vm_compute. reflexivity. Qed.

Lemma coerce_default_float_typed : forall r,
    float_text_facts r -> coerce_default (Some (L "float")) r = Ok (VFloat r).
Proof.
  intros r F. rewrite coerce_default_typed_eq.
  - rewrite (literal_eval_scalar_float r F). reflexivity.
  - exact in_simple_types_float.
  - apply in_none_types_number. apply float_text_numchars. exact (ftf_chars r F).
Qed.

Lemma value_ok_float : forall a r t,
    float_text_facts r -> coerce_default t r = Ok (VFloat r) -> value_ok a (VFloat r) t = true.
Proof.
  intros a r t F Hco. apply (value_ok_number a (VFloat r) t r (VFloat r)).
  - reflexivity.
  - apply float_text_numchars. exact (ftf_chars r F).
  - apply scan_default_dot_digit_ok. exact (ftf_scan r F).
  - exact Hco.
  - apply same_default_refl. reflexivity.
Qed.

Lemma value_ok_float_plain : forall a r,
    canonical_plain_float r = true ->
    value_ok a (VFloat r) None = true /\ value_ok a (VFloat r) (Some (L "float")) = true.
Proof.
  intros a r Hr. pose proof (canonical_plain_float_inv r Hr) as F.
  split; apply value_ok_float; try exact F.
  - apply coerce_default_float_untyped. exact F.
  - apply coerce_default_float_typed. exact F.
Qed.

