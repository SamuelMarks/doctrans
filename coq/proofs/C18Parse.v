(* C18Parse: parse-level transparency of word wrapping, ReST style.
   The text emit.docstring writes with word_wrap on and the text it writes with word_wrap off are both
   scanned into blocks (DocParseFacts.scan_rest_blocks); a wrapped  :param  block and its unwrapped twin
   take the parser state to the same state (the value is stripped, then re-joined by _set_name_and_type; a
   default sentence that the wrapper left whole is extracted from both alike); type lines are the same text;
   the summary and the prose of the return entry keep their line breaks.  The theorems are proved for the guard
   that admits such default sentences; those for the narrower guard are corollaries. *)
From Coq Require Import List Ascii Bool Arith ZArith Lia.
From Coq Require String.
Import String.StringSyntax.
From DT Require Import PyStr Sexp PyVal TyExpr PureUtils Defaults PyAst IR Extracted Fill C17Spec.
From DT Require Import DocEmit C18Spec C18Spec2 DocParse C01Spec C18ParseSpec.
From DT Require Import ListFacts PyStrFacts DefaultsFacts SplitFacts FillFacts DocEmitFacts C18Facts DocParseFacts C01RestLink.
Import ListNotations.

Lemma edge_okb_iff : forall x, edge_okb x = true <-> edge_ok x.
Proof.
  intros x. unfold edge_okb. split.
  - intros H. apply andb_true_iff in H. destruct H as [H1 H2]. split.
    + destruct x as [|c r]; [discriminate|]. exists c, r. split; [reflexivity|]. apply negb_true_iff. exact H1.
    + destruct (last_c x) as [c|]; [|discriminate]. exists c. split; [reflexivity|]. apply negb_true_iff. exact H2.
  - intros [[c [r [E Hc]]] [l [Hl Hls]]]. rewrite Hl, E, Hc, Hls. reflexivity.
Qed.

Lemma edge_ok_nonnil : forall x, edge_ok x -> x <> [].
Proof. intros x [[c [r [E _]]] _]. rewrite E. discriminate. Qed.

Lemma value_after_spec : forall hdr t pad val,
    value_after hdr t = Some (pad, val) -> t = hdr ++ pad ++ val /\ forallb isspace pad = true.
Proof.
  intros hdr t pad val H. unfold value_after in H.
  destruct (startswith hdr t) eqn:E; [|discriminate]. apply startswith_iff in E. destruct E as [r E]. subst t.
  rewrite skipn_app_exact in H. injection H as H1 H2. subst pad val. split.
  - rewrite dropwhile_takewhile. reflexivity.
  - apply takewhile_forallb.
Qed.

Lemma strs_eqb_eq : forall a b, strs_eqb a b = true -> a = b.
Proof.
  induction a as [|x a IH]; intros [|y b] H; try discriminate; [reflexivity|].
  cbn [strs_eqb] in H. apply andb_true_iff in H. destruct H as [H1 H2].
  apply str_eqb_eq in H1. subst y. f_equal. apply IH. exact H2.
Qed.

Lemma strs_eqb_refl : forall a, strs_eqb a a = true.
Proof. induction a as [|x a IH]; [reflexivity|]. cbn [strs_eqb]. rewrite str_eqb_refl, IH. reflexivity. Qed.

Lemma ws_eqb_eq : forall a b, ws_eqb a b = true -> words a = words b.
Proof. intros a b H. apply strs_eqb_eq. exact H. Qed.

Lemma ws_eqb_of_words : forall a b, words a = words b -> ws_eqb a b = true.
Proof. intros a b H. unfold ws_eqb. rewrite H. apply strs_eqb_refl. Qed.

(* what the reader makes of a parameter dict when a line of the entry has updated it *)
Definition settle (edd : bool) (n : str) (p : param) : outcome (str * param) :=
  do p2 <- interpolate_defaults p default_announces false edd;
  set_name_and_type (Some n) p2 false true.

Definition pline_step (edd : bool) (n : str) (upd : param -> param) (st : rstate) : outcome rstate :=
  do fl <- flush_for n st;
  do np <- settle edd n (upd (snd (snd fl)));
  Ok (mkRS (rs_doc st) (fst fl) (rs_returns st) (Some (fst np), snd np)).

Definition upd_doc (val : str) (c : param) : param := mkParam (Has val) (p_typ c) (p_default c).
Definition upd_typ (t : str) (c : param) : param := mkParam (p_doc c) (Has t) (p_default c).

Lemma step_param_pline : forall edd st n pad val ws,
    mem_c colon n = false -> edge_ok val -> forallb isspace pad = true -> forallb isspace ws = true ->
    step true edd st (true, key_line_pad (L ":param") n pad val ws) = pline_step edd n (upd_doc val) st.
Proof.
  intros edd st n pad val ws Hn Hval Hpad Hws. unfold step. rewrite step_param_line_pad by assumption.
  unfold pline_step, settle, upd_doc.
  destruct (flush_for n st) as [fl|e]; [|reflexivity]. cbn [bind].
  destruct (interpolate_defaults _ default_announces false edd); reflexivity.
Qed.

Definition set_doc (x : str) (st : rstate) : rstate := mkRS x (rs_params st) (rs_returns st) (rs_cur st).

Definition omap_doc (x : str) (o : outcome rstate) : outcome rstate :=
  match o with Ok s => Ok (set_doc x s) | Err e => Err e end.

Lemma pline_step_set_doc : forall edd n upd x st,
    pline_step edd n upd (set_doc x st) = omap_doc x (pline_step edd n upd st).
Proof.
  intros edd n upd x st. unfold pline_step.
  assert (Ef : flush_for n (set_doc x st) = flush_for n st) by reflexivity.
  rewrite Ef. destruct (flush_for n st) as [fl|e]; [|reflexivity]. cbn [bind].
  destruct (settle edd n (upd (snd (snd fl)))) as [np|e]; reflexivity.
Qed.

Lemma pline_step_returns : forall edd n upd st st',
    pline_step edd n upd st = Ok st' -> rs_returns st' = rs_returns st.
Proof.
  intros edd n upd st st' H. unfold pline_step in H.
  destruct (flush_for n st) as [fl|e]; [|discriminate]. cbn [bind] in H.
  destruct (settle edd n (upd (snd (snd fl)))) as [np|e]; [|discriminate]. cbn [bind] in H.
  injection H as H. subst st'. reflexivity.
Qed.

(* two line lists: the same effect on every state; the second carries the summary along and leaves the
   return entry alone *)
Definition tok_lines_ok (edd : bool) (lw lu : list (bool * str)) : Prop :=
  (forall st, fold_outcome (step true edd) lw st = fold_outcome (step true edd) lu st)
  /\ (forall st x, fold_outcome (step true edd) lu (set_doc x st) = omap_doc x (fold_outcome (step true edd) lu st))
  /\ (forall st st', fold_outcome (step true edd) lu st = Ok st' -> rs_returns st' = rs_returns st).

Lemma tok_lines_ok_nil : forall edd, tok_lines_ok edd [] [].
Proof.
  intros edd. split; [reflexivity|]. split; [reflexivity|]. intros st st' H. injection H as H. subst. reflexivity.
Qed.

Lemma tok_lines_ok_app : forall edd a b a' b',
    tok_lines_ok edd a a' -> tok_lines_ok edd b b' -> tok_lines_ok edd (a ++ b) (a' ++ b').
Proof.
  intros edd a b a' b' [A1 [A2 A3]] [B1 [B2 B3]]. split; [|split].
  - intros st. rewrite !fold_outcome_app, A1. destruct (fold_outcome (step true edd) a' st); [|reflexivity].
    cbn [bind]. apply B1.
  - intros st x. rewrite !fold_outcome_app, A2.
    destruct (fold_outcome (step true edd) a' st) as [s|e]; [|reflexivity]. cbn [omap_doc bind]. apply B2.
  - intros st st' H. rewrite fold_outcome_app in H.
    destruct (fold_outcome (step true edd) a' st) as [s|e] eqn:E; [|discriminate]. cbn [bind] in H.
    rewrite (B3 _ _ H). apply (A3 _ _ E).
Qed.

Lemma tok_lines_ok_single : forall edd lw lu n updw updu,
    (forall st, step true edd st lw = pline_step edd n updw st) ->
    (forall st, step true edd st lu = pline_step edd n updu st) ->
    (forall c, settle edd n (updw c) = settle edd n (updu c)) ->
    tok_lines_ok edd [lw] [lu].
Proof.
  intros edd lw lu n updw updu Hw Hu HK.
  assert (Heq : forall st, pline_step edd n updw st = pline_step edd n updu st).
  { intros st. unfold pline_step. destruct (flush_for n st) as [fl|e]; [|reflexivity]. cbn [bind].
    rewrite HK. reflexivity. }
  split; [|split].
  - intros st. cbn [fold_outcome]. rewrite Hw, Hu, Heq. reflexivity.
  - intros st x. cbn [fold_outcome]. rewrite !Hu, pline_step_set_doc.
    destruct (pline_step edd n updu st); reflexivity.
  - intros st st' H. cbn [fold_outcome] in H. rewrite Hu in H.
    destruct (pline_step edd n updu st) as [s|e] eqn:E; [|discriminate]. cbn [bind] in H. injection H as H. subst s.
    apply (pline_step_returns _ _ _ _ _ E).
Qed.

Lemma infer_default_doc : forall D T v it,
    infer_default (mkParam D T (Some v)) it
    = match infer_default (mkParam Missing T (Some v)) it with
      | Ok q => Ok (mkParam D (p_typ q) (p_default q))
      | Err e => Err e
      end.
Proof.
  intros D T v it. unfold infer_default. cbn [p_default p_typ p_doc].
  destruct (needs_quoting _) as [nq|e]; [|reflexivity]. cbn [bind].
  match goal with |- context [if ?c then _ else _] => destruct c end.
  - match goal with |- context [match ?t with Missing => _ | FNone => _ | Has _ => _ end] => destruct t as [| |tt] end;
      try reflexivity.
    destruct (contains [ch 91] tt); reflexivity.
  - reflexivity.
Qed.

Lemma snt_doc : forall n d1 d2 T Df,
    d1 <> [] -> d2 <> [] -> norm_doc d1 = norm_doc d2 ->
    set_name_and_type (Some n) (mkParam (Has d1) T Df) false true
    = set_name_and_type (Some n) (mkParam (Has d2) T Df) false true.
Proof.
  intros n d1 d2 T Df H1 H2 Hn.
  destruct d1 as [|c1 r1]; [contradiction|]. destruct d2 as [|c2 r2]; [contradiction|].
  unfold norm_doc, rejoin in Hn.
  unfold set_name_and_type. cbn [p_doc p_typ p_default].
  destruct (endswith (L "kwargs") n || startswith (L "**") n).
  - cbn [bind fst snd p_doc p_typ p_default]. rewrite Hn. reflexivity.
  - destruct Df as [v|].
    + rewrite (infer_default_doc (Has (c1 :: r1))), (infer_default_doc (Has (c2 :: r2))).
      destruct (infer_default (mkParam Missing T (Some v)) false) as [q|e]; [|reflexivity].
      cbn [bind fst snd p_doc p_typ p_default]. rewrite Hn. reflexivity.
    + cbn [bind fst snd p_doc p_typ p_default]. rewrite Hn. reflexivity.
Qed.

Lemma param_lines_ok : forall edd n pad val ws pad' D ws',
    mem_c colon n = false ->
    edge_ok val -> forallb isspace pad = true -> forallb isspace ws = true ->
    edge_ok D -> forallb isspace pad' = true -> forallb isspace ws' = true ->
    (forall c, settle edd n (upd_doc val c) = settle edd n (upd_doc D c)) ->
    tok_lines_ok edd [(true, key_line_pad (L ":param") n pad val ws)] [(true, key_line_pad (L ":param") n pad' D ws')].
Proof.
  intros edd n pad val ws pad' D ws' Hn Hv Hp Hw HD Hp' Hw' HK.
  apply (tok_lines_ok_single edd _ _ n (upd_doc val) (upd_doc D)); [| |exact HK].
  - intros st. apply step_param_pline; assumption.
  - intros st. apply step_param_pline; assumption.
Qed.

Lemma settle_doc : forall edd n val D c,
    val <> [] -> D <> [] -> no_announce val = true -> no_announce D = true -> norm_doc val = norm_doc D ->
    settle edd n (upd_doc val c) = settle edd n (upd_doc D c).
Proof.
  intros edd n val D c Hv HD Hav HaD Hnorm. unfold settle, upd_doc.
  rewrite (I_noannounce val _ _ edd Hav), (I_noannounce D _ _ edd HaD). cbn [bind].
  apply snt_doc; assumption.
Qed.

Lemma ends_term_inv : forall d, ends_term d = true ->
    exists l, last_c d = Some l /\ sep_char_ok l default_announces = true.
Proof.
  intros d H. unfold ends_term in H. destruct (last_c d) as [l|]; [|discriminate].
  exists l. split; [reflexivity|]. apply terminal_sep_ok. exact H.
Qed.

Lemma value_text_ok_inv : forall s, value_text_ok s = true ->
    (exists e, location_within casefold (dflt_A ++ s) default_announces = Some (0, List.length dflt_A, e))
    /\ scan_default s 0 = s /\ strip_chars strip_set s = s
    /\ negb (startswith [ch 40] s) && endswith (L ").") s = false.
Proof.
  intros s H. unfold value_text_ok in H.
  apply andb_true_iff in H. destruct H as [H H4]. apply andb_true_iff in H. destruct H as [H H3].
  apply andb_true_iff in H. destruct H as [H1 H2].
  apply str_eqb_eq in H2, H3. apply negb_true_iff in H4.
  split; [exact (value_announce_ok_inv ADefaultsTo s H1)|]. repeat split; assumption.
Qed.

Lemma settle_doc_dflt : forall edd n wd d s c,
    let tail := [sp] ++ dflt_A ++ s in
    wd <> [] -> d <> [] ->
    no_announce wd = true -> no_announce d = true -> ends_term wd = true -> ends_term d = true ->
    value_text_ok s = true ->
    norm_doc wd = norm_doc d -> norm_doc (wd ++ tail) = norm_doc (d ++ tail) ->
    settle edd n (upd_doc (wd ++ tail) c) = settle edd n (upd_doc (d ++ tail) c).
Proof.
  intros edd n wd d s c tail Hwdne Hdne Hawd Had Htw Htd Hs Hn1 Hn2.
  destruct (ends_term_inv wd Htw) as [lw [Hlw Hokw]]. destruct (ends_term_inv d Htd) as [ld [Hld Hokd]].
  destruct (value_text_ok_inv s Hs) as [[e Hloc] [Hscan [Hstrip Hparen]]].
  unfold settle, upd_doc, interpolate_defaults. cbn [p_doc p_typ p_default extract_default_fld andb].
  unfold tail.
  rewrite (extract_default_sentence_gen wd lw dflt_A s (fget (p_typ c)) e true edd Hlw Hokw Hawd Hloc Hscan Hstrip Hparen).
  rewrite (extract_default_sentence_gen d ld dflt_A s (fget (p_typ c)) e true edd Hld Hokd Had Hloc Hscan Hstrip Hparen).
  destruct (coerce_default (fget (p_typ c)) s) as [v|er]; cbn [bind fst snd]; [|reflexivity].
  destruct edd.
  - apply snt_doc; [destruct wd; [contradiction|discriminate]|destruct d; [contradiction|discriminate]|exact Hn2].
  - apply snt_doc; assumption.
Qed.

Lemma typ_line_ok : forall edd n t ws,
    mem_c colon n = false -> mem_c bt t = false -> t <> [] -> startswith (L "**") t = false ->
    forallb isspace ws = true ->
    tok_lines_ok edd [(true, key_line (L ":type") n (L "```" ++ t ++ L "```") ws)]
                     [(true, key_line (L ":type") n (L "```" ++ t ++ L "```") ws)].
Proof.
  intros edd n t ws H1 H2 H3 H4 H5.
  assert (Hstep : forall st, step true edd st (true, key_line (L ":type") n (L "```" ++ t ++ L "```") ws)
                             = pline_step edd n (upd_typ t) st).
  { intros st. unfold step. rewrite step_type_line by assumption. unfold pline_step, settle, upd_typ.
    destruct (flush_for n st) as [fl|e]; [|reflexivity]. cbn [bind].
    destruct (interpolate_defaults _ default_announces false edd); reflexivity. }
  apply (tok_lines_ok_single edd _ _ n (upd_typ t) (upd_typ t)); [exact Hstep|exact Hstep|reflexivity].
Qed.

Definition flush_tail (edd : bool) (P : list (str * param)) (c : option str * param)
  : outcome (list (str * param)) :=
  do P' <- (match fst c with
            | None => Ok P
            | Some _ =>
              do p <- interpolate_defaults (snd c) default_announces false edd;
              do np <- set_name_and_type (fst c) p false true;
              do p' <- maybe_remove (snd np) true edd;
              Ok (od_set (fst np) p' P)
            end);
  map_params (fun p => interpolate_defaults p default_announces false edd) P'.

Lemma parse_rest_unfold : forall text edd lines d0,
    scan_rest text = (false, d0) :: lines ->
    parse_rest text false true true edd
    = (do st <- fold_outcome (step true edd) lines (mkRS (strip d0) [] None (None, empty_param));
       do ps <- flush_tail edd (rs_params st) (rs_cur st);
       do r <- map_returns (fun p => interpolate_defaults p default_announces false edd) (rs_returns st);
       Ok (ir_of_parts (rs_doc st) ps r)).
Proof.
  intros text edd lines d0 Hscan. unfold parse_rest, parse_phase_rest. rewrite Hscan. cbn [fold_outcome].
  assert (E0 : parse_rest_line false true true edd init_rstate (false, d0)
               = Ok (mkRS (strip d0) [] None (None, empty_param))) by reflexivity.
  rewrite E0. cbn [bind]. fold (step true edd).
  destruct (fold_outcome (step true edd) lines (mkRS (strip d0) [] None (None, empty_param))) as [st|e];
    [|reflexivity].
  cbn [bind]. unfold flush_tail.
  destruct (fst (rs_cur st)) as [m|].
  - destruct (interpolate_defaults (snd (rs_cur st)) default_announces false edd) as [p|e]; [|reflexivity].
    cbn [bind].
    destruct (set_name_and_type (Some m) p false true) as [np|e]; [|reflexivity]. cbn [bind].
    destruct (maybe_remove (snd np) true edd) as [p'|e]; [|reflexivity]. cbn [bind rs_params rs_returns rs_doc].
    destruct (map_params _ (od_set (fst np) p' (rs_params st))) as [ps|e]; [|reflexivity]. cbn [bind].
    destruct (map_returns _ (rs_returns st)) as [r|e]; [|reflexivity]. reflexivity.
  - cbn [bind].
    destruct (map_params _ (rs_params st)) as [ps|e]; [|reflexivity]. cbn [bind].
    destruct (map_returns _ (rs_returns st)) as [r|e]; [|reflexivity]. reflexivity.
Qed.

(* the text t is these blocks laid end to end, and the scanner finds each of them *)
Definition blocks_of (t : str) (bs : list (str * str)) : Prop :=
  t = concat (map blk bs) /\ forall b, In b bs -> block_good b.

Lemma blocks_of_nil : blocks_of [] [].
Proof. split; [reflexivity|intros b []]. Qed.

Lemma blocks_of_one : forall t b, t = blk b -> block_good b -> blocks_of t [b].
Proof.
  intros t b E G. split; [cbn [map concat]; rewrite app_nil_r; exact E|].
  intros b' [Hb|[]]. subst b'. exact G.
Qed.

Lemma blocks_of_app : forall t1 t2 b1 b2,
    blocks_of t1 b1 -> blocks_of t2 b2 -> blocks_of (t1 ++ t2) (b1 ++ b2).
Proof.
  intros t1 t2 b1 b2 [E1 G1] [E2 G2]. split.
  - rewrite map_app, concat_app, E1, E2. reflexivity.
  - intros b Hb. apply in_app_or in Hb. destruct Hb as [Hb|Hb]; [apply G1|apply G2]; exact Hb.
Qed.

Lemma blocks_of_nonnil : forall t bs, blocks_of t bs -> t <> [] -> bs <> [].
Proof. intros t bs [E _] Ht Hb. subst bs. exact (Ht E). Qed.

Lemma two_lines_blocks : forall t1 t2 sep b1 b2,
    blocks_of (t1 ++ nl1) b1 -> blocks_of (t2 ++ sep) b2 -> blocks_of ((t1 ++ [nl] ++ t2) ++ sep) (b1 ++ b2).
Proof.
  intros t1 t2 sep b1 b2 H1 H2. rewrite <- !app_assoc, (app_assoc t1 [nl]). apply blocks_of_app; assumption.
Qed.

Lemma text_parse : forall edd sdoc sep t blocks,
    no_rest_token sdoc = true -> strip sdoc = sdoc -> forallb isspace sep = true ->
    blocks_of t blocks -> blocks <> [] ->
    parse_dot_docstring ng_unmodelled (([nl] ++ sdoc ++ sep) ++ t) false true edd
    = (do st <- fold_outcome (step true edd) (map as_line blocks) (mkRS sdoc [] None (None, empty_param));
       do ps <- flush_tail edd (rs_params st) (rs_cur st);
       do r <- map_returns (fun p => interpolate_defaults p default_announces false edd) (rs_returns st);
       Ok (ir_of_parts (rs_doc st) ps r)).
Proof.
  intros edd sdoc sep t blocks Htok Hstrip Hsep [Et Hgood] Hne. subst t.
  set (text := ([nl] ++ sdoc ++ sep) ++ concat (map blk blocks)).
  destruct (docpart_facts sdoc sep Htok Hstrip Hsep) as [Hdoctok Hdocstrip].
  assert (Hscan : scan_rest text = (false, [nl] ++ sdoc ++ sep) :: map as_line blocks).
  { unfold text. apply scan_rest_blocks; [exact Hdoctok|exact Hgood|left; exact Hne]. }
  assert (Hstyle : detect_style (Some text) = DocParse.Rest).
  { destruct blocks as [|b0 bl]; [contradiction|].
    apply (detect_style_rest _ (fst b0)).
    - rewrite <- rest_scan_tokens_eq. apply (Hgood b0). left. reflexivity.
    - unfold text. apply contains_block_token. left. reflexivity. }
  rewrite parse_dot_rest; [|unfold text; discriminate|exact Hstyle].
  rewrite (parse_rest_unfold text edd (map as_line blocks) ([nl] ++ sdoc ++ sep) Hscan).
  rewrite Hdocstrip. reflexivity.
Qed.

(* the lines of a return entry: read in a state without return entry they set it to o and change nothing else *)
Definition ret_fold (edd : bool) (ls : list (bool * str)) (o : option param) : Prop :=
  forall st, rs_returns st = None ->
    fold_outcome (step true edd) ls st = Ok (mkRS (rs_doc st) (rs_params st) o (rs_cur st)).

Definition ret_base (st : rstate) : param := match rs_returns st with None => empty_param | Some r => r end.

Definition ret_sets (edd : bool) (l : bool * str) (q : param) : Prop :=
  forall st, step true edd st l
             = Ok (mkRS (rs_doc st) (rs_params st) (Some (update_param (ret_base st) q)) (rs_cur st)).

Lemma ret_fold_nil : forall edd, ret_fold edd [] None.
Proof. intros edd st Hst. destruct st. cbn in *. subst. reflexivity. Qed.

(* the wrapped and the unwrapped text: parameter blocks related by [tok_lines_ok], then the return blocks *)
Theorem two_texts_parse : forall edd sdw sdu sepw sepu tpw tpu trw tru pbw pbu rbw rbu orpw orpu,
    no_rest_token sdw = true -> strip sdw = sdw -> no_rest_token sdu = true -> strip sdu = sdu ->
    forallb isspace sepw = true -> forallb isspace sepu = true ->
    blocks_of tpw pbw -> blocks_of tpu pbu -> blocks_of trw rbw -> blocks_of tru rbu ->
    pbw ++ rbw <> [] -> pbu ++ rbu <> [] ->
    tok_lines_ok edd (map as_line pbw) (map as_line pbu) ->
    ret_fold edd (map as_line rbw) orpw -> ret_fold edd (map as_line rbu) orpu ->
    map_returns (fun p => interpolate_defaults p default_announces false edd) orpw = Ok orpw ->
    map_returns (fun p => interpolate_defaults p default_announces false edd) orpu = Ok orpu ->
    forall du,
      parse_dot_docstring ng_unmodelled (([nl] ++ sdu ++ sepu) ++ tpu ++ tru) false true edd = Ok du ->
      exists ps, du = ir_of_parts sdu ps orpu
                 /\ parse_dot_docstring ng_unmodelled (([nl] ++ sdw ++ sepw) ++ tpw ++ trw) false true edd
                    = Ok (ir_of_parts sdw ps orpw).
Proof.
  intros edd sdw sdu sepw sepu tpw tpu trw tru pbw pbu rbw rbu orpw orpu Htw Hsw Htu Hsu Hsepw Hsepu
         Bpw Bpu Brw Bru Hnew Hneu [A1 [A2 A3]] Hrw Hru Hmw Hmu du Hdu.
  rewrite (text_parse edd sdu sepu _ (pbu ++ rbu) Htu Hsu Hsepu (blocks_of_app _ _ _ _ Bpu Bru) Hneu) in Hdu.
  rewrite (text_parse edd sdw sepw _ (pbw ++ rbw) Htw Hsw Hsepw (blocks_of_app _ _ _ _ Bpw Brw) Hnew).
  rewrite map_app, fold_outcome_app in *.
  set (st00 := mkRS [] [] None (None, empty_param)) in *.
  change (mkRS sdu [] None (None, empty_param)) with (set_doc sdu st00) in Hdu.
  change (mkRS sdw [] None (None, empty_param)) with (set_doc sdw st00).
  rewrite A2 in Hdu. rewrite A1, A2.
  destruct (fold_outcome (step true edd) (map as_line pbu) st00) as [s1|e] eqn:E1; [|discriminate].
  cbn [omap_doc bind] in *.
  assert (Hr1 : rs_returns s1 = None) by (rewrite (A3 _ _ E1); reflexivity).
  rewrite Hru in Hdu by exact Hr1. rewrite Hrw by exact Hr1.
  cbn [bind set_doc rs_doc rs_params rs_cur rs_returns] in *.
  destruct (flush_tail edd (rs_params s1) (rs_cur s1)) as [ps|e]; [|discriminate].
  cbn [bind] in *. rewrite Hmu in Hdu. rewrite Hmw. cbn [bind] in *.
  exists ps. split; [|reflexivity]. injection Hdu as Hdu. symmetry. exact Hdu.
Qed.

Lemma same_entry_refl : forall n p, same_entry false n (gparam_of_param p) (gparam_of_param p) = true.
Proof.
  intros n p. unfold same_entry, same_typ, same_prose. rewrite !opt_eqb_str_refl. cbn [andb gparam_of_param g_default].
  destruct (p_default p) as [v|]; [|reflexivity]. cbn [option_map same_default_ir dval_eqb].
  rewrite DefaultsFacts.pyval_eqb_refl. reflexivity.
Qed.

Definition prose_ws (o o' : option str) : Prop :=
  match o, o' with
  | None, None => True
  | Some D, Some V => words V = words D
  | _, _ => False
  end.

Lemma prose_ws_refl : forall o, prose_ws o o.
Proof. intros [x|]; [reflexivity|exact I]. Qed.

Lemma prose_ws_eqb : forall x o o', prose_ws o o' -> opt_eqb str_eqb x o = true -> opt_eqb ws_eqb x o' = true.
Proof.
  intros [x|] [D|] [V|] R H; try discriminate; try contradiction; [|reflexivity].
  cbn [opt_eqb prose_ws] in *. apply str_eqb_eq in H. subst x. apply ws_eqb_of_words. symmetry. exact R.
Qed.

(* what g agrees with exactly, it agrees with modulo white space when the prose is changed in white space only *)
Lemma same_entry_ws_of : forall k n g g' g'',
    g_typ g'' = g_typ g' -> g_default g'' = g_default g' ->
    prose_ws (fld_str (g_doc g')) (fld_str (g_doc g'')) ->
    same_entry k n g g' = true -> same_entry_ws k n g g'' = true.
Proof.
  intros k n g g' g'' Et Ed R H. unfold same_entry in H. unfold same_entry_ws.
  rewrite !andb_true_iff in H. destruct H as [[H1 H2] H3].
  unfold same_typ in *. rewrite Et, Ed, H1, H3. cbn [andb]. rewrite andb_true_r.
  destruct k; [|exact (prose_ws_eqb _ _ _ R H2)].
  unfold same_prose_dflt in H2. unfold same_prose_dflt_ws. apply orb_true_iff in H2. destruct H2 as [H2|H2].
  - unfold same_prose_ws. rewrite (prose_ws_eqb _ _ _ R H2). reflexivity.
  - destruct (sentence_doc n g) as [x|]; [|discriminate].
    assert (E : opt_eqb ws_eqb (Some x) (fld_str (g_doc g'')) = true).
    { apply (prose_ws_eqb (Some x) _ _ R). destruct (fld_str (g_doc g')); [exact H2|discriminate]. }
    destruct (fld_str (g_doc g'')) as [y|]; [|discriminate]. cbn [opt_eqb] in E. rewrite E. apply orb_true_r.
Qed.

Lemma same_params_to_ws : forall k a b, same_params k a b = true -> same_params_ws k a b = true.
Proof.
  intros k a. induction a as [|[n g] a IH]; intros [|[n' g'] b] H; try discriminate; [reflexivity|].
  cbn [same_params] in H. cbn [same_params_ws].
  rewrite !andb_true_iff in H. destruct H as [[H1 H2] H3].
  rewrite H1, (same_entry_ws_of _ _ _ _ g' eq_refl eq_refl (prose_ws_refl _) H2), (IH _ H3). reflexivity.
Qed.

(* how the two return dicts differ: only in the white space of the prose *)
Definition ret_rel (rw ru : param) : Prop :=
  p_typ rw = p_typ ru /\ p_default rw = p_default ru
  /\ prose_ws (fld_str (p_doc ru)) (fld_str (p_doc rw)).

Lemma ret_rel_doc : forall V D T, V <> [] -> D <> [] -> words V = words D ->
    ret_rel (mkParam (Has V) T None) (mkParam (Has D) T None).
Proof.
  intros V D T HV HD Hw. split; [reflexivity|]. split; [reflexivity|].
  cbn [p_doc]. rewrite !fld_str_nonempty by assumption. exact Hw.
Qed.

(* the result pair of [two_texts_parse]: same parameters; summary and return prose modulo white space *)
Definition orp_rel (ow ou : option param) : Prop :=
  match ow, ou with
  | None, None => True
  | Some rw, Some ru => ret_rel rw ru
  | _, _ => False
  end.

Lemma parts_link : forall k i sdw sdu ps ow ou,
    words sdw = words sdu -> orp_rel ow ou ->
    same_interface k i (ir_of_parts sdu ps ou) = true ->
    same_interface_ws k i (ir_of_parts sdw ps ow) = true.
Proof.
  intros k i sdw sdu ps ow ou Hs Ho H. unfold same_interface in H. unfold same_interface_ws.
  rewrite !andb_true_iff in H. destruct H as [[H1 H2] H3].
  unfold ir_of_parts in *. cbn [ir_doc ir_params ir_returns] in *.
  rewrite (same_params_to_ws _ _ _ H2).
  assert (E1 : same_summary_ws i (mkIR FNone (Has (L "static")) (Has sdw)
                 (map (fun kv : str * param => (fst kv, gparam_of_param (snd kv))) ps)
                 (match ow with None => FNone | Some r => Has (gparam_of_param r) end) None) = true).
  { unfold same_summary in H1. unfold same_summary_ws. cbn [ir_doc fld_opt] in *.
    exact (prose_ws_eqb _ (Some sdu) (Some sdw) Hs H1). }
  rewrite E1. cbn [andb].
  unfold same_returns in H3. unfold same_returns_ws.
  destruct ow as [rw|]; destruct ou as [ru|]; try contradiction.
  - cbn [fld_opt] in *. destruct (fld_opt (ir_returns i)) as [g|]; [|discriminate]. cbn [opt_eqb] in *.
    destruct Ho as [Et [Ed R]].
    apply (same_entry_ws_of k _ g (gparam_of_param ru) (gparam_of_param rw)); cbn [gparam_of_param g_typ g_default g_doc];
      [rewrite Et; reflexivity|rewrite Ed; reflexivity|exact R|exact H3].
  - cbn [fld_opt] in *. destruct (fld_opt (ir_returns i)); [discriminate|reflexivity].
Qed.

Lemma parts_refl : forall sd ps o, same_interface false (ir_of_parts sd ps o) (ir_of_parts sd ps o) = true.
Proof.
  intros sd ps o. unfold same_interface, same_summary, same_returns, ir_of_parts. cbn [ir_doc ir_params ir_returns].
  rewrite opt_eqb_str_refl. cbn [andb].
  assert (Hps : forall l : list (str * param),
             same_params false (map (fun kv => (fst kv, gparam_of_param (snd kv))) l)
                               (map (fun kv => (fst kv, gparam_of_param (snd kv))) l) = true).
  { induction l as [|[n p] l IH]; [reflexivity|].
    cbn [map same_params fst snd]. rewrite str_eqb_refl, same_entry_refl, IH. reflexivity. }
  rewrite Hps. destruct o as [r|]; [|reflexivity]. cbn [fld_opt opt_eqb andb]. apply same_entry_refl.
Qed.

Lemma is_ident_chars : forall n, is_ident n = true -> mem_c colon n = false /\ mem_c nl n = false.
Proof.
  intros n Hi. unfold is_ident in Hi. destruct n as [|c r]; [discriminate|].
  apply andb_true_iff in Hi. destruct Hi as [_ Hall]. split.
  - apply (id_chars_exclude colon); [reflexivity|exact Hall].
  - apply (id_chars_exclude nl); [reflexivity|exact Hall].
Qed.

Lemma prose_line_ok_inv : forall D, prose_line_ok D = true ->
    edge_ok D /\ mem_c nl D = false /\ no_announce D = true.
Proof.
  intros D H. unfold prose_line_ok in H. rewrite !andb_true_iff, negb_true_iff in H. destruct H as [[H1 H2] H3].
  split; [apply edge_okb_iff; exact H1|]. split; assumption.
Qed.

(* the emitter's  :param n: D  line, wrapped (the value val comes after the blanks pad) and not, as blocks *)
Lemma dblock_shape : forall n D r pad val,
    is_ident n = true -> is_return n = false -> mem_c nl D = false -> no_rest_token D = true ->
    value_after (L ":param " ++ n ++ L ":") (indent_all_but_first r 1 false) = Some (pad, val) ->
    pad <> [] -> no_rest_token val = true ->
    forall ws, forallb isspace ws = true ->
      blocks_of (indent_all_but_first r 1 false ++ ws) [dblock_pad n pad val ws]
      /\ blocks_of (indent_all_but_first (rest_doc_line n D) 1 false ++ ws) [dblock_pad n [sp] D ws].
Proof.
  intros n D r pad val Hid Hret HDnl HDtok Ev Hpne Hvtok ws Hws.
  destruct (is_ident_chars n Hid) as [Hcolon Hnnl]. destruct (value_after_spec _ _ _ _ Ev) as [Et Hpad].
  assert (Eline : rest_doc_line n D = L ":param" ++ sp :: n ++ colon :: [sp] ++ D).
  { unfold rest_doc_line, rest_key. rewrite Hret. rewrite <- !app_assoc. reflexivity. }
  split; apply blocks_of_one.
  - rewrite Et. unfold blk, dblock_pad. cbn [fst snd]. rewrite <- !app_assoc. reflexivity.
  - split; [left; reflexivity|]. cbn [snd dblock_pad]. apply key_body_token_free_pad; assumption.
  - rewrite iabf_rest_doc_line.
    + rewrite Eline. unfold blk, dblock_pad. cbn [fst snd].
      norm_app. reflexivity.
    + apply mem_c_false_notin. rewrite Eline.
      change (L ":param" ++ sp :: n ++ colon :: [sp] ++ D) with ((L ":param" ++ [sp]) ++ n ++ (colon :: [sp]) ++ D).
      rewrite !mem_c_app, Hnnl, HDnl. reflexivity.
  - split; [left; reflexivity|]. cbn [snd dblock_pad]. apply key_body_token_free_pad; try assumption; [discriminate|reflexivity].
Qed.

(* one raw line l of an entry: the wrapper accepts it; wrapped and not, followed by blanks ws, it is one block each,
   and E says what the two blocks do to the reader *)
Definition line_twin (w : nat) (E : str * str -> str * str -> Prop) (l : str) : Prop :=
  exists r (bw bu : str -> str * str),
    fill w l = Ok r
    /\ forall ws, forallb isspace ws = true ->
         blocks_of (indent_all_but_first r 1 false ++ ws) [bw ws]
         /\ blocks_of (indent_all_but_first l 1 false ++ ws) [bu ws]
         /\ E (bw ws) (bu ws).

(* the lines of an entry, each such a line: every line but the last ends with its line break, the last with what
   follows the entry *)
Lemma lines_twin : forall w E ls sep,
    Forall (line_twin w E) ls -> ls <> [] -> forallb isspace sep = true ->
    exists fs bw bu,
      mapM (fill_or_id true w) ls = Ok fs /\ fs <> []
      /\ blocks_of (join [nl] (map (fun s => indent_all_but_first s 1 false) fs) ++ sep) bw
      /\ blocks_of (join [nl] (map (fun s => indent_all_but_first s 1 false) ls) ++ sep) bu
      /\ Forall2 E bw bu.
Proof.
  intros w E ls sep H. induction H as [|l ls [r [bw [bu [Hf Hb]]]] Hls IH]; intros Hne Hsep; [contradiction|].
  cbn [mapM fill_or_id]. rewrite Hf. cbn [bind].
  destruct ls as [|l2 ls'].
  - destruct (Hb sep Hsep) as [B1 [B2 HE]]. exists [r], [bw sep], [bu sep]. cbn [mapM bind map join].
    split; [reflexivity|]. split; [discriminate|]. split; [exact B1|]. split; [exact B2|].
    constructor; [exact HE|constructor].
  - destruct (IH ltac:(discriminate) Hsep) as [fs [bws [bus [Hm [Hfs [B1 [B2 HE]]]]]]].
    destruct (Hb nl1 eq_refl) as [A1 [A2 HA]].
    rewrite Hm. cbn [bind]. exists (r :: fs), (bw nl1 :: bws), (bu nl1 :: bus).
    split; [reflexivity|]. split; [discriminate|].
    destruct fs as [|f2 fs']; [contradiction|]. cbn [map] in *. rewrite !join_cons_cons.
    split; [exact (two_lines_blocks _ _ _ [_] _ A1 B1)|]. split; [exact (two_lines_blocks _ _ _ [_] _ A2 B2)|].
    constructor; assumption.
Qed.

Lemma Forall_two_options : forall {A B} (P : B -> Prop) (f g : A -> B) (oa ob : option A),
    (forall a, oa = Some a -> P (f a)) -> (forall b, ob = Some b -> P (g b)) ->
    Forall P (cat_options [option_map f oa; option_map g ob]).
Proof.
  intros A B P f g oa ob Ha Hb. destruct oa as [a|]; destruct ob as [b|]; cbn [option_map cat_options];
    repeat constructor; auto.
Qed.

(* the two blocks of a parameter line are the same to the reader *)
Definition par_twin (edd : bool) (bw bu : str * str) : Prop := tok_lines_ok edd [as_line bw] [as_line bu].

Lemma par_twin_all : forall edd bws bus,
    Forall2 (par_twin edd) bws bus -> tok_lines_ok edd (map as_line bws) (map as_line bus).
Proof.
  intros edd bws bus H. induction H as [|bw bu bws bus Hb _ IH]; [apply tok_lines_ok_nil|].
  exact (tok_lines_ok_app edd [_] _ [_] _ Hb IH).
Qed.

Definition doc_twin (w : nat) (edd : bool) (n D : str) : Prop := line_twin w (par_twin edd) (rest_doc_line n D).

Lemma doc_piece_inv : forall w edd n D,
    is_ident n = true -> is_return n = false -> no_rest_token D = true -> doc_piece_ok w n D = true ->
    doc_twin w edd n D.
Proof.
  intros w edd n D Hid Hret Htok H. unfold doc_piece_ok in H.
  apply andb_true_iff in H. destruct H as [HD H].
  destruct (prose_line_ok_inv D HD) as [HDe [HDnl HDa]].
  unfold wrapped_line in H. destruct (fill w (rest_doc_line n D)) as [r|e] eqn:Ef; [|discriminate].
  cbn [bind] in H.
  destruct (value_after (L ":param " ++ n ++ L ":") (indent_all_but_first r 1 false)) as [[pad val]|] eqn:Ev;
    [|discriminate].
  rewrite !andb_true_iff in H. destruct H as [[[[Hpne Hve] Hvtok] Hva] Hnorm].
  apply str_eqb_eq in Hnorm. apply edge_okb_iff in Hve.
  assert (Hpne' : pad <> []) by (intros E; subst pad; discriminate).
  exists r, (dblock_pad n pad val), (dblock_pad n [sp] D). split; [exact Ef|]. intros ws Hws.
  destruct (dblock_shape n D r pad val Hid Hret HDnl Htok Ev Hpne' Hvtok ws Hws) as [Bw Bu].
  split; [exact Bw|]. split; [exact Bu|].
  destruct (value_after_spec _ _ _ _ Ev) as [_ Hpad].
  apply param_lines_ok; try assumption; [apply (is_ident_chars n Hid)|reflexivity|].
  intros c. apply settle_doc; try assumption; apply edge_ok_nonnil; assumption.
Qed.

Lemma typ_piece_inv : forall w edd n t,
    0 < w -> is_ident n = true -> is_return n = false -> typ_piece_ok w n t = true ->
    line_twin w (par_twin edd) (rest_typ_line n t).
Proof.
  intros w edd n t Hw Hid Hret H. unfold typ_piece_ok in H. apply andb_true_iff in H. destruct H as [Hnw Hdom].
  destruct (is_ident_chars n Hid) as [Hcolon Hnnl].
  destruct (type_in_domain_inv t Hdom) as [[Hbt [Hne [Hstar Hopt]]] [Htnl [Httok _]]].
  destruct (typ_line_unchanged w n t Hw Hnw) as [Hf Hi].
  exists (rest_typ_line n t), (tblock n t), (tblock n t). split; [exact Hf|]. intros ws Hws.
  assert (B : blocks_of (indent_all_but_first (rest_typ_line n t) 1 false ++ ws) [tblock n t ws]).
  { apply blocks_of_one; [|apply tblock_good; assumption].
    rewrite Hi. unfold rest_typ_line, rest_key_typ. rewrite Hret. apply typ_line_text. }
  split; [exact B|]. split; [exact B|]. apply typ_line_ok; assumption.
Qed.

Lemma doc_piece_dflt_inv : forall w edd n D,
    is_ident n = true -> is_return n = false -> no_rest_token D = true -> doc_piece_dflt_ok w n D = true ->
    doc_twin w edd n D.
Proof.
  intros w edd n D Hid Hret Htok H. unfold doc_piece_dflt_ok in H.
  destruct (sentence_split D) as [[d s]|]; [|discriminate].
  set (tail := [sp] ++ dflt_A ++ s) in *.
  rewrite !andb_true_iff, negb_true_iff in H. destruct H as [[[[[[ED Hdp] Hdt] Hs] HDe] HDnl] H].
  apply str_eqb_eq in ED. apply edge_okb_iff in HDe.
  destruct (prose_line_ok_inv d Hdp) as [Hde [Hdnl Hda]].
  unfold wrapped_line in H. destruct (fill w (rest_doc_line n D)) as [r|e] eqn:Ef; [|discriminate].
  cbn [bind] in H.
  destruct (value_after (L ":param " ++ n ++ L ":") (indent_all_but_first r 1 false)) as [[pad val]|] eqn:Ev;
    [|discriminate].
  set (wd := firstn (List.length val - List.length tail) val) in *.
  rewrite !andb_true_iff in H. destruct H as [[[[[[[[Hpne Eval] Hve] Hvtok] Hwdne] Hwda] Hwdt] Hn1] Hn2].
  apply str_eqb_eq in Eval, Hn1, Hn2. apply edge_okb_iff in Hve.
  assert (Hpne' : pad <> []) by (intros E; subst pad; discriminate).
  assert (Hwdne' : wd <> []) by (intros E; rewrite E in Hwdne; discriminate).
  exists r, (dblock_pad n pad val), (dblock_pad n [sp] D). split; [exact Ef|]. intros ws Hws.
  destruct (dblock_shape n D r pad val Hid Hret HDnl Htok Ev Hpne' Hvtok ws Hws) as [Bw Bu].
  split; [exact Bw|]. split; [exact Bu|].
  destruct (value_after_spec _ _ _ _ Ev) as [_ Hpad].
  unfold as_line, blk, dblock_pad. cbn [fst snd]. clearbody wd. subst val D.
  apply param_lines_ok; try assumption; [apply (is_ident_chars n Hid)|reflexivity|].
  intros c. apply settle_doc_dflt; try assumption. apply edge_ok_nonnil. exact Hde.
Qed.

Lemma doc_piece_any_inv : forall w edd n D,
    is_ident n = true -> is_return n = false -> no_rest_token D = true ->
    doc_piece_ok w n D || doc_piece_dflt_ok w n D = true -> doc_twin w edd n D.
Proof.
  intros w edd n D Hid Hret Htok H. apply orb_true_iff in H. destruct H as [H|H].
  - apply doc_piece_inv; assumption.
  - apply doc_piece_dflt_inv; assumption.
Qed.

Lemma entry_pieces_ok_d_inv : forall w n p, entry_pieces_ok_d w (n, p) = true ->
    exists bd bt p',
      rest_block_of true n p = Ok (mkBlock n bd bt, p')
      /\ (bd = None -> bt = None -> False)
      /\ (forall D, bd = Some D ->
            no_rest_token D = true
            /\ (if is_return n then ret_piece_ok w D else doc_piece_ok w n D || doc_piece_dflt_ok w n D) = true)
      /\ (forall t, bt = Some t -> typ_piece_ok w n t = true).
Proof.
  intros w n p H. unfold entry_pieces_ok_d in H. cbn [fst snd] in H.
  destruct (rest_block_of true n p) as [[b p']|e] eqn:Eb; [|discriminate].
  assert (En : rb_name b = n).
  { unfold rest_block_of in Eb. destruct (DocEmit.truthy_fld (p_doc p)).
    - destruct (sdd_doc n p true) as [dp|e]; [|discriminate]. cbn [bind] in Eb. injection Eb as Eb _. subst b. reflexivity.
    - cbn [bind] in Eb. injection Eb as Eb _. subst b. reflexivity. }
  destruct b as [bn bd bt]. cbn [rb_name rb_doc rb_typ] in *. subst bn.
  rewrite !andb_true_iff in H. destruct H as [[Hsome Hdoc] Htyp].
  exists bd, bt, p'. split; [reflexivity|]. split; [|split].
  - intros E1 E2. subst bd bt. discriminate.
  - intros D E. subst bd. apply andb_true_iff in Hdoc. exact Hdoc.
  - intros t E. subst bt. exact Htyp.
Qed.

Lemma emit_param_str_block : forall w n p ww b p',
    rest_block_of true n p = Ok (b, p') ->
    emit_param_str w n p DocEmit.Rest true true ww true
    = (do fs <- mapM (fill_or_id ww w) (block_lines b);
       Ok (join [nl] (map (fun s => indent_all_but_first s 1 false) fs), p)).
Proof. intros w n p ww b p' Eb. unfold emit_param_str. rewrite rest_raw_lines_block, Eb. reflexivity. Qed.

Lemma param_pieces_d : forall w edd n p,
    0 < w -> param_name_ok (n, p) = true -> entry_pieces_ok_d w (n, p) = true ->
    exists tw tu bw bu,
      emit_param_str w n p DocEmit.Rest true true true true = Ok (tw, p)
      /\ emit_param_str w n p DocEmit.Rest true true false true = Ok (tu, p)
      /\ blocks_of (tw ++ nl2) bw /\ blocks_of (tu ++ nl2) bu
      /\ tok_lines_ok edd (map as_line bw) (map as_line bu).
Proof.
  intros w edd n p Hw Hname H. unfold param_name_ok in Hname. cbn [fst] in Hname.
  apply andb_true_iff in Hname. destruct Hname as [Hid Hret]. apply negb_true_iff in Hret.
  destruct (entry_pieces_ok_d_inv w n p H) as [bd [bt [p' [Eb [Hsome [Hdoc Htyp]]]]]].
  rewrite !(emit_param_str_block w n p _ _ _ Eb), mapM_id. unfold block_lines. cbn [rb_name rb_doc rb_typ bind].
  rewrite Hret in Hdoc.
  assert (HL : Forall (line_twin w (par_twin edd))
                      (cat_options [option_map (rest_doc_line n) bd; option_map (rest_typ_line n) bt])).
  { apply Forall_two_options.
    - intros D E. destruct (Hdoc D E) as [HDtok HD]. apply doc_piece_any_inv; assumption.
    - intros t E. apply typ_piece_inv; [assumption|assumption|assumption|exact (Htyp t E)]. }
  destruct (lines_twin w _ _ nl2 HL) as [fs [bw [bu [Hm [_ [B1 [B2 HE]]]]]]];
    [destruct bd; destruct bt; try discriminate; destruct (Hsome eq_refl eq_refl)|reflexivity|].
  rewrite Hm. cbn [bind]. eexists. eexists. exists bw, bu.
  split; [reflexivity|]. split; [reflexivity|]. split; [exact B1|]. split; [exact B2|exact (par_twin_all edd bw bu HE)].
Qed.

(* what a line of the return entry adds to the return dict, wrapped and not: the same type, no default, and the
   same prose up to white space, which announces no default *)
Definition ret_q_rel (qw qu : param) : Prop :=
  p_typ qw = p_typ qu /\ p_default qw = None /\ p_default qu = None
  /\ ((p_doc qw = Missing /\ p_doc qu = Missing)
      \/ exists V D, p_doc qw = Has V /\ p_doc qu = Has D /\ V <> [] /\ D <> []
                     /\ no_announce V = true /\ no_announce D = true /\ words V = words D).

Definition ret_twin (edd : bool) (bw bu : str * str) : Prop :=
  exists qw qu, ret_sets edd (as_line bw) qw /\ ret_sets edd (as_line bu) qu /\ ret_q_rel qw qu.

Lemma ret_q_rel_empty : ret_q_rel empty_param empty_param.
Proof. split; [reflexivity|]. split; [reflexivity|]. split; [reflexivity|]. left. split; reflexivity. Qed.

Lemma ret_q_rel_update : forall a b qw qu,
    ret_q_rel a b -> ret_q_rel qw qu -> ret_q_rel (update_param a qw) (update_param b qu).
Proof.
  intros a b qw qu [Ta [Da [Db Ha]]] [Tq [Dq1 [Dq2 Hq]]]. unfold update_param, ret_q_rel.
  cbn [p_typ p_default p_doc]. rewrite Tq, Ta, Dq1, Dq2.
  split; [reflexivity|]. split; [exact Da|]. split; [exact Db|].
  destruct Hq as [[E1 E2]|[V [D [E1 [E2 R]]]]]; rewrite E1, E2; [exact Ha|].
  right. exists V, D. split; [reflexivity|]. split; [reflexivity|exact R].
Qed.

Lemma ret_q_rel_ret : forall rw ru edd, ret_q_rel rw ru ->
    interpolate_defaults rw default_announces false edd = Ok rw
    /\ interpolate_defaults ru default_announces false edd = Ok ru
    /\ ret_rel rw ru.
Proof.
  intros [dw tw vw] [du tu vu] edd [T [Dw [Du H]]]. cbn [p_typ p_default p_doc] in *. subst tu vw vu.
  destruct H as [[E1 E2]|[V [D [E1 [E2 [HV [HD [Hav [HaD Hw]]]]]]]]]; subst dw du.
  - split; [apply I_nodoc|]. split; [apply I_nodoc|]. split; [reflexivity|]. split; [reflexivity|exact I].
  - split; [apply I_noannounce; exact Hav|]. split; [apply I_noannounce; exact HaD|]. apply ret_rel_doc; assumption.
Qed.

(* the blocks of the return entry, read after a return dict a: they leave the fold of their updates over a *)
Lemma ret_twin_all : forall edd bws bus,
    Forall2 (ret_twin edd) bws bus -> bws <> [] ->
    forall aw au, ret_q_rel aw au ->
    exists rw ru, ret_q_rel rw ru
      /\ (forall st, ret_base st = aw ->
            fold_outcome (step true edd) (map as_line bws) st = Ok (mkRS (rs_doc st) (rs_params st) (Some rw) (rs_cur st)))
      /\ (forall st, ret_base st = au ->
            fold_outcome (step true edd) (map as_line bus) st = Ok (mkRS (rs_doc st) (rs_params st) (Some ru) (rs_cur st))).
Proof.
  intros edd bws bus H. induction H as [|bw bu bws bus [qw [qu [Sw [Su Rq]]]] Hrest IH]; intros Hne aw au Ra; [contradiction|].
  pose proof (ret_q_rel_update _ _ _ _ Ra Rq) as R1.
  destruct bws as [|bw2 bws'].
  - inversion Hrest; subst. exists (update_param aw qw), (update_param au qu). split; [exact R1|].
    split; intros st Est; cbn [map fold_outcome]; [rewrite Sw|rewrite Su]; rewrite Est; reflexivity.
  - destruct (IH ltac:(discriminate) _ _ R1) as [rw [ru [R [Fw Fu]]]]. exists rw, ru. split; [exact R|].
    set (restw := bw2 :: bws') in *.
    split; intros st Est; cbn [map fold_outcome]; [rewrite Sw|rewrite Su]; cbn [bind]; rewrite Est;
      [rewrite Fw by reflexivity|rewrite Fu by reflexivity]; reflexivity.
Qed.

Lemma ret_doc_inv : forall w edd D,
    no_rest_token D = true -> ret_piece_ok w D = true ->
    line_twin w (ret_twin edd) (rest_doc_line (L "return_type") D).
Proof.
  intros w edd D Htok H. unfold ret_piece_ok in H.
  apply andb_true_iff in H. destruct H as [HD H].
  destruct (prose_line_ok_inv D HD) as [HDe [HDnl HDa]].
  unfold wrapped_line in H. destruct (fill w (rest_doc_line (L "return_type") D)) as [r|e] eqn:Ef; [|discriminate].
  cbn [bind] in H.
  destruct (value_after (L ":returns:") (indent_all_but_first r 1 false)) as [[pad val]|] eqn:Ev; [|discriminate].
  destruct (value_after_spec _ _ _ _ Ev) as [Et Hpad].
  rewrite !andb_true_iff in H. destruct H as [[[[Hpne Hve] Hvtok] Hva] Hwords].
  apply ws_eqb_eq in Hwords. apply edge_okb_iff in Hve.
  assert (Hpne' : pad <> []) by (intros E; subst pad; discriminate).
  assert (Eline : rest_doc_line (L "return_type") D = L ":returns:" ++ [sp] ++ D) by reflexivity.
  exists r, (rblock_pad pad val), (rblock_pad [sp] D). split; [exact Ef|]. intros ws Hws. split; [|split].
  - apply blocks_of_one; [|apply rblock_good_pad; assumption].
    rewrite Et. unfold blk, rblock_pad. cbn [fst snd]. norm_app. reflexivity.
  - apply blocks_of_one; [|apply rblock_good_pad; try assumption; [discriminate|reflexivity]].
    rewrite iabf_rest_doc_line.
    + rewrite Eline. unfold blk, rblock_pad. cbn [fst snd]. norm_app. reflexivity.
    + apply mem_c_false_notin. rewrite Eline. rewrite !mem_c_app, HDnl. reflexivity.
  - exists (mkParam (Has val) Missing None), (mkParam (Has D) Missing None). split; [|split].
    + intros st. change (as_line (rblock_pad pad val ws)) with (true, ret_line_pad (L "returns") pad val ws).
      unfold step. apply step_returns_line_pad; assumption.
    + intros st. change (as_line (rblock_pad [sp] D ws)) with (true, ret_line_pad (L "returns") [sp] D ws).
      unfold step. apply step_returns_line_pad; try assumption. reflexivity.
    + split; [reflexivity|]. split; [reflexivity|]. split; [reflexivity|]. right. exists val, D.
      split; [reflexivity|]. split; [reflexivity|].
      split; [apply edge_ok_nonnil; exact Hve|]. split; [apply edge_ok_nonnil; exact HDe|].
      split; [exact Hva|]. split; [exact HDa|exact Hwords].
Qed.

Lemma ret_typ_inv : forall w edd t,
    0 < w -> typ_piece_ok w (L "return_type") t = true ->
    line_twin w (ret_twin edd) (rest_typ_line (L "return_type") t).
Proof.
  intros w edd t Hw H. unfold typ_piece_ok in H. apply andb_true_iff in H. destruct H as [Hnw Hdom].
  destruct (type_in_domain_inv t Hdom) as [[Hbt [Hne [Hstar Hopt]]] [Htnl [Httok _]]].
  destruct (typ_line_unchanged w _ t Hw Hnw) as [Hf Hi].
  exists (rest_typ_line (L "return_type") t), (rtblock t), (rtblock t). split; [exact Hf|]. intros ws Hws.
  assert (B : blocks_of (indent_all_but_first (rest_typ_line (L "return_type") t) 1 false ++ ws) [rtblock t ws]).
  { apply blocks_of_one; [|apply rtblock_good; assumption]. rewrite Hi. apply ret_typ_line_text. }
  split; [exact B|]. split; [exact B|].
  assert (S : ret_sets edd (as_line (rtblock t ws)) (mkParam Missing (Has t) None)).
  { intros st. rewrite rtblock_line. unfold step. apply step_rtype_line; assumption. }
  exists (mkParam Missing (Has t) None), (mkParam Missing (Has t) None). split; [exact S|]. split; [exact S|].
  split; [reflexivity|]. split; [reflexivity|]. split; [reflexivity|]. left. split; reflexivity.
Qed.

(* each line of the block contributes its block and its update of the return dict: [lines_twin] lays the blocks end to
   end, [ret_twin_all] folds the updates *)
Lemma ret_pieces : forall w edd p,
    0 < w -> entry_pieces_ok_d w (L "return_type", p) = true ->
    exists tw tu bw bu rw ru,
      emit_param_str w (L "return_type") p DocEmit.Rest true true true true = Ok (tw, p)
      /\ emit_param_str w (L "return_type") p DocEmit.Rest true true false true = Ok (tu, p)
      /\ blocks_of (tw ++ nl1) bw /\ blocks_of (tu ++ nl1) bu
      /\ ret_fold edd (map as_line bw) (Some rw) /\ ret_fold edd (map as_line bu) (Some ru)
      /\ interpolate_defaults rw default_announces false edd = Ok rw
      /\ interpolate_defaults ru default_announces false edd = Ok ru
      /\ ret_rel rw ru.
Proof.
  intros w edd p Hw H.
  destruct (entry_pieces_ok_d_inv w _ p H) as [bd [bt [p' [Eb [Hsome [Hdoc Htyp]]]]]].
  rewrite !(emit_param_str_block w _ p _ _ _ Eb), mapM_id. unfold block_lines. cbn [rb_name rb_doc rb_typ bind].
  assert (HL : Forall (line_twin w (ret_twin edd))
                      (cat_options [option_map (rest_doc_line (L "return_type")) bd;
                                    option_map (rest_typ_line (L "return_type")) bt])).
  { apply Forall_two_options.
    - intros D E. destruct (Hdoc D E) as [HDtok HD]. exact (ret_doc_inv w edd D HDtok HD).
    - intros t E. exact (ret_typ_inv w edd t Hw (Htyp t E)). }
  destruct (lines_twin w _ _ nl1 HL) as [fs [bw [bu [Hm [_ [B1 [B2 HE]]]]]]];
    [destruct bd; destruct bt; try discriminate; destruct (Hsome eq_refl eq_refl)|reflexivity|].
  assert (Hbw : bw <> []).
  { apply (blocks_of_nonnil _ _ B1). intros E. apply app_eq_nil in E. destruct E as [_ E]. discriminate. }
  destruct (ret_twin_all edd bw bu HE Hbw _ _ ret_q_rel_empty) as [rw [ru [R [Fw Fu]]]].
  destruct (ret_q_rel_ret rw ru edd R) as [I1 [I2 Hrel]].
  rewrite Hm. cbn [bind]. eexists. eexists. exists bw, bu, rw, ru.
  split; [reflexivity|]. split; [reflexivity|]. split; [exact B1|]. split; [exact B2|].
  assert (Hbase : forall st, rs_returns st = None -> ret_base st = empty_param).
  { intros st Hst. unfold ret_base. rewrite Hst. reflexivity. }
  split; [intros st Hst; exact (Fw st (Hbase st Hst))|]. split; [intros st Hst; exact (Fu st (Hbase st Hst))|].
  split; [exact I1|]. split; [exact I2|exact Hrel].
Qed.

Lemma items_pieces_d : forall w edd ps,
    0 < w -> forallb param_name_ok ps = true -> forallb (entry_pieces_ok_d w) ps = true ->
    exists txw txu pbw pbu,
      emit_items (fun k p => emit_param_str w k p DocEmit.Rest true true true true) ps = Ok (txw, ps)
      /\ emit_items (fun k p => emit_param_str w k p DocEmit.Rest true true false true) ps = Ok (txu, ps)
      /\ blocks_of (concat (map (fun t => t ++ nl2) txw)) pbw
      /\ blocks_of (concat (map (fun t => t ++ nl2) txu)) pbu
      /\ (pbw = [] -> ps = []) /\ (pbu = [] -> ps = [])
      /\ tok_lines_ok edd (map as_line pbw) (map as_line pbu).
Proof.
  intros w edd ps Hw. induction ps as [|[n p] ps IH]; intros Hn Hp.
  - exists [], [], [], [].
    split; [reflexivity|]. split; [reflexivity|]. split; [exact blocks_of_nil|]. split; [exact blocks_of_nil|].
    split; [reflexivity|]. split; [reflexivity|]. apply tok_lines_ok_nil.
  - cbn [forallb] in Hn, Hp. apply andb_true_iff in Hn. destruct Hn as [Hn1 Hn2].
    apply andb_true_iff in Hp. destruct Hp as [Hp1 Hp2].
    destruct (IH Hn2 Hp2) as [txw [txu [pbw [pbu [E1 [E2 [T1 [T2 [_ [_ R]]]]]]]]]].
    destruct (param_pieces_d w edd n p Hw Hn1 Hp1) as [tw [tu [bw [bu [F1 [F2 [U1 [U2 R0]]]]]]]].
    exists (tw :: txw), (tu :: txu), (bw ++ pbw), (bu ++ pbu).
    cbn [emit_items]. rewrite F1, F2. cbn [bind]. rewrite E1, E2. cbn [bind fst snd map concat].
    split; [reflexivity|]. split; [reflexivity|].
    split; [apply blocks_of_app; assumption|]. split; [apply blocks_of_app; assumption|].
    assert (N : forall t b (c : list (str * str)), blocks_of (t ++ nl2) b -> b ++ c = [] -> (n, p) :: ps = []).
    { intros t b c B E. apply app_eq_nil in E. destruct E as [E _].
      destruct (blocks_of_nonnil _ _ B) ; [destruct t; discriminate|exact E]. }
    split; [exact (N _ _ _ U1)|]. split; [exact (N _ _ _ U2)|].
    rewrite !map_app. apply tok_lines_ok_app; assumption.
Qed.

(* the layout of emit.docstring, rest: after the summary, two line breaks (four when there is no parameter), then
   every parameter entry followed by two line breaks, then the return part tr followed by one *)
Definition summary_sep (txts : list str) : str := match txts with [] => nl2 ++ nl2 | _ => nl2 end.

Lemma summary_sep_ws : forall txts, forallb isspace (summary_sep txts) = true.
Proof. intros [|t ts]; reflexivity. Qed.

Lemma docstring_text : forall w ww i d ps doc txts ret tr,
    ir_doc i = Has d -> params_of (ir_params i) = Some ps -> fill_or_id ww w d = Ok doc ->
    emit_items (fun k p => emit_param_str w k p DocEmit.Rest true true ww true) ps = Ok (txts, ps) ->
    ret_part w DocEmit.Rest ww true i = Ok ret -> fst ret ++ nl1 = nl1 ++ tr ->
    emit_docstring w DocEmit.Rest ww true i
    = Ok (([nl] ++ doc ++ summary_sep txts) ++ concat (map (fun t => t ++ nl2) txts) ++ tr, i).
Proof.
  intros w ww i d ps doc txts ret tr Edoc Eps Hdoc Hitems Hret Htr.
  rewrite emit_docstring_assemble, Eps. unfold doc_part. rewrite Edoc, Hdoc. cbn [bind]. rewrite Hitems, Hret.
  cbn [bind fst]. f_equal. f_equal. unfold C18Facts.assemble.
  assert (Epl : match txts with [] => txts | _ :: _ => txts end = txts) by (destruct txts; reflexivity).
  rewrite Epl. change (nl :: [nl]) with nl2. change [nl; nl] with nl2. rewrite app_nil_r. cbn [app].
  f_equal. rewrite <- !app_assoc. f_equal.
  change (nl :: fst ret ++ [nl]) with (nl1 ++ (fst ret ++ nl1)). rewrite Htr.
  destruct txts as [|t ts].
  - cbn [join map concat app summary_sep]. reflexivity.
  - rewrite <- (join_sep_concat nl2 (t :: ts)) by discriminate. unfold summary_sep. rewrite <- !app_assoc. reflexivity.
Qed.

Lemma summary_piece_inv : forall w d, summary_piece_ok w d = true ->
    no_rest_token d = true /\ strip d = d
    /\ exists r, fill w d = Ok r /\ no_rest_token r = true /\ strip r = r /\ words r = words d.
Proof.
  intros w d H. unfold summary_piece_ok in H.
  rewrite !andb_true_iff in H. destruct H as [[H1 H2] H3].
  apply str_eqb_eq in H2. split; [exact H1|]. split; [exact H2|].
  destruct (fill w d) as [r|e]; [|discriminate]. exists r. split; [reflexivity|].
  rewrite !andb_true_iff in H3. destruct H3 as [[H3 H4] H5].
  split; [exact H4|]. split; [apply strip_edge_ok; apply edge_okb_iff; exact H3|apply ws_eqb_eq; exact H5].
Qed.

Lemma same_len_sep : forall (a b : list str), List.length a = List.length b ->
    (match a with [] => nl2 ++ nl2 | _ => nl2 end) = (match b with [] => nl2 ++ nl2 | _ => nl2 end).
Proof. intros [|x a] [|y b] H; try discriminate; reflexivity. Qed.

(* the return part of emit.docstring, wrapped and not: a line break and then the blocks of the return entry, which
   set the return entries ow and ou; nothing at all when there is no return entry, and then there is a parameter *)
Definition ret_parts_ok (edd : bool) (ps : list (str * param)) (retw retu : outcome (str * fld gparam)) : Prop :=
  exists rw ru tw tu bw bu ow ou,
    retw = Ok rw /\ retu = Ok ru
    /\ fst rw ++ nl1 = nl1 ++ tw /\ fst ru ++ nl1 = nl1 ++ tu
    /\ blocks_of tw bw /\ blocks_of tu bu /\ (ps = [] -> bw <> [] /\ bu <> [])
    /\ ret_fold edd (map as_line bw) ow /\ ret_fold edd (map as_line bu) ou
    /\ map_returns (fun p => interpolate_defaults p default_announces false edd) ow = Ok ow
    /\ map_returns (fun p => interpolate_defaults p default_announces false edd) ou = Ok ou
    /\ orp_rel ow ou.

Lemma ret_parts_none : forall edd ps (other : fld gparam),
    match ps with [] => false | _ => true end = true -> ret_parts_ok edd ps (Ok ([], other)) (Ok ([], other)).
Proof.
  intros edd ps other Hps. exists ([], other), ([], other), [], [], [], [], None, None.
  split; [reflexivity|]. split; [reflexivity|]. split; [reflexivity|]. split; [reflexivity|].
  split; [exact blocks_of_nil|]. split; [exact blocks_of_nil|].
  split; [intros E; subst ps; discriminate|].
  split; [apply ret_fold_nil|]. split; [apply ret_fold_nil|].
  split; [reflexivity|]. split; [reflexivity|exact I].
Qed.

Lemma ret_part_pieces : forall w edd i (ps : list (str * param)),
    0 < w ->
    match ir_returns i with
    | Has g => match param_of_gparam g with
               | Some p => entry_pieces_ok_d w (L "return_type", p)
               | None => false
               end
    | _ => match ps with [] => false | _ => true end
    end = true ->
    ret_parts_ok edd ps (ret_part w DocEmit.Rest true true i) (ret_part w DocEmit.Rest false true i).
Proof.
  intros w edd i ps Hw H. unfold ret_part.
  destruct (ir_returns i) as [| |g]; [apply ret_parts_none; exact H|apply ret_parts_none; exact H|].
  destruct (param_of_gparam g) as [p|]; [|discriminate].
  destruct (ret_pieces w edd p Hw H) as [tw [tu [bw [bu [rw [ru [F1 [F2 [U1 [U2 [S1 [S2 [I1 [I2 Hrel]]]]]]]]]]]]]].
  rewrite F1, F2. cbn [bind fst snd].
  eexists. eexists. exists (tw ++ nl1), (tu ++ nl1), bw, bu, (Some rw), (Some ru).
  split; [reflexivity|]. split; [reflexivity|]. split; [reflexivity|]. split; [reflexivity|].
  split; [exact U1|]. split; [exact U2|].
  split.
  { intros _. split; [apply (blocks_of_nonnil _ _ U1)|apply (blocks_of_nonnil _ _ U2)]; intros E;
      apply app_eq_nil in E; destruct E as [_ E]; discriminate. }
  split; [exact S1|]. split; [exact S2|].
  split; [cbn [map_returns]; rewrite I1; reflexivity|]. split; [cbn [map_returns]; rewrite I2; reflexivity|].
  exact Hrel.
Qed.

Theorem C18_rest_pieces_d_lemma : forall w edd i,
    0 < w -> guard_C18_rest_pieces_d w i = true ->
    exists tw tu,
      emit_docstring w DocEmit.Rest true true i = Ok (tw, i)
      /\ emit_docstring w DocEmit.Rest false true i = Ok (tu, i)
      /\ forall du, parse_dot_docstring ng_unmodelled tu false true edd = Ok du ->
           exists dw, parse_dot_docstring ng_unmodelled tw false true edd = Ok dw
                      /\ ir_params dw = ir_params du
                      /\ same_interface_ws false du dw = true
                      /\ (forall k i0, same_interface k i0 du = true -> same_interface_ws k i0 dw = true).
Proof.
  intros w edd i Hw Hg. unfold guard_C18_rest_pieces_d in Hg.
  destruct (ir_doc i) as [| |d] eqn:Edoc; try discriminate.
  destruct (params_of (ir_params i)) as [ps|] eqn:Eps; [|discriminate].
  rewrite !andb_true_iff in Hg. destruct Hg as [[[Hsum Hnames] Hpieces] Hret].
  destruct (summary_piece_inv w d Hsum) as [Hdtok [Hdstrip [r [Hfill [Hrtok [Hrstrip Hrwords]]]]]].
  destruct (items_pieces_d w edd ps Hw Hnames Hpieces) as [txw [txu [pbw [pbu [E1 [E2 [Bpw [Bpu [Npw [Npu R]]]]]]]]]].
  destruct (ret_part_pieces w edd i ps Hw Hret)
    as [retw [retu [trw [tru [rbw [rbu [ow [ou [Rw [Ru [Vw [Vu [Brw [Bru [Nr [S1 [S2 [M1 [M2 Hrel]]]]]]]]]]]]]]]]]]].
  eexists. eexists.
  split; [exact (docstring_text w true i d ps r txw retw trw Edoc Eps Hfill E1 Rw Vw)|].
  split; [exact (docstring_text w false i d ps d txu retu tru Edoc Eps eq_refl E2 Ru Vu)|].
  intros du Hdu.
  assert (Nw : pbw ++ rbw <> []).
  { intros E. apply app_eq_nil in E. destruct E as [Ep Er]. exact (proj1 (Nr (Npw Ep)) Er). }
  assert (Nu : pbu ++ rbu <> []).
  { intros E. apply app_eq_nil in E. destruct E as [Ep Er]. exact (proj2 (Nr (Npu Ep)) Er). }
  destruct (two_texts_parse edd r d _ _ _ _ _ _ pbw pbu rbw rbu ow ou Hrtok Hrstrip Hdtok Hdstrip
                            (summary_sep_ws txw) (summary_sep_ws txu) Bpw Bpu Brw Bru Nw Nu R S1 S2 M1 M2 du Hdu)
    as [ps' [Edu Hpw]].
  exists (ir_of_parts r ps' ow). split; [exact Hpw|]. subst du. split; [reflexivity|].
  split; [exact (parts_link false _ r d ps' ow ou Hrwords Hrel (parts_refl d ps' ou))|].
  intros k i0 Hk. apply (parts_link k i0 r d ps' ow ou); assumption.
Qed.

Theorem C18_rest_parse_d_lemma : forall w edd i,
    guard_C18_rest_parse_d w edd i = true ->
    exists tw tu dw du,
      emit_docstring w DocEmit.Rest true true i = Ok (tw, i)
      /\ emit_docstring w DocEmit.Rest false true i = Ok (tu, i)
      /\ parse_dot_docstring ng_unmodelled tw false true edd = Ok dw
      /\ parse_dot_docstring ng_unmodelled tu false true edd = Ok du
      /\ ir_params dw = ir_params du
      /\ same_interface_ws false du dw = true
      /\ same_interface edd i du = true
      /\ same_interface_ws edd i dw = true.
Proof.
  intros w edd i Hg. unfold guard_C18_rest_parse_d in Hg.
  apply andb_true_iff in Hg. destruct Hg as [Hg Hp]. apply andb_true_iff in Hg. destruct Hg as [Hw H01].
  apply Nat.ltb_lt in Hw.
  destruct (C18_rest_pieces_d_lemma w edd i Hw Hp) as [tw [tu [Etw [Etu Hall]]]].
  destruct (C01_rest_partial_emit_lemma w edd i H01) as [text [i0 [du [Hemit [_ [Hparse Hsame]]]]]].
  rewrite Etu in Hemit. injection Hemit as Ht _. subst text.
  destruct (Hall du Hparse) as [dw [Hpw [Hps [Hrel Hlink]]]].
  exists tw, tu, dw, du. repeat (split; [assumption|]). apply Hlink. exact Hsame.
Qed.

Lemma C18_rest_parse_d_b_lemma : forall w edd i,
    guard_C18_rest_parse_d w edd i = true -> C18_rest_parse_at_b w edd i = true.
Proof.
  intros w edd i Hg.
  destruct (C18_rest_parse_d_lemma w edd i Hg) as [tw [tu [dw [du [E1 [E2 [P1 [P2 [_ [R1 [_ R2]]]]]]]]]]].
  unfold C18_rest_parse_at_b. rewrite E1, E2, P1, P2, R1, R2. reflexivity.
Qed.

(* the piece-wise guards and the closed-form guard of model/C18ParseSpec.v are one test with two slots, the summary
   and the entries *)
Definition ir_guard (sumok : str -> bool) (entok : str * param -> bool) (i : ir) : bool :=
  match ir_doc i, params_of (ir_params i) with
  | Has d, Some ps =>
    sumok d && forallb param_name_ok ps && forallb entok ps
    && match ir_returns i with
       | Has g => match param_of_gparam g with
                  | Some p => entok (L "return_type", p)
                  | None => false
                  end
       | _ => match ps with [] => false | _ => true end
       end
  | _, _ => false
  end.

(* the entry test may be compared on the entries the guard meets only: parameters with a good name, and the
   return entry *)
Lemma ir_guard_mono : forall s s' e e' i,
    (forall d, s d = true -> s' d = true) ->
    (forall np, is_return (fst np) = true \/ param_name_ok np = true -> e np = true -> e' np = true) ->
    ir_guard s e i = true -> ir_guard s' e' i = true.
Proof.
  intros s s' e e' i Hs He H. unfold ir_guard in *.
  destruct (ir_doc i) as [| |d]; try discriminate. destruct (params_of (ir_params i)) as [ps|]; [|discriminate].
  rewrite !andb_true_iff in H. destruct H as [[[Hsum Hnames] Hents] Hret].
  rewrite (Hs d Hsum), Hnames. cbn [andb].
  assert (Hents' : forallb e' ps = true).
  { rewrite forallb_forall in *. intros np Hin. apply He; [right; apply Hnames; exact Hin|apply Hents; exact Hin]. }
  rewrite Hents'. cbn [andb].
  destruct (ir_returns i) as [| |g]; try exact Hret.
  destruct (param_of_gparam g) as [p|]; [|discriminate]. apply He; [left; reflexivity|exact Hret].
Qed.

Lemma entry_pieces_d_of_pieces : forall w np, entry_pieces_ok w np = true -> entry_pieces_ok_d w np = true.
Proof.
  intros w [n p] H. unfold entry_pieces_ok in H. unfold entry_pieces_ok_d. cbn [fst snd] in *.
  destruct (rest_block_of true n p) as [[b p']|e]; [|discriminate].
  rewrite !andb_true_iff in H. destruct H as [[H1 H2] H3].
  rewrite H1, H3. cbn [andb]. rewrite andb_true_r. destruct (rb_doc b) as [D|]; [|reflexivity].
  apply andb_true_iff in H2. destruct H2 as [H2 H4]. rewrite H2. cbn [andb].
  destruct (is_return n); [exact H4|]. rewrite H4. reflexivity.
Qed.

Lemma pieces_d_of_pieces : forall w i, guard_C18_rest_pieces w i = true -> guard_C18_rest_pieces_d w i = true.
Proof.
  intros w i H. apply (ir_guard_mono (summary_piece_ok w) _ (entry_pieces_ok w) (entry_pieces_ok_d w) i); [|intros np _|].
  - intros d Hd. exact Hd.
  - apply entry_pieces_d_of_pieces.
  - exact H.
Qed.

(* the closed-form guard only asks that headers and type lines fit: it is monotone in the width *)
Lemma entry_tidy_ok_mono : forall w w' np, w <= w' -> entry_tidy_ok w np = true -> entry_tidy_ok w' np = true.
Proof.
  intros w w' [n p] Hww H. unfold entry_tidy_ok in *. cbn [fst snd] in *.
  destruct (rest_block_of true n p) as [[b p']|e]; [|discriminate].
  rewrite !andb_true_iff in H. destruct H as [[Hsome Hdoc] Htyp]. rewrite Hsome. cbn [andb].
  assert (Hdoc' : match rb_doc b with
                  | Some D => tidy D && no_rest_token D && no_announce D
                              && Nat.leb (List.length (L ":" ++ rest_key n ++ L ":")) w'
                  | None => true
                  end = true).
  { destruct (rb_doc b) as [D|]; [|reflexivity]. apply andb_true_iff in Hdoc. destruct Hdoc as [Hd Hlen].
    rewrite Hd. apply Nat.leb_le. apply Nat.leb_le in Hlen. lia. }
  rewrite Hdoc'. cbn [andb]. destruct (rb_typ b) as [t|]; [|reflexivity].
  unfold typ_piece_ok, nowrap_line, fits in *. rewrite !andb_true_iff in Htyp. destruct Htyp as [[Hc Hlen] Hdom].
  rewrite Hc, Hdom, andb_true_r. apply Nat.leb_le. apply Nat.leb_le in Hlen. lia.
Qed.

Lemma guard_C18_rest_tidy_mono : forall w w' i,
    w <= w' -> guard_C18_rest_tidy w i = true -> guard_C18_rest_tidy w' i = true.
Proof.
  intros w w' i Hww H. unfold guard_C18_rest_tidy in *. apply andb_true_iff in H. destruct H as [Hw H].
  apply Nat.ltb_lt in Hw. rewrite (proj2 (Nat.ltb_lt 0 w')) by lia. cbn [andb].
  apply (ir_guard_mono (fun d => tidy d && no_rest_token d) _ (entry_tidy_ok w) (entry_tidy_ok w') i); [| |exact H].
  - intros d Hd. exact Hd.
  - intros np _. apply entry_tidy_ok_mono. exact Hww.
Qed.

Lemma parse_d_of_parse : forall w edd i,
    guard_C18_rest_parse w edd i = true -> guard_C18_rest_parse_d w edd i = true.
Proof.
  intros w edd i H. unfold guard_C18_rest_parse in H. unfold guard_C18_rest_parse_d.
  apply andb_true_iff in H. destruct H as [H Hp]. rewrite H, (pieces_d_of_pieces w i Hp). reflexivity.
Qed.

Theorem C18_rest_parse_lemma : forall w edd i,
    guard_C18_rest_parse w edd i = true ->
    exists tw tu dw du,
      emit_docstring w DocEmit.Rest true true i = Ok (tw, i)
      /\ emit_docstring w DocEmit.Rest false true i = Ok (tu, i)
      /\ parse_dot_docstring ng_unmodelled tw false true edd = Ok dw
      /\ parse_dot_docstring ng_unmodelled tu false true edd = Ok du
      /\ ir_params dw = ir_params du
      /\ same_interface_ws false du dw = true
      /\ same_interface edd i du = true
      /\ same_interface_ws edd i dw = true.
Proof. intros w edd i Hg. exact (C18_rest_parse_d_lemma w edd i (parse_d_of_parse w edd i Hg)). Qed.

Lemma C18_rest_parse_b_lemma : forall w edd i,
    guard_C18_rest_parse w edd i = true -> C18_rest_parse_at_b w edd i = true.
Proof. intros w edd i Hg. exact (C18_rest_parse_d_b_lemma w edd i (parse_d_of_parse w edd i Hg)). Qed.

Lemma guard_C18_rest_parse_d_intro : forall w edd i,
    0 < w -> guard_C01_rest edd i = true -> guard_C18_rest_pieces_d w i = true ->
    guard_C18_rest_parse_d w edd i = true.
Proof.
  intros w edd i Hw H01 Hp. unfold guard_C18_rest_parse_d. rewrite H01, Hp, (proj2 (Nat.ltb_lt 0 w) Hw). reflexivity.
Qed.

Lemma C18_rest_parse_d_guard_false : forall w edd i,
    C18_rest_parse_at_b w edd i = false -> guard_C18_rest_parse_d w edd i = false.
Proof.
  intros w edd i H. apply not_true_iff_false. intros Hg.
  rewrite (C18_rest_parse_d_b_lemma w edd i Hg) in H. discriminate.
Qed.

Lemma C18_rest_parse_guard_false : forall w edd i,
    C18_rest_parse_at_b w edd i = false -> guard_C18_rest_parse w edd i = false.
Proof.
  intros w edd i H. apply not_true_iff_false. intros Hg.
  rewrite (C18_rest_parse_b_lemma w edd i Hg) in H. discriminate.
Qed.

(* inside the ReST guard of C01 it is the piece-wise guard that fails, and that one does not look at edd *)
Lemma C18_rest_pieces_d_false : forall w edd i,
    0 < w -> guard_C01_rest edd i = true -> C18_rest_parse_at_b w edd i = false ->
    guard_C18_rest_pieces_d w i = false.
Proof.
  intros w edd i Hw H01 H. apply not_true_iff_false. intros Hp.
  rewrite (C18_rest_parse_d_b_lemma w edd i (guard_C18_rest_parse_d_intro w edd i Hw H01 Hp)) in H. discriminate.
Qed.

Lemma guard_C18_rest_parse_d_pieces_false : forall w edd i,
    guard_C18_rest_pieces_d w i = false -> guard_C18_rest_parse_d w edd i = false.
Proof. intros w edd i H. unfold guard_C18_rest_parse_d. rewrite H. apply andb_false_r. Qed.

Lemma guard_C18_rest_parse_pieces_false : forall w edd i,
    guard_C18_rest_pieces w i = false -> guard_C18_rest_parse w edd i = false.
Proof. intros w edd i H. unfold guard_C18_rest_parse. rewrite H. apply andb_false_r. Qed.

Definition gp18 (d : str) (t : option str) (v : option pyval) : gparam :=
  mkG (Has d) (match t with Some t => Has t | None => Missing end) (option_map DV v).

(* three parameters and a return entry; every prose is several times longer than the width 30 *)
Definition c18_long_ir : ir :=
  mkIR FNone (Has (L "static")) (Has (L "Summary words that go on and on for quite a while here."))
       [(L "alpha", gp18 (L "first parameter with a long prose that needs wrapping several times over") (Some (L "int")) None);
        (L "beta", gp18 (L "second one also quite long enough to wrap around the width limit") None None);
        (L "gamma", gp18 (L "third one, typed, with a long prose to wrap around as well") (Some (L "str")) None)]
       (Has (gp18 (L "the result value described at great length so that it wraps too") (Some (L "str")) None)) None.

(* a typed parameter whose default sentence is split by the wrapper, read with emit_default_doc=False:
   the line break and the indent end up inside the default *)
Definition c18_w_default_split : ir :=
  mkIR FNone (Has (L "static")) (Has (L "Summary."))
       [(L "alpha", gp18 (L "first parameter with a long prose that needs wrapping.") (Some (L "str"))
                         (Some (VStr (L "a b c d e f g h"))))] FNone None.

(* two blanks between  defaults  and  to : the wrapper breaks there, the reader re-joins with one blank and
   now finds a default announced *)
Definition c18_w_double_blank : ir :=
  mkIR FNone (Has (L "static")) (Has (L "Summary."))
       [(L "alpha", gp18 (L "the value that it defaults  to 5 when nothing else is given") (Some (L "int")) None)]
       FNone None.

(* the statement at a point fails already when the wrapped text does not read back as the interface *)
Definition C18_wrapped_read_b (w : nat) (edd : bool) (i : ir) : bool :=
  match emit_docstring w DocEmit.Rest true true i with
  | Ok (tw, _) =>
    match parse_dot_docstring ng_unmodelled tw false true edd with
    | Ok dw => same_interface_ws edd i dw
    | Err _ => false
    end
  | Err _ => false
  end.

Lemma C18_rest_parse_at_b_wrapped : forall w edd i,
    C18_wrapped_read_b w edd i = false -> C18_rest_parse_at_b w edd i = false.
Proof.
  intros w edd i H. unfold C18_wrapped_read_b in H. unfold C18_rest_parse_at_b.
  destruct (emit_docstring w DocEmit.Rest true true i) as [[tw i1]|e]; [|reflexivity].
  destruct (emit_docstring w DocEmit.Rest false true i) as [[tu i2]|e]; [|reflexivity].
  destruct (parse_dot_docstring ng_unmodelled tw false true edd) as [dw|e]; [|reflexivity].
  destruct (parse_dot_docstring ng_unmodelled tu false true edd) as [du|e]; [|reflexivity].
  rewrite H. apply andb_false_r.
Qed.

Lemma guard_C01_rest_no_default : forall k k' i,
    forallb (fun kv : str * gparam => match g_default (snd kv) with None => true | Some _ => false end) (ir_params i) = true ->
    guard_C01_rest k i = guard_C01_rest k' i.
Proof.
  intros k k' i H.
  assert (E : first_class (fun kv => param_class k (fst kv) (snd kv)) (ir_params i)
              = first_class (fun kv => param_class k' (fst kv) (snd kv)) (ir_params i)).
  { induction (ir_params i) as [|[n g] ps IH]; [reflexivity|].
    cbn [forallb snd] in H. apply andb_true_iff in H. destruct H as [Hg Hps].
    cbn [first_class fst snd]. rewrite (IH Hps). unfold param_class.
    destruct (g_default g); [discriminate|]. reflexivity. }
  unfold guard_C01_rest, finding_class_C01_rest. cbn [andb].
  destruct (ir_params i) as [|kv ps]; [reflexivity|]. rewrite E. reflexivity.
Qed.

(* each sample is evaluated once, here; the statements about them below and in C18FillTidy.v, C18ParseDflt.v,
   C18Spec2Facts.v take these facts and the general theorems (the checker re-evaluates every closed term it meets) *)
Lemma c18_long_facts :
  guard_C01_rest true c18_long_ir = true /\ guard_C01_rest false c18_long_ir = true
  /\ guard_C18_rest_tidy 22 c18_long_ir = true /\ guard_C18_rest_tidy 30 c18_long_ir = true
  /\ guard_C18_rest_tidy 79 c18_long_ir = true /\ guard_C18_rest_tidy 21 c18_long_ir = false
  /\ guard_nowrap 30 DocEmit.Rest true c18_long_ir = false
  /\ C18_rest_parse_at_b 12 true c18_long_ir = false.
Proof.
  assert (E : guard_C01_rest true c18_long_ir = true
              /\ guard_C18_rest_tidy 22 c18_long_ir = true /\ guard_C18_rest_tidy 21 c18_long_ir = false
              /\ guard_nowrap 30 DocEmit.Rest true c18_long_ir = false
              /\ C18_wrapped_read_b 12 true c18_long_ir = false) by (vm_compute; repeat split).
  destruct E as [C1 [T22 [T21 [Hnw W12]]]].
  split; [exact C1|]. split; [rewrite <- (guard_C01_rest_no_default true false c18_long_ir eq_refl); exact C1|].
  split; [exact T22|]. split; [exact (guard_C18_rest_tidy_mono 22 30 _ ltac:(lia) T22)|].
  split; [exact (guard_C18_rest_tidy_mono 22 79 _ ltac:(lia) T22)|]. split; [exact T21|]. split; [exact Hnw|].
  exact (C18_rest_parse_at_b_wrapped _ _ _ W12).
Qed.

Lemma c18_default_split_facts :
  guard_C01_rest false c18_w_default_split = true
  /\ finding_class_C18 30 (E_docstring DocEmit.Rest) c18_w_default_split = None
  /\ finding_class_C18_r false 30 (E_docstring DocEmit.Rest) c18_w_default_split = Some K18_default_wrapped
  /\ C18_rest_parse_at_b 30 false c18_w_default_split = false
  /\ C18_rest_parse_at_b 30 true c18_w_default_split = true.
Proof.
  assert (E : guard_C01_rest false c18_w_default_split = true
              /\ finding_class_C18 30 (E_docstring DocEmit.Rest) c18_w_default_split = None
              /\ finding_class_C18_r false 30 (E_docstring DocEmit.Rest) c18_w_default_split = Some K18_default_wrapped
              /\ C18_wrapped_read_b 30 false c18_w_default_split = false
              /\ C18_rest_parse_at_b 30 true c18_w_default_split = true) by (vm_compute; repeat split).
  destruct E as [C0 [Hc [Hr [W B1]]]].
  exact (conj C0 (conj Hc (conj Hr (conj (C18_rest_parse_at_b_wrapped _ _ _ W) B1)))).
Qed.

Lemma c18_double_blank_facts :
  guard_C01_rest true c18_w_double_blank = true /\ C18_rest_parse_at_b 40 true c18_w_double_blank = false.
Proof.
  assert (E : guard_C01_rest true c18_w_double_blank = true /\ C18_wrapped_read_b 40 true c18_w_double_blank = false)
    by (vm_compute; split; reflexivity).
  exact (conj (proj1 E) (C18_rest_parse_at_b_wrapped _ _ _ (proj2 E))).
Qed.

Lemma C18_rest_parse_witnesses_lemma :
  (guard_C01_rest false c18_w_default_split = true /\ C18_rest_parse_at_b 30 false c18_w_default_split = false
   /\ guard_C18_rest_parse 30 false c18_w_default_split = false)
  /\ (guard_C01_rest true c18_w_double_blank = true /\ C18_rest_parse_at_b 40 true c18_w_double_blank = false
      /\ guard_C18_rest_parse 40 true c18_w_double_blank = false)
  /\ (guard_C01_rest true c18_long_ir = true /\ C18_rest_parse_at_b 12 true c18_long_ir = false
      /\ guard_C18_rest_parse 12 true c18_long_ir = false).
Proof.
  destruct c18_default_split_facts as [S1 [_ [_ [S2 _]]]]. destruct c18_double_blank_facts as [B1 B2].
  destruct c18_long_facts as [L1 [_ [_ [_ [_ [_ [_ L2]]]]]]].
  exact (conj (conj S1 (conj S2 (C18_rest_parse_guard_false _ _ _ S2)))
        (conj (conj B1 (conj B2 (C18_rest_parse_guard_false _ _ _ B2)))
              (conj L1 (conj L2 (C18_rest_parse_guard_false _ _ _ L2))))).
Qed.

Definition C18_rest_parse_statement : Prop :=
  forall w edd i, 0 < w -> guard_C01_rest edd i = true -> C18_rest_parse_at_b w edd i = true.

Lemma C18_rest_parse_refuted_lemma : ~ C18_rest_parse_statement.
Proof.
  intros H. destruct c18_double_blank_facts as [B1 B2].
  rewrite (H 40 true c18_w_double_blank (Nat.lt_0_succ _) B1) in B2. discriminate.
Qed.
