(* C08Ext -- beyond props/C08.v: the fixed point after one pass is PROVED, with no law hypothesis, for the ReST,
   numpydoc, google, class and argparse kinds over the concrete converters of model/C05Closed.v on the domain
   closed_dom, and for all seven kinds on closed_dom7 (see props/C05Ext.v for converters and domains).  Lemmas in proofs/C05ClosedFacts.v.

   The three premises of C08_fixpoint_from_laws are theorems here, for N_k = out_model o k (an explicit description built
   from the options, the summary and the parameters only):
     LAW     conv_model o k i = Ok (out_model o k i)                 (C08_one_pass_closed_form)
     CLOSED  closed_dom o (out_model o k i) = true                   (C08_domain_closed_under_pass)
     IDEM    out_model o k (out_model o k i) = out_model o k i       (C08_pass_idempotent, unconditional)
   hence conv_k (conv_k i) = conv_k i as outcomes (C08_conv_fixpoint) and the statement of the property: the three
   emissions exist and the second and third are the same artefact (C08_closed), also after any chain over these kinds
   (C08_after_chain).  For the docstring kinds the first emission is already the fixed text (C08_docstring_text_fixed).
   The artefact compared is the model's: the docstring text, or the class / function statement handed to ast.unparse.

   For these kinds C08_fixpoint_from_laws is not needed with assumed laws: its three premises are the theorems above
   (class and argparse; also numpydoc / google, which props/C08.v does not state).  For function and method the fixed
   point holds on closed_dom7 (C08_closed7 below).

   NOT proved here:
   - the function and method kinds outside closed_dom7, or with emit_default_doc on for emit.function;
   - outside closed_dom (in particular descriptions on which a pass really normalises something: a default acquired,
     a full stop added, None turned into a zero value -- there C08_fixpoint_from_laws / C08_fixpoint_relational with
     their hypotheses remain the statement); inside closed_dom every pass returns summary and parameters unchanged;
   - emitter option combinations other than those of cenv (docstring kinds: word_wrap off, default sentences on; argparse:
     word_wrap and wrap_description off); ast.unparse of the emitted statement (the comparison is on the statement);
   - argparse: the function docstring text is an arbitrary function of the description, so first and second emission may
     differ in it; second and third do not. *)
From Coq Require Import List Bool.
From DT Require Import PyStr PyVal Defaults PyAst IR.
From DT Require C05Spec C05Closed C05ClosedFacts.
Import ListNotations.

Theorem C08_one_pass_closed_form : forall o k i,
    C05Closed.env_ok o = true -> C05Closed.closed_kind k = true -> C05Closed.closed_dom o i = true ->
    C05Closed.conv_model o k i = Ok (C05ClosedFacts.out_model o k i).
Proof. exact C05ClosedFacts.conv_model_closed. Qed.
Print Assumptions C08_one_pass_closed_form.

Theorem C08_domain_closed_under_pass : forall o k i,
    C05Closed.closed_kind k = true -> C05Closed.closed_dom o i = true ->
    C05Closed.closed_dom o (C05ClosedFacts.out_model o k i) = true.
Proof. exact C05ClosedFacts.out_model_closed. Qed.
Print Assumptions C08_domain_closed_under_pass.

Theorem C08_pass_idempotent : forall o k i,
    C05ClosedFacts.out_model o k (C05ClosedFacts.out_model o k i) = C05ClosedFacts.out_model o k i.
Proof. exact C05ClosedFacts.out_model_idem. Qed.
Print Assumptions C08_pass_idempotent.

(* the pass returns the same interface *)
Theorem C08_pass_preserves : forall o k i,
    C05Closed.closed_kind k = true -> C05Closed.closed_dom o i = true ->
    C05Spec.preserved i (C05ClosedFacts.out_model o k i) = true.
Proof. exact C05ClosedFacts.out_model_preserved. Qed.
Print Assumptions C08_pass_preserves.

(* converting twice gives what converting once gave *)
Theorem C08_conv_fixpoint : forall o k i i1,
    C05Closed.env_ok o = true -> C05Closed.closed_kind k = true -> C05Closed.closed_dom o i = true ->
    C05Closed.conv_model o k i = Ok i1 -> C05Closed.conv_model o k i1 = Ok i1.
Proof. exact C05ClosedFacts.conv_model_fixpoint. Qed.
Print Assumptions C08_conv_fixpoint.

(* the statement of the property: t1 = emit i, t2 = emit (parse t1), t3 = emit (parse t2) exist and t2 = t3 *)
Theorem C08_closed : forall o k i,
    C05Closed.env_ok o = true -> C05Closed.closed_kind k = true -> C05Closed.closed_dom o i = true ->
    C05Closed.C08_at o k i.
Proof. exact C05ClosedFacts.C08_closed_lemma. Qed.
Print Assumptions C08_closed.

(* and after any chain of conversions over the closed kinds *)
Theorem C08_after_chain : forall o cs k i,
    C05Closed.env_ok o = true -> forallb C05Closed.closed_kind cs = true -> C05Closed.closed_kind k = true ->
    C05Closed.closed_dom o i = true ->
    exists i', C05Spec.chain (C05Closed.conv_model o) cs i = Ok i' /\ C05Closed.C08_at o k i'.
Proof. exact C05ClosedFacts.C08_after_chain. Qed.
Print Assumptions C08_after_chain.

(* docstring kinds: already the first emission is the fixed text *)
Theorem C08_docstring_text_fixed : forall o k i,
    C05Closed.env_ok o = true -> C05Closed.closed_dom o i = true -> C05Spec.is_doc_kind k = true ->
    C05Closed.emit_model o k (C05ClosedFacts.out_model o k i) = C05Closed.emit_model o k i.
Proof. exact C05ClosedFacts.docstring_text_fixed. Qed.
Print Assumptions C08_docstring_text_fixed.

(* not vacuous: the five-parameter description of C05Ext is in the domain *)
Example C08_closed_nonvacuous :
  C05Closed.closed_dom C05Closed.default_env C05Closed.w_closed = true
  /\ List.length (ir_params C05Closed.w_closed) = 5.
Proof. exact C05ClosedFacts.w_closed_in_dom. Qed.
Print Assumptions C08_closed_nonvacuous.

(* For the function / method kinds the fixed point is derived relationally (the C08_fixpoint_relational pattern): the
   conversion returns a description with the same summary and parameters, no return entry and no carried body, and
   emit.function / to_docstring look at nothing else -- so converting it again is converting the original again.
   The artefact compared is the function statement handed to ast.unparse. *)

Theorem C08_conv_fixpoint7 : forall o f k i i1,
    C05Closed.env_ok7 o = true -> C05Closed.closed_dom7 o f i = true ->
    C05Closed.conv_model7 o f k i = Ok i1 -> C05Closed.conv_model7 o f k i1 = Ok i1.
Proof. exact C05ClosedFacts.conv_model7_fixpoint. Qed.
Print Assumptions C08_conv_fixpoint7.

Theorem C08_closed7 : forall o f k i,
    C05Closed.env_ok7 o = true -> C05Closed.closed_dom7 o f i = true -> C05Closed.C08_at7 o f k i.
Proof. exact C05ClosedFacts.C08_closed7_lemma. Qed.
Print Assumptions C08_closed7.

Theorem C08_after_chain7 : forall o f cs k i,
    C05Closed.env_ok7 o = true -> C05Closed.closed_dom7 o f i = true ->
    exists i', C05Spec.chain (C05Closed.conv_model7 o f) cs i = Ok i' /\ C05Closed.C08_at7 o f k i'.
Proof. exact C05ClosedFacts.C08_after_chain7. Qed.
Print Assumptions C08_after_chain7.

Example C08_closed7_nonvacuous :
  C05Closed.env_ok7 C05Closed.default_env = true
  /\ C05Closed.closed_dom7 C05Closed.default_env C05Closed.default_fenv C05Closed.w_closed = true
  /\ C05Closed.closed_dom7 C05Closed.default_env (C05Closed.mkFE false false 1 false false) C05Closed.w_closed = true.
Proof. exact C05ClosedFacts.w_closed_in_dom7. Qed.
Print Assumptions C08_closed7_nonvacuous.
