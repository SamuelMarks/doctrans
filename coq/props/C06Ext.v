(* C06Ext: emitted code is valid Python that behaves as the IR says - VALUE-LEVEL agreement for the class and the
   argparse emitters, and well-formed annotations for the function emitter (extension of props/C06.v).  Lemmas in proofs/C06ValuesFacts.v; specs and guards in model/C06Values.v.

   Proved here, for every parse table, any number of parameters, every option combination:
   - class: inside guard_C06_class the annotated assignments of the emitted class are EXACTLY spec_class_attrs:
     one  name: <annotation> = <value>  per parameter (return entry folded in), in order, the annotation being the
     parse of the IR's type text and the value the constant of the IR's default (None for the spellings of None; the
     neutral value of the declared type where the IR gives no default).  The guard's complement is the finding
     classes class-NoneType-annotation, class-annotation-from-default (no declared type), class-private-name-mangled,
     class-falsy-default-becomes-zero, class-str-default-parsed-as-code, class-quote-of-non-str-default,
     str-default-requoted, code-default-emitted-as-string (plus the special type spellings dict / *x / complex, types
     with unbalanced brackets, and defaults that are AST nodes or other objects: outside the property's domain).
   - argparse: inside guard_C06_argparse the add_argument calls of the emitted function are EXACTLY
     spec_argparse_table: option string, type= (the scalar of T / Optional[T] / List[T]; not written for str),
     choices= (the members of Literal['a', 'b', ...]), action= (append for List[T]), help= (the prose, wrapped when
     word_wrap is on), required=, default= (the constant).  The guard's complement is argparse-inference (a default
     whose Python type is not the declared scalar, a code / None-like / quoted str default, prose that announces a
     default or that set_value unquotes), argparse-single-literal-no-choices, and declared types of other forms
     (Union, Tuple, dotted names, nested generics), names ending in kwargs, carried bodies: NOT proved for those.
   - function: wf_python of the emitted function from conditions on the IR alone (distinct identifier names; every
     declared type a scalar name or a text of TyExpr's canonical fragment): the hypothesis
     ann_ok / wf_python of parsed annotation expressions  of C06_function_wf is discharged for that fragment.

   NOT proved here (as before): that CPython reads the artefacts as class_attrs_of / argparse_table_of /
   py_signature_of say (name mangling, evaluation of annotations, what ArgumentParser does with the keywords), that
   the text survives unparse / re-parse and emit.file with or without black: executed per case by
   harness/prop_C06.py.  The required= column of the spec is doctrans' own convention (the IR has no such field):
   never for Optional[..], always for str / int / float and for Literal, for bool only with a default; the oracle
   does not compare it.  Annotations of function parameters whose type text needs the parse table (outside
   TyExpr's canonical fragment) are still covered only by the hypothesis of C06_function_wf. *)
From Coq Require Import List Bool.
From Coq Require String.
Import String.StringSyntax.
From DT Require Import PyStr PyVal Defaults PyAst IR EmitAst ParseAst C02Codec C06Spec C06Values C06ValuesFacts.
Import ListNotations.

Theorem C06_class_partial : forall pt i ec cn bs ds ww tds s i',
    guard_C06_class i = true ->
    emit_class pt i ec cn bs ds ww tds = Ok (s, i') ->
    spec_class_attrs pt i = Ok (class_attrs_of s).
Proof. exact C06_class_partial_lemma. Qed.
Print Assumptions C06_class_partial.

(* the same read attribute by attribute *)
Theorem C06_class_attr_values : forall pt i ec cn bs ds ww tds s i',
    guard_C06_class i = true ->
    emit_class pt i ec cn bs ds ww tds = Ok (s, i') ->
    Forall2 (fun kv a =>
               fst (fst a) = fst kv
               /\ (exists t, g_typ (snd kv) = Has t /\ parse_expr_src pt t = Ok (snd (fst a)))
               /\ match g_default (snd kv) with
                  | Some (DV v) => snd a = Some (EConst (ir_value v))
                  | _ => exists c, snd a = Some (EConst c)
                  end)
            (ir_params (class_fold_returns i)) (class_attrs_of s).
Proof. exact C06_class_attr_values_lemma. Qed.
Print Assumptions C06_class_attr_values.

(* inside TyExpr's canonical fragment the annotation needs no parse table and unparses to the IR's text *)
Theorem C06_class_annotation_canonical : forall pt t e,
    typ_ast t = Some e -> parse_expr_src pt t = Ok e /\ ParseAst.code_of e = Ok t.
Proof. exact class_annotation_canonical. Qed.
Print Assumptions C06_class_annotation_canonical.

Theorem C06_class_refuted : ~ C06_class_statement.
Proof. exact C06_class_refuted_lemma. Qed.
Print Assumptions C06_class_refuted.

Theorem C06_class_witnesses :
  forallb (fun w => negb (guard_C06_class (fst w)) && negb (C06_class_holds_b (snd w) (fst w) false true (L "doc")))
          c6_class_witnesses = true.
Proof. vm_compute. reflexivity. Qed.
Print Assumptions C06_class_witnesses.

Example C06_class_nonvacuous :
  guard_C06_class c6_ir_ok = true
  /\ exists s i', emit_class [] c6_ir_ok false (L "C") [L "object"] [] true (Ok (L "doc")) = Ok (s, i')
                  /\ List.length (class_attrs_of s) = 11
                  /\ wf_python s = true.
Proof.
  split; [vm_compute; reflexivity|]. eexists. eexists. split; [vm_compute; reflexivity|]. split; vm_compute; reflexivity.
Qed.
Print Assumptions C06_class_nonvacuous.

Theorem C06_argparse_partial : forall pt i edd fn ft wd ww ds s i2,
    guard_C06_argparse ww i = true ->
    emit_argparse pt i edd fn ft wd ww ds = Ok (s, i2) ->
    spec_argparse_table ww i = Some (argparse_table_of s).
Proof. exact C06_argparse_partial_lemma. Qed.
Print Assumptions C06_argparse_partial.

Theorem C06_argparse_refuted : ~ C06_argparse_statement.
Proof. exact C06_argparse_refuted_lemma. Qed.
Print Assumptions C06_argparse_refuted.

Theorem C06_argparse_witnesses :
  forallb (fun w => negb (guard_C06_argparse false w) && negb (C06_argparse_holds_b c6_ap_pt w false false false))
          c6_argparse_witnesses = true.
Proof. vm_compute. reflexivity. Qed.
Print Assumptions C06_argparse_witnesses.

Example C06_argparse_nonvacuous :
  guard_C06_argparse true c6_ap_ir_ok = true /\ guard_C06_argparse false c6_ap_ir_ok = true
  /\ exists s i2, emit_argparse [] c6_ap_ir_ok true (Some (L "f")) (Some (L "static")) true true (Ok (L "Doc.")) = Ok (s, i2)
                  /\ List.length (argparse_table_of s) = 9
                  /\ wf_python s = true.
Proof.
  split; [vm_compute; reflexivity|]. split; [vm_compute; reflexivity|].
  eexists. eexists. split; [vm_compute; reflexivity|]. split; vm_compute; reflexivity.
Qed.
Print Assumptions C06_argparse_nonvacuous.

Theorem C06_function_wf_types : forall pt i fn ft it kw tds n a body d r i2 ftype,
    emit_function pt i fn ft it kw tds = Ok (SFunc n a body d r, i2) ->
    py_or ft (ir_type i) = Ok ftype ->
    guard_C06_function_types i = true ->
    guard_C06_function_names ftype i = true ->
    is_identifier n = true ->
    wf_python (SFunc n a body d r) = true.
Proof. exact C06_function_wf_types_lemma. Qed.
Print Assumptions C06_function_wf_types.

Example C06_function_wf_nonvacuous :
  guard_C06_function_types c6_fn_ir_ok = true
  /\ guard_C06_function_names (Some (L "self")) c6_fn_ir_ok = true
  /\ exists s i2, emit_function [] c6_fn_ir_ok (Some (L "f")) (Some (L "self")) true false (Ok []) = Ok (s, i2).
Proof.
  split; [vm_compute; reflexivity|]. split; [vm_compute; reflexivity|]. eexists. eexists. vm_compute. reflexivity.
Qed.
Print Assumptions C06_function_wf_nonvacuous.
