(* C06ValuesFacts: value-level agreement of the class and argparse emitters with the IR.
   Class: inside guard_C06_class the annotated assignments of the emitted class are exactly spec_class_attrs (name,
   annotation = the parse of the type text, value = the constant of the default), for any number of parameters, any
   parse table, every option combination.  Argparse: inside guard_C06_argparse the add_argument calls of the emitted
   function are exactly spec_argparse_table (option string, type, choices, action, help, required, default), word_wrap
   on or off.  Function: annotations of types inside TyExpr's canonical fragment are well formed, so wf_python of the
   emitted function follows from conditions on the IR alone.  Each statement at full strength is refuted, with one
   witness per excluded class. *)
From Coq Require Import List Ascii Bool Arith ZArith Lia.
From Coq Require String.
Import String.StringSyntax.
From DT Require Import PyStr Sexp PyVal TyExpr Extracted PureUtils Defaults C17Spec PyAst IR Fill EmitAst ParseAst.
From DT Require Import C02Spec C02Codec C04Spec C04Codec C06Spec C06Values.
From DT Require Import PyStrFacts PureUtilsFacts DefaultsFacts ParseAstFacts EmitAstFacts TyRoundTrip Param2AstFacts C06Facts C04Compose.
From DT Require ListFacts.
Import ListNotations.

Lemma class_spec_value_plain : forall pt t d,
    class_default_ok t d = true -> class_spec_value pt t d = Ok (class_plain_value t d).
Proof.
  intros pt t d H. unfold class_default_ok in H. destruct d as [[v|e|o]|]; try discriminate H; [|reflexivity].
  unfold class_spec_value, class_plain_value, ir_value.
  destruct (is_none_default v) eqn:En.
  - rewrite (is_none_default_in_none v En). reflexivity.
  - destruct (in_none_types v) eqn:Enn; [discriminate H|].
    destruct v as [|b|z|r|s]; try reflexivity.
    destruct (truthy (VStr s)) eqn:Etr.
    + apply andb_true_iff in H. destruct H as [_ Hp]. destruct (plain_str_inv s Hp) as [Hcq _]. rewrite Hcq. reflexivity.
    + destruct s as [|c s]; [reflexivity|discriminate Etr].
Qed.

Lemma class_attrs_guarded : forall pt (l : list (str * gparam)) attrs,
    forallb class_param_ok l = true ->
    map_outcome (fun kv => do r <- param2ast pt (fst kv) (snd kv); Ok (fst r)) l = Ok attrs ->
    map_outcome (spec_class_attr pt) l = Ok (flat_map attr_of_stmt attrs).
Proof.
  intros pt l. induction l as [|[n g] l IH]; intros attrs G H; cbn [map_outcome] in H.
  - inversion H; subst attrs. reflexivity.
  - cbn [forallb] in G. apply andb_true_iff in G. destruct G as [Gp Gl].
    binv H. rename a into y. binv H. rename a into ys. inversion H; subst attrs. clear H. cbn [fst snd] in Ha.
    unfold class_param_ok in Gp. cbn [fst snd] in Gp. apply andb_true_iff in Gp. destruct Gp as [_ Gp].
    destruct g as [gd gt d]. cbn [g_typ g_default] in Gp. destruct gt as [| |t]; try discriminate Gp.
    apply andb_true_iff in Gp. destruct Gp as [Gt Gd].
    rewrite (param2ast_typed pt n gd t d Gt Gd) in Ha. binv Ha. rename a into ann. inversion Ha; subst y.
    cbn [map_outcome]. unfold spec_class_attr at 1. cbn [fst snd g_typ g_default].
    rewrite Ha1. cbn [bind]. rewrite (class_spec_value_plain pt t d Gd). cbn [bind].
    rewrite (IH ys Gl Ha0). reflexivity.
Qed.

(* inside the guard the annotated assignments of the emitted class are exactly what the IR says *)
Theorem C06_class_partial_lemma : forall pt i ec cn bs ds ww tds s i',
    guard_C06_class i = true ->
    emit_class pt i ec cn bs ds ww tds = Ok (s, i') ->
    spec_class_attrs pt i = Ok (class_attrs_of s).
Proof.
  intros pt i ec cn bs ds ww tds s i' G H.
  destruct (emit_class_inv _ _ _ _ _ _ _ _ _ _ H) as (ib & text & meth & attrs & _ & _ & Hm & Ha & _ & ->).
  change (class_attrs_of (SClass cn (map EName bs) (SExpr (set_value (VStr (class_docstring text))) :: attrs ++ meth) (map EName ds)))
    with (flat_map attr_of_stmt (attrs ++ meth)).
  rewrite flat_map_app, (not_assign_no_attrs meth (class_meth_not_assign _ _ _ _ _ _ _ Hm)), app_nil_r.
  unfold spec_class_attrs. apply class_attrs_guarded; assumption.
Qed.

Lemma Forall2_Forall_l : forall {A B} (P : A -> Prop) (R : A -> B -> Prop) l l',
    Forall P l -> Forall2 R l l' -> Forall2 (fun a b => P a /\ R a b) l l'.
Proof. intros A B P R l l' HP HR. induction HR; inversion HP; subst; constructor; auto. Qed.

(* the same read attribute by attribute: name, annotation and value of every parameter, in order *)
Corollary C06_class_attr_values_lemma : forall pt i ec cn bs ds ww tds s i',
    guard_C06_class i = true ->
    emit_class pt i ec cn bs ds ww tds = Ok (s, i') ->
    Forall2 (fun kv a =>
               fst (fst a) = fst kv
               /\ (exists t, g_typ (snd kv) = Has t /\ parse_expr_src pt t = Ok (snd (fst a)))
               /\ match g_default (snd kv) with
                  | Some (DV v) => snd a = Some (EConst (ir_value v))
                  | _ => exists c, snd a = Some (EConst c)
                  end)
            (ir_params (class_fold_returns i)) (class_attrs_of s).
Proof.
  intros pt i ec cn bs ds ww tds s i' G H.
  pose proof (C06_class_partial_lemma _ _ _ _ _ _ _ _ _ _ G H) as Hsp. apply map_outcome_Forall2 in Hsp.
  apply ListFacts.forallb_true_Forall in G.
  refine (ListFacts.Forall2_impl _ _ _ _ _ _ _ (Forall2_Forall_l _ _ _ _ G Hsp)). clear. intros [n g] y [Gp Ha].
  unfold class_param_ok in Gp. cbn [fst snd] in Gp. apply andb_true_iff in Gp. destruct Gp as [_ Gp].
  unfold spec_class_attr in Ha. cbn [fst snd] in Ha.
  destruct (g_typ g) as [| |t] eqn:Et; try discriminate Gp.
  apply andb_true_iff in Gp. destruct Gp as [_ Gd].
  binv Ha. rename a into ann. rewrite (class_spec_value_plain pt t _ Gd) in Ha. cbn [bind] in Ha.
  inversion Ha; subst y. cbn [fst snd]. split; [reflexivity|]. split; [exists t; split; [exact Et|exact Ha0]|].
  unfold class_plain_value. destruct (g_default g) as [[v|e|o]|]; try discriminate Gd; [reflexivity|eexists; reflexivity].
Qed.

(* when the type text lies in TyExpr's canonical fragment the annotation is decided without the parse table and
   ast.unparse prints it as the IR's text *)
Lemma class_annotation_canonical : forall pt t e,
    typ_ast t = Some e -> parse_expr_src pt t = Ok e /\ code_of e = Ok t.
Proof. intros pt t e H. split; [apply typ_ast_parse; exact H | apply typ_ast_code; exact H]. Qed.

Definition c6_P (doc t : str) (d : option dval) : gparam := mkG (Has doc) (Has t) d.
Definition c6_one (n : str) (g : gparam) : ir :=
  mkIR (Has (L "f")) (Has (L "static")) (Has (L "Summary.")) [(n, g)] FNone None.

Definition c6_falsy := c6_one (L "x") (c6_P (L "the x.") (L "float") (Some (DV (VInt 0)))).

Theorem C06_class_refuted_lemma : ~ C06_class_statement.
Proof.
  intros H.
  specialize (H [] c6_falsy false (L "C") [] [] true (Ok (L "doc"))).
  destruct (emit_class [] c6_falsy false (L "C") [] [] true (Ok (L "doc"))) as [[s i']|e] eqn:E;
    [|vm_compute in E; discriminate E].
  specialize (H s i' eq_refl). vm_compute in E. inversion E; subst s. vm_compute in H. discriminate H.
Qed.

(* (IR, parse table): outside the guard, and the emitted attributes differ from the spec (or the
   emitter raises / the IR declares no type) *)
Definition c6_class_witnesses : list (ir * ptable) :=
  [ (c6_falsy, []);                                                                              (* falsy-default-becomes-zero: 0 under float is 0.0 *)
    (c6_one (L "x") (c6_P (L "the x.") (L "int") (Some (DV VNone))), []);                        (* None under int is 0 *)
    (c6_one (L "x") (c6_P (L "the x.") (L "str") (Some (DV (VStr NoneStr)))), []);               (* None under str is the empty str *)
    (c6_one (L "x") (c6_P (L "the x.") (L "Optional[str]") (Some (DV (VStr [])))), []);          (* empty str under Optional[str] is None *)
    (c6_one (L "x") (c6_P (L "the x.") (L "Optional[int]") (Some (DV (VStr (L "adam"))))),
     [(L "adam", Some (EName (L "adam")))]);                                                     (* str-default-parsed-as-code *)
    (c6_one (L "x") (c6_P (L "the x.") (L "Union[str, int]") (Some (DV (VInt 5)))), []);         (* quote-of-non-str-default: raises *)
    (c6_one (L "x") (c6_P (L "the x.") (L "str") (Some (DV (VStr (L "'q'"))))), []);             (* str-default-requoted *)
    (c6_one (L "x") (c6_P (L "the x.") (L "str") (Some (DV (VStr (L "None"))))), []);            (* the str None stays a str *)
    (c6_one (L "x") (c6_P (L "the x.") (L "str") (Some (DV (VStr (L "```[1, 2]```"))))),
     [(L "[1, 2]", Some (EList [EConst (VInt 1); EConst (VInt 2)]))]);                           (* code-default-emitted-as-string *)
    (c6_one (L "x") (mkG (Has (L "the x.")) Missing (Some (DV (VInt 5)))), []);                  (* annotation-from-default *)
    (c6_one (L "x") (mkG (Has (L "the x.")) Missing (Some (DV VNone))), []) ].                   (* NoneType-annotation *)

(* a private name is excluded although the syntax tree agrees: the mangling is CPython's *)
Lemma C06_class_private_name_witness :
  guard_C06_class (c6_one (L "__x") (c6_P (L "the x.") (L "int") (Some (DV (VInt 5))))) = false
  /\ C06_class_holds_b [] (c6_one (L "__x") (c6_P (L "the x.") (L "int") (Some (DV (VInt 5))))) false true (L "doc") = true.
Proof. split; vm_compute; reflexivity. Qed.

(* non-vacuity: ten parameters (int, float, str, bool, Optional, Literal, dotted name; defaults of every scalar
   type, None, absent) and a return entry *)
Definition c6_ir_ok : ir :=
  mkIR (Has (L "f")) (Has (L "static")) (Has (L "Summary."))
   [(L "n", c6_P (L "the n.") (L "int") (Some (DV (VInt 5))));
    (L "rate", c6_P (L "the rate.") (L "float") (Some (DV (VFloat (L "0.5")))));
    (L "name", c6_P (L "the name.") (L "str") (Some (DV (VStr (L "mnist")))));
    (L "flag", c6_P (L "the flag.") (L "bool") (Some (DV (VBool true))));
    (L "opt", c6_P (L "the opt.") (L "Optional[int]") (Some (DV (VStr NoneStr))));
    (L "kind", c6_P (L "the kind.") (L "Literal['a', 'b']") (Some (DV (VStr (L "a")))));
    (L "arr", c6_P (L "the arr.") (L "np.ndarray") None);
    (L "z", c6_P (L "the z.") (L "int") (Some (DV (VInt 0))));
    (L "os", c6_P (L "the os.") (L "Optional[str]") (Some (DV VNone)));
    (L "nodef", c6_P (L "no def.") (L "float") None)]
   (Has (mkG (Has (L "result.")) (Has (L "List[int]")) None)) None.

Lemma map_set_value_stable : forall cs,
    forallb sv_stable cs = true -> map set_value (map VStr cs) = map (fun c => EConst (VStr c)) cs.
Proof.
  induction cs as [|c cs IH]; intros H; [reflexivity|]. cbn [forallb] in H. apply andb_true_iff in H. destruct H as [Hc Hcs].
  cbn [map]. rewrite (sv_stable_set_value c Hc), (IH Hcs). reflexivity.
Qed.

Lemma kws_of_ap_kws : forall T (app : bool) cs help req dflt,
    scalar_facts T ->
    match help with Some h => sv_stable h = true | None => True end ->
    match dflt with Some v => set_value v = EConst v | None => True end ->
    match cs with Some l => forallb sv_stable l = true | None => True end ->
    kws_of (if str_eqb T (L "str") && negb app then None else Some T) (option_map (map VStr) cs)
           (if app then Some (L "append") else None) help req dflt
    = ap_kws (if str_eqb T (L "str") && negb app then None else Some T) cs
             (if app then Some (L "append") else None) help req dflt.
Proof.
  intros T app cs help req dflt F Hh Hd Hc. unfold kws_of, ap_kws. f_equal; [|f_equal; [|f_equal; [|f_equal; [|f_equal]]]].
  - destruct (str_eqb T (L "str") && negb app); [reflexivity|]. rewrite (sf_globals _ F). reflexivity.
  - destruct cs as [l|]; [|reflexivity]. cbn [option_map]. rewrite (map_set_value_stable l Hc). reflexivity.
  - destruct app; reflexivity.
  - destruct help as [h|]; [|reflexivity]. rewrite (sv_stable_set_value h Hh). reflexivity.
  - destruct dflt as [v|]; [|reflexivity]. rewrite Hd. reflexivity.
Qed.

Lemma ap_default_ok_inv : forall T d,
    ap_default_ok T d = true ->
    (d = Some (DV VNone) \/ dflt_cond T d)
    /\ match ap_default_of d with Some v => set_value v = EConst v | None => True end.
Proof.
  intros T d H. unfold ap_default_ok in H. destruct d as [[v|e|o]|]; try discriminate H; [|split; [right|]; exact I].
  destruct v as [|b|z|r|s]; [split; [left; reflexivity|exact I]|..];
    apply andb_true_iff in H; destruct H as [Ht Hv]; apply str_eqb_eq in Ht; cbn [dflt_cond ap_default_of].
  1-3: split; [right; split; [exact Ht|exact I]|reflexivity].
  apply andb_true_iff in Hv. destruct Hv as [Hv H3]. apply andb_true_iff in Hv. destruct Hv as [H1 H2].
  apply negb_true_iff in H2. apply negb_true_iff in H3.
  split; [right; repeat split; assumption|apply sv_stable_set_value; exact H1].
Qed.

Lemma ap_help_ok_inv : forall ww docf gt d,
    ap_help_ok ww (mkG docf gt d) = true ->
    match docf with
    | Has (c :: r) => no_announce (c :: r) = true /\ forall h, fill_if ww (c :: r) = Ok h -> sv_stable h = true
    | _ => True
    end.
Proof.
  intros ww docf gt d H. unfold ap_help_ok, prose_of in H. cbn [g_doc] in H.
  destruct docf as [| |[|c r]]; try exact I. apply andb_true_iff in H. destruct H as [H1 H2].
  split; [exact H1|]. intros h Hh. rewrite Hh in H2. exact H2.
Qed.

Lemma ap_row_core : forall pt ww edd n docf t d T (app : bool) cs required pl s,
    scalar_facts T ->
    resolve_plan t = Some pl -> endswith (L "kwargs") n = false ->
    rs_action pl = (if app then Some (L "append") else None) ->
    rs_choices pl = option_map (map VStr) cs -> rs_typ pl = Some T ->
    req_of_plan pl (required0_of d) = required ->
    match cs with Some l => forallb sv_stable l = true | None => True end ->
    ap_help_ok ww (mkG docf (Has t) d) = true -> ap_default_ok T d = true ->
    param2argparse_param pt ww edd n (mkG docf (Has t) d) = Ok s ->
    s = call_stmt (spec_option n,
                   ap_kws (if str_eqb T (L "str") && negb app then None else Some T) cs
                          (if app then Some (L "append") else None) (ap_help_of ww (mkG docf (Has t) d))
                          required (ap_default_of d)).
Proof.
  intros pt ww edd n docf t d T app cs required pl s F Hplan Hn Hact Hch HT Hreq Hcs Hhelp Hd H.
  pose proof (ap_help_ok_inv ww docf (Has t) d Hhelp) as Hdoc.
  destruct (ap_default_ok_inv T d Hd) as [Hdc Hdv].
  rewrite (p2a_core pt ww edd n docf t d T app (option_map (map VStr) cs) required F) in H; [| |..|exact Hdc].
  - assert (K : forall help, match help with Some h => sv_stable h = true | None => True end ->
                  call_stmt (option_arg n,
                             kws_of (if str_eqb T (L "str") && negb app then None else Some T) (option_map (map VStr) cs)
                                    (if app then Some (L "append") else None) help required (ap_default_of d))
                  = call_stmt (spec_option n,
                               ap_kws (if str_eqb T (L "str") && negb app then None else Some T) cs
                                      (if app then Some (L "append") else None) help required (ap_default_of d)))
      by (intros help Hh; rewrite (kws_of_ap_kws T app cs help required (ap_default_of d) F Hh Hdv Hcs); reflexivity).
    unfold ap_help_of, prose_of. cbn [g_doc].
    destruct docf as [| |[|c r]]; cbn [bind] in H.
    1-3: injection H as <-; exact (K None I).
    destruct Hdoc as [_ Hsv]. destruct (fill_if ww (c :: r)) as [h|e]; [|discriminate H].
    injection H as <-. exact (K (Some h) (Hsv h eq_refl)).
  - rewrite (resolve_arg_plan n docf t d _ pl Hplan Hn), Hact, Hch, HT, Hreq. reflexivity.
  - destruct docf as [| |[|c r]]; try exact I. apply Hdoc.
Qed.

Lemma ap_row_guarded : forall pt ww edd n g s,
    ap_param_ok ww (n, g) = true ->
    param2argparse_param pt ww edd n g = Ok s ->
    exists row, spec_argparse_row ww (n, g) = Some row /\ s = call_stmt row.
Proof.
  intros pt ww edd n [docf gt d] s G H. unfold ap_param_ok in G. cbn [fst snd g_typ g_default] in G.
  apply andb_true_iff in G. destruct G as [Hn G]. unfold plain_name_C04 in Hn. apply negb_true_iff in Hn.
  destruct gt as [| |t]; try discriminate G.
  unfold spec_argparse_row. cbn [fst snd g_typ g_default].
  destruct (shape_of_typ t) as [sh|] eqn:Esh.
  - apply andb_true_iff in G. destruct G as [Hhelp Hd].
    destruct (shape_of_typ_inv t sh Esh) as [pl [Hplan [HT [Hch [Hact [Hreq [Hsc [Hao Htyp]]]]]]]].
    pose proof (scalar4_facts _ Hsc) as F.
    eexists. split; [reflexivity|].
    apply (ap_row_core pt ww edd n docf t d (sh_T sh) (sh_append sh) None _ pl s F Hplan Hn Hact Hch HT); try assumption; [|exact I].
    rewrite (req_of_plan_shape pl sh (required0_of d) HT Hreq F). reflexivity.
  - destruct (literal_of_typ t) as [cs|] eqn:El; [|discriminate G].
    apply andb_true_iff in G. destruct G as [Hhelp Hd].
    destruct (literal_of_typ_inv t cs El) as [pl [Hplan [HT [Hch [Hact [Hreq [Hcs Htext]]]]]]].
    eexists. split; [reflexivity|].
    apply (ap_row_core pt ww edd n docf t d (L "str") false (Some cs) true pl s scalar_facts_str Hplan Hn Hact Hch HT); try assumption.
    unfold req_of_plan. rewrite Hreq, HT. reflexivity.
Qed.

Lemma ap_rows_guarded : forall pt ww edd (l : list (str * gparam)) ps,
    forallb (ap_param_ok ww) l = true ->
    map_outcome (fun kv => param2argparse_param pt ww edd (fst kv) (snd kv)) l = Ok ps ->
    exists rows, sequence_opt (map (spec_argparse_row ww) l) = Some rows /\ ps = map call_stmt rows.
Proof.
  intros pt ww edd l. induction l as [|[n g] l IH]; intros ps G H; cbn [map_outcome] in H.
  - inversion H; subst ps. exists []. split; reflexivity.
  - cbn [forallb] in G. apply andb_true_iff in G. destruct G as [Gp Gl].
    binv H. rename a into y. binv H. rename a into ys. inversion H; subst ps. clear H. cbn [fst snd] in Ha.
    destruct (ap_row_guarded pt ww edd n g y Gp Ha) as [row [Hrow Hy]].
    destruct (IH ys Gl Ha0) as [rows [Hrows Hys]].
    exists (row :: rows). cbn [map sequence_opt]. rewrite Hrow, Hrows. split; [reflexivity|]. subst y ys. reflexivity.
Qed.

Definition row_of_stmt (x : stmt) : list (list expr * list (option str * expr)) :=
  match is_add_argument x with Some r => [r] | None => [] end.

Lemma rows_of_calls : forall rows, flat_map row_of_stmt (map call_stmt rows) = rows.
Proof.
  induction rows as [|[a k] rows IH]; [reflexivity|]. cbn [map flat_map]. rewrite IH. reflexivity.
Qed.

(* inside the guard the add_argument calls of the emitted function are exactly what the IR says *)
Theorem C06_argparse_partial_lemma : forall pt i edd fn ft wd ww ds s i2,
    guard_C06_argparse ww i = true ->
    emit_argparse pt i edd fn ft wd ww ds = Ok (s, i2) ->
    spec_argparse_table ww i = Some (argparse_table_of s).
Proof.
  intros pt i edd fn ft wd ww ds s i2 G H. unfold guard_C06_argparse in G.
  apply andb_true_iff in G. destruct G as [Gp Gb].
  destruct (emit_argparse_no_body _ _ _ _ _ _ _ _ _ _ Gb H) as [n [dtext [desc [ps [e [Hs Hps]]]]]].
  destruct (ap_rows_guarded pt ww edd _ ps Gp Hps) as [rows [Hrows Hcalls]].
  unfold spec_argparse_table. rewrite Hrows. subst s ps.
  unfold argparse_table_of. fold row_of_stmt. cbn [flat_map app]. rewrite flat_map_app, rows_of_calls.
  cbn [flat_map row_of_stmt is_add_argument description_assign app]. rewrite app_nil_r. reflexivity.
Qed.

Definition c6_ap_inferred := c6_one (L "x") (c6_P (L "the x.") (L "float") (Some (DV (VInt 0)))).

Theorem C06_argparse_refuted_lemma : ~ C06_argparse_statement.
Proof.
  intros H.
  specialize (H [] c6_ap_inferred false (Some (L "f")) (Some (L "static")) false false (Ok (L "Doc."))).
  destruct (emit_argparse [] c6_ap_inferred false (Some (L "f")) (Some (L "static")) false false (Ok (L "Doc.")))
    as [[s i2]|e] eqn:E; [|vm_compute in E; discriminate E].
  destruct (spec_argparse_table false c6_ap_inferred) as [tb|] eqn:Et; [|vm_compute in Et; discriminate Et].
  specialize (H s i2 eq_refl tb eq_refl). subst tb. vm_compute in E. inversion E; subst s.
  vm_compute in Et. discriminate Et.
Qed.

(* outside the guard, and the emitted table differs from the spec table (or the declared type is none of the forms
   the spec covers) *)
Definition c6_ap_pt : ptable :=
  [(L "(1, 2)", Some (ETuple [EConst (VInt 1); EConst (VInt 2)])); (L "(None)", Some (EConst VNone))].

Definition c6_argparse_witnesses : list ir :=
  [ c6_ap_inferred;                                                                        (* argparse-inference: float, default 0: type=int *)
    c6_one (L "x") (c6_P (L "the x.") (L "int") (Some (DV (VStr (L "abc")))));            (* int, default a str: no type= *)
    c6_one (L "x") (c6_P (L "the x.") (L "str") (Some (DV (VStr (L "```(1, 2)```")))));   (* code default: type=loads *)
    c6_one (L "x") (c6_P (L "the x.") (L "str") (Some (DV (VStr (L "'q'")))));            (* str default unquoted *)
    c6_one (L "x") (c6_P (L "'the x.'") (L "str") None);                                  (* help text unquoted *)
    c6_one (L "x") (c6_P (L "the x. Defaults to 5") (L "int") None);                      (* announced default moved out of the help *)
    c6_one (L "x") (c6_P (L "the x.") (L "Literal['a']") (Some (DV (VStr (L "a"))))) ].   (* argparse-single-literal-no-choices *)

(* the single-member Literal: the emitted call states no choices *)
Lemma C06_argparse_single_literal_witness :
  exists s i2 kws,
    emit_argparse [] (c6_one (L "x") (c6_P (L "the x.") (L "Literal['a']") (Some (DV (VStr (L "a"))))))
                  false (Some (L "f")) (Some (L "static")) false false (Ok (L "Doc.")) = Ok (s, i2)
    /\ argparse_table_of s = [(spec_option (L "x"), kws)]
    /\ existsb (fun k => option_eqb str_eqb (fst k) (Some (L "choices"))) kws = false.
Proof. eexists. eexists. eexists. split; [vm_compute; reflexivity|]. split; vm_compute; reflexivity. Qed.

(* non-vacuity: nine options (int, float, str, bool with defaults; Optional[int], Literal of two, List[int],
   Optional[str] with default None, an undocumented float), word_wrap on and off *)
Definition c6_ap_ir_ok : ir :=
  mkIR (Has (L "f")) (Has (L "static")) (Has (L "Summary."))
   [(L "n", c6_P (L "the n.") (L "int") (Some (DV (VInt 5))));
    (L "rate", c6_P (L "the rate.") (L "float") (Some (DV (VFloat (L "0.5")))));
    (L "name", c6_P (L "the name.") (L "str") (Some (DV (VStr (L "mnist")))));
    (L "flag", c6_P (L "the flag.") (L "bool") (Some (DV (VBool true))));
    (L "opt", c6_P (L "the opt.") (L "Optional[int]") None);
    (L "kind", c6_P (L "the kind.") (L "Literal['a', 'b']") (Some (DV (VStr (L "a")))));
    (L "ls", c6_P (L "the list.") (L "List[int]") None);
    (L "maybe", c6_P (L "the maybe.") (L "Optional[str]") (Some (DV VNone)));
    (L "nodef", mkG Missing (Has (L "float")) None)]
   (Has (mkG (Has (L "result.")) (Has (L "List[int]")) None)) None.

Lemma fold_attr_not_name_none : forall r e,
    is_name_none e = false -> is_name_none (fold_left (fun e a => EAttr e a) r e) = false.
Proof. induction r as [|a r IH]; intros e H; [exact H|]. cbn [fold_left]. apply IH. reflexivity. Qed.

Lemma chain_expr_not_name_none : forall parts e, chain_expr parts = Some e -> is_name_none e = false.
Proof.
  intros parts e H. unfold chain_expr in H. destruct parts as [|h r]; [discriminate H|].
  destruct (existsb is_const_word (h :: r)); [discriminate H|]. inversion H. apply fold_attr_not_name_none. reflexivity.
Qed.

Lemma ty2expr_not_name_none : forall t e, ty2expr t = Some e -> is_name_none e = false.
Proof.
  intros t e H. destruct t as [parts|head args|s|z|v|elts].
  - cbn [ty2expr] in H. eapply chain_expr_not_name_none. exact H.
  - rewrite ty2expr_sub in H. destruct (chain_expr head) as [h|]; [|discriminate H].
    destruct (tys2exprs args) as [[|a [|b r]]|]; try discriminate H; inversion H; reflexivity.
  - inversion H. reflexivity.
  - cbn [ty2expr] in H. destruct (z <? 0)%Z; inversion H; reflexivity.
  - inversion H. reflexivity.
  - rewrite ty2expr_list in H. destruct (tys2exprs elts); [|discriminate H]. inversion H. reflexivity.
Qed.

Lemma typ_ast_ann_ok : forall pt t e e',
    typ_ast t = Some e' -> parse_expr_src pt t = Ok e -> ann_ok (Some e) = true.
Proof.
  intros pt t e e' Ht Hp. rewrite (typ_ast_parse pt t e' Ht) in Hp. inversion Hp; subst e'.
  destruct (typ_ast_inv t e Ht) as [_ [ty [_ [_ [_ He]]]]].
  unfold ann_ok. rewrite (ty2expr_not_name_none ty e He). reflexivity.
Qed.

Lemma arg_of_param_ann_ok : forall pt it kv a,
    fn_param_typ_ok kv = true -> arg_of_param pt it kv = Ok a -> ann_ok (a_ann a) = true.
Proof.
  intros pt it [n g] a G H. unfold arg_of_param in H. unfold fn_param_typ_ok in G. cbn [snd] in G.
  destruct it; [|inversion H; reflexivity].
  destruct (g_typ g) as [| |t]; [inversion H; reflexivity|discriminate G|].
  unfold fn_typ_ok in G. destruct (in_simple_types t); [inversion H; reflexivity|]. cbn [orb] in G.
  binv H. inversion H; subst a. cbn [set_arg a_ann]. unfold ast_parse_fix in Ha.
  destruct (typ_ast (bracket_fix t)) as [e'|] eqn:Et; [|discriminate G].
  eapply typ_ast_ann_ok; eassumption.
Qed.

Lemma args_of_params_ann_ok : forall pt it l afp,
    forallb fn_param_typ_ok l = true -> map_outcome (arg_of_param pt it) l = Ok afp ->
    forallb (fun x => ann_ok (a_ann x)) afp = true.
Proof.
  intros pt it l. induction l as [|kv l IH]; intros afp G H; cbn [map_outcome] in H.
  - inversion H. reflexivity.
  - cbn [forallb] in G. apply andb_true_iff in G. destruct G as [Gk Gl].
    binv H. binv H. inversion H; subst afp. cbn [forallb].
    rewrite (arg_of_param_ann_ok pt it kv a Gk Ha), (IH a0 Gl Ha0). reflexivity.
Qed.

Lemma forallb_and_map : forall {A B} (p : B -> bool) (q : A -> bool) (f : A -> B) l,
    forallb p (map f l) = true -> forallb q l = true -> forallb (fun x => p (f x) && q x) l = true.
Proof.
  intros A B p q f l. induction l as [|x l IH]; intros Hp Hq; [reflexivity|]. cbn [map forallb] in *.
  apply andb_true_iff in Hp. destruct Hp as [Hp1 Hp2]. apply andb_true_iff in Hq. destruct Hq as [Hq1 Hq2].
  rewrite Hp1, Hq1, (IH Hp2 Hq2). reflexivity.
Qed.

Lemma emit_function_returns : forall pt i fn ft it kw tds n a body d r i2,
    emit_function pt i fn ft it kw tds = Ok (SFunc n a body d r, i2) ->
    (if it then
       match returns_param i with
       | Some p => match fget (g_typ p) with
                   | Some (c :: t) => do e <- parse_expr_src pt (c :: t); Ok (Some e)
                   | _ => Ok None
                   end
       | None => Ok None
       end
     else Ok None) = Ok r
    /\ body <> [].
Proof.
  intros pt i fn ft it kw tds n args body d r i2 H.
  destruct (emit_function_inv _ _ _ _ _ _ _ _ _ H)
    as (n' & ftype & afp & dfp & ib & rv & text & r' & _ & _ & _ & _ & _ & _ & _ & Hr & Hs & _).
  injection Hs as _ _ Hb _ Hr'. subst r' body. split; [exact Hr|discriminate].
Qed.

(* wf_python of the emitted function from conditions on the IR alone: the names are distinct identifiers and every
   declared type is a scalar name or lies in TyExpr's canonical fragment (discharges the annotation hypothesis of
   C06_function_wf) *)
Theorem C06_function_wf_types_lemma : forall pt i fn ft it kw tds n a body d r i2 ftype,
    emit_function pt i fn ft it kw tds = Ok (SFunc n a body d r, i2) ->
    py_or ft (ir_type i) = Ok ftype ->
    guard_C06_function_types i = true ->
    guard_C06_function_names ftype i = true ->
    is_identifier n = true ->
    wf_python (SFunc n a body d r) = true.
Proof.
  intros pt i fn ft it kw tds n a body d r i2 ftype H Hft Gt Gn Hid.
  destruct (emit_function_arguments _ _ _ _ _ _ _ _ _ _ _ _ _ H) as [ftype' [afp [dfp [Hft' [Ha [Hd Hargs]]]]]].
  rewrite Hft in Hft'. inversion Hft'; subst ftype'. clear Hft'.
  destruct (emit_function_returns _ _ _ _ _ _ _ _ _ _ _ _ _ H) as [Hr Hbody].
  unfold guard_C06_function_types in Gt. apply andb_true_iff in Gt. destruct Gt as [Gp Gr].
  unfold guard_C06_function_names in Gn. apply andb_true_iff in Gn. destruct Gn as [Gid Gnd].
  pose proof (map_outcome_arg_names _ _ _ _ Ha) as Hnames.
  pose proof (args_of_params_ann_ok pt it _ afp Gp Ha) as Hann.
  assert (Hall : map a_name (all_args a) = fn_all_names ftype i
                 /\ forallb (fun x => ann_ok (a_ann x)) (all_args a) = true).
  { assert (H0 : forallb (fun x => ann_ok (a_ann x)) (fn_args0 ftype) = true).
    { unfold fn_args0. destruct ftype as [t0|]; [destruct (str_eqb t0 (L "static"))|]; reflexivity. }
    assert (N0 : map a_name (fn_args0 ftype)
                 = match ftype with None => [] | Some t0 => if str_eqb t0 (L "static") then [] else [t0] end).
    { unfold fn_args0. destruct ftype as [t0|]; [destruct (str_eqb t0 (L "static"))|]; reflexivity. }
    assert (Hk : forallb (fun x => ann_ok (a_ann x)) (match fn_kwarg i with Some x => [x] | None => [] end) = true).
    { unfold fn_kwarg. destruct (filter (fun kv => negb (no_kwargs kv)) (ir_params i)); reflexivity. }
    assert (Nk : map a_name (match fn_kwarg i with Some x => [x] | None => [] end)
                 = match filter (fun kv => negb (no_kwargs kv)) (ir_params i) with kv :: _ => [fst kv] | [] => [] end).
    { unfold fn_kwarg. destruct (filter (fun kv => negb (no_kwargs kv)) (ir_params i)); reflexivity. }
    subst a. unfold all_args, fn_all_names.
    destruct kw; cbn [ar_args ar_kwonly ar_vararg ar_kwarg app];
      rewrite ?map_app, ?forallb_app, ?N0, ?Nk, ?Hnames, ?H0, ?Hann, ?Hk, ?app_nil_r, <- ?app_assoc; split; reflexivity. }
  destruct Hall as [Hn Hall].
  assert (Hwf : wf_arguments a = true).
  { eapply emit_function_wf; [exact H| |rewrite Hn; exact Gnd].
    apply forallb_and_map; [rewrite Hn; exact Gid|exact Hall]. }
  assert (Hrok : ann_ok r = true).
  { destruct it; [|inversion Hr; reflexivity].
    unfold returns_param in Hr. unfold fn_return_typ_ok in Gr.
    destruct (ir_returns i) as [| |p]; try (inversion Hr; reflexivity). cbn [fget] in Hr.
    destruct (g_typ p) as [| |[|c t]]; try (inversion Hr; reflexivity). cbn [fget] in Hr.
    binv Hr. inversion Hr; subst r.
    destruct (typ_ast (c :: t)) as [e'|] eqn:Et; [|discriminate Gr]. eapply typ_ast_ann_ok; eassumption. }
  unfold wf_python. rewrite Hid, Hwf, Hrok. destruct body; [contradiction|reflexivity].
Qed.

Definition c6_fn_ir_ok : ir :=
  mkIR (Has (L "f")) (Has (L "static")) (Has (L "Summary."))
   [(L "n", c6_P (L "the n.") (L "int") (Some (DV (VInt 5))));
    (L "rate", c6_P (L "the rate.") (L "Optional[float]") (Some (DV (VFloat (L "0.5")))));
    (L "kind", c6_P (L "the kind.") (L "Literal['a', 'b']") (Some (DV (VStr (L "a")))));
    (L "arr", c6_P (L "the arr.") (L "np.ndarray") None);
    (L "kwargs", c6_P (L "more.") (L "Optional[dict]") (Some (DV (VStr NoneStr))))]
   (Has (mkG (Has (L "result.")) (Has (L "Tuple[int, str]")) None)) None.

(* excluded: typ present but None with inline types gives Name(None) (name-none-annotation) *)
Lemma C06_function_name_none_witness :
  let i := c6_one (L "x") (mkG (Has (L "the x.")) FNone None) in
  guard_C06_function_types i = false
  /\ exists s i2, emit_function [] i (Some (L "f")) (Some (L "static")) true false (Ok []) = Ok (s, i2)
                  /\ wf_python s = false.
Proof. split; [vm_compute; reflexivity|]. eexists. eexists. split; [vm_compute; reflexivity|]. vm_compute. reflexivity. Qed.
