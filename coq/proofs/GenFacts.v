(* GenFacts: the model of gen (model/Gen.v): hoisting, names, parseability of what gen assembles under
   python_like, gen inside gen_conditions (gen_in_guard), the C19 theorems stated in props/C19.v, the runs
   recorded from the harness (the w_ samples), and a line-based parser showing python_like satisfiable (Section LineParser). *)
From Coq Require Import List Ascii Bool Arith ZArith Permutation Sorted Lia.
From Coq Require String.
Import String.StringSyntax.
From DT Require Import PyStr Sexp PyVal Gen C19Spec PyStrFacts ListFacts.
Import ListNotations.

Lemma filter_filter_disjoint : forall {A} (p q : A -> bool) l,
    (forall x, q x = true -> p x = false) -> filter p (filter q l) = [].
Proof.
  intros A p q l H. apply filter_none. intros x Hx. apply filter_In in Hx. apply H. apply Hx.
Qed.

Lemma filter_filter_sub : forall {A} (p q : A -> bool) l,
    (forall x, q x = true -> p x = true) -> filter p (filter q l) = filter q l.
Proof.
  intros A p q l H. apply filter_all. intros x Hx. apply filter_In in Hx. apply H. apply Hx.
Qed.

Lemma Forall_filter : forall {A} (P : A -> Prop) (p : A -> bool) l, Forall P l -> Forall P (filter p l).
Proof.
  intros A P p l H. apply Forall_forall. intros x Hx. apply filter_In in Hx.
  rewrite Forall_forall in H. apply H. apply Hx.
Qed.

Lemma StronglySorted_app : forall {A} (R : A -> A -> Prop) a b,
    StronglySorted R a -> StronglySorted R b -> (forall x y, In x a -> In y b -> R x y) ->
    StronglySorted R (a ++ b).
Proof.
  intros A R a b Ha Hb Hab. induction Ha as [|x a' Ha' IH Hx]; cbn; [exact Hb|].
  constructor.
  - apply IH. intros u v Hu Hv. apply Hab; [right; exact Hu|exact Hv].
  - apply Forall_app. split; [exact Hx|].
    apply Forall_forall. intros y Hy. apply Hab; [left; reflexivity|exact Hy].
Qed.

Lemma StronglySorted_const : forall {A} (f : A -> nat) k l,
    Forall (fun x => f x = k) l -> StronglySorted (fun a b => f a <= f b) l.
Proof.
  intros A f k l H. induction H as [|x r Hx Hr IH]; constructor; [exact IH|].
  apply Forall_forall. intros y Hy. rewrite Forall_forall in Hr. rewrite Hx, (Hr y Hy). lia.
Qed.

Lemma is_future_import : forall t, is_future t = true -> is_import t = true.
Proof. intros [b s d|[m|] s|c n s|ns s|s]; cbn; intros H; try discriminate; reflexivity. Qed.

Lemma is_future_rank : forall t, is_future t = rank_is 0 t.
Proof. intros t. unfold rank_is, rank. destruct (is_future t); [reflexivity|]. destruct (is_import t); reflexivity. Qed.

Lemma is_plain_rank : forall t, is_plain_import t = rank_is 1 t.
Proof.
  intros t. unfold rank_is, rank, is_plain_import.
  destruct (is_future t) eqn:F.
  - rewrite (is_future_import t F). reflexivity.
  - destruct (is_import t); reflexivity.
Qed.

Lemma nonimp_rank : forall t, nonimp t = rank_is 2 t.
Proof.
  intros t. unfold rank_is, rank, nonimp.
  destruct (is_future t) eqn:F.
  - rewrite (is_future_import t F). reflexivity.
  - destruct (is_import t); reflexivity.
Qed.

Lemma rank_le_2 : forall t, rank t <= 2.
Proof. intros t. unfold rank. destruct (is_future t); [lia|]. destruct (is_import t); lia. Qed.

Lemma hoist3_rank : forall l,
    hoist3 l = filter (rank_is 0) l ++ filter (rank_is 1) l ++ filter (rank_is 2) l.
Proof.
  intros l. unfold hoist3.
  rewrite (filter_ext _ _ is_future_rank), (filter_ext _ _ is_plain_rank), (filter_ext _ _ nonimp_rank).
  reflexivity.
Qed.

Lemma hoist_split : forall body, hoist body = doc_part body ++ hoist3 (rest_part body).
Proof.
  intros body. unfold hoist, doc_part, rest_part, hoist3.
  destruct (has_doc body) eqn:D; [|reflexivity].
  destruct body as [|[b s d|m s|c n s|ns s|s] r]; try discriminate D.
  destruct b; [|discriminate D]. reflexivity.
Qed.

Lemma has_doc_shape : forall body, has_doc body = true ->
    exists s d r, body = TStr true s d :: r.
Proof.
  intros [|[b s d|m s|c n s|ns s|s] r] D; try discriminate D.
  destruct b; [|discriminate D]. exists s, d, r. reflexivity.
Qed.

Lemma doc_rest_eq : forall body, doc_part body ++ rest_part body = body.
Proof.
  intros body. unfold doc_part, rest_part. destruct (has_doc body); [apply firstn_skipn|reflexivity].
Qed.

Lemma hoist3_perm : forall l, Permutation (hoist3 l) l.
Proof.
  induction l as [|x r IH]; [apply perm_nil|].
  unfold hoist3 in *. cbn [filter]. unfold is_plain_import, nonimp.
  destruct (is_future x) eqn:F.
  - rewrite (is_future_import x F). cbn. apply perm_skip. exact IH.
  - destruct (is_import x) eqn:I; cbn.
    + apply Permutation_sym. apply Permutation_cons_app. apply Permutation_sym. exact IH.
    + apply Permutation_sym. rewrite app_assoc. apply Permutation_cons_app.
      rewrite <- app_assoc. apply Permutation_sym. exact IH.
Qed.

Lemma hoist_perm : forall body, Permutation (hoist body) body.
Proof.
  intros body. rewrite hoist_split. rewrite <- (doc_rest_eq body) at 3.
  apply Permutation_app_head. apply hoist3_perm.
Qed.

Lemma filter_rank_filter_rank : forall j k l,
    filter (rank_is k) (filter (rank_is j) l) = if Nat.eqb j k then filter (rank_is j) l else [].
Proof.
  intros j k l. destruct (Nat.eqb j k) eqn:E.
  - apply Nat.eqb_eq in E. subst k. apply filter_filter_sub. intros x Hx. exact Hx.
  - apply filter_filter_disjoint. intros x Hx. unfold rank_is in *.
    apply Nat.eqb_eq in Hx. apply Nat.eqb_neq in E. apply Nat.eqb_neq. lia.
Qed.

Lemma hoist3_stable : forall k l, filter (rank_is k) (hoist3 l) = filter (rank_is k) l.
Proof.
  intros k l. rewrite hoist3_rank. rewrite !filter_app, !filter_rank_filter_rank.
  destruct k as [|[|[|k]]]; cbn; rewrite ?app_nil_r; try reflexivity.
  symmetry. apply filter_none. intros x _. unfold rank_is. apply Nat.eqb_neq.
  pose proof (rank_le_2 x). lia.
Qed.

Lemma hoist_stable : forall k body, filter (rank_is k) (hoist body) = filter (rank_is k) body.
Proof.
  intros k body. rewrite hoist_split. rewrite <- (doc_rest_eq body) at 3.
  rewrite !filter_app. f_equal. apply hoist3_stable.
Qed.

Lemma hoist_keeps_nonimports : forall body, filter nonimp (hoist body) = filter nonimp body.
Proof.
  intros body. rewrite !(filter_ext _ _ nonimp_rank). apply hoist_stable.
Qed.

Lemma hoist_imports_order : forall body,
    filter is_import (hoist body) = filter is_future body ++ filter is_plain_import body.
Proof.
  intros body.
  assert (H3 : forall l, filter is_import (hoist3 l) = filter is_future l ++ filter is_plain_import l).
  { intros l. unfold hoist3. rewrite !filter_app.
    rewrite (filter_filter_sub is_import is_future) by (intros x Hx; apply is_future_import; exact Hx).
    rewrite (filter_filter_sub is_import is_plain_import)
      by (intros x Hx; unfold is_plain_import in Hx; apply andb_true_iff in Hx; apply Hx).
    rewrite (filter_filter_disjoint is_import nonimp)
      by (intros x Hx; unfold nonimp in Hx; apply negb_true_iff in Hx; exact Hx).
    rewrite app_nil_r. reflexivity. }
  rewrite hoist_split, filter_app, H3.
  unfold doc_part, rest_part. destruct (has_doc body) eqn:D; [|reflexivity].
  destruct (has_doc_shape body D) as [s [d [r E]]]. subst body. reflexivity.
Qed.

Lemma hoist3_sorted : forall l, StronglySorted (fun a b => rank a <= rank b) (hoist3 l).
Proof.
  intros l. rewrite hoist3_rank.
  assert (HF : forall k, Forall (fun x => rank x = k) (filter (rank_is k) l)).
  { intros k. apply Forall_forall. intros x Hx. apply filter_In in Hx. apply Nat.eqb_eq. apply Hx. }
  assert (HR : forall k x, In x (filter (rank_is k) l) -> rank x = k).
  { intros k x Hx. pose proof (HF k) as H. rewrite Forall_forall in H. apply H. exact Hx. }
  apply StronglySorted_app; [apply (StronglySorted_const rank 0); apply HF| |].
  - apply StronglySorted_app; [apply (StronglySorted_const rank 1); apply HF
                              |apply (StronglySorted_const rank 2); apply HF|].
    intros x y Hx Hy. rewrite (HR 1 x Hx), (HR 2 y Hy). lia.
  - intros x y Hx Hy. rewrite (HR 0 x Hx). lia.
Qed.

Lemma hoist_sorted : forall body,
    exists d, length d <= 1 /\ hoist body = d ++ hoist3 (rest_part body)
              /\ (has_doc body = true -> exists r, body = d ++ r /\ d <> [])
              /\ StronglySorted (fun a b => rank a <= rank b) (hoist3 (rest_part body)).
Proof.
  intros body. exists (doc_part body). split; [|split; [apply hoist_split|split; [|apply hoist3_sorted]]].
  - unfold doc_part. destruct (has_doc body); [|cbn; lia]. rewrite firstn_length. lia.
  - intros D. exists (rest_part body). split; [symmetry; apply doc_rest_eq|].
    unfold doc_part. rewrite D. destruct (has_doc_shape body D) as [s [d [r E]]]. subst body. discriminate.
Qed.

Lemma hoist_imports_first : forall body,
    exists d i o, hoist body = d ++ i ++ o
                  /\ d = doc_part body
                  /\ i = filter is_future body ++ filter is_plain_import body
                  /\ Forall (fun t => is_import t = true) i
                  /\ Forall (fun t => is_import t = false) o
                  /\ o = filter nonimp (rest_part body).
Proof.
  intros body.
  exists (doc_part body), (filter is_future body ++ filter is_plain_import body), (filter nonimp (rest_part body)).
  split; [|split; [reflexivity|split; [reflexivity|split; [|split; [|reflexivity]]]]].
  - unfold hoist, doc_part, rest_part, nonimp. rewrite <- !app_assoc. reflexivity.
  - apply Forall_app. split; apply Forall_forall; intros x Hx; apply filter_In in Hx; destruct Hx as [_ Hx].
    + apply is_future_import. exact Hx.
    + unfold is_plain_import in Hx. apply andb_true_iff in Hx. apply Hx.
  - apply Forall_forall. intros x Hx. apply filter_In in Hx. destruct Hx as [_ Hx].
    unfold nonimp in Hx. apply negb_true_iff in Hx. exact Hx.
Qed.

Lemma plain_stmt_nonimp : forall t, plain_stmt t = true -> is_import t = false /\ is_future t = false.
Proof. intros [b s d|m s|c n s|ns s|s]; cbn; intros H; try discriminate; split; reflexivity. Qed.

Lemma plain_filters : forall D, forallb plain_stmt D = true ->
    filter is_future D = [] /\ filter is_plain_import D = [] /\ filter nonimp D = D.
Proof.
  intros D H. rewrite forallb_forall in H.
  assert (Hi : forall x, In x D -> is_import x = false /\ is_future x = false).
  { intros x Hx. apply plain_stmt_nonimp. apply H. exact Hx. }
  split; [apply filter_none; intros x Hx; apply (Hi x Hx)|].
  split; [apply filter_none|apply filter_all]; intros x Hx; unfold is_plain_import, nonimp;
    rewrite (proj1 (Hi x Hx)); reflexivity.
Qed.

Lemma hoist3_app_plain : forall l D, forallb plain_stmt D = true -> hoist3 (l ++ D) = hoist3 l ++ D.
Proof.
  intros l D HD. destruct (plain_filters D HD) as (F1 & F2 & F3). unfold hoist3.
  rewrite !filter_app, F1, F2, F3, !app_nil_r, <- !app_assoc. reflexivity.
Qed.

Lemma hoist_app_plain : forall Hd D, forallb plain_stmt D = true -> hoist (Hd ++ D) = hoist Hd ++ D.
Proof.
  intros Hd D HD. rewrite !hoist_split.
  assert (E : doc_part (Hd ++ D) = doc_part Hd /\ rest_part (Hd ++ D) = rest_part Hd ++ D).
  { unfold doc_part, rest_part. destruct Hd as [|h Hd'].
    - (* a plain statement is no docstring *)
      assert (ND : has_doc D = false) by (destruct D as [|[] r]; try reflexivity; discriminate HD).
      cbn [app]. rewrite ND. split; reflexivity.
    - change (has_doc ((h :: Hd') ++ D)) with (has_doc (h :: Hd')). destruct (has_doc (h :: Hd')); split; reflexivity. }
  destruct E as [-> ->]. rewrite (hoist3_app_plain _ _ HD). apply app_assoc.
Qed.

Lemma hoist3_idem : forall l, hoist3 (hoist3 l) = hoist3 l.
Proof.
  intros l. rewrite (hoist3_rank (hoist3 l)). rewrite !hoist3_stable. symmetry. apply hoist3_rank.
Qed.

Lemma format_aux_literal : forall pre s name,
    brace_free pre = true -> format_aux (pre ++ s) FLit name = gapp pre (format_aux s FLit name).
Proof.
  induction pre as [|c r IH]; intros s name H.
  - cbn. destruct (format_aux s FLit name); reflexivity.
  - unfold brace_free in H. cbn [forallb] in H. apply andb_true_iff in H. destruct H as [Hc Hr].
    fold (brace_free r) in Hr. apply negb_true_iff in Hc. apply orb_false_iff in Hc. destruct Hc as [Hl Hrb].
    cbn [app format_aux]. rewrite Hl, Hrb. rewrite (IH s name Hr).
    destruct (format_aux s FLit name); reflexivity.
Qed.

Lemma format_aux_field_name : forall post name,
    format_aux (L "{name}" ++ post) FLit name = gapp name (format_aux post FLit name).
Proof. intros post name. reflexivity. Qed.

(* templates of the shape  literal {name} literal  (such as {name}Config, Gen{name}) *)
Lemma format_name_simple : forall pre post name,
    brace_free pre = true -> brace_free post = true ->
    format_name (pre ++ L "{name}" ++ post) name = GOk (pre ++ name ++ post).
Proof.
  intros pre post name Hpre Hpost. unfold format_name.
  rewrite (format_aux_literal pre _ name Hpre), format_aux_field_name.
  replace post with (post ++ []) at 1 by apply app_nil_r.
  rewrite (format_aux_literal post [] name Hpost). cbn. rewrite app_nil_r. reflexivity.
Qed.

Lemma format_name_constant : forall tpl name, brace_free tpl = true -> format_name tpl name = GOk tpl.
Proof.
  intros tpl name H. unfold format_name. replace tpl with (tpl ++ []) at 1 by apply app_nil_r.
  rewrite (format_aux_literal tpl [] name H). cbn. rewrite app_nil_r. reflexivity.
Qed.

Lemma names_of_cons : forall tpl e r names,
    names_of tpl (e :: r) = GOk names ->
    exists n ns, names = n :: ns /\ format_name tpl (e_name e) = GOk n /\ names_of tpl r = GOk ns.
Proof.
  intros tpl e r names H. cbn in H.
  destruct (format_name tpl (e_name e)) as [n|k]; [|discriminate].
  destruct (names_of tpl r) as [ns|k]; [|discriminate].
  inversion H. exists n, ns. repeat split.
Qed.

(* names and order: global__all__ is the template applied to each key, in mapping order *)
Lemma names_of_spec : forall tpl es names,
    names_of tpl es = GOk names -> Forall2 (fun e n => format_name tpl (e_name e) = GOk n) es names.
Proof.
  intros tpl es. induction es as [|e r IH]; intros names H.
  - cbn in H. inversion H. constructor.
  - destruct (names_of_cons tpl e r names H) as [n [ns [E [Hn Hns]]]]. subst names.
    constructor; [exact Hn|apply IH; exact Hns].
Qed.

Lemma names_of_length : forall tpl es names, names_of tpl es = GOk names -> length names = length es.
Proof.
  intros tpl es names H. apply names_of_spec in H.
  induction H as [|e n es' ns' _ _ IH]; [reflexivity|cbn; rewrite IH; reflexivity].
Qed.

Lemma known_type_cases : forall type_, known_type type_ = true ->
    type_ = L "class" \/ type_ = L "function" \/ type_ = L "argparse".
Proof.
  intros type_ H. unfold known_type in H.
  apply orb_true_iff in H. destruct H as [H|H]; [apply orb_true_iff in H; destruct H as [H|H]|];
    apply str_eqb_eq in H; auto.
Qed.

Lemma known_kwargs : forall type_ o nm, known_type type_ = true ->
    exists kw, type_kwargs type_ o nm = Some kw
               /\ emit_binds (emit_attr type_) ((L "emit_default_doc", KBool (o_emit_default_doc o)) :: kw) = true.
Proof.
  intros type_ o nm H. destruct (known_type_cases type_ H) as [E|[E|E]]; subst type_; eexists; split; reflexivity.
Qed.

Lemma run_entries_ok : forall tpl type_ o es names,
    known_type type_ = true -> forallb is_emitted es = true -> names_of tpl es = GOk names ->
    snd (run_entries tpl type_ o es) = GOk (names, texts_of es).
Proof.
  intros tpl type_ o es. induction es as [|e r IH]; intros names HT HE HN.
  - cbn in HN. inversion HN. reflexivity.
  - destruct (names_of_cons tpl e r names HN) as [n [ns [E [Hn Hns]]]]. subst names.
    cbn in HE. apply andb_true_iff in HE. destruct HE as [He Hr].
    cbn [run_entries]. rewrite Hn.
    unfold is_emitted in He. destruct (e_res e) as [k| |k|text] eqn:ER; try discriminate He.
    destruct (known_kwargs type_ o n HT) as [kw [Hkw Hb]]. rewrite Hkw, Hb. cbn [negb].
    specialize (IH ns HT Hr Hns).
    destruct (run_entries tpl type_ o r) as [tr rr]. cbn [snd] in *. rewrite IH.
    unfold texts_of. cbn [map]. rewrite ER. reflexivity.
Qed.

Lemma run_entries_fail : forall tpl type_ o es,
    forallb is_emitted es = false -> exists k, snd (run_entries tpl type_ o es) = GErr k.
Proof.
  intros tpl type_ o es. induction es as [|e r IH]; intros HE; [discriminate HE|].
  cbn in HE. cbn [run_entries].
  destruct (format_name tpl (e_name e)) as [nm|k]; [|eexists; reflexivity].
  destruct (e_res e) as [k| |k|text] eqn:ER.
  - eexists; reflexivity.
  - destruct (type_kwargs type_ o nm); [|eexists; reflexivity].
    destruct (negb _); eexists; reflexivity.
  - destruct (type_kwargs type_ o nm); [|eexists; reflexivity].
    destruct (negb _); eexists; reflexivity.
  - destruct (type_kwargs type_ o nm); [|eexists; reflexivity].
    destruct (negb _); [eexists; reflexivity|].
    unfold is_emitted in HE. rewrite ER in HE. cbn in HE.
    destruct (IH HE) as [k Hk]. destruct (run_entries tpl type_ o r) as [tr rr]. cbn [snd] in *.
    rewrite Hk. exists k. reflexivity.
Qed.

Lemma gen_fails_entry : forall ps gi es,
    gi_mapping gi = GOk es -> forallb is_emitted es = false -> exists k, snd (gen ps gi) = GErr k.
Proof.
  intros ps gi es HM HE. unfold gen.
  destruct (negb (known_type (gi_type gi))); [eexists; reflexivity|].
  destruct (imports_phase ps gi) as [tr1 imp]. destruct imp as [imports|k]; [|eexists; reflexivity].
  destruct (negb (has_dot (gi_input_mapping gi))); [eexists; reflexivity|].
  rewrite HM.
  destruct (run_entries_fail (gi_name_tpl gi) (gi_type gi) (gi_opts gi) es HE) as [k Hk].
  destruct (run_entries (gi_name_tpl gi) (gi_type gi) (gi_opts gi) es) as [tr2 r2].
  cbn [snd] in Hk. rewrite Hk. eexists; reflexivity.
Qed.

Lemma cli_gen_exists : forall a, cli_gen a true = CliUsage \/ cli_gen a true = CliUnmodelled
                                  \/ cli_gen a true = CliRaise xIOError.
Proof.
  intros a. unfold cli_gen.
  destruct (ca_name_tpl a); [|auto]. destruct (ca_input_mapping a); [|auto].
  destruct (ca_type a); [|auto]. destruct (ca_output_filename a); [|auto].
  destruct (negb (known_type _)); [auto|].
  destruct (ca_prepend a) as [raw|].
  - destruct (decode_escape raw) as [p|k]; [auto|]. destruct (str_eqb k xValueError); auto.
  - auto.
Qed.

Lemma cli_gen_usage : forall a ex,
    (ca_name_tpl a = None \/ ca_input_mapping a = None \/ ca_type a = None \/ ca_output_filename a = None
     \/ exists ty, ca_type a = Some ty /\ known_type ty = false) ->
    cli_gen a ex = CliUsage.
Proof.
  intros a ex H. unfold cli_gen.
  destruct (ca_name_tpl a); [|reflexivity]. destruct (ca_input_mapping a); [|reflexivity].
  destruct (ca_type a) as [ty|]; [|reflexivity]. destruct (ca_output_filename a); [|reflexivity].
  destruct H as [H|[H|[H|[H|[ty' [H1 H2]]]]]]; try discriminate.
  inversion H1. subst ty'. rewrite H2. reflexivity.
Qed.

Lemma cli_gen_run : forall a c, cli_gen a false = CliRun c ->
    ca_name_tpl a = Some (gc_name_tpl c) /\ ca_input_mapping a = Some (gc_input_mapping c)
    /\ ca_type a = Some (gc_type c) /\ known_type (gc_type c) = true
    /\ match ca_prepend a with
       | None => gc_prepend c = None
       | Some raw => exists p, decode_escape raw = GOk p /\ gc_prepend c = Some p
       end
    /\ gc_emit_call c = ca_emit_call a.
Proof.
  intros a c H. unfold cli_gen in H.
  destruct (ca_name_tpl a); [|discriminate]. destruct (ca_input_mapping a); [|discriminate].
  destruct (ca_type a) as [ty|]; [|discriminate]. destruct (ca_output_filename a); [|discriminate].
  destruct (known_type ty) eqn:K; [|discriminate]. cbn [negb] in H.
  destruct (ca_prepend a) as [raw|].
  - destruct (decode_escape raw) as [p|k]; [|destruct (str_eqb k xValueError); discriminate].
    inversion H. cbn. repeat split; try reflexivity; try exact K. exists p. split; reflexivity.
  - inversion H. cbn. repeat split; try reflexivity; exact K.
Qed.

Lemma run_c19_cli_existing : forall ps x old,
    ci_via x = ViaCli -> ci_existing x = Some old ->
    (exists k, fst (run_c19 ps x) = GErr k) /\ snd (run_c19 ps x) = Some old.
Proof.
  intros ps x old HV HE. unfold run_c19. rewrite HV, HE. cbn [is_some].
  destruct (cli_gen_exists (cli_of x)) as [E|[E|E]];
    rewrite E; cbn [fst snd]; (split; [eexists; reflexivity|reflexivity]).
Qed.

Section Python.
Variable parse_src : str -> option (list top).
Hypothesis PL : python_like parse_src.

Lemma parse_join : forall blank texts defs,
    Forall2 (fun t d => parse_src t = Some [d]) texts defs ->
    parse_src (join (nl :: (if blank : bool then [nl] else [])) texts) = Some defs.
Proof.
  intros blank texts defs H. induction H as [|t d ts ds Ht Hr IH].
  - apply (P_empty _ PL).
  - destruct ts as [|t2 ts']; [inversion Hr; subst; cbn; exact Ht|].
    set (sep := if blank then [nl] else []) in *.
    change (join (nl :: sep) (t :: t2 :: ts')) with (t ++ nl :: sep ++ join (nl :: sep) (t2 :: ts')).
    change (d :: ds) with ([d] ++ ds). apply (P_concat _ PL); [exact Ht|].
    destruct blank; cbn [sep app]; [rewrite (P_blank _ PL)|]; exact IH.
Qed.

(* parseability of the assembled text reduces to: the header parses, every piece is a definition *)
Lemma content_parses : forall P tp texts defs names,
    parse_src P = Some tp -> Forall2 (fun t d => parse_src t = Some [d]) texts defs ->
    forallb safe_name names = true ->
    parse_src (P ++ [nl] ++ join [nl; nl] texts ++ [nl] ++ all_text names)
    = Some (tp ++ defs ++ [TAll names (all_text names)]).
Proof.
  intros P tp texts defs names HP HT HN. cbn [app].
  apply (P_concat _ PL); [exact HP|]. apply (P_concat _ PL); [apply (parse_join true); exact HT|].
  apply (P_all _ PL). exact HN.
Qed.

Lemma unparse_rest_parses : forall r h t,
    parse_src h = Some [t] -> Forall (wf_top parse_src) r -> parse_src (h ++ unparse_rest r) = Some (t :: r).
Proof.
  induction r as [|t2 r2 IH]; intros h t Hh Hr.
  - cbn. rewrite app_nil_r. exact Hh.
  - inversion Hr as [|x l Hw Hr2]; subst. destruct Hw as [Hw1 Hw2]. cbn [unparse_rest].
    specialize (IH (top_text t2) t2 Hw1 Hr2).
    unfold sep_before. destruct (is_def t2); cbn [app]; change (t :: t2 :: r2) with ([t] ++ t2 :: r2).
    + apply (P_concat _ PL); [exact Hh|]. rewrite (P_blank _ PL). exact IH.
    + apply (P_concat _ PL); [exact Hh|]. exact IH.
Qed.

Lemma unparse_module_parses : forall m, Forall (wf_top parse_src) m -> parse_src (unparse_module m) = Some m.
Proof.
  intros [|t r] H; [apply (P_empty _ PL)|].
  inversion H as [|x l Hw Hr]; subst. destruct Hw as [_ Hw2]. cbn [unparse_module].
  apply unparse_rest_parses; assumption.
Qed.

Lemma parse_join_nl : forall tops, Forall (wf_top parse_src) tops ->
    parse_src (join [nl] (map top_text tops)) = Some tops.
Proof.
  intros tops H. apply (parse_join false). induction H as [|t r [Ht _] _ IH]; constructor; assumption.
Qed.

Lemma file_imports_wf : forall gi, Forall (wf_top parse_src) (file_imports parse_src gi).
Proof.
  intros gi. unfold file_imports.
  destruct (gi_imports_from_file gi) as [[f|k]|]; try constructor.
  destruct (parse_src f) as [tops|] eqn:E; [|constructor].
  apply Forall_filter. apply (P_canon _ PL f). exact E.
Qed.

(* what parses to the statements of prepend: the text before the newline the prepend argument ends with *)
Lemma prepend_arg_shape : forall prepend ptops,
    match prepend with None => Some [] | Some p => parse_src p end = Some ptops ->
    (prepend_arg prepend = [] /\ ptops = [])
    \/ exists q, prepend_arg prepend = q ++ [nl] /\ parse_src q = Some ptops.
Proof.
  intros [p|] ptops H; cbn [prepend_arg].
  - destruct p as [|c p'].
    + left. rewrite (P_empty _ PL) in H. inversion H. split; reflexivity.
    + right. cbn [nonempty]. destruct (endswith [nl] (c :: p')) eqn:E.
      * apply endswith_iff in E. destruct E as [q Hq]. exists q. split; [exact Hq|].
        rewrite Hq in H. rewrite (P_trail _ PL) in H. exact H.
      * exists (c :: p'). split; [reflexivity|exact H].
  - left. inversion H. split; reflexivity.
Qed.

Lemma header_of_split : forall gi header, header_of parse_src gi = Some header ->
    exists ptops, match gi_prepend gi with None => Some [] | Some p => parse_src p end = Some ptops
                  /\ header = ptops ++ file_imports parse_src gi.
Proof.
  intros gi header H. unfold header_of in H. unfold file_imports.
  destruct (match gi_prepend gi with None => Some [] | Some p => parse_src p end) as [a|]; [|discriminate].
  destruct (gi_imports_from_file gi) as [[f|k]|].
  - destruct (parse_src f) as [tops|]; [|discriminate]. cbn in H. inversion H. exists a. split; reflexivity.
  - discriminate.
  - inversion H. exists a. split; reflexivity.
Qed.

Lemma header_parses : forall gi header,
    header_of parse_src gi = Some header ->
    parse_src (prepend_arg (gi_prepend gi) ++ imports_text parse_src gi) = Some header.
Proof.
  intros gi header HH.
  destruct (header_of_split gi header HH) as [ptops [HP E]]. subst header.
  pose proof (parse_join_nl _ (file_imports_wf gi)) as HI. fold (imports_text parse_src gi) in HI.
  destruct (prepend_arg_shape _ _ HP) as [[E1 E2]|[q [E1 E2]]]; rewrite E1.
  - subst ptops. cbn [app]. exact HI.
  - rewrite <- app_assoc. cbn [app]. apply (P_concat _ PL); assumption.
Qed.

Definition phase1_ok (gi : gen_in) : Prop :=
  gi_prepend_eval gi = None
  /\ (forall f p, gi_imports_from_file gi = Some f -> gi_prepend gi = Some p -> nonempty p = true ->
                  exists t, parse_src (strip p) = Some t).

Lemma imports_phase_ok : forall gi header, header_of parse_src gi = Some header -> phase1_ok gi ->
    snd (imports_phase parse_src gi) = GOk (imports_text parse_src gi).
Proof.
  intros gi header HH [HE HS]. unfold imports_phase, imports_text, file_imports. unfold header_of in HH.
  destruct (gi_imports_from_file gi) as [file|] eqn:EF; [|reflexivity].
  (* the header exists: the imports file was read and parses *)
  assert (HF : exists f tops, file = GOk f /\ parse_src f = Some tops).
  { destruct (match gi_prepend gi with None => Some [] | Some p => parse_src p end); [|discriminate HH].
    destruct file as [f|k]; [|discriminate HH]. destruct (parse_src f) as [tops|] eqn:Ef; [exists f, tops; auto|discriminate HH]. }
  destruct HF as (f & tops & -> & Ef). rewrite Ef.
  destruct (gi_prepend gi) as [p|] eqn:EP; [|reflexivity].
  destruct (nonempty p) eqn:NP; [|reflexivity].
  destruct (HS _ p eq_refl eq_refl NP) as [t Ht]. rewrite Ht, HE. reflexivity.
Qed.

(* the emitted texts are definitions with the generated names; entry_top: which text sits under which name *)
Definition entry_top (tpl : str) (e : entry) (d : top) : Prop :=
  exists c nm t, format_name tpl (e_name e) = GOk nm /\ e_res e = Emitted t /\ d = TDef c nm t.

Lemma entries_defs : forall tpl es names,
    forallb (entry_wf parse_src tpl) es = true -> forallb is_emitted es = true ->
    names_of tpl es = GOk names ->
    exists defs, Forall2 (fun t d => parse_src t = Some [d]) (texts_of es) defs
                 /\ Forall2 is_def_named names defs
                 /\ forallb plain_stmt defs = true
                 /\ Forall2 (entry_top tpl) es defs.
Proof.
  intros tpl es. induction es as [|e r IH]; intros names HW HE HN.
  - cbn in HN. inversion HN. exists []. repeat split; constructor.
  - destruct (names_of_cons tpl e r names HN) as [n [ns [E [Hn Hns]]]]. subst names.
    cbn in HW, HE. apply andb_true_iff in HW. destruct HW as [Hw Hwr].
    apply andb_true_iff in HE. destruct HE as [He Her].
    destruct (IH ns Hwr Her Hns) as [defs [H1 [H2 [H3 H4]]]].
    unfold is_emitted in He. unfold entry_wf in Hw.
    destruct (e_res e) as [k| |k|text] eqn:ER; try discriminate He.
    rewrite Hn in Hw.
    destruct (parse_src text) as [[|[b s d|m s|c nm t'|nsx s|s] [|u us]]|] eqn:EP; try discriminate Hw.
    apply andb_true_iff in Hw. destruct Hw as [Hnm Ht]. apply str_eqb_eq in Hnm. apply str_eqb_eq in Ht. subst nm t'.
    exists (TDef c n text :: defs). split; [|split; [|split]].
    + unfold texts_of. cbn [map]. rewrite ER. constructor; [exact EP|exact H1].
    + constructor; [exists c, text; reflexivity|exact H2].
    + exact H3.
    + constructor; [|exact H4]. exists c, n, text. auto.
Qed.

Definition gen_conditions (gi : gen_in) (es : list entry) (names : list str) (header : list top) : Prop :=
  known_type (gi_type gi) = true
  /\ has_dot (gi_input_mapping gi) = true
  /\ phase1_ok gi
  /\ header_of parse_src gi = Some header
  /\ gi_mapping gi = GOk es
  /\ names_of (gi_name_tpl gi) es = GOk names
  /\ forallb safe_name names = true
  /\ forallb (entry_wf parse_src (gi_name_tpl gi)) es = true
  /\ forallb is_emitted es = true.

Lemma gen_in_guard : forall gi es names header,
    gen_conditions gi es names header ->
    exists g defs,
      snd (gen parse_src gi) = GOk g
      /\ g_all g = names
      /\ g_hoisted g = hoist header ++ defs ++ [TAll names (all_text names)]
      /\ g_written g = unparse_module (g_hoisted g)
      /\ parse_src (g_written g) = Some (g_hoisted g)
      /\ filter nonimp (g_hoisted g) = filter nonimp header ++ defs ++ [TAll names (all_text names)]
      /\ Forall2 is_def_named names defs
      /\ Forall2 (entry_top (gi_name_tpl gi)) es defs.
Proof.
  intros gi es names header [HT [HD [HP1 [HH [HM [HN [HS [HW HE]]]]]]]].
  destruct (entries_defs _ es names HW HE HN) as [defs [Hdefs [Hnamed [Hplain Htops]]]].
  pose proof (header_parses gi header HH) as HPh.
  pose proof (content_parses _ header (texts_of es) defs names HPh Hdefs HS) as HC.
  exists (mkGenOk (assemble (gi_prepend gi) (imports_text parse_src gi) (texts_of es) names)
                  (hoist (header ++ defs ++ [TAll names (all_text names)])) names
                  (unparse_module (hoist (header ++ defs ++ [TAll names (all_text names)])))), defs.
  assert (HCA : parse_src (assemble (gi_prepend gi) (imports_text parse_src gi) (texts_of es) names)
                = Some (header ++ defs ++ [TAll names (all_text names)])).
  { unfold assemble. rewrite app_assoc. exact HC. }
  assert (Hpl : forallb plain_stmt (defs ++ [TAll names (all_text names)]) = true).
  { rewrite forallb_app, Hplain. reflexivity. }
  assert (Hhoist : hoist (header ++ defs ++ [TAll names (all_text names)])
                   = hoist header ++ defs ++ [TAll names (all_text names)]).
  { apply hoist_app_plain. exact Hpl. }
  assert (Hwf : Forall (wf_top parse_src) (hoist (header ++ defs ++ [TAll names (all_text names)]))).
  { pose proof (P_canon _ PL _ _ HCA) as Hall. apply Forall_forall. intros t Ht.
    rewrite Forall_forall in Hall. apply Hall. eapply Permutation_in; [apply hoist_perm|exact Ht]. }
  cbn [g_all g_hoisted g_written g_content].
  split; [|split; [reflexivity|split; [exact Hhoist|split; [reflexivity|split; [|split; [|split; [exact Hnamed|exact Htops]]]]]]].
  - unfold gen. rewrite HT. cbn [negb].
    pose proof (imports_phase_ok gi header HH HP1) as HIP.
    destruct (imports_phase parse_src gi) as [tr1 imp]. cbn [snd] in HIP. subst imp.
    rewrite HD. cbn [negb]. rewrite HM.
    pose proof (run_entries_ok (gi_name_tpl gi) (gi_type gi) (gi_opts gi) es names HT HE HN) as HR.
    destruct (run_entries (gi_name_tpl gi) (gi_type gi) (gi_opts gi) es) as [tr2 r2]. cbn [snd] in HR. subst r2.
    rewrite HS. cbn [negb]. rewrite HCA. reflexivity.
  - apply unparse_module_parses. exact Hwf.
  - rewrite hoist_keeps_nonimports, filter_app. f_equal. apply (plain_filters _ Hpl).
Qed.

End Python.

Lemma gen_ok_inv : forall ps gi g, snd (gen ps gi) = GOk g ->
    exists body, ps (g_content g) = Some body /\ g_hoisted g = hoist body
                 /\ g_written g = unparse_module (hoist body).
Proof.
  intros ps gi g H. unfold gen in H.
  destruct (negb (known_type (gi_type gi))); [discriminate H|].
  destruct (imports_phase ps gi) as [tr1 imp]. destruct imp as [imports|k]; [|discriminate H].
  destruct (negb (has_dot (gi_input_mapping gi))); [discriminate H|].
  destruct (gi_mapping gi) as [es|k]; [|discriminate H].
  destruct (run_entries (gi_name_tpl gi) (gi_type gi) (gi_opts gi) es) as [tr2 r2].
  destruct r2 as [[names texts]|k]; [|discriminate H].
  destruct (negb (forallb safe_name names)); [discriminate H|].
  destruct (ps (assemble (gi_prepend gi) imports texts names)) as [body|] eqn:EP; [|discriminate H].
  cbn [snd] in H. inversion H. subst g. cbn. exists body. repeat split. exact EP.
Qed.

(* the hoisting theorem about gen itself, for any account of the parser and any number of
   statements, entries and imports *)
Lemma gen_hoisting : forall ps gi g, snd (gen ps gi) = GOk g ->
    exists body, ps (g_content g) = Some body
      /\ Permutation (g_hoisted g) body
      /\ filter nonimp (g_hoisted g) = filter nonimp body
      /\ filter is_import (g_hoisted g) = filter is_future body ++ filter is_plain_import body
      /\ (forall k, filter (rank_is k) (g_hoisted g) = filter (rank_is k) body)
      /\ (exists d, length d <= 1 /\ g_hoisted g = d ++ hoist3 (rest_part body)
                    /\ StronglySorted (fun a b => rank a <= rank b) (hoist3 (rest_part body)))
      /\ g_written g = unparse_module (g_hoisted g).
Proof.
  intros ps gi g H. destruct (gen_ok_inv ps gi g H) as [body [HB [HH HW]]].
  exists body. rewrite HH. split; [exact HB|].
  split; [apply hoist_perm|]. split; [apply hoist_keeps_nonimports|].
  split; [apply hoist_imports_order|]. split; [intros k; apply hoist_stable|].
  split; [|exact HW].
  destruct (hoist_sorted body) as [d [Hd [He [_ Hs]]]]. exists d. repeat split; assumption.
Qed.

Definition with_opts (gi : gen_in) (o : gen_opts) : gen_in :=
  mkGenIn (gi_name_tpl gi) (gi_input_mapping gi) (gi_mapping gi) (gi_type gi) (gi_prepend gi)
          (gi_imports_from_file gi) (gi_prepend_eval gi) o.

Lemma gen_conditions_opts : forall ps gi o es names header,
    gen_conditions ps gi es names header -> gen_conditions ps (with_opts gi o) es names header.
Proof. intros ps [a b c d e f g h] o es names header H. exact H. Qed.

Lemma header_of_opts : forall ps gi o, header_of ps (with_opts gi o) = header_of ps gi.
Proof. intros ps [a b c d e f g h] o. reflexivity. Qed.

(* main calls gen with emit_default_doc at its default and no decorator list when no --decorator is given *)
Definition cli_opts (o : gen_opts) : gen_opts :=
  mkOpts (o_emit_call o) true (match o_decorator_list o with Some (a :: l) => Some (a :: l) | _ => None end).

(* the gen_in gen runs on, by either route *)
Definition gen_in_run (x : c19_in) : gen_in :=
  match ci_via x with ViaApi => ci_gen x | ViaCli => with_opts (ci_gen x) (cli_opts (gi_opts (ci_gen x))) end.

Lemma run_c19_fresh : forall ps x,
    ci_existing x = None -> known_type (gi_type (ci_gen x)) = true -> prepend_consistent x = true ->
    run_c19 ps x = (snd (gen ps (gen_in_run x)), file_after None (snd (gen ps (gen_in_run x)))).
Proof.
  intros ps x EX HK HP. unfold run_c19, gen_in_run, prepend_consistent in *. rewrite EX.
  destruct (ci_via x); [reflexivity|].
  unfold cli_gen, cli_of, gen_in_of_call, with_opts, cli_opts.
  cbn [ca_name_tpl ca_input_mapping ca_type ca_output_filename ca_prepend ca_imports_from_file ca_emit_call
       ca_decorators is_some].
  rewrite HK. cbn [negb].
  destruct (ci_gen x) as [tpl im mp ty pre imf pev [ec edd dl]].
  cbn [gi_name_tpl gi_input_mapping gi_mapping gi_type gi_prepend gi_imports_from_file gi_prepend_eval gi_opts
       o_emit_call o_decorator_list] in *.
  destruct (ci_prepend_raw x) as [raw|]; destruct pre as [p|]; try discriminate HP.
  - destruct (decode_escape raw) as [p'|k]; [|discriminate HP]. apply str_eqb_eq in HP. subst p'.
    destruct dl as [[|a l]|]; reflexivity.
  - destruct dl as [[|a l]|]; reflexivity.
Qed.

Lemma guard_gen_conditions : forall ps x, guard_C19 ps x = true -> ci_existing x = None ->
    prepend_consistent x = true /\ exists es names header, gen_conditions ps (ci_gen x) es names header.
Proof.
  intros ps x G EX. unfold guard_C19 in G.
  apply andb_true_iff in G. destruct G as [G GE]. apply andb_true_iff in G. destruct G as [GD _].
  rewrite EX in GE. cbn [is_some orb] in GE. unfold entries_of in GE.
  unfold C19_domain in GD.
  apply andb_true_iff in GD; destruct GD as [H Hm]. apply andb_true_iff in H; destruct H as [H Hf].
  apply andb_true_iff in H; destruct H as [H He]. apply andb_true_iff in H; destruct H as [H Hd].
  apply andb_true_iff in H; destruct H as [H Hc]. apply andb_true_iff in H; destruct H as [Ha Hb].
  split; [exact Hc|].
  destruct (gi_mapping (ci_gen x)) as [es|k] eqn:EM; [|discriminate Hm].
  apply andb_true_iff in Hm; destruct Hm as [Hm _]. apply andb_true_iff in Hm; destruct Hm as [Hn Hw].
  destruct (names_of (gi_name_tpl (ci_gen x)) es) as [names|k] eqn:EN; [|discriminate Hn].
  destruct (header_of ps (ci_gen x)) as [header|] eqn:EH; [|discriminate Hd].
  exists es, names, header. unfold gen_conditions, phase1_ok. rewrite EM.
  repeat split; try assumption.
  - destruct (gi_prepend_eval (ci_gen x)); [discriminate He|reflexivity].
  - intros f p Hf1 Hp Hnp. rewrite Hf1, Hp, Hnp in Hf.
    destruct (ps (strip p)) as [t|]; [exists t; reflexivity|discriminate Hf].
Qed.

Theorem C19_partial_lemma : forall ps, python_like ps ->
    forall x, guard_C19 ps x = true -> C19_at ps x.
Proof.
  intros ps PL x G. unfold C19_at.
  destruct (ci_existing x) as [old|] eqn:EX.
  - unfold guard_C19, finding_class_C19 in G. rewrite EX in G.
    destruct (ci_via x) eqn:EV; [rewrite andb_false_r in G; discriminate G|].
    apply (run_c19_cli_existing ps x old EV EX).
  - destruct (guard_gen_conditions ps x G EX) as [HPC (es & names & header & HC)].
    assert (HC' : gen_conditions ps (gen_in_run x) es names header).
    { unfold gen_in_run. destruct (ci_via x); [exact HC|apply gen_conditions_opts; exact HC]. }
    destruct (gen_in_guard ps PL _ es names header HC') as (g & defs & Hg & Ha & Hh & _ & Hp & _ & Hn & _).
    destruct HC as (HK & _ & _ & HH & HM & HN & _).
    rewrite (run_c19_fresh ps x EX HK HPC), Hg. cbn [fst snd file_after app].
    exists g, es, names, header, (hoist header), defs.
    repeat split; try assumption; try reflexivity.
    + apply hoist_perm.
    + rewrite Hp, Hh. reflexivity.
Qed.

Theorem C19_cli_refuses_lemma : forall ps x old,
    ci_via x = ViaCli -> ci_existing x = Some old -> C19_at ps x.
Proof.
  intros ps x old HV HE. unfold C19_at. rewrite HE. apply (run_c19_cli_existing ps x old HV HE).
Qed.

Theorem C19_all_entries_convert_lemma : forall ps, python_like ps -> forall x,
    C19_domain ps x = true -> ci_existing x = None ->
    forallb is_emitted (entries_of (ci_gen x)) = true ->
    C19_at ps x.
Proof.
  intros ps PL x HD HE HEm. apply (C19_partial_lemma ps PL). unfold guard_C19.
  rewrite HD, HEm, orb_true_r. cbn [andb]. unfold finding_class_C19. rewrite HE, HEm. reflexivity.
Qed.

Lemma names_of_simple_template : forall pre post es,
    brace_free pre = true -> brace_free post = true ->
    names_of (pre ++ L "{name}" ++ post) es = GOk (map (fun e => pre ++ e_name e ++ post) es).
Proof.
  intros pre post es Hpre Hpost. induction es as [|e r IH]; [reflexivity|].
  cbn [names_of map]. rewrite (format_name_simple pre post (e_name e) Hpre Hpost), IH. reflexivity.
Qed.

Lemma run_c19_gen_err : forall ps x,
    ci_existing x = None ->
    (forall gi', gi_mapping gi' = gi_mapping (ci_gen x) -> exists k, snd (gen ps gi') = GErr k) ->
    exists k, fst (run_c19 ps x) = GErr k.
Proof.
  intros ps x HE HG. unfold run_c19. destruct (ci_via x).
  - cbn [fst]. apply HG; reflexivity.
  - rewrite HE. cbn [is_some].
    destruct (cli_gen (cli_of x) false) as [| k | c |] eqn:EC; cbn [fst]; try (eexists; reflexivity).
    apply HG; unfold gen_in_of_call; reflexivity.
Qed.

Lemma not_at_of_err : forall ps x, ci_existing x = None ->
    (exists k, fst (run_c19 ps x) = GErr k) -> ~ C19_at ps x.
Proof.
  intros ps x HE [k Hk] H. unfold C19_at in H. rewrite HE in H.
  destruct H as [g [es [names [header [hdr [defs [Hg _]]]]]]]. rewrite Hk in Hg. discriminate Hg.
Qed.

(* an entry whose conversion raises (annotated or undocumented callables, ...) ends the whole run *)
Theorem C19_fails_entry_lemma : forall ps x es,
    gi_mapping (ci_gen x) = GOk es -> forallb is_emitted es = false -> ci_existing x = None -> ~ C19_at ps x.
Proof.
  intros ps x es HM HEm HE. apply (not_at_of_err ps x HE). apply (run_c19_gen_err ps x HE).
  intros gi' Hm. apply (gen_fails_entry ps gi' es); [rewrite Hm; exact HM|exact HEm].
Qed.

(* gen() called directly appends to an existing output file whenever it succeeds *)
Theorem C19_api_appends_lemma : forall ps x old g,
    ci_via x = ViaApi -> ci_existing x = Some old -> snd (gen ps (ci_gen x)) = GOk g ->
    snd (run_c19 ps x) = Some (old ++ g_written g) /\ ~ C19_at ps x.
Proof.
  intros ps x old g HV HE HG. split.
  - unfold run_c19. rewrite HV, HE. cbn [snd]. rewrite HG. reflexivity.
  - intros H. unfold C19_at in H. rewrite HE in H. destruct H as [[k Hk] _].
    unfold run_c19 in Hk. rewrite HV in Hk. cbn [fst] in Hk. rewrite HG in Hk. discriminate Hk.
Qed.

Definition opts0 : gen_opts := mkOpts false true None.
(* empty mapping written over an existing file through the API *)
Definition w_append : c19_in :=
  mkC19 ViaApi (mkGenIn (L "{name}Config") (L "m.M") (GOk []) (L "class") None None None opts0)
        None [] (Some (L "OLD = 1")).

Theorem C19_refuted_api_append_lemma : forall ps, python_like ps ->
    C19_domain ps w_append = true
    /\ snd (run_c19 ps w_append) = Some (L "OLD = 1" ++ L "__all__ = []")
    /\ ~ C19_at ps w_append.
Proof.
  intros ps PL. split; [reflexivity|].
  assert (HC : gen_conditions ps (ci_gen w_append) [] [] []).
  { unfold gen_conditions, phase1_ok. cbn. repeat split; try reflexivity.
    intros f p Hf. discriminate Hf. }
  destruct (gen_in_guard ps PL _ _ _ _ HC) as (g & defs & Hg & _ & Hh & Hw & _ & _ & Hn & _).
  inversion Hn. subst defs.
  destruct (C19_api_appends_lemma ps w_append (L "OLD = 1") g eq_refl eq_refl Hg) as [Hs Hn'].
  split; [|exact Hn']. rewrite Hs, Hw, Hh. reflexivity.
Qed.

(* The recorded inputs of the runs of harness/prop_C19.py:witnesses on /repo (the module name
   verif_genin_<uid> replaced by m): tables of what ast.parse returned, per-entry results of parse/emit.
   Each Example is checked by computation; the same cases are re-run on the real code by the oracle. *)
Definition w_api_appends_tab : parse_table :=
  [((L "['AConfig']"), (Some [(TOther (L "['AConfig']"))])); ((L "
class AConfig(object):
    """"""
    The A class.

    :cvar x: the x. Defaults to 5""""""
    x: int = 5
__all__ = ['AConfig']"), (Some [(TDef true (L "AConfig") (L "class AConfig(object):
    """"""
    The A class.

    :cvar x: the x. Defaults to 5""""""
    x: int = 5")); (TAll [(L "AConfig")] (L "__all__ = ['AConfig']"))])); ((L "class AConfig(object):
    """"""
    The A class.

    :cvar x: the x. Defaults to 5""""""
    x: int = 5"), (Some [(TDef true (L "AConfig") (L "class AConfig(object):
    """"""
    The A class.

    :cvar x: the x. Defaults to 5""""""
    x: int = 5"))]))].

Definition w_api_appends : c19_in :=
  mkC19 ViaApi
    (mkGenIn (L "{name}Config") (L "m.M") (GOk [(mkEntry (L "A") false (Emitted (L "class AConfig(object):
    """"""
    The A class.

    :cvar x: the x. Defaults to 5""""""
    x: int = 5")))]) (L "class") None None None (mkOpts false true None))
    None [(mkFeat false true 1 0 true false false)] (Some (L "OLD = 1
")).

Example w_api_appends_fails :
  C19_domain (table_parse w_api_appends_tab) w_api_appends = true
  /\ finding_class_C19 (table_parse w_api_appends_tab) w_api_appends = Some K_api_appends
  /\ snd (run_c19 (table_parse w_api_appends_tab) w_api_appends) = Some (L "OLD = 1
class AConfig(object):
    """"""
    The A class.

    :cvar x: the x. Defaults to 5""""""
    x: int = 5
__all__ = ['AConfig']").
Proof. vm_compute. repeat split; reflexivity. Qed.

Definition w_undocumented_tab : parse_table :=
  [].

Definition w_undocumented : c19_in :=
  mkC19 ViaApi
    (mkGenIn (L "{name}Config") (L "m.M") (GOk [(mkEntry (L "f") true (ParseRaises (L "KeyError")))]) (L "class") None None None (mkOpts false true None))
    None [(mkFeat true false 1 1 false false false)] None.

Example w_undocumented_fails :
  C19_domain (table_parse w_undocumented_tab) w_undocumented = true
  /\ finding_class_C19 (table_parse w_undocumented_tab) w_undocumented = Some K_entry_undocumented
  /\ fst (run_c19 (table_parse w_undocumented_tab) w_undocumented) = GErr (L "KeyError").
Proof. vm_compute. repeat split; reflexivity. Qed.

(* one undocumented function (parse.function raises KeyError) ends the run, whatever the parser *)
Theorem C19_refuted_lemma : forall ps, python_like ps -> ~ C19_statement ps.
Proof.
  intros ps _ H. specialize (H w_undocumented eq_refl). revert H.
  apply (C19_fails_entry_lemma ps w_undocumented [mkEntry (L "f") true (ParseRaises xKeyError)]); reflexivity.
Qed.

Definition w_no_params_tab : parse_table :=
  [].

Definition w_no_params : c19_in :=
  mkC19 ViaApi
    (mkGenIn (L "{name}Config") (L "m.M") (GOk [(mkEntry (L "f") true (ParseRaises (L "StopIteration")))]) (L "class") None None None (mkOpts false true None))
    None [(mkFeat true true 0 0 false false false)] None.

Example w_no_params_fails :
  C19_domain (table_parse w_no_params_tab) w_no_params = true
  /\ finding_class_C19 (table_parse w_no_params_tab) w_no_params = Some K_entry_no_params
  /\ fst (run_c19 (table_parse w_no_params_tab) w_no_params) = GErr (L "RuntimeError").
Proof. vm_compute. repeat split; reflexivity. Qed.

Definition w_returns_argparse_tab : parse_table :=
  [].

Definition w_returns_argparse : c19_in :=
  mkC19 ViaApi
    (mkGenIn (L "{name}Config") (L "m.M") (GOk [(mkEntry (L "f") true (EmitRaises (L "TypeError")))]) (L "argparse") None None None (mkOpts false true None))
    None [(mkFeat true true 1 1 true false true)] None.

Example w_returns_argparse_fails :
  C19_domain (table_parse w_returns_argparse_tab) w_returns_argparse = true
  /\ finding_class_C19 (table_parse w_returns_argparse_tab) w_returns_argparse = Some K_entry_returns_argparse
  /\ fst (run_c19 (table_parse w_returns_argparse_tab) w_returns_argparse) = GErr (L "TypeError").
Proof. vm_compute. repeat split; reflexivity. Qed.

Definition w_returns_function_tab : parse_table :=
  [].

Definition w_returns_function : c19_in :=
  mkC19 ViaApi
    (mkGenIn (L "{name}Config") (L "m.M") (GOk [(mkEntry (L "f") true (EmitRaises (L "AttributeError")))]) (L "function") None None None (mkOpts false true None))
    None [(mkFeat true true 1 1 true false true)] None.

Example w_returns_function_fails :
  C19_domain (table_parse w_returns_function_tab) w_returns_function = true
  /\ finding_class_C19 (table_parse w_returns_function_tab) w_returns_function = Some K_entry_returns_function
  /\ fst (run_c19 (table_parse w_returns_function_tab) w_returns_function) = GErr (L "AttributeError").
Proof. vm_compute. repeat split; reflexivity. Qed.

Definition w_annotated_tab : parse_table :=
  [].

Definition w_annotated : c19_in :=
  mkC19 ViaApi
    (mkGenIn (L "{name}Config") (L "m.M") (GOk [(mkEntry (L "f") true (EmitRaises (L "SyntaxError")))]) (L "class") None None None (mkOpts false true None))
    None [(mkFeat true true 1 1 true true false)] None.

Example w_annotated_fails :
  C19_domain (table_parse w_annotated_tab) w_annotated = true
  /\ finding_class_C19 (table_parse w_annotated_tab) w_annotated = Some K_entry_annotated
  /\ fst (run_c19 (table_parse w_annotated_tab) w_annotated) = GErr (L "SyntaxError").
Proof. vm_compute. repeat split; reflexivity. Qed.

Definition w_untyped_param_tab : parse_table :=
  [].

Definition w_untyped_param : c19_in :=
  mkC19 ViaApi
    (mkGenIn (L "{name}Config") (L "m.M") (GOk [(mkEntry (L "f") true (EmitRaises (L "TypeError")))]) (L "function") None None None (mkOpts false true None))
    None [(mkFeat true true 1 1 false false false)] None.

Example w_untyped_param_fails :
  C19_domain (table_parse w_untyped_param_tab) w_untyped_param = true
  /\ finding_class_C19 (table_parse w_untyped_param_tab) w_untyped_param = Some K_entry_untyped_param
  /\ fst (run_c19 (table_parse w_untyped_param_tab) w_untyped_param) = GErr (L "TypeError").
Proof. vm_compute. repeat split; reflexivity. Qed.

Definition w_in_guard_tab : parse_table :=
  [((L "import os
import sys

class A(object):
    """"""
    The A class.
    """"""

    def __init__(self, x=5):
        """"""
        Do the A thing.

        :param x: the x
        :type x: ```int```
        """"""
        self.x = x


def f(a, b=2):
    """"""
    Do the f thing.

    :param a: the a
    :type a: ```int```

    :param b: the b
    :type b: ```int```
    """"""
    pass

M = {'A': A, 'f': f}
"), (Some [(TImport None (L "import os")); (TImport None (L "import sys")); (TDef true (L "A") (L "class A(object):
    """"""
    The A class.
    """"""

    def __init__(self, x=5):
        """"""
        Do the A thing.

        :param x: the x
        :type x: ```int```
        """"""
        self.x = x")); (TDef false (L "f") (L "def f(a, b=2):
    """"""
    Do the f thing.

    :param a: the a
    :type a: ```int```

    :param b: the b
    :type b: ```int```
    """"""
    pass")); (TOther (L "M = {'A': A, 'f': f}"))])); ((L """""""Generated.""""""
X = 1"), (Some [(TStr true (L "'Generated.'") (L """""""Generated.""""""")); (TOther (L "X = 1"))])); ((L "['AConfig', 'fConfig']"), (Some [(TOther (L "['AConfig', 'fConfig']"))])); ((L """""""Generated.""""""
X = 1
import os
import sys
class AConfig(object):
    """"""
    The A class.

    :cvar x: the x. Defaults to 5""""""
    x: int = 5

class fConfig(object):
    """"""
    Do the f thing.

    :cvar a: the a
    :cvar b: the b. Defaults to 2""""""
    a: int = 0
    b: int = 2
__all__ = ['AConfig', 'fConfig']"), (Some [(TStr true (L "'Generated.'") (L """""""Generated.""""""")); (TOther (L "X = 1")); (TImport None (L "import os")); (TImport None (L "import sys")); (TDef true (L "AConfig") (L "class AConfig(object):
    """"""
    The A class.

    :cvar x: the x. Defaults to 5""""""
    x: int = 5")); (TDef true (L "fConfig") (L "class fConfig(object):
    """"""
    Do the f thing.

    :cvar a: the a
    :cvar b: the b. Defaults to 2""""""
    a: int = 0
    b: int = 2")); (TAll [(L "AConfig"); (L "fConfig")] (L "__all__ = ['AConfig', 'fConfig']"))])); ((L "class AConfig(object):
    """"""
    The A class.

    :cvar x: the x. Defaults to 5""""""
    x: int = 5"), (Some [(TDef true (L "AConfig") (L "class AConfig(object):
    """"""
    The A class.

    :cvar x: the x. Defaults to 5""""""
    x: int = 5"))])); ((L "class fConfig(object):
    """"""
    Do the f thing.

    :cvar a: the a
    :cvar b: the b. Defaults to 2""""""
    a: int = 0
    b: int = 2"), (Some [(TDef true (L "fConfig") (L "class fConfig(object):
    """"""
    Do the f thing.

    :cvar a: the a
    :cvar b: the b. Defaults to 2""""""
    a: int = 0
    b: int = 2"))]))].

Definition w_in_guard : c19_in :=
  mkC19 ViaApi
    (mkGenIn (L "{name}Config") (L "m.M") (GOk [(mkEntry (L "A") false (Emitted (L "class AConfig(object):
    """"""
    The A class.

    :cvar x: the x. Defaults to 5""""""
    x: int = 5"))); (mkEntry (L "f") true (Emitted (L "class fConfig(object):
    """"""
    Do the f thing.

    :cvar a: the a
    :cvar b: the b. Defaults to 2""""""
    a: int = 0
    b: int = 2")))]) (L "class") (Some (L """""""Generated.""""""
X = 1")) (Some (GOk (L "import os
import sys

class A(object):
    """"""
    The A class.
    """"""

    def __init__(self, x=5):
        """"""
        Do the A thing.

        :param x: the x
        :type x: ```int```
        """"""
        self.x = x


def f(a, b=2):
    """"""
    Do the f thing.

    :param a: the a
    :type a: ```int```

    :param b: the b
    :type b: ```int```
    """"""
    pass

M = {'A': A, 'f': f}
"))) None (mkOpts false true None))
    None [(mkFeat false true 1 0 true false false); (mkFeat true true 2 1 true false false)] None.

Example w_in_guard_in_guard :
  guard_C19 (table_parse w_in_guard_tab) w_in_guard = true
  /\ snd (run_c19 (table_parse w_in_guard_tab) w_in_guard) = Some (L """""""Generated.""""""
import os
import sys
X = 1

class AConfig(object):
    """"""
    The A class.

    :cvar x: the x. Defaults to 5""""""
    x: int = 5

class fConfig(object):
    """"""
    Do the f thing.

    :cvar a: the a
    :cvar b: the b. Defaults to 2""""""
    a: int = 0
    b: int = 2
__all__ = ['AConfig', 'fConfig']").
Proof. vm_compute. split; reflexivity. Qed.

Definition w_in_guard_function_tab : parse_table :=
  [((L "import os
import sys

class A(object):
    """"""
    The A class.
    """"""

    def __init__(self, x=5):
        """"""
        Do the A thing.

        :param x: the x
        :type x: ```int```
        """"""
        self.x = x


def f(a, b=2):
    """"""
    Do the f thing.

    :param a: the a
    :type a: ```int```

    :param b: the b
    :type b: ```int```
    """"""
    pass

M = {'A': A, 'f': f}
"), (Some [(TImport None (L "import os")); (TImport None (L "import sys")); (TDef true (L "A") (L "class A(object):
    """"""
    The A class.
    """"""

    def __init__(self, x=5):
        """"""
        Do the A thing.

        :param x: the x
        :type x: ```int```
        """"""
        self.x = x")); (TDef false (L "f") (L "def f(a, b=2):
    """"""
    Do the f thing.

    :param a: the a
    :type a: ```int```

    :param b: the b
    :type b: ```int```
    """"""
    pass")); (TOther (L "M = {'A': A, 'f': f}"))])); ((L "PI = 3"), (Some [(TOther (L "PI = 3"))])); ((L "['AConfig', 'fConfig']"), (Some [(TOther (L "['AConfig', 'fConfig']"))])); ((L "PI = 3
import os
import sys
def AConfig(*, x: int=5):
    """"""
The A class.

:param x: the x. Defaults to 5
        
""""""

def fConfig(*, a: int=None, b: int=2):
    """"""
Do the f thing.

:param a: the a
        
:param b: the b. Defaults to 2
        
""""""
__all__ = ['AConfig', 'fConfig']"), (Some [(TOther (L "PI = 3")); (TImport None (L "import os")); (TImport None (L "import sys")); (TDef false (L "AConfig") (L "def AConfig(*, x: int=5):
    """"""
The A class.

:param x: the x. Defaults to 5
        
""""""")); (TDef false (L "fConfig") (L "def fConfig(*, a: int=None, b: int=2):
    """"""
Do the f thing.

:param a: the a
        
:param b: the b. Defaults to 2
        
""""""")); (TAll [(L "AConfig"); (L "fConfig")] (L "__all__ = ['AConfig', 'fConfig']"))])); ((L "def AConfig(*, x: int=5):
    """"""
The A class.

:param x: the x. Defaults to 5
        
"""""""), (Some [(TDef false (L "AConfig") (L "def AConfig(*, x: int=5):
    """"""
The A class.

:param x: the x. Defaults to 5
        
"""""""))])); ((L "def fConfig(*, a: int=None, b: int=2):
    """"""
Do the f thing.

:param a: the a
        
:param b: the b. Defaults to 2
        
"""""""), (Some [(TDef false (L "fConfig") (L "def fConfig(*, a: int=None, b: int=2):
    """"""
Do the f thing.

:param a: the a
        
:param b: the b. Defaults to 2
        
"""""""))]))].

Definition w_in_guard_function : c19_in :=
  mkC19 ViaApi
    (mkGenIn (L "{name}Config") (L "m.M") (GOk [(mkEntry (L "A") false (Emitted (L "def AConfig(*, x: int=5):
    """"""
The A class.

:param x: the x. Defaults to 5
        
"""""""))); (mkEntry (L "f") true (Emitted (L "def fConfig(*, a: int=None, b: int=2):
    """"""
Do the f thing.

:param a: the a
        
:param b: the b. Defaults to 2
        
""""""")))]) (L "function") (Some (L "PI = 3")) (Some (GOk (L "import os
import sys

class A(object):
    """"""
    The A class.
    """"""

    def __init__(self, x=5):
        """"""
        Do the A thing.

        :param x: the x
        :type x: ```int```
        """"""
        self.x = x


def f(a, b=2):
    """"""
    Do the f thing.

    :param a: the a
    :type a: ```int```

    :param b: the b
    :type b: ```int```
    """"""
    pass

M = {'A': A, 'f': f}
"))) None (mkOpts false true None))
    None [(mkFeat false true 1 0 true false false); (mkFeat true true 2 1 true false false)] None.

Example w_in_guard_function_in_guard :
  guard_C19 (table_parse w_in_guard_function_tab) w_in_guard_function = true
  /\ snd (run_c19 (table_parse w_in_guard_function_tab) w_in_guard_function) = Some (L "import os
import sys
PI = 3

def AConfig(*, x: int=5):
    """"""
The A class.

:param x: the x. Defaults to 5
        
""""""

def fConfig(*, a: int=None, b: int=2):
    """"""
Do the f thing.

:param a: the a
        
:param b: the b. Defaults to 2
        
""""""
__all__ = ['AConfig', 'fConfig']").
Proof. vm_compute. split; reflexivity. Qed.

(* A small line-based parser that has every property listed in python_like, so the hypotheses
   of the theorems above are consistent.  It accepts blank lines, lines  import <word>  and lines starting
   with  __all__ = [ ; everything else is a syntax error. *)
Fixpoint lines_aux (s cur : str) : list str :=
  match s with
  | [] => [cur]
  | c :: r => if ascii_eqb c nl then cur :: lines_aux r [] else lines_aux r (cur ++ [c])
  end.
Definition lines (s : str) : list str := lines_aux s [].

Definition no_nl (s : str) : bool := forallb (fun c => negb (ascii_eqb c nl)) s.
Definition no_space (s : str) : bool := forallb (fun c => negb (ascii_eqb c sp)) s.
Definition quote_free (s : str) : bool := forallb (fun c => negb (ascii_eqb c (ch 39))) s.

(* the texts between the 1st and 2nd, 3rd and 4th, ... single quote *)
Fixpoint segs (s : str) (inside : bool) (cur : str) : list str :=
  match s with
  | [] => []
  | c :: r =>
    if ascii_eqb c (ch 39) then (if inside then cur :: segs r false [] else segs r true [])
    else segs r inside (if inside then cur ++ [c] else cur)
  end.

Definition toy_line (l : str) : option (list top) :=
  match l with
  | [] => Some []
  | _ =>
    if startswith (L "import ") l then
      (if no_space (skipn 7 l) then Some [TImport None l] else None)
    else if startswith (L "__all__ = [") l then Some [TAll (segs l false []) l]
    else None
  end.

Fixpoint toy_lines (ls : list str) : option (list top) :=
  match ls with
  | [] => Some []
  | l :: r =>
    match toy_line l, toy_lines r with
    | Some a, Some b => Some (a ++ b)
    | _, _ => None
    end
  end.

Definition toy_parse (s : str) : option (list top) := toy_lines (lines s).

Lemma lines_aux_app_nl : forall a b cur, lines_aux (a ++ nl :: b) cur = lines_aux a cur ++ lines_aux b [].
Proof.
  induction a as [|c a' IH]; intros b cur.
  - cbn [app lines_aux]. rewrite ascii_eqb_refl. reflexivity.
  - cbn [app lines_aux]. destruct (ascii_eqb c nl); [cbn [app]; rewrite IH; reflexivity|apply IH].
Qed.

Lemma lines_aux_no_nl : forall s cur, no_nl s = true -> lines_aux s cur = [cur ++ s].
Proof.
  induction s as [|c r IH]; intros cur H.
  - cbn. rewrite app_nil_r. reflexivity.
  - unfold no_nl in H. cbn [forallb] in H. apply andb_true_iff in H. destruct H as [Hc Hr].
    fold (no_nl r) in Hr. apply negb_true_iff in Hc.
    cbn [lines_aux]. rewrite Hc, (IH _ Hr), <- app_assoc. reflexivity.
Qed.

Lemma lines_aux_prefix : forall u v cur, no_nl u = true -> lines_aux (u ++ v) cur = lines_aux v (cur ++ u).
Proof.
  induction u as [|c r IH]; intros v cur H.
  - cbn. rewrite app_nil_r. reflexivity.
  - unfold no_nl in H. cbn [forallb] in H. apply andb_true_iff in H. destruct H as [Hc Hr].
    fold (no_nl r) in Hr. apply negb_true_iff in Hc.
    cbn [app lines_aux]. rewrite Hc, (IH _ _ Hr), <- app_assoc. reflexivity.
Qed.

Lemma lines_aux_head : forall v cur, exists h t, lines_aux v cur = (cur ++ h) :: t /\ no_nl h = true.
Proof.
  induction v as [|c r IH]; intros cur.
  - exists [], []. cbn. rewrite app_nil_r. split; reflexivity.
  - cbn [lines_aux]. destruct (ascii_eqb c nl) eqn:E.
    + exists [], (lines_aux r []). rewrite app_nil_r. split; reflexivity.
    + destruct (IH (cur ++ [c])) as [h [t [Hl Hh]]]. exists (c :: h), t. rewrite Hl, <- app_assoc.
      split; [reflexivity|]. unfold no_nl. cbn [forallb]. fold (no_nl h). rewrite E, Hh. reflexivity.
Qed.

Lemma no_nl_app : forall a b, no_nl (a ++ b) = no_nl a && no_nl b.
Proof. intros a b. unfold no_nl. apply forallb_app. Qed.

Lemma lines_aux_elems : forall s cur, no_nl cur = true -> Forall (fun l => no_nl l = true) (lines_aux s cur).
Proof.
  induction s as [|c r IH]; intros cur H.
  - constructor; [exact H|constructor].
  - cbn [lines_aux]. destruct (ascii_eqb c nl) eqn:E.
    + constructor; [exact H|apply IH; reflexivity].
    + apply IH. rewrite no_nl_app, H. unfold no_nl. cbn [forallb]. rewrite E. reflexivity.
Qed.

Lemma segs_outside_quote_free : forall s, quote_free s = true -> forall r, segs (s ++ r) false [] = segs r false [].
Proof.
  induction s as [|c s' IH]; intros H r; [reflexivity|].
  unfold quote_free in H. cbn [forallb] in H. apply andb_true_iff in H. destruct H as [Hc Hs].
  fold (quote_free s') in Hs. apply negb_true_iff in Hc.
  cbn [app segs]. rewrite Hc. apply IH. exact Hs.
Qed.

Lemma segs_inside : forall n cur r, quote_free n = true ->
    segs (n ++ ch 39 :: r) true cur = (cur ++ n) :: segs r false [].
Proof.
  induction n as [|c n' IH]; intros cur r H.
  - cbn [app segs]. rewrite ascii_eqb_refl, app_nil_r. reflexivity.
  - unfold quote_free in H. cbn [forallb] in H. apply andb_true_iff in H. destruct H as [Hc Hn].
    fold (quote_free n') in Hn. apply negb_true_iff in Hc.
    cbn [app segs]. rewrite Hc, (IH _ _ Hn), <- app_assoc. reflexivity.
Qed.

Lemma segs_quote1 : forall n r, quote_free n = true -> segs (quote1 n ++ r) false [] = n :: segs r false [].
Proof.
  intros n r H. unfold quote1. cbn [app segs]. rewrite ascii_eqb_refl.
  rewrite <- app_assoc. cbn [app]. rewrite (segs_inside n [] r H). reflexivity.
Qed.

Lemma segs_items : forall names tail, forallb quote_free names = true -> quote_free tail = true ->
    segs (join (L ", ") (map quote1 names) ++ tail) false [] = names.
Proof.
  induction names as [|n r IH]; intros tail Hn Ht.
  - cbn [map join app]. rewrite <- (app_nil_r tail). rewrite (segs_outside_quote_free tail Ht []). reflexivity.
  - cbn in Hn. apply andb_true_iff in Hn. destruct Hn as [Hq Hr]. destruct r as [|n2 r2].
    + cbn [map join]. rewrite (segs_quote1 n tail Hq). f_equal.
      rewrite <- (app_nil_r tail). rewrite (segs_outside_quote_free tail Ht []). reflexivity.
    + change (join (L ", ") (map quote1 (n :: n2 :: r2)))
        with (quote1 n ++ L ", " ++ join (L ", ") (map quote1 (n2 :: r2))).
      rewrite <- !app_assoc. rewrite (segs_quote1 n _ Hq). f_equal.
      rewrite (segs_outside_quote_free (L ", ") eq_refl). apply IH; assumption.
Qed.

Lemma safe_name_facts : forall n, safe_name n = true -> quote_free n = true /\ no_nl n = true.
Proof.
  induction n as [|c r IH]; intros H; [split; reflexivity|].
  cbn [safe_name forallb] in H. apply andb_true_iff in H. destruct H as [Hc Hr].
  destruct (IH Hr) as [Hq Hn]. unfold safe_char in Hc.
  apply andb_true_iff in Hc. destruct Hc as [Hc1 Hc3]. apply andb_true_iff in Hc1. destruct Hc1 as [Hc1 Hc2].
  apply negb_true_iff in Hc3. apply orb_false_iff in Hc3. destruct Hc3 as [Hm _].
  unfold quote_free, no_nl. cbn [forallb]. fold (quote_free r). fold (no_nl r).
  rewrite Hq, Hn, !andb_true_r. split.
  - apply negb_true_iff. unfold mem_c in Hm. cbn [L String.list_ascii_of_string existsb] in Hm.
    apply orb_false_iff in Hm. apply Hm.
  - apply negb_true_iff. apply ascii_eqb_neq. intros E. subst c. cbn in Hc1. discriminate Hc1.
Qed.

Lemma no_nl_quote1 : forall n, no_nl n = true -> no_nl (quote1 n) = true.
Proof.
  intros n H. unfold quote1, no_nl in *. cbn [forallb]. rewrite forallb_app, H. reflexivity.
Qed.

Lemma no_nl_items : forall names, forallb no_nl names = true -> no_nl (join (L ", ") (map quote1 names)) = true.
Proof.
  induction names as [|n r IH]; intros H; [reflexivity|].
  cbn [forallb] in H. apply andb_true_iff in H. destruct H as [Hn Hr]. destruct r as [|n2 r2].
  - cbn [map join]. apply no_nl_quote1. exact Hn.
  - change (join (L ", ") (map quote1 (n :: n2 :: r2)))
      with (quote1 n ++ L ", " ++ join (L ", ") (map quote1 (n2 :: r2))).
    rewrite !no_nl_app, (no_nl_quote1 n Hn), (IH Hr). reflexivity.
Qed.

(* Line-based parsers: a text parses when each of its lines does, to the statements of the lines in order.  Such a
   parser is Python-like as soon as the empty line gives nothing, any other line at most one statement whose text
   is the line, and an __all__ line its quoted names. *)
Section LineParser.
Variable line : str -> option (list top).
Variable parse : str -> option (list top).

Fixpoint plines (ls : list str) : option (list top) :=
  match ls with
  | [] => Some []
  | l :: r => match line l, plines r with Some a, Some b => Some (a ++ b) | _, _ => None end
  end.

Hypothesis parse_lines : forall s, parse s = plines (lines s).
Hypothesis line_nil : line [] = Some [].
Hypothesis line_one : forall l tops, line l = Some tops ->
    tops = [] \/ exists t, tops = [t] /\ top_text t = l /\ first_text t = l.
Hypothesis line_all : forall l, startswith (L "__all__ = [") l = true -> line l = Some [TAll (segs l false []) l].

Lemma plines_app : forall x y,
    plines (x ++ y) = match plines x, plines y with Some a, Some b => Some (a ++ b) | _, _ => None end.
Proof.
  induction x as [|l r IH]; intros y; cbn [app plines]; [destruct (plines y); reflexivity|].
  rewrite IH. destruct (line l); [|reflexivity]. destruct (plines r); [|reflexivity].
  destruct (plines y); [rewrite app_assoc|]; reflexivity.
Qed.

Lemma parse_single : forall l, no_nl l = true -> parse l = option_map (fun a => a ++ []) (line l).
Proof.
  intros l H. rewrite parse_lines. unfold lines. rewrite (lines_aux_no_nl l [] H). cbn [app plines].
  destruct (line l); reflexivity.
Qed.

Lemma plines_wf : forall ls tops, Forall (fun l => no_nl l = true) ls -> plines ls = Some tops ->
    Forall (wf_top parse) tops.
Proof.
  induction ls as [|l r IH]; intros tops Hn H; [injection H as <-; constructor|].
  inversion Hn as [|x y Hl Hr]; subst. cbn [plines] in H.
  destruct (line l) as [a|] eqn:Ea; [|discriminate H]. destruct (plines r) as [b|]; [|discriminate H].
  injection H as <-. apply Forall_app. split; [|apply IH; [exact Hr|reflexivity]].
  destruct (line_one l a Ea) as [->|(t & -> & Ht & Hf)]; constructor; [|constructor].
  unfold wf_top. rewrite Ht, Hf, (parse_single l Hl), Ea. split; reflexivity.
Qed.

Lemma line_parser_python_like : python_like parse.
Proof.
  constructor.
  - rewrite parse_lines. cbn. rewrite line_nil. reflexivity.
  - intros a b ta tb Ha Hb. rewrite parse_lines in *. unfold lines in *.
    rewrite lines_aux_app_nl, plines_app, Ha, Hb. reflexivity.
  - intros b. rewrite !parse_lines. unfold lines. cbn [lines_aux]. rewrite ascii_eqb_refl. cbn [plines].
    rewrite line_nil. destruct (plines _); reflexivity.
  - intros a. rewrite !parse_lines. unfold lines. rewrite lines_aux_app_nl, plines_app. cbn [lines_aux plines].
    rewrite line_nil. destruct (plines _); cbn [app]; [rewrite app_nil_r|]; reflexivity.
  - intros s tops H. rewrite parse_lines in H. apply (plines_wf (lines s)); [|exact H].
    apply lines_aux_elems. reflexivity.
  - intros names H.
    assert (HQ : forallb quote_free names = true /\ forallb no_nl names = true).
    { induction names as [|n r IH]; [split; reflexivity|].
      cbn in H. apply andb_true_iff in H. destruct H as [Hn Hr]. destruct (IH Hr) as [A B].
      destruct (safe_name_facts n Hn) as [C D]. cbn. rewrite A, B, C, D. split; reflexivity. }
    destruct HQ as [HQ HN].
    assert (Hnl : no_nl (all_text names) = true).
    { unfold all_text. rewrite !no_nl_app, (no_nl_items names HN). reflexivity. }
    rewrite (parse_single _ Hnl), line_all by (unfold all_text; apply startswith_app).
    unfold all_text at 1. rewrite (segs_outside_quote_free (L "__all__ = [") eq_refl), segs_items by (auto; reflexivity).
    reflexivity.
Qed.
End LineParser.

Theorem python_like_toy : python_like toy_parse.
Proof.
  apply (line_parser_python_like toy_line).
  - intros s. unfold toy_parse. induction (lines s) as [|l r IH]; cbn [toy_lines plines]; [|rewrite IH]; reflexivity.
  - reflexivity.
  - intros l tops H. unfold toy_line in H. destruct l as [|c r]; [injection H as <-; now left|]. right.
    destruct (startswith (L "import ") (c :: r)).
    + destruct (no_space _); [|discriminate H]. injection H as <-. eexists. repeat split.
    + destruct (startswith (L "__all__ = [") (c :: r)); [|discriminate H]. injection H as <-. eexists. repeat split.
  - intros l H. apply startswith_iff in H. destruct H as [r ->]. reflexivity.
Qed.

Example toy_parses_imports :
  toy_parse (L "import os" ++ [nl] ++ L "import sys" ++ [nl]) = Some [TImport None (L "import os"); TImport None (L "import sys")]
  /\ toy_parse (L "import os" ++ L "import sys") = None.
Proof. vm_compute. split; reflexivity. Qed.

(* consequently the refutation is not vacuous: there is a Python-like parser, and C19 fails for it *)
Theorem C19_refuted_nonvacuous : exists ps, python_like ps /\ ~ C19_statement ps.
Proof. exists toy_parse. split; [exact python_like_toy|apply C19_refuted_lemma; exact python_like_toy]. Qed.

Lemma C19_witness_api_appends_lemma :
  C19_domain (table_parse w_api_appends_tab) w_api_appends = true
  /\ finding_class_C19 (table_parse w_api_appends_tab) w_api_appends = Some K_api_appends
  /\ exists after, snd (run_c19 (table_parse w_api_appends_tab) w_api_appends) = Some after
                   /\ startswith (L "OLD = 1") after = true /\ after <> L "OLD = 1" ++ [nl].
Proof.
  destruct w_api_appends_fails as [H1 [H2 H3]]. split; [exact H1|split; [exact H2|]].
  eexists. split; [exact H3|split; [reflexivity|discriminate]].
Qed.
