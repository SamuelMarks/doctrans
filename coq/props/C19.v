(* C19: gen writes one well-formed, correctly named definition per mapping entry.
   The lemmas live in proofs/GenFacts.v, the definitions in model/Gen.v and
   model/C19Spec.v.  ps stands for ast.parse; python_like lists what is assumed of it. *)
From Coq Require Import List Ascii Bool Arith ZArith Permutation Sorted.
From Coq Require String.
Import String.StringSyntax.
From DT Require Import PyStr Sexp PyVal Gen C19Spec GenFacts.
Import ListNotations.

(* the hoisted body is a rearrangement of the parsed body *)
Theorem C19_hoist_permutation : forall body, Permutation (hoist body) body.
Proof. exact hoist_perm. Qed.
Print Assumptions C19_hoist_permutation.

(* the non-imports keep their relative order *)
Theorem C19_hoist_keeps_nonimports : forall body, filter nonimp (hoist body) = filter nonimp body.
Proof. exact hoist_keeps_nonimports. Qed.
Print Assumptions C19_hoist_keeps_nonimports.

(* the imports come out __future__ first, each group in its original order *)
Theorem C19_hoist_imports_order : forall body,
    filter is_import (hoist body) = filter is_future body ++ filter is_plain_import body.
Proof. exact hoist_imports_order. Qed.
Print Assumptions C19_hoist_imports_order.

(* stable sort: for every key the subsequence with that key is unchanged *)
Theorem C19_hoist_stable : forall k body, filter (rank_is k) (hoist body) = filter (rank_is k) body.
Proof. exact hoist_stable. Qed.
Print Assumptions C19_hoist_stable.

(* docstring (at most one statement) first, then every import, then every non-import *)
Theorem C19_hoist_imports_first : forall body,
    exists d i o, hoist body = d ++ i ++ o
                  /\ d = doc_part body
                  /\ i = filter is_future body ++ filter is_plain_import body
                  /\ Forall (fun t => is_import t = true) i
                  /\ Forall (fun t => is_import t = false) o
                  /\ o = filter nonimp (rest_part body).
Proof. exact hoist_imports_first. Qed.
Print Assumptions C19_hoist_imports_first.

(* after the docstring the keys never decrease *)
Theorem C19_hoist_sorted : forall body,
    exists d, length d <= 1 /\ hoist body = d ++ hoist3 (rest_part body)
              /\ (has_doc body = true -> exists r, body = d ++ r /\ d <> [])
              /\ StronglySorted (fun a b => rank a <= rank b) (hoist3 (rest_part body)).
Proof. exact hoist_sorted. Qed.
Print Assumptions C19_hoist_sorted.

(* all of the above about what gen writes, for any account of the parser *)
Theorem C19_gen_hoisting : forall ps gi g, snd (gen ps gi) = GOk g ->
    exists body, ps (g_content g) = Some body
      /\ Permutation (g_hoisted g) body
      /\ filter nonimp (g_hoisted g) = filter nonimp body
      /\ filter is_import (g_hoisted g) = filter is_future body ++ filter is_plain_import body
      /\ (forall k, filter (rank_is k) (g_hoisted g) = filter (rank_is k) body)
      /\ (exists d, length d <= 1 /\ g_hoisted g = d ++ hoist3 (rest_part body)
                    /\ StronglySorted (fun a b => rank a <= rank b) (hoist3 (rest_part body)))
      /\ g_written g = unparse_module (g_hoisted g).
Proof. exact gen_hoisting. Qed.
Print Assumptions C19_gen_hoisting.

Theorem C19_names_in_order : forall tpl es names,
    names_of tpl es = GOk names -> Forall2 (fun e n => format_name tpl (e_name e) = GOk n) es names.
Proof. exact names_of_spec. Qed.
Print Assumptions C19_names_in_order.

(* when every conversion returns a text, the loop yields exactly those names and one text per
   entry, both in mapping order, for each of the three output types *)
Theorem C19_loop_names_and_texts : forall tpl type_ o es names,
    known_type type_ = true -> forallb is_emitted es = true -> names_of tpl es = GOk names ->
    snd (run_entries tpl type_ o es) = GOk (names, texts_of es).
Proof. exact run_entries_ok. Qed.
Print Assumptions C19_loop_names_and_texts.

(* templates literal{name}literal, e.g. {name}Config and Gen{name} *)
Theorem C19_simple_template : forall pre post es,
    brace_free pre = true -> brace_free post = true ->
    names_of (pre ++ L "{name}" ++ post) es = GOk (map (fun e => pre ++ e_name e ++ post) es).
Proof. exact names_of_simple_template. Qed.
Print Assumptions C19_simple_template.

Theorem C19_content_parses : forall ps, python_like ps -> forall P tp texts defs names,
    ps P = Some tp -> Forall2 (fun t d => ps t = Some [d]) texts defs ->
    forallb safe_name names = true ->
    ps (P ++ [nl] ++ join [nl; nl] texts ++ [nl] ++ all_text names)
    = Some (tp ++ defs ++ [TAll names (all_text names)]).
Proof. exact content_parses. Qed.
Print Assumptions C19_content_parses.

Theorem C19_written_parses : forall ps, python_like ps -> forall m,
    Forall (wf_top ps) m -> ps (unparse_module m) = Some m.
Proof. exact unparse_module_parses. Qed.
Print Assumptions C19_written_parses.

Theorem C19_partial : forall ps, python_like ps -> forall x, guard_C19 ps x = true -> C19_at ps x.
Proof. exact C19_partial_lemma. Qed.
Print Assumptions C19_partial.

(* through the CLI an existing output file is always refused and left untouched *)
Theorem C19_cli_refuses : forall ps x old,
    ci_via x = ViaCli -> ci_existing x = Some old -> C19_at ps x.
Proof. exact C19_cli_refuses_lemma. Qed.
Print Assumptions C19_cli_refuses.

(* fresh output, every entry converts: C19 holds for each of the three types, any number of
   entries, any imports file, prepend with or without a final newline *)
Theorem C19_all_entries_convert : forall ps, python_like ps -> forall x,
    C19_domain ps x = true -> ci_existing x = None ->
    forallb is_emitted (entries_of (ci_gen x)) = true ->
    C19_at ps x.
Proof. exact C19_all_entries_convert_lemma. Qed.
Print Assumptions C19_all_entries_convert.

(* the header of the assembled text parses to prepend's statements followed by the imports, for
   any number of import statements *)
Theorem C19_header_parses : forall ps, python_like ps -> forall gi header,
    header_of ps gi = Some header ->
    ps (prepend_arg (gi_prepend gi) ++ imports_text ps gi) = Some header.
Proof. exact header_parses. Qed.
Print Assumptions C19_header_parses.

(* missing required option, or --type outside the three choices: usage error, nothing runs *)
Theorem C19_cli_usage : forall a ex,
    (ca_name_tpl a = None \/ ca_input_mapping a = None \/ ca_type a = None \/ ca_output_filename a = None
     \/ exists ty, ca_type a = Some ty /\ known_type ty = false) ->
    cli_gen a ex = CliUsage.
Proof. exact cli_gen_usage. Qed.
Print Assumptions C19_cli_usage.

Theorem C19_refuted : forall ps, python_like ps -> ~ C19_statement ps.
Proof. exact C19_refuted_lemma. Qed.
Print Assumptions C19_refuted.

(* ... and there is a Python-like parser (the assumptions are consistent) *)
Theorem C19_refuted_nonvacuous : exists ps, python_like ps /\ ~ C19_statement ps.
Proof. exact GenFacts.C19_refuted_nonvacuous. Qed.
Print Assumptions C19_refuted_nonvacuous.

Theorem C19_fails_entry : forall ps x es,
    gi_mapping (ci_gen x) = GOk es -> forallb is_emitted es = false -> ci_existing x = None -> ~ C19_at ps x.
Proof. exact C19_fails_entry_lemma. Qed.
Print Assumptions C19_fails_entry.

Theorem C19_api_appends : forall ps x old g,
    ci_via x = ViaApi -> ci_existing x = Some old -> snd (gen ps (ci_gen x)) = GOk g ->
    snd (run_c19 ps x) = Some (old ++ g_written g) /\ ~ C19_at ps x.
Proof. exact C19_api_appends_lemma. Qed.
Print Assumptions C19_api_appends.

Theorem C19_refuted_api_append : forall ps, python_like ps ->
    C19_domain ps w_append = true
    /\ snd (run_c19 ps w_append) = Some (L "OLD = 1" ++ L "__all__ = []")
    /\ ~ C19_at ps w_append.
Proof. exact C19_refuted_api_append_lemma. Qed.
Print Assumptions C19_refuted_api_append.

(* two entries, two imports, prepend without a final newline: inside the guard, and it runs *)
Example C19_nonvacuous :
  guard_C19 (table_parse w_in_guard_tab) w_in_guard = true
  /\ exists written, snd (run_c19 (table_parse w_in_guard_tab) w_in_guard) = Some written.
Proof. split; [exact (proj1 w_in_guard_in_guard)|eexists; exact (proj2 w_in_guard_in_guard)]. Qed.
Print Assumptions C19_nonvacuous.

(* the same with output type function *)
Example C19_nonvacuous_function :
  guard_C19 (table_parse w_in_guard_function_tab) w_in_guard_function = true
  /\ exists written, snd (run_c19 (table_parse w_in_guard_function_tab) w_in_guard_function) = Some written.
Proof.
  split; [exact (proj1 w_in_guard_function_in_guard)|eexists; exact (proj2 w_in_guard_function_in_guard)].
Qed.
Print Assumptions C19_nonvacuous_function.

Example C19_witness_annotated :
  C19_domain (table_parse w_annotated_tab) w_annotated = true
  /\ finding_class_C19 (table_parse w_annotated_tab) w_annotated = Some K_entry_annotated
  /\ fst (run_c19 (table_parse w_annotated_tab) w_annotated) = GErr (L "SyntaxError").
Proof. exact w_annotated_fails. Qed.
Print Assumptions C19_witness_annotated.

Example C19_witness_undocumented :
  C19_domain (table_parse w_undocumented_tab) w_undocumented = true
  /\ finding_class_C19 (table_parse w_undocumented_tab) w_undocumented = Some K_entry_undocumented
  /\ fst (run_c19 (table_parse w_undocumented_tab) w_undocumented) = GErr (L "KeyError").
Proof. exact w_undocumented_fails. Qed.
Print Assumptions C19_witness_undocumented.

Example C19_witness_no_params :
  C19_domain (table_parse w_no_params_tab) w_no_params = true
  /\ finding_class_C19 (table_parse w_no_params_tab) w_no_params = Some K_entry_no_params
  /\ fst (run_c19 (table_parse w_no_params_tab) w_no_params) = GErr (L "RuntimeError").
Proof. exact w_no_params_fails. Qed.
Print Assumptions C19_witness_no_params.

Example C19_witness_returns_argparse :
  C19_domain (table_parse w_returns_argparse_tab) w_returns_argparse = true
  /\ finding_class_C19 (table_parse w_returns_argparse_tab) w_returns_argparse = Some K_entry_returns_argparse
  /\ fst (run_c19 (table_parse w_returns_argparse_tab) w_returns_argparse) = GErr (L "TypeError").
Proof. exact w_returns_argparse_fails. Qed.
Print Assumptions C19_witness_returns_argparse.

Example C19_witness_returns_function :
  C19_domain (table_parse w_returns_function_tab) w_returns_function = true
  /\ finding_class_C19 (table_parse w_returns_function_tab) w_returns_function = Some K_entry_returns_function
  /\ fst (run_c19 (table_parse w_returns_function_tab) w_returns_function) = GErr (L "AttributeError").
Proof. exact w_returns_function_fails. Qed.
Print Assumptions C19_witness_returns_function.

Example C19_witness_untyped_param :
  C19_domain (table_parse w_untyped_param_tab) w_untyped_param = true
  /\ finding_class_C19 (table_parse w_untyped_param_tab) w_untyped_param = Some K_entry_untyped_param
  /\ fst (run_c19 (table_parse w_untyped_param_tab) w_untyped_param) = GErr (L "TypeError").
Proof. exact w_untyped_param_fails. Qed.
Print Assumptions C19_witness_untyped_param.

Example C19_witness_api_appends :
  C19_domain (table_parse w_api_appends_tab) w_api_appends = true
  /\ finding_class_C19 (table_parse w_api_appends_tab) w_api_appends = Some K_api_appends
  /\ exists after, snd (run_c19 (table_parse w_api_appends_tab) w_api_appends) = Some after
                   /\ startswith (L "OLD = 1") after = true /\ after <> L "OLD = 1" ++ [nl].
Proof. exact C19_witness_api_appends_lemma. Qed.
Print Assumptions C19_witness_api_appends.
