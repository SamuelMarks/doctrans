(* ParseAstFacts: theorems about the AST-reading parsers alone (model/ParseAst.v), unbounded in the number of
   attributes / add_argument calls (induction over the body list).
   class_        parse_class never returns duplicate parameter names (unconditional); the body loop never drops a
                 name; for a body that is exactly  [docstring; AnnAssign n1 t1 v1; ...]  whose names are all
                 documented, the result is the docstring's parameters in docstring order, each with typ = the printed
                 annotation and default = the value read off the node, prose kept (parse_class_documented), and with
                 ordinary names the final _set_name_and_type map keeps names and order.
   argparse_ast  never returns duplicate option names (unconditional); one parameter per add_argument call, in call
                 order, named by the first positional argument without its two leading characters
                 (argparse_one_param_per_call, parse_argparse_ast_calls).
   The OrderedDict lemmas are those of MergeFacts, read through keys.  At the end: comparing strictly against the
   zero-normalised input implies the relation of the oracles (C02Spec; used by both class and argparse codecs). *)
From Coq Require Import List Ascii Bool Arith ZArith Lia.
From Coq Require String.
Import String.StringSyntax.
From DT Require Import PyStr Sexp PyVal TyExpr PureUtils Defaults PyAst IR ParseAst C02Spec.
From DT Require Import PyStrFacts.
From DT Require MergeFacts ListFacts DefaultsFacts.
Import ListNotations.

Ltac binv H :=
  let a := fresh "a" in
  let Ha := fresh "Ha" in
  apply DefaultsFacts.bind_Ok_inv in H; destruct H as [a [Ha H]].

Definition str_dec : forall x y : str, {x = y} + {x <> y} := list_eq_dec Ascii.ascii_dec.

Section OD.
  Context {A : Type}.
  Implicit Types (d : list (str * A)) (k : str) (v : A).

  Definition keys d : list str := map fst d.

  Lemma od_get_None_iff : forall k d, od_get k d = None <-> ~ In k (keys d).
  Proof. exact (@MergeFacts.od_get_None_iff A). Qed.

  Lemma od_get_Some_In_keys : forall k d v, od_get k d = Some v -> In k (keys d).
  Proof. exact (@MergeFacts.od_get_Some_In_keys A). Qed.

  Lemma od_get_In_Some : forall k d, In k (keys d) -> exists v, od_get k d = Some v.
  Proof. exact (@MergeFacts.od_get_In_keys A). Qed.

  Lemma od_set_keys_in : forall k v d, In k (keys d) -> keys (od_set k v d) = keys d.
  Proof. intros k v d. exact (MergeFacts.od_keys_set_present k v d). Qed.

  Lemma od_set_keys_notin : forall k v d, ~ In k (keys d) -> od_set k v d = d ++ [(k, v)].
  Proof.
    intros k v d. induction d as [|[k' v'] r IH]; cbn [od_set keys map fst In]; intros Hn.
    - reflexivity.
    - destruct (str_eqb k k') eqn:E.
      + apply str_eqb_eq in E. subst k'. exfalso. apply Hn. left. reflexivity.
      + cbn [app]. f_equal. apply IH. intros H. apply Hn. right. exact H.
  Qed.

  Lemma od_set_keys : forall k v d,
      keys (od_set k v d) = if in_dec str_dec k (keys d) then keys d else keys d ++ [k].
  Proof.
    intros k v d. destruct (in_dec str_dec k (keys d)) as [Hin|Hn].
    - apply od_set_keys_in. exact Hin.
    - rewrite od_set_keys_notin by exact Hn. unfold keys. rewrite map_app. reflexivity.
  Qed.

  Lemma od_set_keys_mono : forall k v d x, In x (keys d) -> In x (keys (od_set k v d)).
  Proof.
    intros k v d x H. rewrite od_set_keys. destruct (in_dec str_dec k (keys d)); [exact H|].
    apply in_or_app. left. exact H.
  Qed.

  Lemma od_set_key_in : forall k v d, In k (keys (od_set k v d)).
  Proof.
    intros k v d. rewrite od_set_keys. destruct (in_dec str_dec k (keys d)) as [H|H]; [exact H|].
    apply in_or_app. right. left. reflexivity.
  Qed.

  Lemma od_set_NoDup : forall k v d, NoDup (keys d) -> NoDup (keys (od_set k v d)).
  Proof.
    intros k v d H. rewrite od_set_keys. destruct (in_dec str_dec k (keys d)) as [Hin|Hn]; [exact H|].
    apply ListFacts.NoDup_snoc; assumption.
  Qed.

  Lemma od_get_set_same : forall k v d, od_get k (od_set k v d) = Some v.
  Proof. exact (@MergeFacts.od_get_set_same A). Qed.

  Lemma od_get_set_other : forall k k' v d, k <> k' -> od_get k' (od_set k v d) = od_get k' d.
  Proof. exact (@MergeFacts.od_get_set_other A). Qed.

  Lemma od_pop_NoDup : forall k d, NoDup (keys d) -> NoDup (keys (od_pop k d)).
  Proof. intros k d H. change (NoDup (od_keys (od_pop k d))). rewrite (MergeFacts.od_keys_pop k d H). apply NoDup_filter. exact H. Qed.

  Lemma od_set_as_map : forall k (f : A -> A) d old,
      NoDup (keys d) -> od_get k d = Some old ->
      od_set k (f old) d = map (fun kv => if str_eqb (fst kv) k then (fst kv, f (snd kv)) else kv) d.
  Proof.
    intros k f d. induction d as [|[k' v'] r IH]; cbn [od_set od_get map fst snd keys]; intros old Hnd Hget.
    - discriminate Hget.
    - inversion Hnd as [|x l Hn Hr]; subst.
      destruct (str_eqb k k') eqn:E.
      + apply str_eqb_eq in E. subst k'. inversion Hget; subst. rewrite str_eqb_refl. f_equal.
        (* no other item has key k *)
        clear IH Hget Hnd. induction r as [|[k2 v2] r2 IH2]; [reflexivity|].
        cbn [map fst snd]. destruct (str_eqb k2 k) eqn:E2.
        * apply str_eqb_eq in E2. subst k2. exfalso. apply Hn. left. reflexivity.
        * f_equal. apply IH2.
          -- intros H. apply Hn. right. exact H.
          -- inversion Hr; assumption.
      + rewrite str_eqb_sym, E. f_equal. apply IH; assumption.
  Qed.

  Lemma fold_od_set_NoDup : forall (l : list (str * A)) acc,
      NoDup (keys acc) -> NoDup (keys (fold_left (fun d kv => od_set (fst kv) (snd kv) d) l acc)).
  Proof.
    induction l as [|[k v] l IH]; intros acc H; cbn [fold_left fst snd]; [exact H|].
    apply IH. apply od_set_NoDup. exact H.
  Qed.

  Lemma od_of_pairs_keys_NoDup : forall (l : list (str * A)), NoDup (keys (od_of_pairs l)).
  Proof. intros l. unfold od_of_pairs. apply fold_od_set_NoDup. constructor. Qed.

  Lemma fold_od_set_fresh : forall (l : list (str * A)) acc,
      NoDup (keys acc ++ keys l) ->
      fold_left (fun d kv => od_set (fst kv) (snd kv) d) l acc = acc ++ l.
  Proof. exact (@MergeFacts.fold_od_set_fresh A). Qed.

  Lemma od_of_pairs_id : forall (l : list (str * A)), NoDup (keys l) -> od_of_pairs l = l.
  Proof. exact (@MergeFacts.od_of_pairs_NoDup A). Qed.
End OD.


Definition kset (ps : list (str * gparam)) : list str := keys ps.

Lemma class_annassign_inv : forall params returns t a v params' returns',
    class_annassign params returns t a v = Ok (params', returns') ->
    (NoDup (keys params) -> NoDup (keys params')) /\ (forall x, In x (keys params) -> In x (keys params')).
Proof.
  intros params returns t a v params' returns' H. unfold class_annassign in H.
  binv H. binv H. binv H. rename a2 into id.
  destruct (od_get id params) as [old|] eqn:Eg.
  - inversion H; subst. split; [apply od_set_NoDup|intros x; apply od_set_keys_mono].
  - destruct returns as [| |old]; [discriminate H| |];
      destruct (str_eqb id return_type_key); inversion H; subst;
        (split; [try (apply od_set_NoDup); trivial|intros x Hx; try (apply od_set_keys_mono); exact Hx]).
Qed.

Lemma class_assign_targets_inv : forall targets params d params',
    class_assign_targets params targets d = Ok params' ->
    (NoDup (keys params) -> NoDup (keys params')) /\ (forall x, In x (keys params) -> In x (keys params')).
Proof.
  induction targets as [|t r IH]; intros params d params' H; cbn [class_assign_targets] in H.
  - inversion H; subst. split; trivial.
  - binv H. rename a into id.
    destruct (od_get id params) as [old|]; apply IH in H; destruct H as [H1 H2];
      (split; [intros Hnd; apply H1; apply od_set_NoDup; exact Hnd
              |intros x Hx; apply H2; apply od_set_keys_mono; exact Hx]).
Qed.

Lemma class_body_loop_inv : forall body params returns params' returns',
    class_body_loop params returns body = Ok (params', returns') ->
    (NoDup (keys params) -> NoDup (keys params')) /\ (forall x, In x (keys params) -> In x (keys params')).
Proof.
  induction body as [|s rest IH]; intros params returns params' returns' H; cbn [class_body_loop] in H.
  - inversion H; subst. split; trivial.
  - destruct s as [n ar b d r|n bs b d|t a v|ts v|e|e|tg hd bl]; try (apply IH in H; exact H).
    + binv H. destruct a0 as [p1 r1]. cbn [fst snd] in H.
      apply class_annassign_inv in Ha. apply IH in H. destruct Ha as [A1 A2]. destruct H as [B1 B2].
      split; [intros Hn; apply B1; apply A1; exact Hn|intros x Hx; apply B2; apply A2; exact Hx].
    + binv H. binv H. apply class_assign_targets_inv in Ha0. apply IH in H.
      destruct Ha0 as [A1 A2]. destruct H as [B1 B2].
      split; [intros Hn; apply B1; apply A1; exact Hn|intros x Hx; apply B2; apply A2; exact Hx].
Qed.

(* every attribute with a plain name ends up among the parameters, or is the return entry *)
Lemma class_annassign_target_in : forall params returns n a v params' returns',
    class_annassign params returns (EName n) a v = Ok (params', returns') ->
    In n (keys params') \/ (n = return_type_key /\ exists r, returns' = Has r).
Proof.
  intros params returns n a v params' returns' H. unfold class_annassign in H.
  binv H. binv H. binv H. cbn [target_id] in Ha1. inversion Ha1; subst a2.
  destruct (od_get n params) as [old|] eqn:Eg.
  - inversion H; subst. left. apply od_set_key_in.
  - destruct returns as [| |old]; [discriminate H| |];
      destruct (str_eqb n return_type_key) eqn:E; inversion H; subst;
        try (left; apply od_set_key_in);
        (right; split; [apply str_eqb_eq; exact E|eexists; reflexivity]).
Qed.

(* parse_class never returns duplicate parameter names: the last step is OrderedDict(map(...)) *)
Theorem parse_class_NoDup : forall di node cn it ww i,
    parse_class di node cn it ww = Ok i -> NoDup (map fst (ir_params i)).
Proof.
  intros di node cn it ww i H. unfold parse_class in H. binv H.
  destruct a as [n ar b d r|nm bs cbody ds|t a' v|ts v|e|e|tg hd bl]; try discriminate H.
  binv H. destruct a as [i0 body].
  destruct (od_get return_type_key (ir_params i0)) as [g|].
  all: binv H; destruct a as [p1 r1]; binv H; unfold set_names_and_types in Ha2; binv Ha2.
  all: inversion Ha2; subst; inversion H; subst; cbn [ir_params]; apply od_of_pairs_keys_NoDup.
Qed.

(* an attribute  n : ann = value  together with what the parser reads off it *)
Record attr : Type := mkAttr {
  at_name : str; at_ann : expr; at_val : option expr; at_typ : str; at_def : dval
}.

Definition attr_ok (x : attr) : Prop :=
  code_of (at_ann x) = Ok (at_typ x) /\ annassign_default (at_val x) = Ok (at_def x).

Definition attr_stmt (x : attr) : stmt := SAnnAssign (EName (at_name x)) (at_ann x) (at_val x).

(* intermediate_repr["params"][n].update(typ=..., default=...) *)
Definition upd (x : attr) (ps : list (str * gparam)) : list (str * gparam) :=
  map (fun kv => if str_eqb (fst kv) (at_name x)
                 then (fst kv, mkG (g_doc (snd kv)) (Has (at_typ x)) (Some (at_def x)))
                 else kv) ps.

Lemma upd_keys : forall x ps, keys (upd x ps) = keys ps.
Proof.
  intros x ps. unfold upd, keys. rewrite map_map. apply map_ext. intros [k g]. cbn [fst snd].
  destruct (str_eqb k (at_name x)); reflexivity.
Qed.

Lemma fold_upd_keys : forall xs ps, keys (fold_left (fun p x => upd x p) xs ps) = keys ps.
Proof.
  induction xs as [|x xs IH]; intros ps; cbn [fold_left]; [reflexivity|].
  rewrite IH. apply upd_keys.
Qed.

Lemma annassign_default_const : forall v, annassign_default (Some (EConst v)) = Ok (DV (none_to_NoneStr v)).
Proof. intros v. destruct v; reflexivity. Qed.

Lemma annassign_default_absent : annassign_default None = Ok (DV (VStr NoneStr)).
Proof. reflexivity. Qed.

Lemma code_of_ok : forall e, expr_ok e = true -> code_of e = Ok (rstrip_chars [nl] (show_expr e)).
Proof. intros e H. unfold code_of. rewrite H. reflexivity. Qed.

Theorem class_body_loop_documented : forall attrs params returns,
    NoDup (keys params) ->
    Forall attr_ok attrs ->
    incl (map at_name attrs) (keys params) ->
    class_body_loop params returns (map attr_stmt attrs)
    = Ok (fold_left (fun p x => upd x p) attrs params, returns).
Proof.
  induction attrs as [|x xs IH]; intros params returns Hnd Hok Hincl; cbn [map fold_left class_body_loop].
  - reflexivity.
  - inversion Hok as [|x' xs' [Hc Hd] Hoks]; subst.
    assert (Hin : In (at_name x) (keys params)) by (apply Hincl; left; reflexivity).
    destruct (od_get_In_Some _ _ Hin) as [old Hget].
    unfold attr_stmt at 1. cbn [class_body_loop].
    unfold class_annassign. rewrite Hc, Hd. cbn [bind target_id]. rewrite Hget. cbn [bind fst snd].
    rewrite (od_set_as_map (at_name x) (fun g => mkG (g_doc g) (Has (at_typ x)) (Some (at_def x))) params old Hnd Hget).
    fold (upd x params).
    apply IH.
    + rewrite upd_keys. exact Hnd.
    + exact Hoks.
    + rewrite upd_keys. intros n Hn. apply Hincl. right. exact Hn.
Qed.

Lemma od_get_upd_same : forall x ps g,
    od_get (at_name x) ps = Some g ->
    od_get (at_name x) (upd x ps) = Some (mkG (g_doc g) (Has (at_typ x)) (Some (at_def x))).
Proof.
  intros x ps. induction ps as [|[k g0] r IH]; intros g H; cbn [od_get upd map fst snd] in *.
  - discriminate H.
  - destruct (str_eqb (at_name x) k) eqn:E.
    + inversion H; subst. rewrite str_eqb_sym, E. cbn [od_get fst]. rewrite E. reflexivity.
    + rewrite str_eqb_sym, E. cbn [od_get]. rewrite E. apply IH. exact H.
Qed.

Lemma od_get_upd_other : forall x ps n, n <> at_name x -> od_get n (upd x ps) = od_get n ps.
Proof.
  intros x ps n Hne. induction ps as [|[k g0] r IH]; cbn [od_get upd map fst snd]; [reflexivity|].
  destruct (str_eqb k (at_name x)) eqn:E; cbn [od_get fst].
  - apply str_eqb_eq in E. subst k. destruct (str_eqb n (at_name x)) eqn:E2.
    + apply str_eqb_eq in E2. contradiction.
    + exact IH.
  - destruct (str_eqb n k); [reflexivity|exact IH].
Qed.

Theorem documented_lookup : forall xs ps x g,
    NoDup (map at_name xs) -> In x xs -> od_get (at_name x) ps = Some g ->
    od_get (at_name x) (fold_left (fun p y => upd y p) xs ps)
    = Some (mkG (g_doc g) (Has (at_typ x)) (Some (at_def x))).
Proof.
  induction xs as [|y ys IH]; intros ps x g Hnd Hin Hget; cbn [fold_left]; [destruct Hin|].
  cbn [map] in Hnd. inversion Hnd as [|n l Hn Hr]; subst.
  destruct Hin as [Hin|Hin].
  - subst y.
    (* later updates concern other names *)
    assert (Hothers : forall zs qs, ~ In (at_name x) (map at_name zs) ->
                                  od_get (at_name x) (fold_left (fun p z => upd z p) zs qs) = od_get (at_name x) qs).
    { induction zs as [|z zs IHz]; intros qs Hnz; cbn [fold_left]; [reflexivity|].
      rewrite IHz.
      - apply od_get_upd_other. intros He. apply Hnz. left. symmetry. exact He.
      - intros Hz. apply Hnz. right. exact Hz. }
    rewrite Hothers by exact Hn. apply od_get_upd_same. exact Hget.
  - apply IH; [exact Hr|exact Hin|].
    rewrite od_get_upd_other; [exact Hget|].
    intros He. apply Hn. rewrite <- He. apply in_map. exact Hin.
Qed.

Lemma filter_attr_stmts : forall xs, filter (fun s => negb (is_assignment s)) (map attr_stmt xs) = [].
Proof. induction xs as [|x xs IH]; cbn [map filter attr_stmt is_assignment negb]; [reflexivity|exact IH]. Qed.

(* parse.class_ on  class nm(bases): [docstring; n1: t1 = v1; ...]  with every attribute documented:
   the docstring's parameters in docstring order, updated in place, then the _set_name_and_type map *)
Theorem parse_class_documented : forall nm bases decos ds attrs i0 it ww,
    NoDup (map fst (ir_params i0)) ->
    ~ In return_type_key (map fst (ir_params i0)) ->
    Forall attr_ok attrs ->
    incl (map at_name attrs) (map fst (ir_params i0)) ->
    parse_class (Some (Ok i0))
                (CStmt (SClass nm bases (SExpr (EConst (VStr ds)) :: map attr_stmt attrs) decos)) None it ww
    = (do params2 <- set_names_and_types (fold_left (fun p x => upd x p) attrs (ir_params i0)) it ww;
       Ok (mkIR (ir_name i0) (ir_type i0) (ir_doc i0) params2 (ir_returns i0)
                (Some (mkInternal [] (Has nm) (Has (L "cls")))))).
Proof.
  intros nm bases decos ds attrs i0 it ww Hnd Hrt Hok Hincl.
  unfold parse_class. cbn [find_class is_class_other bind docstring_of tl].
  assert (Hg : od_get return_type_key (ir_params i0) = None) by (apply od_get_None_iff; exact Hrt).
  rewrite Hg.
  rewrite (class_body_loop_documented attrs (ir_params i0) (ir_returns i0) Hnd Hok Hincl).
  cbn [bind]. rewrite filter_attr_stmts. reflexivity.
Qed.

Definition plain_name (n : str) : bool := negb (endswith (L "kwargs") n || startswith (L "**") n).

Lemma lstrip_star_id : forall n, startswith [ch 42] n = false -> lstrip_chars [ch 42] n = n.
Proof.
  intros n Hs. unfold lstrip_chars. apply lstrip_by_id.
  intros c Hc. destruct n as [|c0 n0]; [discriminate Hc|]. cbn [head_c] in Hc. inversion Hc; subst c0.
  cbn [startswith] in Hs. unfold mem_c. cbn [existsb]. rewrite ascii_eqb_sym.
  destruct (ascii_eqb (ch 42) c); [discriminate Hs|reflexivity].
Qed.

(* the name _set_name_and_type gives back: the stars come off a kwargs-style name *)
Definition final_name (n : str) : str :=
  if endswith (L "kwargs") n || startswith (L "**") n then lstrip_chars [ch 42] n else n.

Lemma final_name_plain : forall n, plain_name n = true -> final_name n = n.
Proof. intros n H. unfold plain_name in H. apply negb_true_iff in H. unfold final_name. rewrite H. reflexivity. Qed.

Lemma final_name_nostar : forall n, startswith [ch 42] n = false -> final_name n = n.
Proof. intros n H. unfold final_name. rewrite (lstrip_star_id n H). destruct (_ || _); reflexivity. Qed.

Lemma set_name_and_type_name : forall n p it ww n' p',
    set_name_and_type n p it ww = Ok (n', p') -> n' = final_name n.
Proof.
  intros n p it ww n' p' H. unfold set_name_and_type in H. binv H. destruct a as [n1 p1].
  assert (Hn1 : n1 = final_name n).
  { unfold final_name. destruct (endswith (L "kwargs") n || startswith (L "**") n); [inversion Ha; reflexivity|].
    destruct (g_default p) as [d|]; [binv Ha|]; inversion Ha; reflexivity. }
  rewrite <- Hn1. clear Hn1 Ha.
  destruct (g_doc p1) as [| |[|c r]];
    try (inversion H; reflexivity).
  destruct (startswith (L "(Optional)") _ || startswith (L "Optional") _);
    [|inversion H; reflexivity].
  destruct (match g_typ p1 with Has t => _ | x => x end) as [| |t];
    try discriminate H; try (inversion H; reflexivity).
  destruct (startswith (L "Optional[") t); inversion H; reflexivity.
Qed.

Lemma pa_mapM_names : forall (ps l : list (str * gparam)) it ww,
    pa_mapM (fun kv => set_name_and_type (fst kv) (snd kv) it ww) ps = Ok l ->
    map fst l = map final_name (map fst ps).
Proof.
  induction ps as [|[k g] ps IH]; intros l it ww H; cbn [pa_mapM] in H.
  - inversion H; reflexivity.
  - binv H. binv H. inversion H; subst l. destruct a as [n' p']. cbn [map fst]. cbn [fst snd] in Ha.
    rewrite (set_name_and_type_name _ _ _ _ _ _ Ha), (IH _ _ _ Ha0). reflexivity.
Qed.

Theorem set_names_and_types_names : forall ps ps' it ww,
    NoDup (map fst ps) ->
    (forall n, In n (map fst ps) -> final_name n = n) ->
    set_names_and_types ps it ww = Ok ps' ->
    map fst ps' = map fst ps.
Proof.
  intros ps ps' it ww Hnd Hp H. unfold set_names_and_types in H. binv H. inversion H; subst ps'.
  assert (Hk : map fst a = map fst ps).
  { rewrite (pa_mapM_names ps a it ww Ha). rewrite <- (map_id (map fst ps)) at 2. apply map_ext_in. exact Hp. }
  rewrite od_of_pairs_id; [exact Hk|]. unfold keys. rewrite Hk. exact Hnd.
Qed.

(* names of the result = names of the docstring, in docstring order, without duplicates, none dropped *)
Theorem parse_class_documented_names : forall nm bases decos ds attrs i0 it ww i,
    NoDup (map fst (ir_params i0)) ->
    ~ In return_type_key (map fst (ir_params i0)) ->
    forallb (fun kv => plain_name (fst kv)) (ir_params i0) = true ->
    Forall attr_ok attrs ->
    incl (map at_name attrs) (map fst (ir_params i0)) ->
    parse_class (Some (Ok i0))
                (CStmt (SClass nm bases (SExpr (EConst (VStr ds)) :: map attr_stmt attrs) decos)) None it ww = Ok i ->
    map fst (ir_params i) = map fst (ir_params i0) /\ ir_returns i = ir_returns i0.
Proof.
  intros nm bases decos ds attrs i0 it ww i Hnd Hrt Hp Hok Hincl H.
  rewrite (parse_class_documented nm bases decos ds attrs i0 it ww Hnd Hrt Hok Hincl) in H.
  binv H. inversion H; subst i. cbn [ir_params ir_returns]. split; [|reflexivity].
  pose proof (fold_upd_keys attrs (ir_params i0)) as Hk. unfold keys in Hk.
  rewrite <- Hk. eapply set_names_and_types_names; [| |exact Ha]; rewrite Hk; [exact Hnd|].
  (* plain names are a property of the keys, which upd keeps *)
  intros k Hkin. apply in_map_iff in Hkin. destruct Hkin as [[k2 g2] [Hk2 Hin2]]. cbn [fst] in Hk2. subst k2.
  rewrite forallb_forall in Hp. apply final_name_plain. exact (Hp (k, g2) Hin2).
Qed.

Lemma ap_update_keys : forall params name p,
    keys (ap_update params name p)
    = if in_dec str_dec name (keys params) then keys params else keys params ++ [name].
Proof.
  intros params name p. unfold ap_update. destruct (od_get name params) as [old|] eqn:E.
  - apply od_get_Some_In_keys in E. rewrite od_set_keys. destruct (in_dec str_dec name (keys params)); [reflexivity|contradiction].
  - apply od_set_keys.
Qed.

Lemma ap_update_NoDup : forall params name p, NoDup (keys params) -> NoDup (keys (ap_update params name p)).
Proof.
  intros params name p H. rewrite ap_update_keys. destruct (in_dec str_dec name (keys params)) as [Hin|Hn]; [exact H|].
  apply ListFacts.NoDup_snoc; assumption.
Qed.

Lemma argparse_step_params : forall di fb st node st',
    argparse_step di fb st node = Ok st' ->
    ap_params st' = ap_params st \/ exists n p, ap_params st' = ap_update (ap_params st) n p.
Proof.
  intros di fb st node st' H. unfold argparse_step in H.
  destruct (argparse_stmt_declined node); [discriminate H|].
  (* only three statements are looked at: an add_argument call, the description assignment, a returned tuple *)
  destruct node as [n ar b d r|n bs b d|t a v|ts v|e|e|tg hd bl]; try (left; congruence).
  - destruct ts as [|t1 [|t2 l]]; [left; congruence| |destruct t1 as [| |e1 a| | | | | | | ]; try destruct e1; left; congruence].
    destruct t1 as [| |e1 a| | | | | | | ]; try (left; congruence).
    destruct e1 as [|x| | | | | | | | ]; try (left; congruence).
    destruct v as [c| | | | | | | | | ]; try (left; congruence).
    destruct (str_eqb a (L "description") && str_eqb x (L "argument_parser")); [|left; congruence].
    destruct (none_to_NoneStr c); try discriminate H. injection H as <-. left. reflexivity.
  - destruct e as [| | | | | | |f args kws| | ]; try (left; congruence).
    destruct f as [| |e1 a| | | | | | | ]; try (left; congruence).
    destruct e1 as [|x| | | | | | | | ]; try (left; congruence).
    destruct (str_eqb a (L "add_argument") && str_eqb x (L "argument_parser")); [|left; congruence].
    binv H. destruct a0 as [n p]. injection H as <-. right. exists n, p. reflexivity.
  - destruct e as [e|]; try (left; congruence). destruct e as [| | | |elts| | | | | ]; try (left; congruence).
    binv H. injection H as <-. left. reflexivity.
Qed.

Lemma argparse_step_NoDup : forall di fb st node st',
    argparse_step di fb st node = Ok st' -> NoDup (keys (ap_params st)) -> NoDup (keys (ap_params st')).
Proof.
  intros di fb st node st' H Hnd. apply argparse_step_params in H.
  destruct H as [H|[n [p H]]]; rewrite H; [exact Hnd|apply ap_update_NoDup; exact Hnd].
Qed.

Lemma argparse_loop_NoDup : forall di fb body st st',
    argparse_loop di fb st body = Ok st' -> NoDup (keys (ap_params st)) -> NoDup (keys (ap_params st')).
Proof.
  induction body as [|n rest IH]; intros st st' H Hnd; cbn [argparse_loop] in H.
  - inversion H; subst. exact Hnd.
  - binv H. eapply IH; [exact H|]. eapply argparse_step_NoDup; eassumption.
Qed.

Theorem parse_argparse_ast_NoDup : forall di fd ft fnm i,
    parse_argparse_ast di fd ft fnm = Ok i -> NoDup (map fst (ir_params i)).
Proof.
  intros di fd ft fnm i H. unfold parse_argparse_ast in H.
  destruct (is_func_other fd); [discriminate H|].
  destruct fd as [nm a fbody ds r|n bs b d|t a v|ts v|e|e|tg hd bl]; try discriminate H.
  binv H. binv H. inversion H; subst i. cbn [ir_params].
  eapply argparse_loop_NoDup; [exact Ha0|]. cbn [ap_params keys map]. constructor.
Qed.

(* the name is read from the first positional argument alone *)
Definition out_param_name (args : list expr) : outcome str :=
  match args with
  | [] => Err IndexError
  | a0 :: _ => do g <- get_value_expr a0;
               match g with
               | GV (VStr s) => Ok (skipn 2 s)
               | _ => Err TypeError
               end
  end.

Lemma parse_out_param_name : forall args kws rd ed n p,
    parse_out_param args kws rd ed = Ok (n, p) -> out_param_name args = Ok n.
Proof.
  intros args kws rd ed n p H. unfold parse_out_param in H.
  binv H. binv H. binv H. rename a1 into name. rename Ha1 into Hname.
  binv H. binv H. binv H. binv H. destruct a4 as [doc1 default1]. binv H. binv H. binv H.
  inversion H; subst. exact Hname.
Qed.

Definition call_stmt (c : list expr * list (option str * expr)) : stmt :=
  SExpr (ECall (EAttr (EName (L "argument_parser")) (L "add_argument")) (fst c) (snd c)).

Lemma argparse_step_call_eq : forall di fb st c,
    argparse_step di fb st (call_stmt c)
    = (do r <- parse_out_param (fst c) (snd c) (ap_require_default st) false;
       Ok (mkAP (ap_update (ap_params st) (fst r) (snd r)) (ap_doc st) (ap_returns st)
                (ap_require_default st || match g_default (snd r) with Some _ => true | None => false end))).
Proof.
  intros di fb st c. unfold argparse_step, call_stmt. cbn [argparse_stmt_declined].
  change (str_eqb (L "add_argument") (L "add_argument") && str_eqb (L "argument_parser") (L "argument_parser")) with true.
  cbv iota. destruct (parse_out_param _ _ _ _) as [[n p]|e]; reflexivity.
Qed.

Theorem argparse_one_param_per_call : forall di fb calls st st' names,
    argparse_loop di fb st (map call_stmt calls) = Ok st' ->
    Forall2 (fun c n => out_param_name (fst c) = Ok n) calls names ->
    NoDup (keys (ap_params st) ++ names) ->
    keys (ap_params st') = keys (ap_params st) ++ names.
Proof.
  induction calls as [|c calls IH]; intros st st' names H HF Hnd; cbn [map argparse_loop] in H.
  - inversion H; subst. inversion HF; subst. rewrite app_nil_r. reflexivity.
  - inversion HF as [|c' n0 cs ns Hn0 HF']; subst.
    binv H. rewrite argparse_step_call_eq in Ha. binv Ha. destruct a0 as [n p]. inversion Ha; subst a. cbn [fst snd ap_params] in *.
    apply parse_out_param_name in Ha0. rewrite Hn0 in Ha0. inversion Ha0; subst n.
    assert (Hfresh : ~ In n0 (keys (ap_params st))).
    { intros Hin. apply NoDup_remove_2 in Hnd. apply Hnd. apply in_or_app. left. exact Hin. }
    assert (Hk : keys (ap_update (ap_params st) n0 p) = keys (ap_params st) ++ [n0]).
    { rewrite ap_update_keys. destruct (in_dec str_dec n0 (keys (ap_params st))); [contradiction|reflexivity]. }
    rewrite (IH _ st' ns H HF'); cbn [ap_params].
    + rewrite Hk, <- app_assoc. reflexivity.
    + rewrite Hk, <- app_assoc. exact Hnd.
Qed.

Lemma argparse_loop_app : forall di fb b1 b2 st,
    argparse_loop di fb st (b1 ++ b2) = (do st' <- argparse_loop di fb st b1; argparse_loop di fb st' b2).
Proof.
  induction b1 as [|n b1 IH]; intros b2 st; cbn [app argparse_loop bind]; [reflexivity|].
  destruct (argparse_step di fb st n) as [st1|e]; cbn [bind]; [apply IH|reflexivity].
Qed.

(* the shape emit.argparse_function produces when there is no return entry:
   def f(argument_parser): [docstring; add_argument calls ...; return argument_parser] *)
Theorem parse_argparse_ast_calls : forall di nm a ds calls names decos rets ft fnm i,
    parse_argparse_ast (Ok di)
      (SFunc nm a (SExpr (EConst (VStr ds)) :: map call_stmt calls ++ [SReturn (Some (EName (L "argument_parser")))])
             decos rets) ft fnm = Ok i ->
    Forall2 (fun c n => out_param_name (fst c) = Ok n) calls names ->
    NoDup names ->
    map fst (ir_params i) = names /\ ir_returns i = Missing /\ ir_doc i = Has [].
Proof.
  intros di nm a ds calls names decos rets ft fnm i H HF Hnd.
  unfold parse_argparse_ast in H. cbn [is_func_other bind docstring_of tl] in H.
  binv H. inversion H; subst i. cbn [ir_params ir_returns ir_doc].
  rewrite argparse_loop_app in Ha. binv Ha. cbn [argparse_loop argparse_step argparse_stmt_declined bind] in Ha.
  inversion Ha; subst a0.
  pose proof (argparse_one_param_per_call di _ calls _ a1 names Ha0 HF) as Hk.
  cbn [ap_params keys map app] in Hk. specialize (Hk Hnd).
  (* returns / doc are untouched by add_argument steps *)
  assert (Hinv : forall cs st st', argparse_loop di (SExpr (EConst (VStr ds)) :: map call_stmt calls ++ [SReturn (Some (EName (L "argument_parser")))]) st (map call_stmt cs) = Ok st' ->
                                 ap_returns st' = ap_returns st /\ ap_doc st' = ap_doc st).
  { induction cs as [|c cs IHc]; intros st st' Hl; cbn [map argparse_loop] in Hl.
    - inversion Hl; subst. split; reflexivity.
    - binv Hl. rewrite argparse_step_call_eq in Ha1. binv Ha1. inversion Ha1; subst a0.
      apply IHc in Hl. cbn [ap_returns ap_doc] in Hl. exact Hl. }
  destruct (Hinv calls _ _ Ha0) as [Hr Hd]. cbn [ap_returns ap_doc] in Hr, Hd.
  split; [exact Hk|]. split; [exact Hr|exact Hd].
Qed.

(* non-vacuity: a concrete class and a concrete argparse function *)
Example parse_class_documented_example :
  parse_class (Some (Ok (mkIR FNone (Has (L "static")) (Has (L "Doc."))
                             [(L "a", mkG (Has (L "first.")) Missing None); (L "b", mkG (Has (L "second.")) Missing None)]
                             FNone None)))
              (CStmt (SClass (L "C") [] (SExpr (EConst (VStr (L "Doc."))) ::
                                          map attr_stmt [mkAttr (L "b") (EName (L "int")) (Some (EConst (VInt 5))) (L "int") (DV (VInt 5));
                                                         mkAttr (L "a") (ESub (EName (L "Optional")) (EName (L "str"))) None
                                                                (L "Optional[str]") (DV (VStr NoneStr))]) []))
              None false true
  = Ok (mkIR FNone (Has (L "static")) (Has (L "Doc."))
             [(L "a", mkG (Has (L "first.")) (Has (L "Optional[str]")) (Some (DV (VStr NoneStr))));
              (L "b", mkG (Has (L "second.")) (Has (L "int")) (Some (DV (VInt 5))))]
             FNone (Some (mkInternal [] (Has (L "C")) (Has (L "cls"))))).
Proof. vm_compute. reflexivity. Qed.

Example argparse_example :
  option_map (fun i => map fst (ir_params i))
    (match parse_argparse_ast (Ok (mkIR FNone (Has (L "static")) (Has []) [] FNone None))
           (SFunc (L "set_cli_args") (mkArguments [mkArg (L "argument_parser") None] [] [] [] None None)
                  (SExpr (EConst (VStr (L "doc"))) ::
                   map call_stmt [([EConst (VStr (L "--alpha"))], [(Some (L "type"), EName (L "int"))]);
                                  ([EConst (VStr (L "--beta"))], [(Some (L "default"), EConst (VStr (L "x")))])]
                   ++ [SReturn (Some (EName (L "argument_parser")))]) [] None) None None with
     | Ok i => Some i | Err _ => None end)
  = Some [L "alpha"; L "beta"].
Proof. vm_compute. reflexivity. Qed.

Lemma opt_str_eqb_refl : forall o, opt_str_eqb o o = true.
Proof. intros [s|]; [apply str_eqb_refl|reflexivity]. Qed.

Lemma names_distinct_NoDup : forall l, names_distinct l = true -> NoDup l.
Proof.
  induction l as [|x l IH]; intros H; [constructor|]. cbn [names_distinct] in H.
  apply andb_true_iff in H. destruct H as [Hx Hl]. constructor; [|apply IH; exact Hl].
  intros Hin. apply negb_true_iff in Hx.
  assert (Ht : existsb (str_eqb x) l = true).
  { apply existsb_exists. exists x. split; [exact Hin|apply str_eqb_refl]. }
  rewrite Ht in Hx. discriminate Hx.
Qed.

(* comparing strictly against the normalised input implies the relation used by the oracles:
   same_interface is "same_interface_strict after zero_default_norm", or better *)
Lemma same_param_norm_strict : forall a b,
    same_param_strict (zero_default_norm_param a) b = true -> same_param a b = true.
Proof.
  intros a b H. unfold same_param_strict in H. unfold same_param.
  apply andb_true_iff in H. destruct H as [H Hd]. apply andb_true_iff in H. destruct H as [Ht Hp].
  assert (Ht' : same_typ a b = true).
  { unfold same_typ, zero_default_norm_param in *. destruct (g_default a); exact Ht. }
  assert (Hp' : same_prose a b = true).
  { unfold same_prose, prose_of, zero_default_norm_param in *. destruct (g_default a); exact Hp. }
  rewrite Ht', Hp'. cbn [andb].
  unfold default_same, default_ok, zero_default_norm_param in *.
  destruct (g_default a) as [v|] eqn:Ea.
  - rewrite Ea in Hd. exact Hd.
  - cbn [g_default g_typ] in Hd. destruct (g_default b) as [w|]; [|reflexivity].
    destruct (zero_of_typ (fget (g_typ a))) as [z|].
    + unfold same_default in Hd. apply orb_true_iff in Hd. destruct Hd as [Hd|Hd].
      * apply andb_true_iff in Hd. destruct Hd as [_ Hw]. rewrite Hw. reflexivity.
      * rewrite Hd. apply orb_true_r.
    + unfold same_default in Hd. apply orb_true_iff in Hd. destruct Hd as [Hd|Hd].
      * apply andb_true_iff in Hd. destruct Hd as [_ Hw]. rewrite Hw. reflexivity.
      * destruct w as [wv|we|wr]; cbn [dval_eqb] in Hd; try discriminate Hd.
        destruct wv as [|wb|wz|wf|ws]; cbn [pyval_eqb] in Hd; try discriminate Hd.
        apply str_eqb_eq in Hd. subst ws. reflexivity.
Qed.

Lemma same_params_norm_strict : forall a b,
    same_params same_param_strict (map (fun kv => (fst kv, zero_default_norm_param (snd kv))) a) b = true ->
    same_params same_param a b = true.
Proof.
  induction a as [|[n1 p1] a IH]; intros [|[n2 p2] b] H; cbn [map same_params fst snd] in *;
    try reflexivity; try discriminate H.
  apply andb_true_iff in H. destruct H as [H Hr]. apply andb_true_iff in H. destruct H as [Hn Hp].
  rewrite Hn, (same_param_norm_strict _ _ Hp), (IH _ Hr). reflexivity.
Qed.

Theorem same_interface_norm_strict : forall a b,
    same_interface_strict (zero_default_norm a) b = true -> same_interface a b = true.
Proof.
  intros a b H. unfold same_interface_strict, same_interface, zero_default_norm in *. cbn [ir_params ir_returns] in H.
  apply andb_true_iff in H. destruct H as [Hp Hr].
  rewrite (same_params_norm_strict _ _ Hp). cbn [andb].
  unfold same_returns in *. destruct (ir_returns a) as [| |r]; cbn [fget] in *; try exact Hr.
  destruct (fget (ir_returns b)) as [r'|]; [|exact Hr]. apply same_param_norm_strict. exact Hr.
Qed.
