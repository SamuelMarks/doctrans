(* C04 -- argparse round trip  emit.argparse_function -> parse.argparse_ast  at the AST level (models EmitAst /
   ParseAst).  Lemmas in proofs/C04Compose.v, ParseAstFacts.v, C06Facts.v;
   definitions in model/C04Codec.v, C04Spec.v, C02Spec.v.

   The docstring layer is decoupled in the models (the emitter takes the text of emit.docstring as an input, the
   parser takes the IR parse_docstring returned); the parameters do not depend on either, so the theorems hold for
   every such text and IR.

   NOT proved here (stated honestly):
   - ast.unparse followed by ast.parse is the identity on the emitted tree (R1): run per case by the oracle;
   - word_wrap / wrap_description on (Fill.fill on help texts and the description): C04_partial is stated for both
     off; names and order (C04_names_order) hold for every option combination;
   - outside guard_C04_ast: **kwargs-style names (Optional[dict] / loads: the None marker is emitted through the
     recorded parse table), return entries that carry a default (C04_return_requoted_witness shows what happens),
     code-quoted defaults, carried bodies, Literal[...] whose strings contain quote marks; types argparse cannot
     express (guard_C04_ast is inside C04_domain, where argparse_type_norm is the identity);
   - that finding_class_C04 is complete: it is validated by the oracle on every run. *)
From Coq Require Import List Bool ZArith.
From Coq Require String.
Import String.StringSyntax.
From DT Require Import PyStr PyVal Defaults PyAst IR TyExpr EmitAst ParseAst C02Spec C04Spec C06Spec C04Codec.
From DT Require ParseAstFacts C06Facts C04Compose.
Import ListNotations.

(* the statement at full strength is false of the faithful model (bool without default comes back Optional[bool]) *)
Theorem C04_refuted : ~ C04_ast_statement.
Proof. exact C04Compose.C04_refuted_lemma. Qed.
Print Assumptions C04_refuted.

(* names and order: for every IR with distinct names and no carried body, every option combination (default text,
   word wrap, description wrap), every docstring text and docstring IR, whenever emitter and parser succeed: one
   add_argument call per parameter, one parameter per call, in order -- whatever types, help and defaults are *)
Theorem C04_names_order : forall pt i edd fn ft wd ww ds di ft' fnm s i0 i',
    NoDup (map fst (ir_params i)) ->
    no_carried_body_C04 i = true ->
    emit_argparse pt i edd fn ft wd ww ds = Ok (s, i0) ->
    parse_argparse_ast (Ok di) s ft' fnm = Ok i' ->
    map fst (ir_params i') = map fst (ir_params i).
Proof. exact C04Compose.C04_names_order_lemma. Qed.
Print Assumptions C04_names_order.

(* the guarded codec: inside guard_C04_ast (scalar T, Optional[T], List[T], Literal['a', 'b', ...]; help text without announcement;
   type-consistent explicit defaults, or none where argparse has a zero value or Optional) the emitter succeeds, the
   parser succeeds on the emitted function; the description comes back, the parameters come back as the closed form
   norm_params_C04 -- names, order, help, type, list-ness, optionality, defaults with their Python type; required
   options without default acquire the zero value of their type, optional ones None once an earlier option had a
   default (the require_default flag is threaded through the induction) -- which is the same interface as the input
   after argparse_type_norm.  Any parse table, default text on or off, any number of parameters *)
Theorem C04_partial : forall pt i edd fc fr tc tr ds di ft' fnm,
    guard_C04_ast i = true ->
    exists s i',
      emit_argparse pt i edd (Some (fc :: fr)) (Some (tc :: tr)) false false (Ok ds) = Ok (s, i)
      /\ parse_argparse_ast (Ok di) s ft' fnm = Ok i'
      /\ ir_params i' = norm_params_C04 false (ir_params i)
      /\ ir_doc i' = ir_doc i
      /\ ir_returns i' = Missing
      /\ same_interface_argparse (argparse_type_norm i) i' = true.
Proof. exact C04Compose.C04_ast_partial_lemma. Qed.
Print Assumptions C04_partial.

(* one option, for either value of the parser's require_default flag *)
Theorem C04_option_codec : forall pt edd n g rd,
    param_ok_C04 (n, g) = true ->
    exists c, param2argparse_param pt false edd n g = Ok (ParseAstFacts.call_stmt c)
              /\ parse_out_param (fst c) (snd c) rd false = Ok (n, norm_param_C04 rd g).
Proof. exact C04Compose.param_codec_C04. Qed.
Print Assumptions C04_option_codec.

(* the keywords the emitter writes for a shape, and what the parser reads from them *)
Theorem C04_emitted_keywords : forall pt edd n docf t d sh,
    shape_of_typ t = Some sh -> plain_name_C04 n = true ->
    help_ok_C04 (mkG docf (Has t) d) = true -> default_ok_C04 sh d = true ->
    param2argparse_param pt false edd n (mkG docf (Has t) d)
    = Ok (ParseAstFacts.call_stmt
            (option_arg n,
             kws_of (C04Compose.typ2_of sh) None (C04Compose.action_of sh) (prose_of (mkG docf (Has t) d))
                    (C04Compose.required_of sh d) (C04Compose.dflt_of d))).
Proof. exact C04Compose.param2argparse_shape. Qed.
Print Assumptions C04_emitted_keywords.

(* _resolve_arg depends on the option name only through "ends with kwargs" *)
Theorem C04_resolve_arg_plan : forall n docf t d r0 s,
    resolve_plan t = Some s -> endswith (L "kwargs") n = false ->
    resolve_arg None None n (mkG docf (Has t) d) r0 (Some (L "str"))
    = Ok (rs_action s, rs_choices s, C04Compose.req_of_plan s r0, rs_typ s, mkG docf (Has t) d).
Proof. exact C04Compose.resolve_arg_plan. Qed.
Print Assumptions C04_resolve_arg_plan.

(* one computed witness per finding class that is visible at the AST level with wrapping off *)
Theorem C04_witnesses : forallb C04Compose.c04_witness_ok C04Compose.c04_witnesses = true.
Proof. exact C04Compose.C04_witnesses_lemma. Qed.
Print Assumptions C04_witnesses.

Theorem C04_return_requoted_witness :
  option_map c04_class_name (finding_class_C04 C04Compose.o4 C04Compose.w4_ret) = Some (L "return-default-requoted")
  /\ C04_domain C04Compose.w4_ret = true
  /\ match emit_argparse [] C04Compose.w4_ret false (Some (L "set_cli_args")) (Some (L "static")) false false
                         (Ok C04Compose.ds_ret) with
     | Ok (s, _) =>
       match parse_argparse_ast (Ok C04Compose.di_ret) s None None with
       | Ok i' => option_map g_default (fget (ir_returns i')) = Some (Some (DV (VStr (L "'```5```'"))))
                  /\ same_interface_argparse (argparse_type_norm C04Compose.w4_ret) i' = false
       | Err _ => False
       end
     | Err _ => False
     end.
Proof. exact C04Compose.C04_return_requoted_witness. Qed.
Print Assumptions C04_return_requoted_witness.

Theorem C04_nonvacuous :
  guard_C04_ast C04Compose.w4_ok = true
  /\ guard_C04 (mkO04 false false false) C04Compose.w4_ok = true /\ guard_C04 (mkO04 true false false) C04Compose.w4_ok = true
  /\ C04_ast_holds_b [] C04Compose.w4_ok false false false = true /\ C04_ast_holds_b [] C04Compose.w4_ok true false false = true
  /\ map (fun kv => g_default (snd kv)) (norm_params_C04 false (ir_params C04Compose.w4_ok))
     = [None; Some (DV (VInt 0)); Some (DV (VStr PureUtils.NoneStr)); Some (DV (VStr (L "mnist"))); Some (DV (VInt (-5)%Z));
        Some (DV (VBool false)); Some (DV (VStr [])); Some (DV (VFloat (L "-0.0"))); Some (DV (VStr (L "x")));
        Some (DV (VStr PureUtils.NoneStr)); Some (DV (VStr (L "adam")))].
Proof. exact C04Compose.C04_nonvacuous_lemma. Qed.
Print Assumptions C04_nonvacuous.

(* parse side: one parameter per add_argument call, in call order *)
Theorem C04_parse_argparse_ast_calls : forall di nm a ds calls names decos rets ft fnm i,
    parse_argparse_ast (Ok di)
      (SFunc nm a (SExpr (EConst (VStr ds)) :: map ParseAstFacts.call_stmt calls
                         ++ [SReturn (Some (EName (L "argument_parser")))])
             decos rets) ft fnm = Ok i ->
    Forall2 (fun c n => ParseAstFacts.out_param_name (fst c) = Ok n) calls names ->
    NoDup names ->
    map fst (ir_params i) = names /\ ir_returns i = Missing /\ ir_doc i = Has [].
Proof. exact ParseAstFacts.parse_argparse_ast_calls. Qed.
Print Assumptions C04_parse_argparse_ast_calls.

(* parse side: never duplicate option names *)
Theorem C04_parse_argparse_ast_NoDup : forall di fd ft fnm i,
    parse_argparse_ast di fd ft fnm = Ok i -> NoDup (map fst (ir_params i)).
Proof. exact ParseAstFacts.parse_argparse_ast_NoDup. Qed.
Print Assumptions C04_parse_argparse_ast_NoDup.

(* emit side: one add_argument("--name", ...) per parameter, in order, after docstring and description *)
Theorem C04_argparse_options : forall pt i edd fn ft wd ww ds n a body d r i2,
    emit_argparse pt i edd fn ft wd ww ds = Ok (SFunc n a body d r, i2) ->
    exists doc desc adds tail,
      body = doc :: desc :: adds ++ tail
      /\ is_add_argument doc = None /\ is_add_argument desc = None
      /\ Forall2 (fun kv s => exists kws, is_add_argument s = Some (spec_option (fst kv), kws)) (ir_params i) adds.
Proof. exact C06Facts.emit_argparse_options. Qed.
Print Assumptions C04_argparse_options.
