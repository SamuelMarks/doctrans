(* C14: sync_properties changes exactly the addressed property.  Lemmas in proofs/SyncPropsFacts.v,
   proofs/C14Facts.v. *)
From Coq Require Import List ZArith.
From Coq Require String.
Import String.StringSyntax.
From DT Require Import PyStr PyVal PyAst Locate SyncProps C15Spec C14Spec SyncPropsFacts C14Facts.
Import ListNotations.

(* the full statement is false of the faithful model: an assignment that replaces a method argument writes its value
   into ANOTHER argument's default (front-indexed slot, shifted by self) *)
Theorem C14_refuted : ~ C14_statement.
Proof. exact C14_refuted_lemma. Qed.
Print Assumptions C14_refuted.

(* any number of pairs, no guard, by induction over the list of pairs: whatever is written is written once, to
   the output file, after every pair was applied; each pair found its input node and changed the output tree by
   exactly one first-match replacement at its output address (frame theorem of RewriteAtQuery) *)
Theorem C14_frame_thm : forall x, C14_frame x.
Proof. exact C14_frame_lemma. Qed.
Print Assumptions C14_frame_thm.

(* at most one write event, never of the input file *)
Theorem C14_events : forall x,
    fst (run_C14 x) = [] \/ exists tree, fst (run_C14 x) = [EvWrite FOutput tree] /\ snd (run_C14 x) = Ok tt.
Proof. exact C14_events_lemma. Qed.
Print Assumptions C14_events.

Theorem C14_error_no_write : forall x e, snd (run_C14 x) = Err e -> fst (run_C14 x) = [].
Proof. exact C14_error_no_write_lemma. Qed.
Print Assumptions C14_error_no_write.

(* an input address that find_in_ast does not find: AssertionError and no write *)
Theorem C14_input_not_found : forall x i0 o0,
    ci_eval x = false ->
    ast_parse [1] (ci_in x) = Ok i0 -> ast_parse [0] (ci_out x) = Ok o0 ->
    (exists ip op ev rest log,
        loop_pairs x = (ip, op, ev) :: rest /\ find_in_ast_log (dotted ip) i0 = Ok (None, log)) ->
    run_C14 x = ([], Err AssertionError).
Proof. exact C14_not_found_no_write. Qed.
Print Assumptions C14_input_not_found.

(* inside the guard (one pair, addresses in the regions C15 covers, no eval): an address
   that does not resolve gives an error and no write; a write replaces exactly the node at the RESOLVED position
   of the output address, and the input address resolves *)
Theorem C14_partial : forall x, guard_C14 x = true -> C14_holds x.
Proof. exact C14_partial_lemma. Qed.
Print Assumptions C14_partial.

(* further refutation witnesses, one per defect *)
Theorem C14_nested_input_not_applied :
  C14_domain (w_call w_in_nested [L "C.D.z"] w_out_z [L "z"] None) = true
  /\ addresses_resolve (w_call w_in_nested [L "C.D.z"] w_out_z [L "z"] None) = true
  /\ run_C14 (w_call w_in_nested [L "C.D.z"] w_out_z [L "z"] None) = ([], Err AssertionError)
  /\ finding_class_C14 (w_call w_in_nested [L "C.D.z"] w_out_z [L "z"] None) = Some K14_input_lookup.
Proof. repeat apply conj; vm_compute; reflexivity. Qed.
Print Assumptions C14_nested_input_not_applied.

(* regressions for /repo 3e792de and 6d00342 *)
Theorem C14_output_docstring_untouched :
  guard_C14 (w_call w_in [L "f.a"] w_out_doc [L "g.x"] None) = true
  /\ C14_at_b (w_call w_in [L "f.a"] w_out_doc [L "g.x"] None) = true.
Proof. split; vm_compute; reflexivity. Qed.
Print Assumptions C14_output_docstring_untouched.

Theorem C14_keyword_only_input_applied :
  guard_C14 (w_call w_in_kw [L "f.a"] w_out [L "g.x"] None) = true
  /\ C14_at_b (w_call w_in_kw [L "f.a"] w_out [L "g.x"] None) = true.
Proof. split; vm_compute; reflexivity. Qed.
Print Assumptions C14_keyword_only_input_applied.

Theorem C14_default_written_to_wrong_argument :
  C14_domain (w_call w_in_ann [L "a"] w_out_method [L "C.m.a"] None) = true
  /\ C14_at_b (w_call w_in_ann [L "a"] w_out_method [L "C.m.a"] None) = false
  /\ option_map (fun t => match t with
                          | [SClass _ _ [SFunc _ a _ _ _] _] => ar_defaults a
                          | _ => []
                          end)
                (written_tree (run_C14 (w_call w_in_ann [L "a"] w_out_method [L "C.m.a"] None)))
     = Some [EConst (VInt 3%Z)].
Proof. exact C14_refuted_default_slot. Qed.
Print Assumptions C14_default_written_to_wrong_argument.

Example C14_nonvacuous :
  guard_C14 (w_call w_in [L "f.a"] w_out [L "g.x"] None) = true
  /\ C14_at_b (w_call w_in [L "f.a"] w_out [L "g.x"] None) = true
  /\ guard_C14 (w_call w_in [L "f.a"] w_out [L "g.x"] (Some (L "Optional[{output_param}]"))) = true
  /\ C14_at_b (w_call w_in [L "f.a"] w_out [L "g.x"] (Some (L "Optional[{output_param}]"))) = true
  /\ guard_C14 (w_call w_in [L "f.nope"] w_out [L "g.x"] None) = true
  /\ run_C14 (w_call w_in [L "f.nope"] w_out [L "g.x"] None) = ([], Err AssertionError)
  /\ guard_C14 (w_call w_in [L "f.a"] w_out [L "g.nope"] None) = true
  /\ run_C14 (w_call w_in [L "f.a"] w_out [L "g.nope"] None) = ([], Err AssertionError).
Proof. repeat apply conj; vm_compute; reflexivity. Qed.
Print Assumptions C14_nonvacuous.
