(* C19ComposeFacts: gen composed with the converter models (model/C19Compose.v).

   Per entry, per kind: inside entry_guard the emitter gen calls returns a definition carrying the templated
           name, and that definition, read back by the parser of the kind, describes the interface it was generated
           from.  class: C02DocLink.C02_partial_closed_lemma; function: C03Compose.C03_partial_fields (the C03
           composition for an arbitrary identifier as function name) + C03DocLinkMain.C03_doc_link_lemma; argparse:
           C04Compose.C04_ast_partial_lemma (stated for word_wrap off) + a proof that emit.argparse_function with
           word_wrap on (its default, which gen uses) builds the same tree when textwrap.fill leaves every help text
           alone.
   The module: GenFacts.gen_in_guard says which text sits under which name; the lift over the mapping is by
           induction.
   Last, a two-entry mapping of class type inside all hypotheses. *)
From Coq Require Import List Ascii Bool Arith ZArith Lia Permutation.
From Coq Require String.
Import String.StringSyntax.
From DT Require Import PyStr Sexp PyVal TyExpr Extracted PureUtils Defaults PyAst IR EmitAst ParseAst.
From DT Require Import C17Spec C02Spec C02Codec C04Spec C04Codec Gen C19Spec C19Compose.
From DT Require DocEmit C06Spec C18Spec C02DocLinkDefs C03Spec C03DocLinkDefs.
From DT Require PyStrFacts.
From DT Require EmitAstFacts DefaultsFacts FillFacts C06Facts C02DocLink C03Compose C03DocLinkMain C04Compose GenFacts.
Import ListNotations.

Lemma emit_class_call_irrelevant : forall pt i cn bs ds ww tds,
  no_carried_body i = true -> no_return_entry i = true ->
  emit_class pt i true cn bs ds ww tds = emit_class pt i false cn bs ds ww tds.
Proof.
  intros pt i cn bs ds ww tds Hb Hr. unfold no_return_entry in Hr. unfold emit_class.
  assert (E0 : match ir_internal i with Some it => in_body it | None => [] end = []).
  { unfold no_carried_body in Hb. destruct (ir_internal i) as [it|]; [|reflexivity].
    destruct (in_body it); [reflexivity|discriminate Hb]. }
  rewrite E0.
  destruct (ir_returns i) as [| |p]; [| |discriminate Hr];
    destruct (od_keys (ir_params i)); cbn [bind]; destruct tds; cbn [bind]; reflexivity.
Qed.

Lemma entry_class_ok : forall o pt nm i di,
  entry_guard GClass o pt nm i = true ->
  exists s i', entry_def GClass o pt nm i = Ok s /\ def_name s = Some nm /\ def_is_class s = true
               /\ parse_back GClass o pt i di s = Ok i' /\ describes GClass i i' = true.
Proof.
  intros o pt nm i di G. cbn [entry_guard] in G.
  apply andb_true_iff in G. destruct G as [G Hl]. apply andb_true_iff in G. destruct G as [Hec Hg].
  destruct (C02DocLink.C02_partial_closed_lemma gen_width pt i nm [L "object"] (decos_of o) (o_emit_default_doc o)
              true false true Hg Hl) as (text & s & i' & Ht & He & Hp & _ & _ & _ & _ & Hsame).
  assert (He' : emit_class pt i (o_emit_call o) nm [L "object"] (decos_of o) true
                           (C02DocLinkDefs.class_docstring_text gen_width (o_emit_default_doc o) true i) = Ok (s, i)).
  { destruct (o_emit_call o); [|exact He]. cbn [negb orb] in Hec.
    rewrite emit_class_call_irrelevant; [exact He| |exact Hec].
    unfold guard_C02_ast in Hg. apply andb_true_iff in Hg. apply Hg. }
  destruct (EmitAstFacts.emit_class_inv _ _ _ _ _ _ _ _ _ _ He) as (ib & txt & meth & attrs & _ & _ & _ & _ & _ & Es).
  exists s, i'. cbn [entry_def entry_docstring]. rewrite He'. cbn [bind fst].
  split; [reflexivity|]. subst s. cbn [def_name def_is_class].
  split; [reflexivity|]. split; [reflexivity|].
  cbn [parse_back reparse_def bind entry_docstring]. rewrite Ht. cbn [bind]. split; [exact Hp|exact Hsame].
Qed.

(* C03Compose.C03_partial_fields with the emitted tree named s, as props/C19Ext.v states it *)
Module FnPart.
Import C03Spec.

Lemma C03_partial_named : forall nm o i text d,
  C06Spec.is_identifier nm = true ->
  guard_C03 o i = true -> doc_agrees o i d = true ->
  exists s s' r,
    EmitAst.emit_function (fo_pt o) i (Some nm) (Some (fo_kind o)) (fo_inline o) (fo_kwonly o) (Ok text) = Ok (s, i)
    /\ def_name s = Some nm
    /\ reparse_stmt s = Ok s' /\ parse_fn (Some d) s' = Ok r /\ same_interface_fn (fo_kind o) i r = true.
Proof.
  intros nm o i text d Hid G DA.
  destruct (C03Compose.C03_partial_fields nm o i text d Hid G DA) as (a & b & ret & s' & r & He & Hre & Hp & Hs & _).
  exists (SFunc nm a b [] ret), s', r. auto.
Qed.

End FnPart.

Lemma resolve_arg_doc : forall a c n g r t x1 x2 x3 x4 g',
  resolve_arg a c n g r t = Ok (x1, x2, x3, x4, g') -> g_doc g' = g_doc g /\ g_default g' = g_default g.
Proof.
  intros a c n g r t x1 x2 x3 x4 g' H. unfold resolve_arg in H.
  destruct (g_typ g) as [| |tt] eqn:Et; [discriminate H| |].
  - cbn [bind] in H. inversion H. subst. split; reflexivity.
  - match type of H with bind ?X _ = _ => destruct X as [[s rq]|]; cbn [bind] in H; [|discriminate H] end.
    inversion H. subst. split; reflexivity.
Qed.

(* a help text that announces no default and that textwrap.fill leaves alone *)
Definition help_unwrapped (g : gparam) : Prop :=
  match g_doc g with
  | Has (c :: r) => no_announce (c :: r) = true /\ fill_if true (c :: r) = Ok (c :: r)
  | _ => True
  end.

Lemma p2ap_ww : forall pt edd n g,
  help_unwrapped g ->
  param2argparse_param pt true edd n g = param2argparse_param pt false edd n g.
Proof.
  intros pt edd n g Hd. unfold help_unwrapped in Hd. unfold param2argparse_param.
  match goal with |- bind ?X _ = _ => destruct X as [[[[[action choices] required] typ] g2]|] eqn:ER; cbn [bind]; [|reflexivity] end.
  apply resolve_arg_doc in ER. destruct ER as [Ed Edf].
  assert (Ed' : g_doc g2 = g_doc g). { rewrite Ed. destruct (g_typ g); reflexivity. }
  clear Ed.
  set (g3 := match g_doc g2 with Missing => mkG (Has []) (g_typ g2) (g_default g2) | _ => g2 end).
  assert (Hg3 : g_doc g3 = match g_doc g with Missing => Has [] | x => x end).
  { unfold g3. rewrite <- Ed'. destruct (g_doc g2) eqn:E; cbn [g_doc]; try rewrite E; reflexivity. }
  clearbody g3. rewrite Hg3.
  destruct (g_doc g) as [| |[|c r]].
  - cbn [extract_default_fld]. rewrite (DefaultsFacts.extract_default_no_announce [] true None edd DefaultsFacts.no_announce_nil).
    reflexivity.
  - reflexivity.
  - cbn [extract_default_fld]. rewrite (DefaultsFacts.extract_default_no_announce [] true None edd DefaultsFacts.no_announce_nil).
    reflexivity.
  - destruct Hd as [Hna Hf].
    cbn [extract_default_fld]. rewrite (DefaultsFacts.extract_default_no_announce (c :: r) true None edd Hna).
    cbn [bind fst snd]. rewrite Hf. reflexivity.
Qed.

Lemma emit_argparse_ww : forall pt i edd fn ft wd ds,
  (forall kv, In kv (ir_params i) -> help_unwrapped (snd kv)) ->
  emit_argparse pt i edd fn ft wd true ds = emit_argparse pt i edd fn ft wd false ds.
Proof.
  intros pt i edd fn ft wd ds H. unfold emit_argparse.
  assert (E : map_outcome (fun kv => param2argparse_param pt true edd (fst kv) (snd kv)) (ir_params i)
              = map_outcome (fun kv => param2argparse_param pt false edd (fst kv) (snd kv)) (ir_params i)).
  { apply C06Facts.map_outcome_ext_in. intros kv Hin. apply p2ap_ww. apply (H kv Hin). }
  rewrite E. reflexivity.
Qed.

Lemma argparse_guard_ww : forall i,
  guard_C04_ast i = true -> argparse_help_nowrap i = true ->
  forall kv, In kv (ir_params i) -> help_unwrapped (snd kv).
Proof.
  intros i G W kv Hin. unfold help_unwrapped. unfold guard_C04_ast in G.
  repeat (apply andb_true_iff in G; destruct G as [G ?]).
  match goal with Hp : forallb param_ok_C04 _ = true |- _ => rewrite forallb_forall in Hp; pose proof (Hp kv Hin) as Hk end.
  unfold argparse_help_nowrap in W. apply andb_true_iff in W. destruct W as [Hw W].
  rewrite forallb_forall in W. pose proof (W kv Hin) as Hn.
  unfold param_ok_C04 in Hk. apply andb_true_iff in Hk. destruct Hk as [_ Hg].
  assert (Hh : help_ok_C04 (snd kv) = true).
  { unfold gparam_ok_C04 in Hg. destruct (g_typ (snd kv)) as [| |t]; try discriminate Hg.
    destruct (shape_of_typ t); [apply andb_true_iff in Hg; apply Hg|].
    destruct (literal_of_typ t); [apply andb_true_iff in Hg; apply Hg|discriminate Hg]. }
  unfold help_ok_C04, prose_of in Hh. unfold prose_of in Hn.
  destruct (g_doc (snd kv)) as [| |[|c r]]; try exact I.
  apply andb_true_iff in Hh. destruct Hh as [Hna _]. split; [exact Hna|].
  unfold fill_if. apply FillFacts.nowrap_line_fill; [apply Nat.ltb_lt; exact Hw|exact Hn].
Qed.

(* emit.argparse_function at its default word_wrap=True builds the tree of word_wrap=False inside guard_C04_ast when
   no help text is re-flowed: C04_partial (stated for word_wrap off) covers the default *)
Lemma argparse_word_wrap_default : forall pt i edd fn ft wd ds,
  guard_C04_ast i = true -> argparse_help_nowrap i = true ->
  emit_argparse pt i edd fn ft wd true ds = emit_argparse pt i edd fn ft wd false ds.
Proof. intros pt i edd fn ft wd ds Hg Hw. apply emit_argparse_ww. apply argparse_guard_ww; assumption. Qed.

Lemma entry_function_ok : forall o pt nm i di,
  entry_guard GFunction o pt nm i = true ->
  exists s i', entry_def GFunction o pt nm i = Ok s /\ def_name s = Some nm /\ def_is_class s = false
               /\ parse_back GFunction o pt i di s = Ok i' /\ describes GFunction i i' = true.
Proof.
  intros o pt nm i di G. cbn [entry_guard] in G.
  apply andb_true_iff in G. destruct G as [G Hl]. apply andb_true_iff in G. destruct G as [Hid Hg].
  set (fo := gen_fopts pt (o_emit_default_doc o)) in *.
  destruct (C03DocLinkMain.C03_doc_link_lemma gen_width fo i Hg Hl) as (text & d & Ht & Hd & Ha).
  destruct (C03Compose.C03_partial_fields nm fo i text d Hid Hg Ha) as (a & b & ret & s' & r & He & Hre & Hp & Hsame & _).
  change (C03Spec.fo_pt fo) with pt in He. change (C03Spec.fo_kind fo) with (L "static") in He, Hsame.
  change (C03Spec.fo_inline fo) with true in He. change (C03Spec.fo_kwonly fo) with true in He.
  exists (SFunc nm a b [] ret), r. cbn [entry_def entry_docstring]. fold fo. rewrite Ht, He. cbn [bind fst def_name def_is_class].
  split; [reflexivity|]. split; [reflexivity|]. split; [reflexivity|].
  unfold parse_back, reparse_def, entry_docstring. fold fo. rewrite Hre. cbn [bind]. rewrite Ht. cbn [bind]. rewrite Hd. cbn [bind].
  split; [exact Hp|exact Hsame].
Qed.

Lemma entry_argparse_ok : forall o pt nm i di,
  entry_guard GArgparse o pt nm i = true ->
  exists s i', entry_def GArgparse o pt nm i = Ok s /\ def_name s = Some nm /\ def_is_class s = false
               /\ parse_back GArgparse o pt i di s = Ok i' /\ describes GArgparse i i' = true.
Proof.
  intros o pt nm i di G. cbn [entry_guard] in G.
  apply andb_true_iff in G. destruct G as [G Hds]. apply andb_true_iff in G. destruct G as [G Hw].
  apply andb_true_iff in G. destruct G as [Hne Hg].
  destruct nm as [|c r]; [discriminate Hne|].
  destruct (argparse_docstring_text gen_width i) as [ds|] eqn:Eds; [|discriminate Hds].
  destruct (C04Compose.C04_ast_partial_lemma pt i (o_emit_default_doc o) c r (ch 115) (L "tatic") ds di None None Hg)
    as (s & i' & He & Hp & _ & _ & _ & Hsame).
  assert (He' : emit_argparse pt i (o_emit_default_doc o) (Some (c :: r)) (Some (L "static")) false true (Ok ds) = Ok (s, i)).
  { rewrite (argparse_word_wrap_default pt i (o_emit_default_doc o) (Some (c :: r)) (Some (L "static")) false (Ok ds) Hg Hw).
    exact He. }
  clear He. rename He' into He.
  destruct (EmitAstFacts.emit_argparse_inv _ _ _ _ _ _ _ _ _ _ He)
    as (n & ftype & b & dtext & desc & ps & spliced & ret & Hn & _ & _ & _ & _ & _ & _ & _ & _ & Es).
  cbn [py_or] in Hn. injection Hn as <-.
  exists s, i'. cbn [entry_def entry_docstring]. rewrite Eds.
  match goal with |- (bind ?X _ = _) /\ _ => assert (HX : X = Ok (s, i)) by (exact He); rewrite HX end. cbn [bind fst].
  split; [reflexivity|]. subst s. split; [reflexivity|]. split; [reflexivity|].
  cbn [parse_back reparse_def bind]. split; [exact Hp|exact Hsame].
Qed.

Theorem entry_describes_interface : forall k o pt nm i di,
  entry_guard k o pt nm i = true ->
  exists s i', entry_def k o pt nm i = Ok s /\ def_name s = Some nm
               /\ def_is_class s = (match k with GClass => true | _ => false end)
               /\ parse_back k o pt i di s = Ok i' /\ describes k i i' = true.
Proof.
  intros [| |] o pt nm i di G.
  - apply entry_class_ok; exact G.
  - apply entry_function_ok; exact G.
  - apply entry_argparse_ok; exact G.
Qed.

Corollary entry_round_trip : forall k o pt nm i di,
  entry_guard k o pt nm i = true -> entry_round_trip_b k o pt nm i di = true.
Proof.
  intros k o pt nm i di G. destruct (entry_describes_interface k o pt nm i di G) as (s & i' & He & Hn & _ & Hp & Hd).
  unfold entry_round_trip_b. rewrite He, Hn, Hp, Hd, PyStrFacts.str_eqb_refl. reflexivity.
Qed.

Lemma composed_defs : forall to_code k o tpl ces defs,
    forallb (centry_guard k o tpl) ces = true ->
    Forall2 (GenFacts.entry_top tpl) (map (entry_of to_code (Some k) o tpl) ces) defs ->
    Forall2 (def_describes to_code k o tpl) ces defs.
Proof.
  intros to_code k o tpl ces. induction ces as [|ce r IH]; intros defs HG HT.
  - inversion HT. constructor.
  - cbn [map] in HT. inversion HT as [|e d es ds Hd Hr]; subst.
    cbn [forallb] in HG. apply andb_true_iff in HG. destruct HG as [Hg Hgr].
    constructor; [|apply IH; assumption].
    unfold centry_guard in Hg.
    destruct (ce_parsed ce) as [i|xk] eqn:EP; [|discriminate Hg].
    destruct (format_name tpl (ce_name ce)) as [nm|xk] eqn:EN; [|discriminate Hg].
    destruct Hd as (c & nm' & t & Hn & Hres & Ed).
    cbn [entry_of e_name e_res] in Hn, Hres. rewrite EN in Hn. inversion Hn. subst nm'.
    unfold entry_res_of in Hres. rewrite EP, EN in Hres.
    destruct (entry_def k o (ce_pt ce) nm i) as [s|er] eqn:ED; [|discriminate Hres].
    destruct (to_code s) as [text|xk] eqn:ET; [|discriminate Hres].
    inversion Hres. subst t.
    exists nm, i, s, c, text.
    assert (Hall : forall di, exists i', def_name s = Some nm /\ parse_back k o (ce_pt ce) i di s = Ok i' /\ describes k i i' = true).
    { intros di. destruct (entry_describes_interface k o (ce_pt ce) nm i di Hg) as (s0 & i' & He & Hnm & _ & Hp & Hdd).
      rewrite ED in He. inversion He. subst s0. exists i'. repeat split; assumption. }
    destruct (Hall i) as (_ & Hnm & _).
    repeat split; try assumption; try reflexivity.
    intros di. destruct (Hall di) as (i' & _ & Hp & Hdd). exists i'. split; assumption.
Qed.

Lemma composed_names : forall to_code k o tpl ces names,
    names_of tpl (map (entry_of to_code k o tpl) ces) = GOk names ->
    Forall2 (fun ce n => format_name tpl (ce_name ce) = GOk n) ces names.
Proof.
  intros to_code k o tpl ces names H. apply GenFacts.names_of_spec in H.
  remember (map (entry_of to_code k o tpl) ces) as es eqn:E. revert ces E.
  induction H as [|e n es' ns' Hn _ IH]; intros ces E.
  - destruct ces; [constructor|discriminate E].
  - destruct ces as [|ce r]; [discriminate E|]. cbn [map] in E. inversion E. subst e es'.
    constructor; [exact Hn|apply IH; reflexivity].
Qed.

(* through the CLI with consistent options, gen is called on the very gen_in the entries were computed for *)
Lemma route_opts_same : forall x, route_opts_ok x = true -> GenFacts.gen_in_run x = ci_gen x.
Proof.
  intros x HR. unfold route_opts_ok in HR. unfold GenFacts.gen_in_run. destruct (ci_via x); [reflexivity|].
  apply andb_true_iff in HR. destruct HR as [Hedd Hdl].
  destruct (ci_gen x) as [tpl im mp ty pre imf pev [ec edd dl]]. cbn in Hedd, Hdl. subst edd.
  destruct dl as [[|a l]|]; [discriminate Hdl|reflexivity|reflexivity].
Qed.

Theorem module_describes_interfaces : forall ps, python_like ps -> forall to_code c k x,
    ci_gen x = gen_in_of to_code c -> ci_existing x = None -> route_opts_ok x = true ->
    guard_C19 ps x = true ->
    kind_of (cg_type c) = Some k ->
    forallb (centry_guard k (cg_opts c) (cg_name_tpl c)) (centries_of c) = true ->
    exists g names header defs,
      fst (run_c19 ps x) = GOk g
      /\ snd (run_c19 ps x) = Some (g_written g)
      /\ Forall2 (fun ce n => format_name (cg_name_tpl c) (ce_name ce) = GOk n) (centries_of c) names
      /\ g_all g = names
      /\ header_of ps (ci_gen x) = Some header
      /\ ps (g_written g) = Some (hoist header ++ defs ++ [TAll names (all_text names)])
      /\ filter nonimp (hoist header ++ defs ++ [TAll names (all_text names)])
         = filter nonimp header ++ defs ++ [TAll names (all_text names)]
      /\ Forall2 (def_describes to_code k (cg_opts c) (cg_name_tpl c)) (centries_of c) defs
      /\ Forall2 is_def_named names defs.
Proof.
  intros ps PL to_code c k x EG EX HR G HK HCG.
  destruct (GenFacts.guard_gen_conditions ps x G EX) as [HPC (es & names & header & HC)].
  destruct (GenFacts.gen_in_guard ps PL (ci_gen x) es names header HC)
    as (g & defs & Hg & Ha & Hh & Hw & Hp & Hni & Hnamed & Htops).
  destruct HC as (HKt & _ & _ & HH & HM & HN & _).
  pose proof (GenFacts.run_c19_fresh ps x EX HKt HPC) as Hrun. rewrite (route_opts_same x HR), Hg in Hrun.
  assert (Hr1 : fst (run_c19 ps x) = GOk g) by (rewrite Hrun; reflexivity).
  assert (Hr2 : snd (run_c19 ps x) = Some (g_written g)) by (rewrite Hrun; reflexivity).
  (* the mapping of x is the composed one *)
  rewrite EG in HM, HN, Htops. cbn [gen_in_of gi_mapping gi_name_tpl] in HM, HN, Htops.
  destruct (cg_mapping c) as [ces|xk] eqn:EM; [|discriminate HM]. inversion HM. subst es. clear HM.
  rewrite HK in HN, Htops.
  assert (Ecs : centries_of c = ces) by (unfold centries_of; rewrite EM; reflexivity).
  rewrite Ecs in *.
  exists g, names, header, defs.
  split; [exact Hr1|]. split; [exact Hr2|].
  split; [apply (composed_names to_code (Some k) (cg_opts c)); exact HN|].
  split; [exact Ha|]. split; [exact HH|].
  split; [rewrite Hp, Hh; reflexivity|].
  split; [rewrite <- Hh; exact Hni|].
  split; [apply composed_defs; assumption|exact Hnamed].
Qed.

(* a rendering of definitions for the examples (to_code is an input of the theorems: any function will do) *)
Definition ex_to_code (s : stmt) : gout str :=
  match s with
  | SClass n _ _ _ => GOk (L "class " ++ n)
  | SFunc n _ _ _ _ => GOk (L "def " ++ n)
  | _ => GErr xTypeError
  end.

Definition ex_ir2 : ir :=
  mkIR FNone (Has (L "static")) (Has (L "Second class."))
       [(L "lr", mkG (Has (L "learning rate.")) (Has (L "float")) (Some (DV (VFloat (L "0.5")))));
        (L "name", mkG (Has (L "its name")) (Has (L "str")) None)]
       FNone None.

(* a function description inside the guard for the options gen passes (keyword-only arguments: every parameter has
   a default; default sentences on: the documented entries are the ** parameter and the return entry) *)
Definition ex_fir : ir :=
  mkIR (Has (L "f")) (Has (L "static")) (Has (L "Summary."))
       [(L "dataset_name", mkG Missing (Has (L "str")) (Some (DV (VStr (L "mnist")))));
        (L "lr", mkG Missing (Has (L "Optional[float]")) (Some (DV VNone)));
        (L "n", mkG Missing (Has (L "int")) (Some (DV (VInt (-5)%Z))));
        (L "flag", mkG Missing (Has (L "bool")) (Some (DV (VBool true))));
        (L "data_loader_kwargs", mkG (Has (L "passed on.")) (Has (L "Optional[dict]")) (Some (DV (VStr NoneStr))))]
       (Has (mkG (Has (L "the pair.")) (Has (L "Tuple[int, int]")) None)) None.

Definition ex_c (ty : str) (i1 i2 : ir) : cgen_in :=
  mkCGen (L "{name}Config") (L "m.M")
         (GOk [mkCE (L "Alpha") false (GOk i1) []; mkCE (L "Beta") false (GOk i2) []])
         ty None None None (mkOpts false true None).

Definition ex_tab : parse_table :=
  [(L "class AlphaConfig", Some [TDef true (L "AlphaConfig") (L "class AlphaConfig")]);
   (L "class BetaConfig", Some [TDef true (L "BetaConfig") (L "class BetaConfig")]);
   (L "def AlphaConfig", Some [TDef false (L "AlphaConfig") (L "def AlphaConfig")]);
   (L "def BetaConfig", Some [TDef false (L "BetaConfig") (L "def BetaConfig")])].

Definition ex_feat : entry_feat := mkFeat false true 2 1 true false false.

Definition ex_x (c : cgen_in) (via : route) : c19_in :=
  mkC19 via (gen_in_of ex_to_code c) None [ex_feat; ex_feat] None.

Definition ex_class : cgen_in := ex_c (L "class") C02DocLink.w_link_ok ex_ir2.
Definition ex_function : cgen_in := ex_c (L "function") ex_fir ex_fir.
Definition ex_argparse : cgen_in := ex_c (L "argparse") C04Compose.w4_ok C04Compose.w4_ok.

(* The sample descriptions are inside the guard of their kind, whatever the name: the class guard looks at neither
   the code-string table nor the name, the other two only test the name.  The witnesses below rewrite with these
   lemmas, so that each description is evaluated once. *)
Lemma w_link_ok_in_guard :
  guard_C02_ast C02DocLink.w_link_ok = true /\ C02DocLinkDefs.doc_link_ok gen_width true true C02DocLink.w_link_ok = true.
Proof.
  destruct C02DocLink.C02_doc_link_nonvacuous as [G F]. split; [exact G|].
  rewrite forallb_forall in F.
  specialize (F (true, true) (or_intror (or_intror (or_intror (or_introl eq_refl))))).
  apply andb_true_iff in F. exact (proj1 F).
Qed.

Lemma g_link : forall pt nm, entry_guard GClass (mkOpts false true None) pt nm C02DocLink.w_link_ok = true.
Proof.
  intros pt nm. cbn [entry_guard o_emit_call o_emit_default_doc negb orb].
  rewrite (proj1 w_link_ok_in_guard), (proj2 w_link_ok_in_guard). reflexivity.
Qed.

Lemma g_ir2 : forall ec pt nm, entry_guard GClass (mkOpts ec true None) pt nm ex_ir2 = true.
Proof.
  intros ec pt nm. cbn [entry_guard o_emit_call o_emit_default_doc].
  change (no_return_entry ex_ir2) with true. rewrite orb_true_r. vm_compute. reflexivity.
Qed.

Lemma g_fir : forall nm, C06Spec.is_identifier nm = true ->
  entry_guard GFunction (mkOpts false true None) [] nm ex_fir = true.
Proof. intros nm H. cbn [entry_guard]. rewrite H. vm_compute. reflexivity. Qed.

Lemma g_w4 : forall nm, Gen.nonempty nm = true ->
  entry_guard GArgparse (mkOpts false true None) [] nm C04Compose.w4_ok = true.
Proof.
  intros nm H. cbn [entry_guard]. rewrite H, (proj1 C04Compose.C04_nonvacuous_lemma). vm_compute. reflexivity.
Qed.

(* what gen records for a guarded entry under the example rendering: entry_describes_interface gives the name and
   the sort of the definition, which is all ex_to_code looks at; no emitter is run *)
Definition ex_keyword (k : gkind) : str := match k with GClass => L "class " | _ => L "def " end.

Lemma ex_entry_of : forall k o tpl name isf i pt nm,
  format_name tpl name = GOk nm -> entry_guard k o pt nm i = true ->
  entry_of ex_to_code (Some k) o tpl (mkCE name isf (GOk i) pt) = mkEntry name isf (Emitted (ex_keyword k ++ nm)).
Proof.
  intros k o tpl name isf i pt nm Hn G.
  destruct (entry_describes_interface k o pt nm i i G) as (s & i' & He & Hnm & Hc & _).
  unfold entry_of, entry_res_of. cbn [ce_parsed ce_name ce_pt ce_is_function]. rewrite Hn, He. f_equal.
  destruct s; try discriminate Hnm; injection Hnm as ->; destruct k; try discriminate Hc; reflexivity.
Qed.

Definition ex_gi (k : gkind) (ty : str) (pre : option str) : gen_in :=
  mkGenIn (L "{name}Config") (L "m.M")
          (GOk [mkEntry (L "Alpha") false (Emitted (ex_keyword k ++ L "AlphaConfig"));
                mkEntry (L "Beta") false (Emitted (ex_keyword k ++ L "BetaConfig"))])
          ty pre None None (mkOpts false true None).

Lemma ex_gen_in : forall ty k pre i1 i2,
  kind_of ty = Some k ->
  entry_guard k (mkOpts false true None) [] (L "AlphaConfig") i1 = true ->
  entry_guard k (mkOpts false true None) [] (L "BetaConfig") i2 = true ->
  gen_in_of ex_to_code
            (mkCGen (L "{name}Config") (L "m.M") (GOk [mkCE (L "Alpha") false (GOk i1) []; mkCE (L "Beta") false (GOk i2) []])
                    ty pre None None (mkOpts false true None))
  = ex_gi k ty pre.
Proof.
  intros ty k pre i1 i2 Hk G1 G2. unfold gen_in_of, ex_gi.
  cbn [cg_name_tpl cg_input_mapping cg_mapping cg_type cg_prepend cg_imports_from_file cg_prepend_eval cg_opts map].
  rewrite Hk, (ex_entry_of k _ (L "{name}Config") (L "Alpha") _ i1 _ (L "AlphaConfig") eq_refl G1),
          (ex_entry_of k _ (L "{name}Config") (L "Beta") _ i2 _ (L "BetaConfig") eq_refl G2).
  reflexivity.
Qed.

Lemma ex_class_gen_in : gen_in_of ex_to_code ex_class = ex_gi GClass (L "class") None.
Proof. apply ex_gen_in; [reflexivity|apply g_link|apply g_ir2]. Qed.

Lemma ex_function_gen_in : gen_in_of ex_to_code ex_function = ex_gi GFunction (L "function") None.
Proof. apply ex_gen_in; [reflexivity|apply g_fir; reflexivity|apply g_fir; reflexivity]. Qed.

Lemma ex_argparse_gen_in : gen_in_of ex_to_code ex_argparse = ex_gi GArgparse (L "argparse") None.
Proof. apply ex_gen_in; [reflexivity|apply g_w4; reflexivity|apply g_w4; reflexivity]. Qed.

Lemma ex_centry_guards : forall k i1 i2,
  entry_guard k (mkOpts false true None) [] (L "AlphaConfig") i1 = true ->
  entry_guard k (mkOpts false true None) [] (L "BetaConfig") i2 = true ->
  forallb (centry_guard k (mkOpts false true None) (L "{name}Config"))
          [mkCE (L "Alpha") false (GOk i1) []; mkCE (L "Beta") false (GOk i2) []] = true.
Proof.
  intros k i1 i2 G1 G2. cbn [forallb]. unfold centry_guard. cbn [ce_parsed ce_name ce_pt].
  change (format_name (L "{name}Config") (L "Alpha")) with (GOk (L "AlphaConfig")).
  change (format_name (L "{name}Config") (L "Beta")) with (GOk (L "BetaConfig")).
  cbv beta iota. rewrite G1, G2. reflexivity.
Qed.

(* a two-entry mapping of class type (four and two attributes, defaults, an undocumented attribute, a return entry)
   meets every boolean hypothesis of module_describes_interfaces, by either route; its two generated classes round-trip *)
Lemma module_nonvacuous_class :
  guard_C19 (table_parse ex_tab) (ex_x ex_class ViaApi) = true
  /\ guard_C19 (table_parse ex_tab) (ex_x ex_class ViaCli) = true
  /\ route_opts_ok (ex_x ex_class ViaCli) = true
  /\ kind_of (cg_type ex_class) = Some GClass
  /\ forallb (centry_guard GClass (cg_opts ex_class) (cg_name_tpl ex_class)) (centries_of ex_class) = true
  /\ List.length (centries_of ex_class) = 2
  /\ map (fun ce => match ce_parsed ce with
                    | GOk i => entry_round_trip_b GClass (cg_opts ex_class) (ce_pt ce) (L "XConfig") i i
                    | GErr _ => false
                    end) (centries_of ex_class) = [true; true].
Proof.
  unfold ex_x. rewrite ex_class_gen_in.
  split; [vm_compute; reflexivity|]. split; [vm_compute; reflexivity|].
  split; [reflexivity|]. split; [reflexivity|].
  split; [exact (ex_centry_guards GClass _ _ (g_link _ _) (g_ir2 _ _ _))|]. split; [reflexivity|].
  cbn [centries_of cg_mapping cg_opts map ce_parsed ce_pt].
  apply (f_equal2 (fun a b => [a; b])); apply entry_round_trip; [apply g_link|apply g_ir2].
Qed.

Lemma module_nonvacuous_function_argparse :
  guard_C19 (table_parse ex_tab) (ex_x ex_function ViaApi) = true
  /\ kind_of (cg_type ex_function) = Some GFunction
  /\ forallb (centry_guard GFunction (cg_opts ex_function) (cg_name_tpl ex_function)) (centries_of ex_function) = true
  /\ guard_C19 (table_parse ex_tab) (ex_x ex_argparse ViaApi) = true
  /\ kind_of (cg_type ex_argparse) = Some GArgparse
  /\ forallb (centry_guard GArgparse (cg_opts ex_argparse) (cg_name_tpl ex_argparse)) (centries_of ex_argparse) = true
  /\ List.length (ir_params ex_fir) = 5 /\ List.length (ir_params C04Compose.w4_ok) = 11.
Proof.
  unfold ex_x. rewrite ex_function_gen_in, ex_argparse_gen_in.
  split; [vm_compute; reflexivity|]. split; [reflexivity|].
  split; [apply ex_centry_guards; apply g_fir; reflexivity|].
  split; [vm_compute; reflexivity|]. split; [reflexivity|].
  split; [apply ex_centry_guards; apply g_w4; reflexivity|].
  split; reflexivity.
Qed.

(* a Python-like parser that knows definitions: all hypotheses at once
   GenFacts.toy_parse (imports and __all__ only) extended by lines  class <word>  and  def <word>: one definition
   named <word>.  It has every property listed in python_like, so module_describes_interfaces applies to the
   two-entry mapping above outright, and its conclusion is about a real run of the model. *)
Import PyStrFacts GenFacts.

Definition toy2_line (l : str) : option (list top) :=
  match l with
  | [] => Some []
  | _ =>
    if startswith (L "import ") l then
      (if no_space (skipn 7 l) then Some [TImport None l] else None)
    else if startswith (L "class ") l then
      (if no_space (skipn 6 l) then Some [TDef true (skipn 6 l) l] else None)
    else if startswith (L "def ") l then
      (if no_space (skipn 4 l) then Some [TDef false (skipn 4 l) l] else None)
    else if startswith (L "__all__ = [") l then Some [TAll (segs l false []) l]
    else None
  end.

Fixpoint toy2_lines (ls : list str) : option (list top) :=
  match ls with
  | [] => Some []
  | l :: r =>
    match toy2_line l, toy2_lines r with
    | Some a, Some b => Some (a ++ b)
    | _, _ => None
    end
  end.

Definition toy2_parse (s : str) : option (list top) := toy2_lines (lines s).

Theorem python_like_toy2 : python_like toy2_parse.
Proof.
  apply (line_parser_python_like toy2_line).
  - intros s. unfold toy2_parse. induction (lines s) as [|l r IH]; cbn [toy2_lines plines]; [|rewrite IH]; reflexivity.
  - reflexivity.
  - intros l tops H. unfold toy2_line in H. destruct l as [|c r]; [injection H as <-; now left|]. right.
    destruct (startswith (L "import ") (c :: r)).
    { destruct (no_space _); [|discriminate H]. injection H as <-. eexists. repeat split. }
    destruct (startswith (L "class ") (c :: r)).
    { destruct (no_space _); [|discriminate H]. injection H as <-. eexists. repeat split. }
    destruct (startswith (L "def ") (c :: r)).
    { destruct (no_space _); [|discriminate H]. injection H as <-. eexists. repeat split. }
    destruct (startswith (L "__all__ = [") (c :: r)); [|discriminate H]. injection H as <-. eexists. repeat split.
  - intros l H. apply startswith_iff in H. destruct H as [r ->]. reflexivity.
Qed.

Definition ex_class_imp : cgen_in :=
  mkCGen (L "{name}Config") (L "m.M")
         (GOk [mkCE (L "Alpha") false (GOk C02DocLink.w_link_ok) []; mkCE (L "Beta") false (GOk ex_ir2) []])
         (L "class") (Some (L "import os")) None None (mkOpts false true None).

Lemma ex_class_imp_gen_in : gen_in_of ex_to_code ex_class_imp = ex_gi GClass (L "class") (Some (L "import os")).
Proof. apply ex_gen_in; [reflexivity|apply g_link|apply g_ir2]. Qed.

Lemma module_all_hypotheses :
  python_like toy2_parse
  /\ guard_C19 toy2_parse (ex_x ex_class_imp ViaApi) = true
  /\ route_opts_ok (ex_x ex_class_imp ViaApi) = true
  /\ kind_of (cg_type ex_class_imp) = Some GClass
  /\ forallb (centry_guard GClass (cg_opts ex_class_imp) (cg_name_tpl ex_class_imp)) (centries_of ex_class_imp) = true.
Proof.
  split; [exact python_like_toy2|].
  unfold ex_x. rewrite ex_class_imp_gen_in.
  split; [vm_compute; reflexivity|]. split; [reflexivity|]. split; [reflexivity|].
  exact (ex_centry_guards GClass _ _ (g_link _ _) (g_ir2 _ _ _)).
Qed.

(* ... and the run the theorem speaks about, computed: import first, the two classes in mapping order, __all__ *)
Lemma module_example_run :
  option_map g_written (match fst (run_c19 toy2_parse (ex_x ex_class_imp ViaApi)) with GOk g => Some g | GErr _ => None end)
  = Some (L "import os" ++ [nl; nl] ++ L "class AlphaConfig" ++ [nl; nl] ++ L "class BetaConfig" ++ [nl]
            ++ L "__all__ = ['AlphaConfig', 'BetaConfig']").
Proof.
  unfold ex_x. rewrite ex_class_imp_gen_in. vm_compute. reflexivity.
Qed.

Lemma module_example_conclusion :
  let x := ex_x ex_class_imp ViaApi in
  let c := ex_class_imp in
  exists g names header defs,
    fst (run_c19 toy2_parse x) = GOk g
    /\ snd (run_c19 toy2_parse x) = Some (g_written g)
    /\ names = [L "AlphaConfig"; L "BetaConfig"]
    /\ g_all g = names
    /\ header = [TImport None (L "import os")]
    /\ toy2_parse (g_written g) = Some (hoist header ++ defs ++ [TAll names (all_text names)])
    /\ Forall2 (def_describes ex_to_code GClass (cg_opts c) (cg_name_tpl c)) (centries_of c) defs.
Proof.
  intros x c.
  destruct module_all_hypotheses as (PL & HG & HR & HK & HC).
  destruct (module_describes_interfaces toy2_parse PL ex_to_code c GClass x eq_refl eq_refl HR HG HK HC)
    as (g & names & header & defs & H1 & H2 & H3 & H4 & H5 & H6 & _ & H8 & _).
  exists g, names, header, defs.
  assert (En : names = [L "AlphaConfig"; L "BetaConfig"]).
  { unfold c, ex_class_imp, centries_of in H3. cbn [cg_mapping cg_name_tpl] in H3.
    inversion H3 as [|a b l l' Ha Hl]; subst. inversion Hl as [|a2 b2 l2 l2' Ha2 Hl2]; subst. inversion Hl2; subst.
    cbn [ce_name] in Ha, Ha2. vm_compute in Ha, Ha2. inversion Ha. inversion Ha2. reflexivity. }
  assert (Eh : header = [TImport None (L "import os")]).
  { unfold x, ex_x in H5. cbn [ci_gen] in H5. rewrite ex_class_imp_gen_in in H5.
    vm_compute in H5. inversion H5. reflexivity. }
  exact (conj H1 (conj H2 (conj En (conj H4 (conj Eh (conj H6 H8)))))).
Qed.

(* a help text longer than the wrapping width: emit.argparse_function (word_wrap=True, its default, which gen
   uses) re-flows it, parse.argparse_ast reads the line break back.  Inside guard_C04_ast, outside
   argparse_help_nowrap; the generated function does not describe the same interface (the prose differs). *)
Definition long_help : str :=
  L "aaaaaaaaaaaaaaaaaaaaaaaaaaaaaaaaaaaaaaaaaaaaaaaaaaaaaaaaaaaaaaaaaaaaaaaaaaaaaaaaaaaaaaaaaaaaaaaaaa bbbbbbbbbbbbbbbbbbbbbbbbbbbbbbbbbbbbbbbbbbbbbbbbbbbbbbbbbbbbbbbbbbbbbbbbbbbbbbbb".

Definition w_wrap : ir :=
  mkIR (Has (L "f")) (Has (L "static")) (Has (L "Summary."))
       [(L "n", mkG (Has long_help) (Has (L "int")) (Some (DV (VInt 5))))] FNone None.

Lemma argparse_wrap_witness :
  guard_C04_ast w_wrap = true /\ argparse_help_nowrap w_wrap = false
  /\ is_Ok (argparse_docstring_text gen_width w_wrap) = true
  /\ entry_round_trip_b GArgparse (mkOpts false true None) [] (L "set_cli_args") w_wrap w_wrap = false
  /\ match entry_def GArgparse (mkOpts false true None) [] (L "set_cli_args") w_wrap with
     | Ok s => match parse_back GArgparse (mkOpts false true None) [] w_wrap w_wrap s with
               | Ok i' => option_map (fun g => negb (mem_c nl long_help) && match g_doc g with Has d => mem_c nl d | _ => false end)
                                     (od_get (L "n") (ir_params i')) = Some true
               | Err _ => False
               end
     | Err _ => False
     end.
Proof. vm_compute. repeat split; reflexivity. Qed.

(* emit_call with a return entry that has no default: emit.class_ raises KeyError;
   the description is inside guard_C02_ast and doc_link_ok *)
Lemma class_emit_call_witness :
  guard_C02_ast C02DocLink.w_link_ok = true
  /\ C02DocLinkDefs.doc_link_ok gen_width true true C02DocLink.w_link_ok = true
  /\ entry_guard GClass (mkOpts false true None) [] (L "XConfig") C02DocLink.w_link_ok = true
  /\ entry_guard GClass (mkOpts true true None) [] (L "XConfig") C02DocLink.w_link_ok = false
  /\ entry_def GClass (mkOpts true true None) [] (L "XConfig") C02DocLink.w_link_ok = Err KeyError
  /\ entry_guard GClass (mkOpts true true None) [] (L "XConfig") ex_ir2 = true.
Proof.
  split; [exact (proj1 w_link_ok_in_guard)|]. split; [exact (proj2 w_link_ok_in_guard)|].
  split; [apply g_link|]. split; [reflexivity|]. split; [vm_compute; reflexivity|apply g_ir2].
Qed.
