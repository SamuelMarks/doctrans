(* C03DocLinkEmit: closed form of DocEmit.td_param (the inner _param2docstring_param of to_docstring, ReST) for an entry
   whose lines need no wrapping.
   Used by proofs/C03DocLinkLines.v (property C03, docstring link) and proofs/C02DocLink.v. *)
From Coq Require Import List Ascii Bool Arith ZArith Lia.
From Coq Require String.
Import String.StringSyntax.
From DT Require Import PyStr Sexp PyVal TyExpr Extracted PureUtils Defaults PyAst IR Fill C17Spec.
From DT Require Import PyStrFacts ListFacts SplitFacts DefaultsFacts DocEmit DocEmitFacts C03DocLinkDefs.
From DT Require PureUtilsFacts.
Import ListNotations.

Lemma rstrip_by_app : forall (p : ascii -> bool) (s t : str) l,
    forallb p t = true -> last_c s = Some l -> p l = false -> rstrip_by p (s ++ t) = s.
Proof.
  intros p s t l Ht Hl Hp. rewrite (rstrip_by_app_all p s t Ht). apply (PureUtilsFacts.rstrip_by_last_false p s l Hl Hp).
Qed.

Lemma multiline_noquote_one : forall c r l,
    mem_c nl (c :: r) = false -> last_c (c :: r) = Some l -> mem_c l [sp; nl] = false ->
    multiline_noquote (c :: r) = c :: r.
Proof.
  intros c r l Hnl Hl Hm. apply (PureUtilsFacts.multiline_noquote_line c r l (splitlines_one c r Hnl) Hl Hm).
Qed.

Lemma replace_absent : forall a b s, contains a s = false -> replace a b s = s.
Proof.
  intros a b s. unfold replace. generalize (S (List.length s)) as fuel. intros fuel. revert s.
  induction fuel as [|f IH]; intros s H; [reflexivity|].
  destruct s as [|c r]; [reflexivity|]. cbn [replace_aux].
  assert (Hsw : startswith a (c :: r) = false).
  { destruct (startswith a (c :: r)) eqn:E; [|reflexivity].
    apply find_startswith in E. unfold contains in H. rewrite E in H. discriminate H. }
  rewrite Hsw. f_equal. apply IH.
  destruct (contains a r) eqn:E; [|reflexivity].
  pose proof (contains_app_r a r [c] E) as H'. cbn [app] in H'. congruence.
Qed.

Lemma replace_no_char : forall x b s, mem_c x s = false -> replace [x] b s = s.
Proof.
  intros x b s H. apply replace_absent. destruct (contains [x] s) eqn:E; [|reflexivity].
  apply contains_true_iff in E. destruct E as [u [v E]]. subst s.
  rewrite !mem_c_app, mem_c_cons, ascii_eqb_refl, orb_true_r in H. discriminate H.
Qed.

Lemma td_fill_fits : forall w ww il s,
    mem_c nl s = false -> (ww = true -> List.length s <= w) -> td_fill w ww il s = Ok s.
Proof.
  intros w ww il s Hnl Hw. unfold td_fill.
  destruct ww; [|reflexivity]. destruct s as [|c r]; [reflexivity|].
  rewrite (splitlines_one c r Hnl). cbn [existsb andb orb].
  assert (E : Nat.ltb w (List.length (c :: r)) = false).
  { apply Nat.ltb_ge. apply Hw. reflexivity. }
  rewrite E. reflexivity.
Qed.

Lemma rest_doc_line_no_nl : forall n d,
    mem_c nl n = false -> mem_c nl d = false -> mem_c nl (rest_doc_line n d) = false.
Proof.
  intros n d Hn Hd. unfold rest_doc_line, rest_key.
  destruct (is_return n); rewrite !mem_c_app; rewrite ?Hn, ?Hd; reflexivity.
Qed.

Lemma rest_typ_line_no_nl : forall n t,
    mem_c nl n = false -> mem_c nl t = false -> mem_c nl (rest_typ_line n t) = false.
Proof.
  intros n t Hn Ht. unfold rest_typ_line, rest_key_typ.
  destruct (is_return n); rewrite !mem_c_app; rewrite ?Hn, ?Ht; reflexivity.
Qed.

Lemma rest_doc_line_no_tab : forall n d,
    mem_c tabch n = false -> mem_c tabch d = false -> mem_c tabch (rest_doc_line n d) = false.
Proof.
  intros n d Hn Hd. unfold rest_doc_line, rest_key.
  destruct (is_return n); rewrite !mem_c_app; rewrite ?Hn, ?Hd; reflexivity.
Qed.

Lemma rest_typ_line_no_tab : forall n t,
    mem_c tabch n = false -> mem_c tabch t = false -> mem_c tabch (rest_typ_line n t) = false.
Proof.
  intros n t Hn Ht. unfold rest_typ_line, rest_key_typ.
  destruct (is_return n); rewrite !mem_c_app; rewrite ?Hn, ?Ht; reflexivity.
Qed.

Lemma fill_or_id_one : forall ww w s,
    (ww = true -> fill w s = Ok s) -> fill_or_id ww w s = Ok s.
Proof.
  intros ww w s H. unfold fill_or_id. destruct ww; [apply H; reflexivity|reflexivity].
Qed.

Lemma rest_typ_line_ne : forall n t, rest_typ_line n t <> [].
Proof. intros n t. destruct (rest_typ_line_head n t) as [r E]. rewrite E. discriminate. Qed.

Lemma sdd_idem : forall n p edd d' p',
    sdd_doc n p edd = Ok (d', p') ->
    (edd = false -> exists d, p_doc p = Has d /\ no_announce d = true) ->
    sdd_doc n p' edd = Ok (d', p').
Proof.
  intros n p edd d' p' H Hoff. unfold sdd_doc in *.
  destruct (set_default_doc n p edd) as [q|e] eqn:Eq; [|discriminate]. cbn [bind] in H.
  destruct (p_doc q) as [| |dq] eqn:Edq; try discriminate. injection H as H1 H2. subst dq q.
  destruct edd.
  - rewrite (set_default_doc_idem n p p' Eq). cbn [bind]. rewrite Edq. reflexivity.
  - destruct (Hoff eq_refl) as [d [Hd Hno]].
    rewrite (set_default_doc_no_announce n p d Hd Hno) in Eq. injection Eq as Eq. subst p'.
    rewrite (set_default_doc_no_announce n p d Hd Hno). cbn [bind]. rewrite Edq. reflexivity.
Qed.

Lemma sdd_doc_kept : forall n d typ dflt edd,
    no_announce d = true ->
    (edd = true -> exists p', set_default_doc n (mkParam (Has d) typ dflt) true = Ok p' /\ p_doc p' = Has d) ->
    exists p', sdd_doc n (mkParam (Has d) typ dflt) edd = Ok (d, p').
Proof.
  intros n d typ dflt edd Hna Hedd. unfold sdd_doc. destruct edd.
  - destruct (Hedd eq_refl) as [p' [Hs Hd]]. exists p'. rewrite Hs, bind_Ok, Hd. reflexivity.
  - exists (mkParam (Has d) typ dflt). rewrite (set_default_doc_no_announce n (mkParam (Has d) typ dflt) d eq_refl Hna). reflexivity.
Qed.

Lemma emit_param_str_doc_line : forall w n p c r ww edd,
    sdd_doc n p edd = Ok (c :: r, p) ->
    mem_c nl n = false -> mem_c nl (c :: r) = false ->
    (ww = true -> fill w (rest_doc_line n (c :: r)) = Ok (rest_doc_line n (c :: r))) ->
    emit_param_str w n p Rest true false ww edd = Ok (rest_doc_line n (c :: r), p).
Proof.
  intros w n p c r ww edd Hs Hn Hd Hf.
  destruct (sdd_doc_typ n p edd (c :: r) p Hs) as [_ Hdoc].
  unfold emit_param_str, rest_raw_lines. rewrite Hdoc, truthy_fld_Has, Hs.
  rewrite ?bind_Ok. cbn [fst snd cat_options mapM].
  rewrite (fill_or_id_one ww w _ Hf). rewrite ?bind_Ok. cbn [map join].
  rewrite iabf_rest_doc_line; [reflexivity|].
  apply mem_c_false_notin. apply rest_doc_line_no_nl; assumption.
Qed.

Lemma emit_param_str_typ_line : forall w n p t ww edd,
    p_typ p = Has t -> t <> [] ->
    mem_c nl n = false -> mem_c nl t = false ->
    (ww = true -> fill w (rest_typ_line n t) = Ok (rest_typ_line n t)) ->
    emit_param_str w n p Rest false true ww edd = Ok (rest_typ_line n t, p).
Proof.
  intros w n p t ww edd Htyp Hne Hn Ht Hf.
  unfold emit_param_str, rest_raw_lines. rewrite ?bind_Ok. cbn [fst snd]. rewrite Htyp.
  destruct t as [|c r]; [contradiction|]. rewrite truthy_fld_Has.
  cbn [cat_options mapM].
  rewrite (fill_or_id_one ww w _ Hf). rewrite ?bind_Ok. cbn [map join].
  rewrite iabf_rest_typ_line; [reflexivity|].
  apply mem_c_false_notin. apply rest_typ_line_no_nl; assumption.
Qed.

(* an entry with prose: d' is the prose as set_default_doc leaves it (with the default sentence when there is one) *)
Lemma td_param_written : forall w ww edd et il n c r typ dflt d' p' l,
    no_announce (c :: r) = true ->
    sdd_doc n (mkParam (Has (c :: r)) typ dflt) edd = Ok (d', p') ->
    (exists c' r', d' = c' :: r' /\ isspace c' = false) -> mem_c nl d' = false ->
    last_c d' = Some l -> mem_c l [sp; nl] = false -> mem_c nl n = false ->
    (ww = true -> fill w (rest_doc_line n d') = Ok (rest_doc_line n d') /\ List.length (rest_doc_line n d') <= w) ->
    (match typ with
     | Has t => et = true ->
                t <> [] /\ mem_c nl t = false
                /\ (ww = true -> fill w (rest_typ_line n t) = Ok (rest_typ_line n t)
                                 /\ List.length (rest_typ_line n t) <= w)
     | _ => True
     end) ->
    exists p'', td_param w ww edd et il n (mkParam (Has (c :: r)) typ dflt) = Ok (Some (entry_text il et n d' typ), p'').
Proof.
  intros w ww edd et il n c r typ dflt d' p' l Hna Hsdd [c' [r' [Ed' Hc']]] Hnl Hl Hm Hn Hww Htyp.
  destruct (sdd_doc_typ _ _ _ _ _ Hsdd) as [Hptyp Hpdoc]. cbn [p_typ] in Hptyp.
  assert (Hsdd2 : sdd_doc n p' edd = Ok (d', p')).
  { apply (sdd_idem n _ edd d' p' Hsdd). intros _. exists (c :: r). split; [reflexivity|exact Hna]. }
  assert (Ep : mkParam (Has d') (p_typ p') (p_default p') = p').
  { destruct p' as [a b e]. cbn [p_doc p_typ p_default] in *. subst a. reflexivity. }
  subst d'.
  unfold td_param. cbn [p_doc p_typ p_default]. unfold extract_default_fld.
  rewrite (extract_default_no_announce (c :: r) true None edd Hna).
  rewrite ?bind_Ok. cbn [fst snd]. rewrite ?bind_Ok. cbn [p_doc]. rewrite truthy_fld_Has.
  rewrite Hsdd, bind_Ok. cbn [fst snd].
  rewrite (indent_all_but_first_one_line c' r' (abs_pred il) (mem_c_false_notin _ _ Hnl) Hc').
  rewrite (multiline_noquote_one c' r' l Hnl Hl Hm), Ep.
  rewrite (emit_param_str_doc_line w n p' c' r' ww edd Hsdd2 Hn Hnl (fun E => proj1 (Hww E))).
  rewrite ?bind_Ok. cbn [fst snd]. rewrite Hptyp.
  pose proof (rest_doc_line_no_nl n (c' :: r') Hn Hnl) as Hdnl.
  pose proof (td_fill_fits w ww il _ Hdnl (fun E => proj2 (Hww E))) as Hfilld.
  (* the type line is written only for  Has t  with emit_types *)
  assert (Hnotyp : td_joiner w ww il (Some (rest_doc_line n (c' :: r'))) None
                   = Ok (Some (rest_doc_line n (c' :: r') ++ nl :: repeat_str tab il ++ []))).
  { unfold td_joiner. rewrite Hfilld, bind_Ok, app_nil_r. reflexivity. }
  unfold entry_text. cbv zeta.
  destruct typ as [| |t]; [| |destruct et].
  - rewrite ?bind_Ok. cbn [fst snd]. rewrite Hnotyp, bind_Ok. eexists. reflexivity.
  - rewrite ?bind_Ok. cbn [fst snd]. rewrite Hnotyp, bind_Ok. eexists. reflexivity.
  - destruct (Htyp eq_refl) as [Hne [Htnl Htw]].
    rewrite (emit_param_str_typ_line w n p' t ww edd Hptyp Hne Hn Htnl (fun E => proj1 (Htw E))).
    rewrite ?bind_Ok. cbn [fst snd].
    pose proof (rest_typ_line_no_nl n t Hn Htnl) as Htl.
    unfold td_joiner.
    rewrite (replace_no_char nl _ _ Hdnl), (replace_no_char nl _ _ Htl), Hfilld.
    rewrite (td_fill_fits w ww il _ Htl (fun E => proj2 (Htw E))).
    rewrite ?bind_Ok. eexists. cbn [app]. reflexivity.
  - rewrite ?bind_Ok. cbn [fst snd]. rewrite Hnotyp, bind_Ok. eexists. reflexivity.
Qed.

Lemma td_param_undoc : forall w ww edd et il n gd typ dflt,
    truthy_fld gd = None -> (et = false \/ typ = Missing) ->
    td_param w ww edd et il n (mkParam gd typ dflt) = Ok (None, mkParam gd typ dflt).
Proof.
  intros w ww edd et il n gd typ dflt Hgd Het.
  assert (Hb : forall p, p_typ p = typ ->
                 (match p_typ p with
                  | Has _ => if et then do sp <- emit_param_str w n p Rest false true ww edd; Ok (Some (fst sp), snd sp)
                             else Ok (None, p)
                  | _ => Ok (None, p)
                  end) = Ok (@None str, p)).
  { intros p Ep. rewrite Ep. destruct Het as [E|E]; rewrite E; [destruct typ|]; reflexivity. }
  unfold td_param. cbn [p_doc p_typ p_default].
  destruct gd as [| |[|c r]]; [| | |discriminate Hgd].
  - rewrite ?bind_Ok. cbn [p_doc truthy_fld]. rewrite ?bind_Ok. cbn [fst snd]. rewrite Hb by reflexivity. reflexivity.
  - cbn [extract_default_fld]. rewrite ?bind_Ok. cbn [fst snd p_doc truthy_fld]. rewrite ?bind_Ok. cbn [fst snd].
    rewrite Hb by reflexivity. reflexivity.
  - unfold extract_default_fld.
    rewrite (extract_default_no_announce [] true None edd eq_refl).
    rewrite ?bind_Ok. cbn [fst snd]. rewrite ?bind_Ok. cbn [p_doc truthy_fld].
    rewrite ?bind_Ok. cbn [fst snd]. rewrite Hb by reflexivity. reflexivity.
Qed.

Lemma td_param_undocumented : forall w ww edd et il n gd typ dflt,
    (gd = Missing \/ gd = Has []) -> (et = false \/ typ = Missing) -> typ <> FNone ->
    td_param w ww edd et il n (mkParam gd typ dflt) = Ok (None, mkParam gd typ dflt).
Proof. intros w ww edd et il n gd typ dflt Hgd Het _. apply td_param_undoc; [destruct Hgd; subst gd; reflexivity|exact Het]. Qed.
Print Assumptions td_param_undocumented.
