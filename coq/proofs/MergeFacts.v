(* MergeFacts: lemmas about the OrderedDict operations of IR.v and about Merge.v (ir_merge,
   _join_non_none): key-set invariants, commutation of updates at distinct keys, independence of
   every set-iteration order. *)
From Coq Require Import List Ascii Bool Arith ZArith Lia Permutation.
From Coq Require String.
Import String.StringSyntax.
From DT Require Import PyStr Sexp PyVal PureUtils Defaults PyAst IR Merge C12Spec PyStrFacts ListFacts.
Import ListNotations.

Lemma mem_str_In : forall k l, mem_str k l = true <-> In k l.
Proof.
  intros k l; induction l as [|x r IH]; cbn [mem_str In].
  - split; [discriminate | tauto].
  - rewrite orb_true_iff, IH, str_eqb_eq. split; intros [H|H]; auto.
Qed.

Lemma mem_str_false : forall k l, mem_str k l = false <-> ~ In k l.
Proof.
  intros k l. split.
  - intros H Hin. apply mem_str_In in Hin. congruence.
  - intros H. destruct (mem_str k l) eqn:E; [|reflexivity]. exfalso; apply H; apply mem_str_In; exact E.
Qed.

Lemma In_dedup : forall k l, In k (dedup l) <-> In k l.
Proof.
  intros k l; induction l as [|x r IH]; cbn [dedup]; [tauto|].
  destruct (mem_str x r) eqn:E.
  - rewrite IH. cbn [In]. split; [auto|]. intros [H|H]; [subst; apply mem_str_In; exact E | exact H].
  - cbn [In]. rewrite IH. tauto.
Qed.

Lemma NoDup_dedup : forall l, NoDup (dedup l).
Proof.
  induction l as [|x r IH]; cbn [dedup]; [constructor|].
  destruct (mem_str x r) eqn:E; [exact IH|].
  constructor; [|exact IH]. rewrite In_dedup. apply mem_str_false; exact E.
Qed.

Lemma dedup_NoDup_id : forall l, NoDup l -> dedup l = l.
Proof.
  induction l as [|x r IH]; intros H; cbn [dedup]; [reflexivity|].
  inversion H as [|? ? Hx Hr]; subst.
  apply mem_str_false in Hx. rewrite Hx, IH by exact Hr. reflexivity.
Qed.

Section OD.
Context {A : Type}.
Implicit Types d : list (str * A).

Lemma od_get_In_keys : forall k d, In k (od_keys d) -> exists v, od_get k d = Some v.
Proof.
  intros k d; induction d as [|[k' v'] r IH]; cbn [od_keys map fst In od_get]; [tauto|].
  intros H. destruct (str_eqb k k') eqn:E; [eexists; reflexivity|].
  destruct H as [H|H]; [subst; rewrite str_eqb_refl in E; discriminate|].
  apply IH; exact H.
Qed.

Lemma od_get_Some_In_keys : forall k d v, od_get k d = Some v -> In k (od_keys d).
Proof.
  intros k d; induction d as [|[k' v'] r IH]; cbn [od_keys map fst In od_get]; [discriminate|].
  intros v. destruct (str_eqb k k') eqn:E.
  - intros _. left. apply str_eqb_eq in E. auto.
  - intros H. right. eapply IH; exact H.
Qed.

Lemma od_get_Some_In : forall k d v, od_get k d = Some v -> In (k, v) d.
Proof.
  intros k d; induction d as [|[k' v'] r IH]; cbn [od_get In]; [discriminate|].
  intros v. destruct (str_eqb k k') eqn:E.
  - intros H; inversion H; subst. apply str_eqb_eq in E; subst. left; reflexivity.
  - intros H. right. apply IH; exact H.
Qed.

Lemma od_get_None_iff : forall k d, od_get k d = None <-> ~ In k (od_keys d).
Proof.
  intros k d. split.
  - intros H Hin. destruct (od_get_In_keys _ _ Hin) as [v Hv]. congruence.
  - intros H. destruct (od_get k d) eqn:E; [|reflexivity].
    exfalso; apply H. eapply od_get_Some_In_keys; exact E.
Qed.

Lemma od_get_set_same : forall k (v : A) d, od_get k (od_set k v d) = Some v.
Proof.
  intros k v d; induction d as [|[k' v'] r IH]; cbn [od_set od_get].
  - rewrite str_eqb_refl; reflexivity.
  - destruct (str_eqb k k') eqn:E; cbn [od_get]; [rewrite str_eqb_refl; reflexivity|].
    rewrite E. exact IH.
Qed.

Lemma od_get_set_other : forall k k' (v : A) d, k <> k' -> od_get k' (od_set k v d) = od_get k' d.
Proof.
  intros k k' v d Hne; induction d as [|[k0 v0] r IH]; cbn [od_set od_get].
  - apply not_eq_sym in Hne. apply str_eqb_neq in Hne. rewrite Hne; reflexivity.
  - destruct (str_eqb k k0) eqn:E; cbn [od_get].
    + apply str_eqb_eq in E; subst k0.
      assert (H : str_eqb k' k = false) by (apply str_eqb_neq; auto). rewrite H; reflexivity.
    + rewrite IH; reflexivity.
Qed.

Lemma od_keys_set_present : forall k (v : A) d, In k (od_keys d) -> od_keys (od_set k v d) = od_keys d.
Proof.
  intros k v d; induction d as [|[k' v'] r IH]; cbn [od_keys map fst In od_set]; [tauto|].
  intros H. destruct (str_eqb k k') eqn:E; cbn [map fst].
  - apply str_eqb_eq in E; subst; reflexivity.
  - f_equal. apply IH. destruct H as [H|H]; [subst; rewrite str_eqb_refl in E; discriminate|exact H].
Qed.

Lemma od_keys_set_absent : forall k (v : A) d, ~ In k (od_keys d) -> od_keys (od_set k v d) = od_keys d ++ [k].
Proof.
  intros k v d; induction d as [|[k' v'] r IH]; cbn [od_keys map fst In od_set app]; [reflexivity|].
  intros H. destruct (str_eqb k k') eqn:E.
  - apply str_eqb_eq in E; subst. exfalso; apply H; left; reflexivity.
  - cbn [map fst]. f_equal. apply IH. tauto.
Qed.

Lemma od_set_comm : forall k1 k2 (v1 v2 : A) d, k1 <> k2 -> In k1 (od_keys d) ->
  od_set k1 v1 (od_set k2 v2 d) = od_set k2 v2 (od_set k1 v1 d).
Proof.
  intros k1 k2 v1 v2 d Hne; induction d as [|[k v] r IH]; cbn [od_keys map fst In]; [tauto|].
  intros Hin. cbn [od_set].
  destruct (str_eqb k1 k) eqn:E1; destruct (str_eqb k2 k) eqn:E2; cbn [od_set].
  - apply str_eqb_eq in E1, E2. congruence.
  - rewrite E1. assert (H : str_eqb k2 k1 = false) by (apply str_eqb_neq; auto).
    rewrite H. reflexivity.
  - rewrite E2. assert (H : str_eqb k1 k2 = false) by (apply str_eqb_neq; auto).
    rewrite H. reflexivity.
  - rewrite E1, E2. f_equal. apply IH.
    destruct Hin as [Hin|Hin]; [subst; rewrite str_eqb_refl in E1; discriminate|exact Hin].
Qed.

Lemma od_pop_keys_notin : forall k d, ~ In k (od_keys d) -> od_pop k d = d.
Proof.
  intros k d; induction d as [|[k' v'] r IH]; cbn [od_keys map fst In od_pop]; [reflexivity|].
  intros H. destruct (str_eqb k k') eqn:E.
  - apply str_eqb_eq in E; subst. exfalso; apply H; left; reflexivity.
  - f_equal. apply IH. tauto.
Qed.

Lemma od_keys_pop : forall k d, NoDup (od_keys d) ->
  od_keys (od_pop k d) = filter (fun x => negb (str_eqb k x)) (od_keys d).
Proof.
  intros k d; induction d as [|[k' v'] r IH]; cbn [od_keys map fst od_pop filter]; [reflexivity|].
  intros H. inversion H as [|? ? Hx Hr]; subst.
  destruct (str_eqb k k') eqn:E; cbn [negb].
  - apply str_eqb_eq in E; subst k'.
    symmetry. apply filter_all. intros y Hy. apply negb_true_iff. apply str_eqb_neq. intros ->. apply Hx. exact Hy.
  - cbn [map fst]. f_equal. apply IH; exact Hr.
Qed.

Lemma od_get_pop_other : forall k k' d, k <> k' -> od_get k' (od_pop k d) = od_get k' d.
Proof.
  intros k k' d Hne; induction d as [|[k0 v0] r IH]; cbn [od_pop od_get]; [reflexivity|].
  destruct (str_eqb k k0) eqn:E; cbn [od_get].
  - apply str_eqb_eq in E; subst k0.
    assert (H : str_eqb k' k = false) by (apply str_eqb_neq; auto). rewrite H; reflexivity.
  - rewrite IH; reflexivity.
Qed.

Lemma fold_od_set_fresh : forall (l : list (str * A)) acc,
  NoDup (od_keys acc ++ od_keys l) ->
  fold_left (fun d kv => od_set (fst kv) (snd kv) d) l acc = acc ++ l.
Proof.
  induction l as [|[k v] r IH]; intros acc H; cbn [fold_left fst snd].
  - rewrite app_nil_r; reflexivity.
  - cbn [od_keys map fst] in H.
    assert (Hk : ~ In k (od_keys acc)).
    { apply NoDup_remove_2 in H. intros Hin; apply H. apply in_or_app; left; exact Hin. }
    assert (Hset : od_set k v acc = acc ++ [(k, v)]).
    { clear - Hk. induction acc as [|[k' v'] a IHa]; cbn [od_set app]; [reflexivity|].
      cbn [od_keys map fst In] in Hk.
      destruct (str_eqb k k') eqn:E; [apply str_eqb_eq in E; subst; tauto|].
      f_equal. apply IHa. tauto. }
    rewrite Hset, IH.
    + rewrite <- app_assoc. reflexivity.
    + unfold od_keys in *. rewrite map_app. cbn [map fst]. rewrite <- app_assoc. cbn [app]. exact H.
Qed.

Lemma od_of_pairs_NoDup : forall (l : list (str * A)), NoDup (od_keys l) -> od_of_pairs l = l.
Proof.
  intros l H. unfold od_of_pairs. rewrite fold_od_set_fresh; [reflexivity|exact H].
Qed.

End OD.

Lemma fold_left_perm : forall {A B} (f : A -> B -> A),
  (forall a x y, f (f a x) y = f (f a y) x) ->
  forall l l', Permutation l l' -> forall a, fold_left f l a = fold_left f l' a.
Proof.
  intros A B f Hc l l' HP; induction HP as [|x l l' HP IH|x y l|l l' l'' HP1 IH1 HP2 IH2]; intros a; cbn [fold_left].
  - reflexivity.
  - apply IH.
  - rewrite Hc; reflexivity.
  - rewrite IH1; apply IH2.
Qed.

Definition jstep_form (i : nat) (o p : gparam) : gparam :=
  match i with
  | 0 => mkG (if fld_is_none (g_doc p) && negb (fld_is_none (g_doc o)) then g_doc o else g_doc p) (g_typ p) (g_default p)
  | 1 => mkG (g_doc p) (if fld_is_none (g_typ p) && negb (fld_is_none (g_typ o)) then g_typ o else g_typ p) (g_default p)
  | 2 => mkG (g_doc p) (g_typ p)
             (if default_is_none (g_default p) && negb (default_is_none (g_default o)) then g_default o else g_default p)
  | _ => p
  end.

Lemma join_step_form : forall o k, exists i, forall p, join_step o k p = jstep_form i o p.
Proof.
  intros o k. unfold join_step.
  destruct (str_eqb k key_doc); [exists 0|destruct (str_eqb k key_typ); [exists 1|destruct (str_eqb k key_default); [exists 2|exists 3]]];
    intros [a b c]; cbn [jstep_form g_doc g_typ g_default];
    try match goal with |- context [if ?c then _ else _] => destruct c end; reflexivity.
Qed.

Lemma jstep_form_comm : forall i j o p, jstep_form i o (jstep_form j o p) = jstep_form j o (jstep_form i o p).
Proof.
  intros i j o [a b c].
  destruct i as [|[|[|i]]]; destruct j as [|[|[|j]]]; reflexivity.
Qed.

Lemma join_step_comm : forall o p k1 k2, join_step o k1 (join_step o k2 p) = join_step o k2 (join_step o k1 p).
Proof.
  intros o p k1 k2.
  destruct (join_step_form o k1) as [i Hi]. destruct (join_step_form o k2) as [j Hj].
  rewrite !Hi, !Hj. apply jstep_form_comm.
Qed.

Lemma join_non_none_perm : C12_join_statement.
Proof.
  intros pj pj' p o H H'. unfold join_non_none.
  destruct (gparam_empty p); [reflexivity|]. destruct (gparam_empty o); [reflexivity|].
  apply fold_left_perm.
  - intros a x y. apply join_step_comm.
  - eapply Permutation_trans; [apply H|]. apply Permutation_sym, H'.
Qed.

Lemma not_in_none_frozenset_err : forall d e, dval_modelled_hash (Some d) = true ->
  not_in_none_frozenset d = Err e -> e = TypeError.
Proof.
  intros d e Hm H. destruct d as [v|x|r]; cbn in H.
  - destruct v as [|b|z|f|s]; discriminate.
  - discriminate.
  - cbn in Hm. destruct (do_hashable r) as [[|]|]; try discriminate; inversion H; reflexivity.
Qed.

Lemma merge_param_err : forall t o e, dval_modelled_hash (g_default o) = true ->
  merge_param t o = Err e -> e = TypeError.
Proof.
  intros t o e Hm H. unfold merge_param in H.
  match type of H with (if ?c then _ else _) = _ => destruct c end; [|discriminate].
  destruct (g_default o) as [od|] eqn:Eo; [|discriminate].
  destruct (not_in_none_frozenset od) as [b|e'] eqn:En; cbn [bind] in H; [discriminate|].
  inversion H; subst. eapply not_in_none_frozenset_err; eauto.
Qed.

Lemma params_modelled_get : forall ps k o, params_modelled ps = true -> od_get k ps = Some o ->
  dval_modelled_hash (g_default o) = true.
Proof.
  intros ps k o Hm Hg. unfold params_modelled in Hm. rewrite forallb_forall in Hm.
  apply od_get_Some_In in Hg. apply (Hm _ Hg).
Qed.

Lemma inter_step_Ok : forall op k tp tp', inter_step op k tp = Ok tp' ->
  exists t o t', od_get k tp = Some t /\ od_get k op = Some o /\ merge_param t o = Ok t' /\ tp' = od_set k t' tp.
Proof.
  intros op k tp tp' H. unfold inter_step in H.
  destruct (od_get k tp) as [t|]; [|discriminate]. destruct (od_get k op) as [o|]; [|discriminate].
  destruct (merge_param t o) as [t'|] eqn:Em; cbn [bind] in H; [|discriminate].
  injection H as <-. exists t, o, t'. auto.
Qed.

Lemma inter_step_keys : forall op k tp tp', inter_step op k tp = Ok tp' -> od_keys tp' = od_keys tp.
Proof.
  intros op k tp tp' H. destruct (inter_step_Ok _ _ _ _ H) as (t & o & t' & Et & _ & _ & ->).
  apply od_keys_set_present. eapply od_get_Some_In_keys; exact Et.
Qed.

Lemma inter_step_comm : forall op x y d,
  params_modelled op = true -> x <> y ->
  In x (od_keys d) -> In y (od_keys d) -> In x (od_keys op) -> In y (od_keys op) ->
  bind (inter_step op x d) (inter_step op y) = bind (inter_step op y d) (inter_step op x).
Proof.
  intros op x y d Hm Hne Hxd Hyd Hxo Hyo.
  destruct (od_get_In_keys _ _ Hxd) as [tx Htx]. destruct (od_get_In_keys _ _ Hyd) as [ty Hty].
  destruct (od_get_In_keys _ _ Hxo) as [ox Hox]. destruct (od_get_In_keys _ _ Hyo) as [oy Hoy].
  unfold inter_step at 1 3. rewrite Htx, Hty, Hox, Hoy.
  destruct (merge_param tx ox) as [tx'|ex] eqn:Ex; destruct (merge_param ty oy) as [ty'|ey] eqn:Ey; cbn [bind].
  - unfold inter_step.
    rewrite (od_get_set_other x y) by exact Hne. rewrite (od_get_set_other y x) by auto.
    rewrite Htx, Hty, Hox, Hoy, Ex, Ey. cbn [bind]. f_equal.
    symmetry. apply od_set_comm; [exact Hne|exact Hxd].
  - unfold inter_step. rewrite (od_get_set_other x y) by exact Hne. rewrite Hty, Hoy, Ey. reflexivity.
  - unfold inter_step. rewrite (od_get_set_other y x) by auto. rewrite Htx, Hox, Ex. reflexivity.
  - apply merge_param_err in Ex; [|eapply params_modelled_get; eauto].
    apply merge_param_err in Ey; [|eapply params_modelled_get; eauto]. subst; reflexivity.
Qed.

Lemma fold_outcome_keys : forall op l tp tp', fold_outcome (inter_step op) l tp = Ok tp' -> od_keys tp' = od_keys tp.
Proof.
  intros op l; induction l as [|x r IH]; intros tp tp' H; cbn [fold_outcome] in H.
  - inversion H; reflexivity.
  - destruct (inter_step op x tp) as [d|] eqn:E; cbn [bind] in H; [|discriminate].
    rewrite (IH _ _ H). eapply inter_step_keys; exact E.
Qed.

Lemma inter_loop_perm : forall op l l', Permutation l l' -> NoDup l ->
  params_modelled op = true -> (forall k, In k l -> In k (od_keys op)) ->
  forall tp, (forall k, In k l -> In k (od_keys tp)) ->
  inter_loop l op tp = inter_loop l' op tp.
Proof.
  intros op l l' HP. unfold inter_loop.
  induction HP as [|x l l' HP IH|x y l|l l' l'' HP1 IH1 HP2 IH2]; intros Hnd Hm Hop tp Htp; cbn [fold_outcome].
  - reflexivity.
  - inversion Hnd as [|? ? Hx Hl]; subst.
    destruct (inter_step op x tp) as [d|e] eqn:E; cbn [bind]; [|reflexivity].
    apply IH; [exact Hl|exact Hm|intros k Hk; apply Hop; right; exact Hk|].
    intros k Hk. rewrite (inter_step_keys _ _ _ _ E). apply Htp; right; exact Hk.
  - inversion Hnd as [|? ? Hy Hr]; subst. inversion Hr as [|? ? Hx Hl]; subst.
    assert (Hne : x <> y) by (intros ->; apply Hy; left; reflexivity).
    pose proof (inter_step_comm op x y tp Hm Hne
                  (Htp x (or_intror (or_introl eq_refl))) (Htp y (or_introl eq_refl))
                  (Hop x (or_intror (or_introl eq_refl))) (Hop y (or_introl eq_refl))) as Hc.
    destruct (inter_step op y tp) as [d1|e1] eqn:E1; destruct (inter_step op x tp) as [d2|e2] eqn:E2;
      cbn [bind] in *.
    + destruct (inter_step op x d1) as [d3|e3] eqn:E3; destruct (inter_step op y d2) as [d4|e4] eqn:E4;
        cbn [bind]; try congruence.
    + destruct (inter_step op x d1) as [d3|e3] eqn:E3; cbn [bind]; congruence.
    + destruct (inter_step op y d2) as [d4|e4] eqn:E4; cbn [bind]; congruence.
    + congruence.
  - rewrite IH1 by assumption.
    apply IH2.
    + eapply Permutation_NoDup; eauto.
    + exact Hm.
    + intros k Hk. apply Hop. eapply Permutation_in; [apply Permutation_sym; exact HP1|exact Hk].
    + intros k Hk. apply Htp. eapply Permutation_in; [apply Permutation_sym; exact HP1|exact Hk].
Qed.

Lemma inter_keys_spec : forall op tp k, In k (inter_keys op tp) <-> In k (od_keys op) /\ In k (od_keys tp).
Proof.
  intros op tp k. unfold inter_keys. rewrite In_dedup, filter_In, mem_str_In. tauto.
Qed.

Lemma merge_params_perm : forall pi pi' tp op, perm_ok pi -> perm_ok pi' -> params_modelled op = true ->
  merge_params pi tp op = merge_params pi' tp op.
Proof.
  intros pi pi' tp op H H' Hm. unfold merge_params.
  destruct tp as [|t0 tr]; [reflexivity|]. destruct op as [|o0 orr]; [reflexivity|].
  set (tp := t0 :: tr). set (op := o0 :: orr) in *.
  rewrite (inter_loop_perm op (pi (inter_keys op tp)) (pi' (inter_keys op tp))); [reflexivity| | | | |].
  - eapply Permutation_trans; [apply H|apply Permutation_sym, H'].
  - eapply Permutation_NoDup; [apply Permutation_sym, H|apply NoDup_dedup].
  - exact Hm.
  - intros k Hk. eapply Permutation_in in Hk; [|apply H]. apply inter_keys_spec in Hk. tauto.
  - intros k Hk. eapply Permutation_in in Hk; [|apply H]. apply inter_keys_spec in Hk. tauto.
Qed.

Lemma merge_returns_perm : forall pj pj' tr orr, perm_ok pj -> perm_ok pj' ->
  merge_returns pj tr orr = merge_returns pj' tr orr.
Proof.
  intros pj pj' tr orr H H'. unfold merge_returns.
  destruct tr as [| |t]; try reflexivity. destruct orr as [| |o]; try reflexivity.
  rewrite (join_non_none_perm pj pj' t o H H'). reflexivity.
Qed.

Lemma ir_merge_perm : C12_merge_statement.
Proof.
  intros pi pi' pj pj' t o Hpi Hpi' Hpj Hpj'. unfold ir_merge.
  destruct (params_modelled (ir_params t) && params_modelled (ir_params o)) eqn:Em; cbn [negb]; [|reflexivity].
  apply andb_true_iff in Em. destruct Em as [_ Emo].
  rewrite (merge_params_perm pi pi' _ _ Hpi Hpi' Emo).
  rewrite (merge_returns_perm pj pj' _ _ Hpj Hpj'). reflexivity.
Qed.

Lemma filter_notin_app_single : forall (l : list str) acc k, ~ In k l ->
  filter (fun x => negb (mem_str x (acc ++ [k]))) l = filter (fun x => negb (mem_str x acc)) l.
Proof.
  induction l as [|y l IH]; intros acc k Hk; cbn [filter]; [reflexivity|].
  cbn [In] in Hk.
  assert (E : mem_str y (acc ++ [k]) = mem_str y acc).
  { destruct (mem_str y acc) eqn:Ey.
    - apply mem_str_In. apply in_or_app; left. apply mem_str_In; exact Ey.
    - apply mem_str_false. intros Hin. apply in_app_or in Hin. destruct Hin as [Hin|[Hin|[]]].
      + apply mem_str_false in Ey; tauto.
      + subst; tauto. }
  rewrite E. rewrite IH by tauto. reflexivity.
Qed.

Lemma append_missing_keys : forall (op tp : list (str * gparam)), NoDup (od_keys op) ->
  od_keys (append_missing op tp) = od_keys tp ++ filter (fun k => negb (mem_str k (od_keys tp))) (od_keys op).
Proof.
  unfold append_missing.
  induction op as [|[k v] r IH]; intros tp Hnd.
  - cbn. rewrite app_nil_r; reflexivity.
  - change (od_keys ((k, v) :: r)) with (k :: od_keys r) in *.
    inversion Hnd as [|? ? Hk Hr]; subst.
    cbn [fold_left fst snd filter].
    destruct (od_get k tp) as [x|] eqn:E.
    + apply od_get_Some_In_keys in E. apply mem_str_In in E. rewrite E. cbn [negb]. apply IH; exact Hr.
    + apply od_get_None_iff in E. pose proof E as E'. apply mem_str_false in E'. rewrite E'. cbn [negb].
      rewrite IH by exact Hr. rewrite od_keys_set_absent by exact E.
      rewrite filter_notin_app_single by exact Hk. rewrite <- app_assoc. reflexivity.
Qed.

Lemma append_missing_get_old : forall (op tp : list (str * gparam)) k, In k (od_keys tp) ->
  od_get k (append_missing op tp) = od_get k tp.
Proof.
  unfold append_missing.
  induction op as [|[k0 v0] r IH]; intros tp k Hin; cbn [fold_left fst snd]; [reflexivity|].
  destruct (od_get k0 tp) as [x|] eqn:E.
  - apply IH; exact Hin.
  - rewrite IH.
    + apply od_get_set_other. intros ->. apply od_get_None_iff in E. tauto.
    + apply od_get_None_iff in E. rewrite od_keys_set_absent by exact E. apply in_or_app; left; exact Hin.
Qed.

Lemma append_missing_get_new : forall (op tp : list (str * gparam)) k,
  ~ In k (od_keys tp) -> od_get k (append_missing op tp) = od_get k op.
Proof.
  unfold append_missing.
  induction op as [|[k0 v0] r IH]; intros tp k Hk; cbn [fold_left fst snd].
  - cbn [od_get]. apply od_get_None_iff; exact Hk.
  - cbn [od_get].
    destruct (str_eqb k k0) eqn:Ek.
    + apply str_eqb_eq in Ek; subst k0.
      assert (E : od_get k tp = None) by (apply od_get_None_iff; exact Hk). rewrite E.
      pose proof (append_missing_get_old r (od_set k v0 tp) k) as Hold. unfold append_missing in Hold.
      rewrite Hold.
      * apply od_get_set_same.
      * rewrite od_keys_set_absent by exact Hk. apply in_or_app; right; left; reflexivity.
    + apply str_eqb_neq in Ek.
      destruct (od_get k0 tp) as [x|] eqn:E.
      * apply IH; assumption.
      * apply IH. apply od_get_None_iff in E. rewrite od_keys_set_absent by exact E.
        intros Hin. apply in_app_or in Hin. destruct Hin as [Hin|[Hin|[]]]; [tauto|congruence].
Qed.

Lemma merge_params_keys : forall pi tp op r, NoDup (od_keys op) -> merge_params pi tp op = Ok r ->
  od_keys r = od_keys tp ++ filter (fun k => negb (mem_str k (od_keys tp))) (od_keys op).
Proof.
  intros pi tp op r Hnd H. unfold merge_params in H.
  destruct tp as [|t0 tr].
  - inversion H; subst. cbn [od_keys map app mem_str negb].
    symmetry. apply filter_all. reflexivity.
  - destruct op as [|o0 orr].
    + inversion H; subst. cbn [od_keys map filter]. rewrite app_nil_r. reflexivity.
    + remember (o0 :: orr) as op eqn:Eop. remember (t0 :: tr) as tp eqn:Etp.
      destruct (inter_loop _ _ _) as [tp1|] eqn:E; cbn [bind] in H; [|discriminate].
      injection H as <-. rewrite append_missing_keys by exact Hnd.
      unfold inter_loop in E. rewrite (fold_outcome_keys _ _ _ _ E). reflexivity.
Qed.

(* the loop before fix 5000c02 depended on the set order *)
Definition g0 : gparam := mkG Missing Missing None.

Lemma old_append_order_dependent :
  append_missing_old id_perm [(L "a", g0); (L "b", g0)] [(L "c", g0)]
  <> append_missing_old rev_perm [(L "a", g0); (L "b", g0)] [(L "c", g0)].
Proof. vm_compute. discriminate. Qed.

Lemma rev_perm_ok : perm_ok rev_perm.
Proof. intros l. unfold rev_perm. apply Permutation_sym, Permutation_rev. Qed.

Lemma id_perm_ok : perm_ok id_perm.
Proof. intros l. apply Permutation_refl. Qed.

Lemma od_get_app : forall {A} k (l1 l2 : list (str * A)),
  od_get k (l1 ++ l2) = match od_get k l1 with Some v => Some v | None => od_get k l2 end.
Proof.
  intros A k l1 l2; induction l1 as [|[k0 v0] l1 IH]; cbn [app od_get]; [reflexivity|].
  destruct (str_eqb k k0); [reflexivity|exact IH].
Qed.

Lemma od_keys_filter_fst : forall (f : str -> bool) (ps : list (str * gparam)),
  od_keys (filter (fun kv => f (fst kv)) ps) = filter f (od_keys ps).
Proof.
  intros f ps; induction ps as [|[k v] ps IH]; cbn [filter od_keys map fst]; [reflexivity|].
  destruct (f k); cbn [map fst]; unfold od_keys in IH; rewrite IH; reflexivity.
Qed.

Lemma od_get_filter_fst : forall (f : str -> bool) (ps : list (str * gparam)) k, f k = true ->
  od_get k (filter (fun kv => f (fst kv)) ps) = od_get k ps.
Proof.
  intros f ps k Hk; induction ps as [|[k0 v] ps IH]; cbn [filter od_get fst]; [reflexivity|].
  destruct (f k0) eqn:E; cbn [od_get].
  - destruct (str_eqb k k0); [reflexivity|exact IH].
  - destruct (str_eqb k k0) eqn:E2; [apply str_eqb_eq in E2; subst; congruence|exact IH].
Qed.

Lemma od_get_filter_fst_none : forall (f : str -> bool) (ps : list (str * gparam)) k, f k = false ->
  od_get k (filter (fun kv => f (fst kv)) ps) = None.
Proof.
  intros f ps k Hk. apply od_get_None_iff. rewrite od_keys_filter_fst. intros Hin. apply filter_In in Hin.
  destruct Hin as [_ Hin]. congruence.
Qed.
