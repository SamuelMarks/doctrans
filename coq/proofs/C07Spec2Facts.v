(* The refined C07 classifier (model/C07Spec2.v) against C07Spec's: the refinement keeps the old classes where the old
   classifiers speak and only adds the three attribute classes; each new class names one clause and one shape; the
   witnesses (the inputs of findings/C07-class-*.json) are classified, their neighbours are not;
   the model of the class body (ParseAst.parse_class) reproduces every witness. *)
From Coq Require Import List Ascii Bool Arith ZArith.
From Coq Require String.
Import String.StringSyntax.
From DT Require Import PyStr PyStrFacts Sexp PyVal TyExpr PureUtils Defaults PyAst IR Merge C07Spec ParseAst C07Spec2 RefineFacts.
Import ListNotations.

Lemma new_class_C07_new : forall a c,
    new_class_C07 a = Some c ->
    c = K7r_tuple_target_raises \/ c = K7r_doc_order_reorders \/ c = K7r_ann_value_as_text.
Proof.
  intros a c H. unfold new_class_C07 in H.
  destruct (tuple_target_raises a); [injection H as H; left; symmetry; exact H|].
  destruct (doc_order_reorders a); [injection H as H; right; left; symmetry; exact H|].
  destruct (ann_value_as_text a); [injection H as H; right; right; symmetry; exact H|discriminate H].
Qed.

Lemma finding_class_C07_r_adds : forall p c,
    finding_class_C07_r p = Some c ->
    (exists k, finding_class_C07_old p = Some k /\ c = K7r_old k)
    \/ (finding_class_C07_old p = None
        /\ exists a, p = PtClassAttrs a
                     /\ (c = K7r_tuple_target_raises \/ c = K7r_doc_order_reorders \/ c = K7r_ann_value_as_text)).
Proof.
  intros p c H. destruct (refine_adds K7r_old _ _ c H) as [Hold|[Hnone Hnew]]; [left; exact Hold|].
  right. split; [exact Hnone|]. destruct p as [d fd|t d fd|a]; try discriminate Hnew.
  exists a. split; [reflexivity|]. apply (new_class_C07_new a c Hnew).
Qed.

Lemma finding_class_C07_r_old : forall p k,
    finding_class_C07_old p = Some k -> finding_class_C07_r p = Some (K7r_old k).
Proof. intros p k. apply (refine_old K7r_old). Qed.

Lemma c07_class_r_name_old : forall k, c07_class_r_name (K7r_old k) = c07_class_name k.
Proof. reflexivity. Qed.

Lemma finding_class_C07_r_function : forall d fd,
    finding_class_C07_r (PtFunction d fd) = option_map K7r_old (finding_class_C07 d fd).
Proof. intros d fd. unfold finding_class_C07_r. cbn [finding_class_C07_old]. destruct (finding_class_C07 d fd); reflexivity. Qed.

Lemma finding_class_C07_r_merge : forall t d fd,
    finding_class_C07_r (PtClassMerge t d fd) = option_map K7r_old (finding_class_C07_class t d fd).
Proof.
  intros t d fd. unfold finding_class_C07_r. cbn [finding_class_C07_old].
  destruct (finding_class_C07_class t d fd); reflexivity.
Qed.

Lemma finding_class_C07_old_attrs : forall a, finding_class_C07_old (PtClassAttrs a) = None.
Proof. reflexivity. Qed.

Lemma doc_order_class_shape : forall a,
    finding_class_C07_r (PtClassAttrs a) = Some K7r_doc_order_reorders ->
    af_clause a = L "order"
    /\ strs_eqb (af_got a) (docstring_first (documented_names (af_doc a)) (af_order a)) = true
    /\ strs_eqb (af_got a) (af_order a) = false.
Proof.
  intros a H. unfold finding_class_C07_r in H. cbn [finding_class_C07_old] in H. unfold new_class_C07 in H.
  destruct (tuple_target_raises a); [discriminate H|].
  destruct (doc_order_reorders a) eqn:E.
  - unfold doc_order_reorders in E. apply andb_true_iff in E. destruct E as [E Hne].
    apply andb_true_iff in E. destruct E as [Hc Hg]. apply str_eqb_eq in Hc.
    apply negb_true_iff in Hne. repeat split; assumption.
  - destruct (ann_value_as_text a); discriminate H.
Qed.

Lemma ann_value_class_shape : forall a,
    finding_class_C07_r (PtClassAttrs a) = Some K7r_ann_value_as_text ->
    af_clause a = L "value"
    /\ exists id r v s mi,
        af_entry a = Some id /\ af_result a = Some r
        /\ last_binding id (class_body (af_node a)) None = Some (BAnn (Some v))
        /\ ann_text_value v = Some s
        /\ model_parse a (af_node a) = Ok mi
        /\ is_str_dval (default_of id r) = true
        /\ opt_dval_eqb (default_of id r) (default_of id mi) = true.
Proof.
  intros a H. unfold finding_class_C07_r in H. cbn [finding_class_C07_old] in H. unfold new_class_C07 in H.
  destruct (tuple_target_raises a); [discriminate H|].
  destruct (doc_order_reorders a); [discriminate H|].
  destruct (ann_value_as_text a) eqn:E; [|discriminate H].
  unfold ann_value_as_text in E. apply andb_true_iff in E. destruct E as [Hc E]. apply str_eqb_eq in Hc.
  split; [exact Hc|].
  destruct (af_entry a) as [id|]; [|discriminate E].
  destruct (af_result a) as [r|]; [|discriminate E].
  destruct (last_binding id (class_body (af_node a)) None) as [[[v|]|]|] eqn:Eb; try discriminate E.
  destruct (ann_text_value v) as [s|] eqn:Ev; [|discriminate E].
  destruct (model_parse a (af_node a)) as [mi|e] eqn:Em; [|discriminate E].
  apply andb_true_iff in E. destruct E as [Hs He].
  exists id, r, v, s, mi. repeat split; try reflexivity; assumption.
Qed.

Lemma tuple_target_class_shape : forall a,
    finding_class_C07_r (PtClassAttrs a) = Some K7r_tuple_target_raises ->
    af_clause a = L "raises" /\ af_exn a = Some (L "AttributeError")
    /\ exists pre s, split_at_seq_assign (class_body (af_node a)) [] = Some (pre, s)
                     /\ is_ok (model_parse a (with_body (af_node a) pre)) = true
                     /\ model_parse a (with_body (af_node a) (pre ++ [s])) = Err AttributeError
                     /\ model_parse a (af_node a) = Err AttributeError.
Proof.
  intros a H. unfold finding_class_C07_r in H. cbn [finding_class_C07_old] in H. unfold new_class_C07 in H.
  destruct (tuple_target_raises a) eqn:E.
  - unfold tuple_target_raises in E. apply andb_true_iff in E. destruct E as [E Hs].
    apply andb_true_iff in E. destruct E as [Hc Hx]. apply str_eqb_eq in Hc.
    split; [exact Hc|].
    destruct (af_exn a) as [k|]; [|discriminate Hx]. apply str_eqb_eq in Hx. subst k.
    split; [reflexivity|].
    destruct (split_at_seq_assign (class_body (af_node a)) []) as [[pre s]|]; [|discriminate Hs].
    apply andb_true_iff in Hs. destruct Hs as [Hs H3]. apply andb_true_iff in Hs. destruct Hs as [H1 H2].
    exists pre, s. split; [reflexivity|]. split; [exact H1|].
    unfold is_err_attribute in H2, H3.
    destruct (model_parse a (with_body (af_node a) (pre ++ [s]))) as [x|[]]; try discriminate H2.
    destruct (model_parse a (af_node a)) as [y|[]]; try discriminate H3.
    split; reflexivity.
  - destruct (doc_order_reorders a); [discriminate H|]. destruct (ann_value_as_text a); discriminate H.
Qed.

Lemma split_at_seq_assign_spec : forall body acc pre s,
    split_at_seq_assign body acc = Some (pre, s) ->
    is_seq_assign s = true /\ exists done, pre = rev acc ++ done /\ forallb (fun x => negb (is_seq_assign x)) done = true.
Proof.
  induction body as [|x r IH]; intros acc pre s H; cbn [split_at_seq_assign] in H; [discriminate H|].
  destruct (is_seq_assign x) eqn:E.
  - injection H as Hp Hs. subst s pre. split; [exact E|]. exists []. split; [rewrite app_nil_r; reflexivity|reflexivity].
  - apply IH in H. destruct H as [Hs [done [Hp Hd]]]. split; [exact Hs|].
    exists (x :: done). split.
    + rewrite Hp. cbn [rev]. rewrite <- app_assoc. reflexivity.
    + cbn [forallb]. rewrite E. exact Hd.
Qed.

Lemma other_clause_unclassified : forall a,
    str_eqb (af_clause a) (L "order") = false -> str_eqb (af_clause a) (L "value") = false ->
    str_eqb (af_clause a) (L "raises") = false ->
    finding_class_C07_r (PtClassAttrs a) = None.
Proof.
  intros a H1 H2 H3. unfold finding_class_C07_r. cbn [finding_class_C07_old]. unfold new_class_C07.
  unfold tuple_target_raises, doc_order_reorders, ann_value_as_text. rewrite H1, H2, H3. reflexivity.
Qed.

Definition nm (s : String.string) : expr := EName (L s).
Arguments nm s%string_scope.
Definition cint (z : Z) : expr := EConst (VInt z).
Definition cls (body : list stmt) : stmt := SClass (L "C") [nm "object"] body [].
Definition docstmt : stmt := SExpr (EConst (VStr (L "Doc"))).
Definition ann (n t : String.string) (v : expr) : stmt := SAnnAssign (nm n) (nm t) (Some v).
Arguments ann (n t)%string_scope v.
Definition internal_C : option internal := Some (mkInternal [] (Has (L "C")) (Has (L "cls"))).

(* 1. `:cvar b:` only; a: int = 1; b: int = 2  parses as [b, a] *)
Definition doc_b : option (outcome ir) :=
  Some (Ok (mkIR FNone (Has (L "static")) (Has (L "Doc")) [(L "b", mkG (Has (L "the b")) Missing None)] FNone None)).
Definition w1_node : stmt := cls [docstmt; ann "a" "int" (cint 1); ann "b" "int" (cint 2)].
Definition w1 (got : list str) : attrs_failure :=
  mkAF (L "order") doc_b w1_node None got [L "a"; L "b"] None None.

Lemma w1_model_reproduces :
  exists mi, model_parse (w1 []) w1_node = Ok mi /\ od_keys (ir_params mi) = [L "b"; L "a"].
Proof. set (r := model_parse (w1 []) w1_node). vm_compute in r. eexists. split; reflexivity. Qed.

Lemma w1_classified :
  finding_class_C07_old (PtClassAttrs (w1 [L "b"; L "a"])) = None
  /\ finding_class_C07_r (PtClassAttrs (w1 [L "b"; L "a"])) = Some K7r_doc_order_reorders.
Proof. vm_compute. split; reflexivity. Qed.

(* neighbours: the same order when the docstring names nothing; another order of the attributes the docstring does not
   name (what reading the body in two passes would give: docstring b; body a, c, b reported as b, c, a) *)
Lemma w1_undocumented_unclassified :
  finding_class_C07_r (PtClassAttrs (mkAF (L "order") None w1_node None [L "b"; L "a"] [L "a"; L "b"] None None)) = None.
Proof. vm_compute. reflexivity. Qed.

Lemma w1_other_order_unclassified :
  finding_class_C07_r (PtClassAttrs (mkAF (L "order") doc_b
      (cls [docstmt; ann "a" "int" (cint 1); SAssign [nm "c"] (cint 3); ann "b" "int" (cint 2)]) None
      [L "b"; L "c"; L "a"] [L "a"; L "c"; L "b"] None None)) = None.
Proof. vm_compute. reflexivity. Qed.

Lemma w1_three_classified :
  finding_class_C07_r (PtClassAttrs (mkAF (L "order") doc_b
      (cls [docstmt; ann "a" "int" (cint 1); SAssign [nm "c"] (cint 3); ann "b" "int" (cint 2)]) None
      [L "b"; L "a"; L "c"] [L "a"; L "c"; L "b"] None None)) = Some K7r_doc_order_reorders.
Proof. vm_compute. reflexivity. Qed.

(* 2. a: int = (1, 2) reports the str '(1, 2)'; b = (1, 2) reports the tuple *)
Definition pair12 : expr := ETuple [cint 1; cint 2].
Definition w2_node : stmt := cls [ann "a" "int" pair12; SAssign [nm "b"] pair12].
Definition w2_result (da : dval) : ir :=
  mkIR FNone (Has (L "static")) (Has []) [(L "a", mkG Missing (Has (L "int")) (Some da));
                                          (L "b", mkG Missing (Has (L "tuple")) (Some (DO (L "(1, 2)"))))] FNone internal_C.
Definition w2 (entry : String.string) (da : dval) : attrs_failure :=
  mkAF (L "value") None w2_node (Some (L entry)) [] [] (Some (w2_result da)) None.
Arguments w2 entry%string_scope da.

Lemma w2_model_reproduces : model_parse (w2 "a" (DV VNone)) w2_node = Ok (w2_result (DV (VStr (L "(1, 2)")))).
Proof. vm_compute. reflexivity. Qed.

Lemma w2_classified :
  finding_class_C07_old (PtClassAttrs (w2 "a" (DV (VStr (L "(1, 2)"))))) = None
  /\ finding_class_C07_r (PtClassAttrs (w2 "a" (DV (VStr (L "(1, 2)"))))) = Some K7r_ann_value_as_text.
Proof. vm_compute. split; reflexivity. Qed.

(* neighbours: the plain assignment; another text than the model predicts; a value that is no str at all *)
Lemma w2_plain_unclassified : finding_class_C07_r (PtClassAttrs (w2 "b" (DV (VStr (L "(1, 2)"))))) = None.
Proof. vm_compute. reflexivity. Qed.

Lemma w2_other_text_unclassified : finding_class_C07_r (PtClassAttrs (w2 "a" (DV (VStr (L "(1,2)"))))) = None.
Proof. vm_compute. reflexivity. Qed.

Lemma w2_not_str_unclassified : finding_class_C07_r (PtClassAttrs (w2 "a" (DV (VInt 1)))) = None.
Proof. vm_compute. reflexivity. Qed.

(* a scalar annotated value is never in the class, whatever is reported *)
Lemma w2_scalar_unclassified :
  finding_class_C07_r (PtClassAttrs (mkAF (L "value") None (cls [ann "a" "int" (cint 5)]) (Some (L "a")) [] []
      (Some (mkIR FNone (Has (L "static")) (Has []) [(L "a", mkG Missing (Has (L "int")) (Some (DV (VStr (L "5")))))]
                  FNone internal_C)) None)) = None.
Proof. vm_compute. reflexivity. Qed.

(* the attribute access: `a: int = np.x` reports 'np' (get_value follows .value once more) *)
Lemma w2_attribute_classified :
  finding_class_C07_r (PtClassAttrs (mkAF (L "value") None (cls [ann "a" "int" (EAttr (nm "np") (L "x"))])
      (Some (L "a")) [] []
      (Some (mkIR FNone (Has (L "static")) (Has []) [(L "a", mkG Missing (Has (L "int")) (Some (DV (VStr (L "np")))))]
                  FNone internal_C)) None)) = Some K7r_ann_value_as_text.
Proof. vm_compute. reflexivity. Qed.

(* 3. a, b = 1, 2 raises AttributeError *)
Definition w3_node : stmt := cls [SAssign [ETuple [nm "a"; nm "b"]] pair12].
Definition w3 (node : stmt) (exn : String.string) : attrs_failure :=
  mkAF (L "raises") None node None [] [] None (Some (L exn)).
Arguments w3 node exn%string_scope.

Lemma w3_model_reproduces : model_parse (w3 w3_node "AttributeError") w3_node = Err AttributeError.
Proof. vm_compute. reflexivity. Qed.

Lemma w3_classified :
  finding_class_C07_old (PtClassAttrs (w3 w3_node "AttributeError")) = None
  /\ finding_class_C07_r (PtClassAttrs (w3 w3_node "AttributeError")) = Some K7r_tuple_target_raises.
Proof. vm_compute. split; reflexivity. Qed.

Lemma w3_list_target_classified :
  finding_class_C07_r (PtClassAttrs (w3 (cls [ann "x" "int" (cint 1); SAssign [EList [nm "a"; nm "b"]] pair12])
                                        "AttributeError")) = Some K7r_tuple_target_raises.
Proof. vm_compute. reflexivity. Qed.

Lemma w3_starred_target_classified :
  finding_class_C07_r (PtClassAttrs (w3 (cls [SAssign [EOpaque (L "(first, *others)")] (ETuple [cint 1; cint 2; cint 3])])
                                        "AttributeError")) = Some K7r_tuple_target_raises.
Proof. vm_compute. reflexivity. Qed.

(* neighbours: another exception; an attribute target (no tuple); an attribute target that raises before the tuple *)
Lemma w3_other_exception_unclassified : finding_class_C07_r (PtClassAttrs (w3 w3_node "TypeError")) = None.
Proof. vm_compute. reflexivity. Qed.

Lemma w3_attribute_target_unclassified :
  finding_class_C07_r (PtClassAttrs (w3 (cls [SAssign [EAttr (nm "a") (L "x")] (cint 1)]) "AttributeError")) = None.
Proof. vm_compute. reflexivity. Qed.

Lemma w3_raises_earlier_unclassified :
  finding_class_C07_r (PtClassAttrs (w3 (cls [SAssign [EAttr (nm "a") (L "x")] (cint 1);
                                               SAssign [ETuple [nm "a"; nm "b"]] pair12]) "AttributeError")) = None.
Proof. vm_compute. reflexivity. Qed.
