(* The refined C02 classifier (model/C02Spec2.v) against C02Spec's: old classes and their names are kept, the classes
   K2r_negative_zero and K2r_prose_exotic_blank are added only where the old classifier is silent, the refined guard lies
   inside the old one; for each new class a classified sample and an unclassified neighbour. *)
From Coq Require Import List Ascii Bool Arith ZArith.
From Coq Require String.
Import String.StringSyntax.
From DT Require Import PyStr PyVal IR C02Spec C02Spec2 C02Codec C02Compose RefineFacts ListFacts.
Import ListNotations.

Lemma new_classes_C02_new : forall i c, In c (new_classes_C02 i) -> c = K2r_negative_zero \/ c = K2r_prose_exotic_blank.
Proof. intros i c. apply in_flag2. Qed.

Lemma finding_class_C02_r_adds : forall o i c,
    finding_class_C02_r o i = Some c ->
    (exists k, finding_class_C02 o i = Some k /\ c = K2r_old k)
    \/ (finding_class_C02 o i = None /\ (c = K2r_negative_zero \/ c = K2r_prose_exotic_blank)).
Proof.
  intros o i c H. destruct (refine_adds K2r_old _ _ c H) as [Hold|[Hnone Hnew]]; [left; exact Hold|].
  right. split; [exact Hnone|]. apply (new_classes_C02_new i). apply hd_error_In. exact Hnew.
Qed.

Lemma finding_class_C02_r_old : forall o i k,
    finding_class_C02 o i = Some k -> finding_class_C02_r o i = Some (K2r_old k).
Proof. intros o i k. apply (refine_old K2r_old). Qed.

(* a kept class keeps its name, so the KNOWN_FINDINGS lines of the old classes stay valid *)
Lemma c02_class_r_name_old : forall k, c02_class_r_name (K2r_old k) = c02_class_name k.
Proof. reflexivity. Qed.

Lemma guard_C02_r_inside : forall o i, guard_C02_r o i = true -> guard_C02 o i = true.
Proof. intros o i. apply (refine_guard K2r_old). Qed.

(* the point of C02Compose.C02_negative_zero_unclassified: unnamed by the old classifier, named by the refined one,
   in the domain, and the composed model fails on it *)
Lemma negative_zero_classified :
  finding_class_C02 o2 w2_negzero = None
  /\ finding_class_C02_r o2 w2_negzero = Some K2r_negative_zero
  /\ C02_domain w2_negzero = true /\ fails2 w2_negzero = true.
Proof. vm_compute. repeat split; reflexivity. Qed.

(* the same default under Optional[float] is carried (the falsy test is made for scalar types only): not in the class *)
Lemma negative_zero_optional_unclassified :
  finding_class_C02_r o2 (w2 (L "x") (PG (L "the x") (L "Optional[float]") (Some (DV (VFloat (L "-0.0")))))) = None.
Proof. vm_compute. reflexivity. Qed.

(* prose with a form feed between two words (re-flowed by multiline on the real code: 'a<FF>b' comes back 'a \ b') *)
Definition w2_formfeed : ir := w2 (L "x") (PG (L "a" ++ [ch 12] ++ L "b") (L "int") (Some (DV (VInt 5)))).

Lemma exotic_blank_classified :
  finding_class_C02 o2 w2_formfeed = None
  /\ finding_class_C02_r o2 w2_formfeed = Some K2r_prose_exotic_blank
  /\ C02_domain w2_formfeed = true.
Proof. vm_compute. repeat split; reflexivity. Qed.

(* the unit separator (31) is a blank for str.isspace but str.splitlines does not split there: not in the class *)
Lemma unit_separator_unclassified :
  finding_class_C02_r o2 (w2 (L "x") (PG (L "a" ++ [ch 31] ++ L "b") (L "int") (Some (DV (VInt 5))))) = None.
Proof. vm_compute. reflexivity. Qed.
