(* C02 -- config-class round trip  emit.class_ -> parse.class_  at the AST level (models EmitAst / ParseAst).
   Lemmas in proofs/C02Compose.v, TyRoundTrip.v, ParseAstFacts.v, C06Facts.v;
   definitions in model/C02Codec.v, C02Spec.v.

   The docstring layer is decoupled in the models: the emitter takes the text of to_docstring as an input, the parser
   takes the IR d that parse.docstring returned for the class docstring.  The theorems quantify over d under the named
   hypothesis doc_agrees i d (d lists the entries that have prose, return entry folded in as return_type, in order,
   with their prose, and "returns" is None) -- what the ReST round trip of C01 provides with types off; it is
   satisfiable for every IR (C02_doc_hypothesis_satisfiable).

   NOT proved here (stated honestly):
   - that doc_agrees follows from the DocEmit / DocParse models for the class docstring (the :param -> :cvar -> :param
     rewriting, indent level 1, default sentences written by emit_default_doc and removed again): a hypothesis of
     the theorems of this file; props/C02Ext.v proves it inside doc_link_ok (C02_doc_link);
   - ast.unparse followed by ast.parse is the identity on the emitted tree (R1): run per case by the oracle;
   - outside guard_C02_ast: code-quoted defaults and return defaults (emitted through the recorded parse table),
     emit_call = True, carried bodies, types outside the canonical fragment of TyExpr, the type texts dict and
     complex, str defaults wrapped in quote marks or spelled None (names ending in kwargs are inside);
   - that finding_class_C02 is complete: it is validated by the oracle; the proof found one failure it does not
     name (C02_negative_zero_unclassified). *)
From Coq Require Import List Bool.
From Coq Require String.
Import String.StringSyntax.
From DT Require Import PyStr PyVal Defaults PyAst IR TyExpr EmitAst ParseAst C02Spec C06Spec C02Codec.
From DT Require ParseAstFacts C06Facts TyRoundTrip C02Compose.
Import ListNotations.

(* the statement at full strength is false of the faithful model (x: int = None comes back as 0) *)
Theorem C02_refuted : ~ C02_ast_statement.
Proof. exact C02Compose.C02_refuted_lemma. Qed.
Print Assumptions C02_refuted.

(* names and order, and presence of the return entry: for every IR of the domain whose undocumented parameters do
   not precede documented ones, every option combination, whenever emitter and parser succeed -- whatever the
   types, prose and defaults are; any number of parameters *)
Theorem C02_names_order : forall pt i ec cn bs ds ww tds d it ww' s i0 i',
    C02_domain i = true ->
    undocumented_precedes false (ir_params i) = false ->
    doc_agrees i d = true ->
    emit_class pt i ec cn bs ds ww tds = Ok (s, i0) ->
    parse_class (Some (Ok d)) (CStmt s) None it ww' = Ok i' ->
    map fst (ir_params i') = map fst (ir_params i)
    /\ match ir_returns i with
       | Has _ => exists r', ir_returns i' = Has r'
       | _ => ir_returns i' = FNone
       end.
Proof. exact C02Compose.C02_names_order_lemma. Qed.
Print Assumptions C02_names_order.

(* the guarded codec: inside guard_C02_ast the emitter succeeds, the parser succeeds on the emitted class and
   returns the closed form norm_params_C02 / norm_returns_C02 of the input: names, order, types, prose, defaults
   with their Python type, the return entry; the only change is the documented zero-value normalisation.  Any parse
   table, class name, bases, word_wrap on both sides, infer_type; any number of parameters *)
Theorem C02_partial : forall pt i cn bs ds ww text d it ww',
    guard_C02_ast i = true -> doc_agrees i d = true ->
    exists s i',
      emit_class pt i false cn bs ds ww (Ok text) = Ok (s, i)
      /\ parse_class (Some (Ok d)) (CStmt s) None it ww' = Ok i'
      /\ ir_params i' = norm_params_C02 (ir_params i)
      /\ ir_returns i' = norm_returns_C02 (ir_returns i)
      /\ same_interface_strict (zero_default_norm i) i' = true
      /\ same_interface (zero_default_norm i) i' = true
      /\ same_interface i i' = true.
Proof. exact C02Compose.C02_partial_lemma. Qed.
Print Assumptions C02_partial.

Theorem C02_doc_hypothesis_satisfiable : forall i, doc_agrees i (doc_ir_of i) = true.
Proof. exact C02Compose.doc_agrees_doc_ir_of. Qed.
Print Assumptions C02_doc_hypothesis_satisfiable.

(* types: for a canonical type text of the fragment, ast.parse never consults the table and ast.unparse of the
   node is the text *)
Theorem C02_type_parse : forall pt t e, typ_ast t = Some e -> parse_expr_src pt t = Ok e.
Proof. exact TyRoundTrip.typ_ast_parse. Qed.
Print Assumptions C02_type_parse.

Theorem C02_type_unparse : forall t e, typ_ast t = Some e -> code_of e = Ok t.
Proof. exact TyRoundTrip.typ_ast_code. Qed.
Print Assumptions C02_type_unparse.

Theorem C02_tyexpr_roundtrip : forall t,
    ty_ok t = true ->
    exists e, ty2expr t = Some e /\ expr_ok e = true /\ show_prec PR_TEST e = show_ty t /\ forall es, e <> ETuple es.
Proof. exact TyRoundTrip.ty_roundtrip. Qed.
Print Assumptions C02_tyexpr_roundtrip.

(* one attribute: what param2ast emits is read back as the declared type and the canonical default *)
Theorem C02_attribute_codec : forall pt n g,
    gparam_ok_C02 g = true ->
    exists x g2, param2ast pt n g = Ok (ParseAstFacts.attr_stmt x, g2)
                 /\ ParseAstFacts.at_name x = n /\ ParseAstFacts.attr_ok x
                 /\ g_typ g = Has (ParseAstFacts.at_typ x) /\ ParseAstFacts.at_def x = canon_default g.
Proof. exact C02Compose.attr_codec_guard. Qed.
Print Assumptions C02_attribute_codec.

(* one computed witness per finding class that is visible at the AST level *)
Theorem C02_witnesses : forallb C02Compose.c02_witness_ok C02Compose.c02_witnesses = true.
Proof. exact C02Compose.C02_witnesses_lemma. Qed.
Print Assumptions C02_witnesses.

(* a failure finding_class_C02 does not name: float default -0.0 comes back 0.0 *)
Theorem C02_negative_zero_unclassified :
  finding_class_C02 C02Compose.o2 C02Compose.w2_negzero = None /\ C02_domain C02Compose.w2_negzero = true
  /\ guard_C02_ast C02Compose.w2_negzero = false /\ C02Compose.fails2 C02Compose.w2_negzero = true.
Proof. exact C02Compose.C02_negative_zero_unclassified. Qed.
Print Assumptions C02_negative_zero_unclassified.

Theorem C02_nonvacuous :
  guard_C02_ast C02Compose.w2_ok = true
  /\ guard_C02 (mkO02 false false) C02Compose.w2_ok = true /\ guard_C02 (mkO02 false true) C02Compose.w2_ok = true
  /\ C02_ast_holds_b [] C02Compose.w2_ok (doc_ir_of C02Compose.w2_ok) (L "Doc.") true false true = true.
Proof. exact C02Compose.C02_nonvacuous_lemma. Qed.
Print Assumptions C02_nonvacuous.

(* parse side: never duplicate names *)
Theorem C02_parse_class_NoDup : forall di node cn it ww i,
    parse_class di node cn it ww = Ok i -> NoDup (map fst (ir_params i)).
Proof. exact ParseAstFacts.parse_class_NoDup. Qed.
Print Assumptions C02_parse_class_NoDup.

(* parse side: a class whose attributes are all documented, in closed form *)
Theorem C02_parse_class_documented : forall nm bases decos ds attrs i0 it ww,
    NoDup (map fst (ir_params i0)) ->
    ~ In return_type_key (map fst (ir_params i0)) ->
    Forall ParseAstFacts.attr_ok attrs ->
    incl (map ParseAstFacts.at_name attrs) (map fst (ir_params i0)) ->
    parse_class (Some (Ok i0))
                (CStmt (SClass nm bases (SExpr (EConst (VStr ds)) :: map ParseAstFacts.attr_stmt attrs) decos)) None it ww
    = (do params2 <- set_names_and_types (fold_left (fun p x => ParseAstFacts.upd x p) attrs (ir_params i0)) it ww;
       Ok (mkIR (ir_name i0) (ir_type i0) (ir_doc i0) params2 (ir_returns i0)
                (Some (mkInternal [] (Has nm) (Has (L "cls")))))).
Proof. exact ParseAstFacts.parse_class_documented. Qed.
Print Assumptions C02_parse_class_documented.

(* emit side: the annotated attributes are the parameters, return entry folded in, in order *)
Theorem C02_class_attr_names : forall pt i ec cn bs ds ww tds s i',
    emit_class pt i ec cn bs ds ww tds = Ok (s, i') ->
    map (fun x => fst (fst x)) (class_attrs_of s) = od_keys (ir_params (class_fold_returns i)).
Proof. exact C06Facts.emit_class_attr_names. Qed.
Print Assumptions C02_class_attr_names.
