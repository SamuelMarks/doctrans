(* C05 — any-to-any convertibility preserves the interface.
   Lemmas live in proofs/C05Facts.v. *)
From Coq Require Import List.
From DT Require Import PyStr PyVal Defaults IR.
From DT Require DocParse DocParseNG C01Spec C01SpecNG C05Spec C05Facts.
Import ListNotations.

Theorem C05_preserved_refl : forall i, C05Spec.preserved i i = true.
Proof. exact C05Facts.preserved_refl. Qed.
Print Assumptions C05_preserved_refl.

Theorem C05_preserved_trans : forall a b c,
    C05Spec.preserved a b = true -> C05Spec.preserved b c = true -> C05Spec.preserved a c = true.
Proof. exact C05Facts.preserved_trans. Qed.
Print Assumptions C05_preserved_trans.

(* nothing is swapped between parameters: the k-th parameter of the result has the name, type, prose and default
   of the k-th parameter of the original, and there are as many *)
Theorem C05_preserved_no_swap : forall i i', C05Spec.preserved i i' = true ->
    List.length (ir_params i) = List.length (ir_params i')
    /\ forall k n g, nth_error (ir_params i) k = Some (n, g) ->
       exists g', nth_error (ir_params i') k = Some (n, g')
                  /\ C01Spec.same_typ g g' = true /\ C01Spec.same_prose g g' = true
                  /\ C01Spec.same_default_ir (g_default g) (g_default g') = true.
Proof. exact C05Facts.preserved_no_swap. Qed.
Print Assumptions C05_preserved_no_swap.

Theorem C05_preserved_nothing_invented : forall i i', C05Spec.preserved i i' = true ->
    forall k n g', nth_error (ir_params i') k = Some (n, g') ->
    exists g, nth_error (ir_params i) k = Some (n, g)
              /\ C01Spec.same_typ g g' = true /\ C01Spec.same_prose g g' = true
              /\ C01Spec.same_default_ir (g_default g) (g_default g') = true.
Proof. exact C05Facts.preserved_nothing_invented. Qed.
Print Assumptions C05_preserved_nothing_invented.

Theorem C05_composition : forall (T K : Type) (pres : T -> T -> bool) (conv : K -> T -> outcome T) (D : T -> bool),
    (forall i, pres i i = true) ->
    (forall a b c, pres a b = true -> pres b c = true -> pres a c = true) ->
    forall ks,
      (forall k, In k ks -> forall i, D i = true -> exists i', conv k i = Ok i' /\ pres i i' = true /\ D i' = true) ->
      forall i, D i = true -> exists i', C05Spec.chain conv ks i = Ok i' /\ pres i i' = true /\ D i' = true.
Proof. exact C05Facts.chain_preserved. Qed.
Print Assumptions C05_composition.

Theorem C05_chain_preserved : forall (conv : C05Spec.kind -> ir -> outcome ir) (ks : list C05Spec.kind),
    (In C05Spec.KRest ks -> C05Spec.kind_law conv (C05Spec.chain_safe ks) C05Spec.KRest) ->
    (In C05Spec.KNumpydoc ks -> C05Spec.kind_law conv (C05Spec.chain_safe ks) C05Spec.KNumpydoc) ->
    (In C05Spec.KGoogle ks -> C05Spec.kind_law conv (C05Spec.chain_safe ks) C05Spec.KGoogle) ->
    (In C05Spec.KClass ks -> C05Spec.kind_law conv (C05Spec.chain_safe ks) C05Spec.KClass) ->
    (In C05Spec.KFunction ks -> C05Spec.kind_law conv (C05Spec.chain_safe ks) C05Spec.KFunction) ->
    (In C05Spec.KMethod ks -> C05Spec.kind_law conv (C05Spec.chain_safe ks) C05Spec.KMethod) ->
    (In C05Spec.KArgparse ks -> C05Spec.kind_law conv (C05Spec.chain_safe ks) C05Spec.KArgparse) ->
    forall cs, incl cs ks ->
    forall i, C05Spec.chain_safe ks i = true ->
    exists i', C05Spec.chain conv cs i = Ok i' /\ C05Spec.preserved i i' = true /\ C05Spec.chain_safe ks i' = true.
Proof. exact C05Facts.C05_chain_preserved_lemma. Qed.
Print Assumptions C05_chain_preserved.

Theorem C05_chain_no_swap : forall (conv : C05Spec.kind -> ir -> outcome ir) (ks : list C05Spec.kind),
    (In C05Spec.KRest ks -> C05Spec.kind_law conv (C05Spec.chain_safe ks) C05Spec.KRest) ->
    (In C05Spec.KNumpydoc ks -> C05Spec.kind_law conv (C05Spec.chain_safe ks) C05Spec.KNumpydoc) ->
    (In C05Spec.KGoogle ks -> C05Spec.kind_law conv (C05Spec.chain_safe ks) C05Spec.KGoogle) ->
    (In C05Spec.KClass ks -> C05Spec.kind_law conv (C05Spec.chain_safe ks) C05Spec.KClass) ->
    (In C05Spec.KFunction ks -> C05Spec.kind_law conv (C05Spec.chain_safe ks) C05Spec.KFunction) ->
    (In C05Spec.KMethod ks -> C05Spec.kind_law conv (C05Spec.chain_safe ks) C05Spec.KMethod) ->
    (In C05Spec.KArgparse ks -> C05Spec.kind_law conv (C05Spec.chain_safe ks) C05Spec.KArgparse) ->
    forall cs, incl cs ks ->
    forall i, C05Spec.chain_safe ks i = true ->
    exists i', C05Spec.chain conv cs i = Ok i'
               /\ List.length (ir_params i) = List.length (ir_params i')
               /\ forall k n g, nth_error (ir_params i) k = Some (n, g) ->
                  exists g', nth_error (ir_params i') k = Some (n, g')
                             /\ C01Spec.same_typ g g' = true /\ C01Spec.same_prose g g' = true
                             /\ C01Spec.same_default_ir (g_default g) (g_default g') = true.
Proof. exact C05Facts.C05_chain_no_swap_lemma. Qed.
Print Assumptions C05_chain_no_swap.

(* the region of all seven kinds lies inside the region of every chain *)
Theorem C05_region_of_all_kinds : forall ks i,
    C05Spec.chain_safe C05Spec.all_kinds i = true -> C05Spec.chain_safe ks i = true.
Proof. exact C05Facts.chain_safe_all_kinds. Qed.
Print Assumptions C05_region_of_all_kinds.

(* ReST: from the C01 ReST theorem, on any domain inside its guard that is closed under the conversion *)
Theorem C05_rest_law : forall D : ir -> bool,
    (forall i, D i = true -> C01Spec.guard_C01_rest false i = true) ->
    (forall i i', D i = true -> C05Spec.conv_rest i = Ok i' -> D i' = true) ->
    forall i, D i = true ->
    exists i', C05Spec.conv_rest i = Ok i' /\ C05Spec.preserved i i' = true /\ D i' = true.
Proof. exact C05Facts.RT_rest_from_C01. Qed.
Print Assumptions C05_rest_law.

Theorem C05_rest_roundtrip : forall i, C01Spec.guard_C01_rest false i = true ->
    exists i', C05Spec.conv_rest i = Ok i' /\ C05Spec.preserved i i' = true.
Proof. exact C05Facts.RT_rest_roundtrip. Qed.
Print Assumptions C05_rest_roundtrip.

(* numpydoc / google: from the C01 theorem of those styles, on its guard, modulo its scan link *)
Theorem C05_ng_roundtrip : forall style i,
    C01SpecNG.guard_C01_ng style i = true -> C01SpecNG.scan_link_b style i = true ->
    exists i', C05Facts.conv_ng style i = Ok i' /\ C05Spec.preserved i i' = true.
Proof. exact C05Facts.RT_ng_roundtrip. Qed.
Print Assumptions C05_ng_roundtrip.

Theorem C05_refuted : ~ C05Facts.C05_statement.
Proof. exact C05Facts.C05_refuted_lemma. Qed.
Print Assumptions C05_refuted.

Theorem C05_refuted_witness_class :
  C05Spec.c05_class_of [C05Spec.KRest] C05Facts.w_noterm = Some C05Spec.K05_prose_no_terminal.
Proof. exact C05Facts.w_noterm_class. Qed.
Print Assumptions C05_refuted_witness_class.

Example C05_nonvacuous :
  C05Spec.chain_safe C05Spec.all_kinds C05Facts.w_safe = true
  /\ C01Spec.guard_C01_rest false C05Facts.w_safe = true
  /\ exists i', C05Spec.conv_rest C05Facts.w_safe = Ok i' /\ C05Spec.preserved C05Facts.w_safe i' = true
                /\ C05Spec.chain_safe C05Spec.all_kinds i' = true.
Proof. exact C05Facts.C05_nonvacuous_lemma. Qed.
Print Assumptions C05_nonvacuous.
