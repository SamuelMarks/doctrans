(* PyStrFacts: lemmas about the PyStr model (equality tests, membership, character classes by code
   range, startswith/endswith, find, casefold, dropwhile/takewhile and strip, firstn/skipn/slice,
   decimal printing with the helpers dec_step and intchar), then what needs Sexp, PyVal and TyExpr:
   signed decimal reading, identifier characters. *)
From Coq Require Import List Ascii Bool Arith ZArith NArith Lia.
From Coq Require String.
Import String.StringSyntax.
From DT Require Import PyStr Sexp PyVal TyExpr.
Import ListNotations.

Lemma ascii_eqb_eq : forall a b, ascii_eqb a b = true <-> a = b.
Proof. intros a b. unfold ascii_eqb. apply Ascii.eqb_eq. Qed.

Lemma ascii_eqb_refl : forall a, ascii_eqb a a = true.
Proof. intros a. apply ascii_eqb_eq. reflexivity. Qed.

Lemma ascii_eqb_neq : forall a b, ascii_eqb a b = false <-> a <> b.
Proof. intros a b. unfold ascii_eqb. apply Ascii.eqb_neq. Qed.

Lemma ascii_eqb_sym : forall a b, ascii_eqb a b = ascii_eqb b a.
Proof. intros a b. unfold ascii_eqb. apply Ascii.eqb_sym. Qed.

Lemma str_eqb_eq : forall a b, str_eqb a b = true <-> a = b.
Proof.
  induction a as [|x a IHa]; intros [|y b]; cbn [str_eqb]; split; intros H;
    try reflexivity; try discriminate.
  - apply andb_true_iff in H. destruct H as [Hxy Hab].
    apply ascii_eqb_eq in Hxy. apply IHa in Hab. subst. reflexivity.
  - injection H as Hxy Hab. apply andb_true_iff. split.
    + apply ascii_eqb_eq. exact Hxy.
    + apply IHa. exact Hab.
Qed.

Lemma str_eqb_refl : forall a, str_eqb a a = true.
Proof. intros a. apply str_eqb_eq. reflexivity. Qed.

Lemma str_eqb_neq : forall a b, str_eqb a b = false <-> a <> b.
Proof.
  intros a b. split.
  - intros H E. apply str_eqb_eq in E. rewrite E in H. discriminate.
  - intros H. destruct (str_eqb a b) eqn:E; [|reflexivity].
    apply str_eqb_eq in E. contradiction.
Qed.

Lemma str_eqb_sym : forall a b, str_eqb a b = str_eqb b a.
Proof.
  intros a b. destruct (str_eqb a b) eqn:E.
  - apply str_eqb_eq in E. subst. symmetry. apply str_eqb_refl.
  - apply str_eqb_neq in E. symmetry. apply str_eqb_neq. congruence.
Qed.

Lemma str_eqb_trans : forall x y z,
    str_eqb x y = true -> str_eqb y z = true -> str_eqb x z = true.
Proof.
  intros x y z H1 H2. apply str_eqb_eq in H1. apply str_eqb_eq in H2. subst. apply str_eqb_refl.
Qed.

Lemma ascii_eqb_class_false : forall (P : ascii -> bool) c x,
    P c = true -> P x = false -> ascii_eqb c x = false.
Proof. intros P c x Hc Hx. apply ascii_eqb_neq. intros E. subst. congruence. Qed.

Lemma str_eqb_forallb_false : forall (P : ascii -> bool) s x,
    forallb P s = true -> forallb P x = false -> str_eqb s x = false.
Proof.
  intros P s x Hs Hx. apply str_eqb_neq. intros E. subst. congruence.
Qed.

Lemma existsb_str_eqb_forallb : forall (P : ascii -> bool) s l,
    forallb P s = true ->
    forallb (fun x => negb (forallb P x)) l = true ->
    existsb (str_eqb s) l = false.
Proof.
  intros P s l Hs. induction l as [|x l IHl]; intros Hl; [reflexivity|].
  cbn [forallb] in Hl. apply andb_true_iff in Hl. destruct Hl as [Hx Hl].
  apply negb_true_iff in Hx. cbn [existsb].
  rewrite (str_eqb_forallb_false P s x Hs Hx). cbn [orb]. apply IHl. exact Hl.
Qed.

Lemma mem_c_In : forall c cs, mem_c c cs = true <-> In c cs.
Proof.
  intros c cs. unfold mem_c. rewrite existsb_exists. split.
  - intros [x [Hin Hx]]. apply ascii_eqb_eq in Hx. subst. exact Hin.
  - intros Hin. exists c. split; [exact Hin|apply ascii_eqb_refl].
Qed.

Lemma mem_c_false_notin : forall c s, mem_c c s = false -> ~ In c s.
Proof. intros c s H Hin. apply mem_c_In in Hin. congruence. Qed.

Lemma mem_c_app : forall c a b, mem_c c (a ++ b) = mem_c c a || mem_c c b.
Proof. intros c a b. unfold mem_c. apply existsb_app. Qed.

Lemma mem_c_cons : forall c x r, mem_c c (x :: r) = ascii_eqb c x || mem_c c r.
Proof. reflexivity. Qed.

Lemma mem_c_forallb_false : forall (P : ascii -> bool) q s,
    forallb P s = true -> P q = false -> mem_c q s = false.
Proof.
  intros P q s Hs Hq. destruct (mem_c q s) eqn:E; [|reflexivity].
  apply mem_c_In in E. rewrite forallb_forall in Hs. rewrite (Hs q E) in Hq. discriminate Hq.
Qed.

(* a character is determined by its code, so a test that succeeds on the characters with codes
   lo .. lo+n-1 succeeds on every character whose code lies there *)
Lemma ascii_range_forallb : forall (P : ascii -> bool) lo n,
    forallb P (map ch (seq lo n)) = true -> forall c, lo <= code c < lo + n -> P c = true.
Proof.
  intros P lo n H c Hc. rewrite forallb_forall in H. apply H.
  rewrite <- (ascii_nat_embedding c). apply (in_map ch). apply in_seq. exact Hc.
Qed.

Lemma isdigit_code : forall c, isdigit c = true -> 48 <= code c <= 57.
Proof.
  intros c H. unfold isdigit in H. apply andb_true_iff in H. destruct H as [H1 H2].
  apply Nat.leb_le in H1, H2. lia.
Qed.

Lemma isalpha_c_code : forall c, isalpha_c c = true -> 65 <= code c <= 122.
Proof.
  intros c H. unfold isalpha_c, isupper_c, islower_c in H. apply orb_true_iff in H.
  destruct H as [H|H]; apply andb_true_iff in H; destruct H as [H1 H2];
    apply Nat.leb_le in H1, H2; lia.
Qed.

Lemma isdigit_In : forall c, isdigit c = true -> In c (L "0123456789").
Proof.
  intros c H. apply mem_c_In.
  apply (ascii_range_forallb (fun x => mem_c x (L "0123456789")) 48 10 eq_refl).
  apply isdigit_code in H. lia.
Qed.

Lemma last_c_app_single : forall s c, last_c (s ++ [c]) = Some c.
Proof. intros s c. unfold last_c. rewrite rev_app_distr. reflexivity. Qed.

Lemma last_c_spec : forall s c, last_c s = Some c <-> exists r, s = r ++ [c].
Proof.
  intros s c. split.
  - unfold last_c. intros H. destruct (rev s) as [|x r] eqn:E; [discriminate|].
    injection H as Hx. subst x. exists (rev r).
    rewrite <- (rev_involutive s). rewrite E. reflexivity.
  - intros [r Hr]. subst. apply last_c_app_single.
Qed.

Lemma last_c_nil_iff : forall s, last_c s = None <-> s = [].
Proof.
  intros s. split.
  - unfold last_c. intros H. destruct (rev s) as [|x r] eqn:E; [|discriminate].
    rewrite <- (rev_involutive s). rewrite E. reflexivity.
  - intros H. subst. reflexivity.
Qed.

Lemma last_c_cons_cons : forall a b r, last_c (a :: b :: r) = last_c (b :: r).
Proof.
  intros a b r. destruct (last_c (b :: r)) as [c|] eqn:E.
  - apply last_c_spec in E. destruct E as [q Hq]. rewrite Hq.
    change (a :: q ++ [c]) with ((a :: q) ++ [c]). apply last_c_app_single.
  - apply last_c_nil_iff in E. discriminate.
Qed.

Lemma last_c_In : forall s c, last_c s = Some c -> In c s.
Proof.
  intros s c H. apply last_c_spec in H. destruct H as [r Hr]. subst.
  apply in_or_app. right. left. reflexivity.
Qed.

Lemma last_c_app_nonnil : forall a b, b <> [] -> last_c (a ++ b) = last_c b.
Proof.
  intros a b Hb. destruct (last_c b) as [c|] eqn:E.
  - apply last_c_spec in E. destruct E as [r Hr]. subst b.
    rewrite app_assoc. apply last_c_app_single.
  - apply last_c_nil_iff in E. contradiction.
Qed.

Lemma firstn_app_exact_plus : forall (a b : str) n,
    firstn (List.length a + n) (a ++ b) = a ++ firstn n b.
Proof. intros a b n. apply firstn_app_2. Qed.

Lemma skipn_app_exact_plus : forall (a b : str) n,
    skipn (List.length a + n) (a ++ b) = skipn n b.
Proof. induction a as [|x a IHa]; intros b n; cbn; [reflexivity|]. apply IHa. Qed.

Lemma firstn_app_exact : forall (a b : str), firstn (List.length a) (a ++ b) = a.
Proof.
  intros a b. rewrite <- (Nat.add_0_r (List.length a)), firstn_app_exact_plus. apply app_nil_r.
Qed.

Lemma skipn_app_exact : forall (a b : str), skipn (List.length a) (a ++ b) = b.
Proof. intros a b. rewrite <- (Nat.add_0_r (List.length a)). apply skipn_app_exact_plus. Qed.

Lemma skipn_length_all : forall (s : str), skipn (List.length s) s = [].
Proof. intros s. apply skipn_all. Qed.

Lemma slice_0 : forall s n, slice s 0 n = firstn n s.
Proof. intros s n. unfold slice. rewrite Nat.sub_0_r. reflexivity. Qed.

Lemma slice_app_mid : forall a b c : str,
    slice (a ++ b ++ c) (List.length a) (List.length a + List.length b) = b.
Proof.
  intros a b c. unfold slice. rewrite skipn_app_exact.
  replace (List.length a + List.length b - List.length a) with (List.length b) by lia.
  apply firstn_app_exact.
Qed.

Lemma slice_length_le : forall s a b, List.length (slice s a b) <= b - a.
Proof. intros s a b. unfold slice. apply firstn_le_length. Qed.

Lemma skipn_add : forall (s : str) i n, skipn n (skipn i s) = skipn (i + n) s.
Proof.
  intros s i. revert s. induction i as [|i IHi]; intros s n; [reflexivity|].
  destruct s as [|c s]; cbn [skipn Nat.add]; [apply skipn_nil|apply IHi].
Qed.

Lemma firstn_skipn_mid : forall (s : str) i n,
    s = firstn i s ++ firstn n (skipn i s) ++ skipn (i + n) s.
Proof.
  intros s i n.
  rewrite <- (firstn_skipn i s) at 1. f_equal.
  rewrite <- (firstn_skipn n (skipn i s)) at 1. f_equal.
  apply skipn_add.
Qed.

Lemma startswith_nil : forall s, startswith [] s = true.
Proof. intros [|c s]; reflexivity. Qed.

Lemma startswith_app : forall p r, startswith p (p ++ r) = true.
Proof.
  induction p as [|x p IHp]; intros r; cbn [startswith app].
  - reflexivity.
  - rewrite ascii_eqb_refl. cbn [andb]. apply IHp.
Qed.

Lemma startswith_refl : forall p, startswith p p = true.
Proof. intros p. rewrite <- (app_nil_r p) at 2. apply startswith_app. Qed.

Lemma startswith_iff : forall p s, startswith p s = true <-> exists r, s = p ++ r.
Proof.
  intros p s. split.
  - revert s. induction p as [|x p IHp]; intros s H.
    + exists s. reflexivity.
    + destruct s as [|y s]; cbn [startswith] in H; [discriminate|].
      apply andb_true_iff in H. destruct H as [Hxy Hps].
      apply ascii_eqb_eq in Hxy. subst y.
      destruct (IHp s Hps) as [r Hr]. exists r. subst s. reflexivity.
  - intros [r Hr]. subst. apply startswith_app.
Qed.

Lemma startswith_length : forall p s, startswith p s = true -> List.length p <= List.length s.
Proof.
  intros p s H. apply startswith_iff in H. destruct H as [r Hr]. subst.
  rewrite app_length. lia.
Qed.

Lemma startswith_firstn : forall p s, startswith p s = true -> firstn (List.length p) s = p.
Proof.
  intros p s H. apply startswith_iff in H. destruct H as [r Hr]. subst.
  apply firstn_app_exact.
Qed.

Lemma startswith_app_r : forall p s x, startswith p s = true -> startswith p (s ++ x) = true.
Proof.
  intros p s x H. apply startswith_iff in H. destruct H as [r Hr]. subst.
  rewrite <- app_assoc. apply startswith_app.
Qed.

Lemma startswith_app_cases : forall p s x,
    startswith p (s ++ x) = true ->
    startswith p s = true \/ exists q, p = s ++ q /\ q <> [] /\ startswith q x = true.
Proof.
  induction p as [|a p IHp]; intros s x H.
  - left. apply startswith_nil.
  - destruct s as [|b s].
    + right. exists (a :: p). split; [reflexivity|]. split; [discriminate|exact H].
    + cbn [app startswith] in H. apply andb_true_iff in H. destruct H as [Hab Hp].
      destruct (IHp s x Hp) as [Hl | [q [Hq1 [Hq2 Hq3]]]].
      * left. cbn [startswith]. rewrite Hab, Hl. reflexivity.
      * right. exists q. apply ascii_eqb_eq in Hab. subst. repeat split; assumption.
Qed.

Lemma startswith_cons_cons : forall x p y s,
    startswith (x :: p) (y :: s) = ascii_eqb x y && startswith p s.
Proof. reflexivity. Qed.

Lemma startswith_single : forall c s, startswith [c] s = true <-> head_c s = Some c.
Proof.
  intros c [|y s]; cbn [startswith head_c]; split; intros H; try discriminate.
  - rewrite andb_true_r in H. apply ascii_eqb_eq in H. subst. reflexivity.
  - injection H as H. subst. rewrite ascii_eqb_refl. reflexivity.
Qed.

Lemma endswith_iff : forall p s, endswith p s = true <-> exists r, s = r ++ p.
Proof.
  intros p s. unfold endswith. rewrite startswith_iff. split.
  - intros [r Hr]. exists (rev r).
    rewrite <- (rev_involutive s). rewrite Hr. rewrite rev_app_distr.
    rewrite rev_involutive. reflexivity.
  - intros [r Hr]. exists (rev r). subst. apply rev_app_distr.
Qed.

Lemma endswith_app : forall r p, endswith p (r ++ p) = true.
Proof. intros r p. apply endswith_iff. exists r. reflexivity. Qed.

Lemma endswith_single : forall c s, endswith [c] s = true <-> last_c s = Some c.
Proof. intros c s. rewrite endswith_iff. symmetry. apply last_c_spec. Qed.

Lemma endswith_forallb : forall (P : ascii -> bool) p s,
    forallb P s = true -> endswith p s = true -> forallb P p = true.
Proof.
  intros P p s Hs He. apply endswith_iff in He. destruct He as [r Hr]. subst.
  rewrite forallb_app in Hs. apply andb_true_iff in Hs. apply Hs.
Qed.

Lemma startswith_forallb : forall (P : ascii -> bool) p s,
    forallb P s = true -> startswith p s = true -> forallb P p = true.
Proof.
  intros P p s Hs He. apply startswith_iff in He. destruct He as [r Hr]. subst.
  rewrite forallb_app in Hs. apply andb_true_iff in Hs. apply Hs.
Qed.

Lemma find_from_shift : forall sub s i,
    find_from sub s i = option_map (fun k => i + k) (find_from sub s 0).
Proof.
  intros sub s. induction s as [|c r IHr]; intros i; cbn [find_from].
  - destruct (startswith sub []); cbn; [f_equal; lia|reflexivity].
  - destruct (startswith sub (c :: r)); cbn [option_map]; [f_equal; lia|].
    rewrite (IHr (S i)), (IHr 1).
    destruct (find_from sub r 0) as [k|]; cbn [option_map]; [f_equal; lia|reflexivity].
Qed.

Lemma find_nil_r : forall sub, find sub [] = match sub with [] => Some 0 | _ => None end.
Proof. intros [|x sub]; reflexivity. Qed.

Lemma find_cons : forall sub c r,
    find sub (c :: r) = if startswith sub (c :: r) then Some 0 else option_map S (find sub r).
Proof.
  intros sub c r. unfold find. cbn [find_from].
  destruct (startswith sub (c :: r)); [reflexivity|].
  rewrite (find_from_shift sub r 1). reflexivity.
Qed.

Lemma find_startswith : forall sub s, startswith sub s = true -> find sub s = Some 0.
Proof.
  intros sub s H. unfold find. destruct s as [|c r]; cbn [find_from]; rewrite H; reflexivity.
Qed.

Lemma find_char_first : forall c p r,
    mem_c c p = false -> find [c] (p ++ c :: r) = Some (List.length p).
Proof.
  intros c p r. induction p as [|x p IH]; intros H.
  - cbn [app List.length]. apply find_startswith. cbn [startswith]. rewrite ascii_eqb_refl. reflexivity.
  - rewrite mem_c_cons in H. apply orb_false_iff in H. destruct H as [Hx Hp].
    cbn [app]. rewrite find_cons. cbn [startswith]. rewrite Hx. cbn [andb].
    rewrite (IH Hp). reflexivity.
Qed.

Lemma find_app_here : forall sub r, find sub (sub ++ r) = Some 0.
Proof. intros sub r. apply find_startswith. apply startswith_app. Qed.

Lemma find_spec : forall sub s,
    match find sub s with
    | Some i => i <= List.length s /\ startswith sub (skipn i s) = true
                /\ forall j, j < i -> startswith sub (skipn j s) = false
    | None => forall j, j <= List.length s -> startswith sub (skipn j s) = false
    end.
Proof.
  intros sub s. induction s as [|c r IH].
  - rewrite find_nil_r. destruct sub as [|x sub].
    + split; [apply Nat.le_refl|]. split; [reflexivity|]. intros j Hj. lia.
    + intros j Hj. cbn [List.length] in Hj. replace j with 0 by lia. reflexivity.
  - rewrite find_cons. destruct (startswith sub (c :: r)) eqn:Hsw.
    + split; [apply Nat.le_0_l|]. split; [exact Hsw|]. intros j Hj. lia.
    + destruct (find sub r) as [k|]; cbn [option_map].
      * destruct IH as [Hk [Hs Hmin]]. split; [cbn [List.length]; lia|]. split; [exact Hs|].
        intros [|j] Hj; [exact Hsw|]. apply Hmin. lia.
      * intros [|j] Hj; [exact Hsw|]. apply IH. cbn [List.length] in Hj. lia.
Qed.

Lemma find_Some_iff : forall sub s i,
    find sub s = Some i <->
    (i <= List.length s /\ startswith sub (skipn i s) = true
     /\ forall j, j < i -> startswith sub (skipn j s) = false).
Proof.
  intros sub s i. pose proof (find_spec sub s) as H. split.
  - intros E. rewrite E in H. exact H.
  - intros [Hi [Hs Hmin]]. destruct (find sub s) as [k|].
    + destruct H as [_ [Hks Hkmin]]. destruct (Nat.lt_trichotomy k i) as [Hlt|[E|Hgt]].
      * rewrite (Hmin k Hlt) in Hks. discriminate Hks.
      * subst k. reflexivity.
      * rewrite (Hkmin i Hgt) in Hs. discriminate Hs.
    + rewrite (H i Hi) in Hs. discriminate Hs.
Qed.

Lemma find_Some_startswith : forall sub s i,
    find sub s = Some i -> startswith sub (skipn i s) = true.
Proof. intros sub s i H. apply find_Some_iff in H. apply H. Qed.

Lemma find_Some_minimal : forall sub s i j,
    find sub s = Some i -> j < i -> startswith sub (skipn j s) = false.
Proof. intros sub s i j H Hj. apply find_Some_iff in H. apply H. exact Hj. Qed.

Lemma find_Some_bound : forall sub s i,
    find sub s = Some i -> i + List.length sub <= List.length s.
Proof.
  intros sub s i H. apply find_Some_iff in H. destruct H as [Hi [Hs _]].
  apply startswith_length in Hs. rewrite skipn_length in Hs. lia.
Qed.

Lemma find_Some_decomp : forall sub s i,
    find sub s = Some i ->
    s = firstn i s ++ sub ++ skipn (i + List.length sub) s.
Proof.
  intros sub s i H. apply find_Some_startswith in H.
  apply startswith_firstn in H.
  rewrite <- H at 1. apply firstn_skipn_mid.
Qed.

Lemma find_None_iff : forall sub s,
    find sub s = None <-> forall j, j <= List.length s -> startswith sub (skipn j s) = false.
Proof.
  intros sub s. pose proof (find_spec sub s) as H. split.
  - intros E. rewrite E in H. exact H.
  - intros Hn. destruct (find sub s) as [k|]; [|reflexivity].
    destruct H as [Hk [Hs _]]. rewrite (Hn k Hk) in Hs. discriminate Hs.
Qed.

Lemma find_None_no_occurrence : forall sub s,
    find sub s = None <-> forall a b, s <> a ++ sub ++ b.
Proof.
  intros sub s. rewrite find_None_iff. split.
  - intros H a b E. subst s.
    specialize (H (List.length a)).
    rewrite skipn_app_exact, startswith_app in H.
    rewrite app_length in H. discriminate H. lia.
  - intros H j Hj. destruct (startswith sub (skipn j s)) eqn:E; [|reflexivity].
    apply startswith_iff in E. destruct E as [r Hr].
    exfalso. apply (H (firstn j s) r). rewrite <- Hr. symmetry. apply firstn_skipn.
Qed.

Lemma contains_true_iff : forall sub s,
    contains sub s = true <-> exists a b, s = a ++ sub ++ b.
Proof.
  intros sub s. unfold contains. split.
  - intros H. destruct (find sub s) as [i|] eqn:E; [|discriminate].
    apply find_Some_decomp in E. eauto.
  - intros [a [b Hab]]. destruct (find sub s) as [i|] eqn:E; [reflexivity|].
    exfalso. exact (proj1 (find_None_no_occurrence sub s) E a b Hab).
Qed.

Lemma contains_false_iff : forall sub s, contains sub s = false <-> find sub s = None.
Proof.
  intros sub s. unfold contains. destruct (find sub s); split; intros H; congruence.
Qed.

Lemma contains_app_mid : forall sub a b, contains sub (a ++ sub ++ b) = true.
Proof. intros sub a b. apply contains_true_iff. eauto. Qed.

Lemma contains_app_l : forall sub s x, contains sub s = true -> contains sub (s ++ x) = true.
Proof.
  intros sub s x H. apply contains_true_iff in H. destruct H as [a [b Hab]]. subst.
  apply contains_true_iff. exists a, (b ++ x). rewrite <- !app_assoc. reflexivity.
Qed.

Lemma contains_app_r : forall sub s x, contains sub s = true -> contains sub (x ++ s) = true.
Proof.
  intros sub s x H. apply contains_true_iff in H. destruct H as [a [b Hab]]. subst.
  apply contains_true_iff. exists (x ++ a), b. rewrite <- !app_assoc. reflexivity.
Qed.

Lemma contains_app_false : forall t a b,
    contains t (a ++ b) = false -> contains t a = false /\ contains t b = false.
Proof.
  intros t a b H. split.
  - destruct (contains t a) eqn:E; [|reflexivity]. rewrite (contains_app_l t a b E) in H. discriminate H.
  - destruct (contains t b) eqn:E; [|reflexivity]. rewrite (contains_app_r t b a E) in H. discriminate H.
Qed.

Lemma find_None_too_long : forall sub s, List.length s < List.length sub -> find sub s = None.
Proof.
  intros sub s Hlen. destruct (find sub s) as [i|] eqn:E; [|reflexivity].
  apply find_Some_bound in E. lia.
Qed.

Lemma find_app_l : forall sub s x i, find sub s = Some i -> find sub (s ++ x) = Some i.
Proof.
  intros sub s x i H. pose proof (find_Some_bound _ _ _ H) as Hb.
  apply find_Some_iff in H. destruct H as [Hi [Hs Hmin]].
  apply find_Some_iff. split; [rewrite app_length; lia|]. split.
  - rewrite skipn_app. apply startswith_app_r. exact Hs.
  - intros j Hj. specialize (Hmin j Hj).
    destruct (startswith sub (skipn j (s ++ x))) eqn:E; [|reflexivity].
    rewrite skipn_app in E. apply startswith_app_cases in E.
    destruct E as [E | [q [Hq1 [Hq2 _]]]]; [congruence|].
    exfalso. apply (f_equal (@List.length ascii)) in Hq1.
    rewrite app_length, skipn_length in Hq1.
    destruct q as [|y q]; [contradiction|]. cbn [List.length] in Hq1. lia.
Qed.

Lemma find_app_skip : forall p A x,
    (forall j, j < List.length A -> startswith p (skipn j A ++ x) = false) ->
    find p (A ++ x) = option_map (Nat.add (List.length A)) (find p x).
Proof.
  intros p A x. induction A as [|a A IH]; intros H.
  - cbn [app List.length]. destruct (find p x); reflexivity.
  - cbn [app]. rewrite find_cons. rewrite (H 0 (Nat.lt_0_succ _) : startswith p (a :: A ++ x) = false).
    rewrite IH by (intros j Hj; apply (H (S j)); cbn [List.length]; lia).
    destruct (find p x); reflexivity.
Qed.

Lemma find_app_disjoint : forall p x s,
    p <> [] -> forallb (fun c => negb (mem_c c p)) s = true -> find p (x ++ s) = find p x.
Proof.
  intros p x s Hp Hs.
  assert (Hsw : forall y, startswith p (y ++ s) = startswith p y).
  { intros y. destruct (startswith p y) eqn:Ey.
    - apply startswith_app_r. exact Ey.
    - destruct (startswith p (y ++ s)) eqn:E; [|reflexivity].
      apply startswith_app_cases in E. destruct E as [E | [q [Hq1 [Hq2 Hq3]]]]; [congruence|].
      exfalso. destruct q as [|c q]; [contradiction|].
      destruct s as [|c' s]; [discriminate|].
      cbn [startswith] in Hq3. apply andb_true_iff in Hq3. destruct Hq3 as [Hc _].
      apply ascii_eqb_eq in Hc. subst c'.
      cbn [forallb] in Hs. apply andb_true_iff in Hs. destruct Hs as [Hc _].
      apply negb_true_iff in Hc. subst p. rewrite mem_c_app in Hc.
      cbn [mem_c existsb] in Hc. rewrite ascii_eqb_refl in Hc.
      rewrite orb_true_r in Hc. discriminate. }
  induction x as [|a x IHx].
  - cbn [app]. rewrite find_nil_r. destruct p as [|y p]; [contradiction|].
    clear Hsw. induction s as [|c s IHs]; [reflexivity|].
    rewrite find_cons. cbn [forallb] in Hs. apply andb_true_iff in Hs. destruct Hs as [Hc Hs].
    cbn [startswith]. apply negb_true_iff in Hc. rewrite mem_c_cons in Hc.
    apply orb_false_iff in Hc. destruct Hc as [Hc _].
    rewrite ascii_eqb_sym, Hc. cbn [andb]. rewrite (IHs Hs). reflexivity.
  - change ((a :: x) ++ s) with (a :: (x ++ s)). rewrite !find_cons.
    change (a :: (x ++ s)) with ((a :: x) ++ s). rewrite Hsw, IHx. reflexivity.
Qed.

(* the pattern cannot run over the end of d: the last character of d does not occur in it *)
Lemma startswith_no_straddle : forall p d y j,
    find p d = None -> (forall l, last_c d = Some l -> mem_c l p = false) ->
    j < List.length d -> startswith p (skipn j d ++ y) = false.
Proof.
  intros p d y j Hnone Hlast Hj.
  destruct (startswith p (skipn j d ++ y)) eqn:E; [exfalso|reflexivity].
  apply startswith_app_cases in E. destruct E as [E|[q [Hq _]]].
  - rewrite (proj1 (find_None_iff p d) Hnone j) in E by lia. discriminate E.
  - assert (Hne : skipn j d <> []).
    { intros E0. apply (f_equal (@List.length ascii)) in E0. rewrite skipn_length in E0.
      cbn [List.length] in E0. lia. }
    destruct (last_c (skipn j d)) as [l|] eqn:Hl; [|apply last_c_nil_iff in Hl; contradiction].
    assert (Hin : mem_c l p = true).
    { apply mem_c_In. rewrite Hq. apply in_or_app. left. apply last_c_In. exact Hl. }
    rewrite <- (firstn_skipn j d), (last_c_app_nonnil _ _ Hne) in Hlast.
    rewrite (Hlast l Hl) in Hin. discriminate Hin.
Qed.

Lemma find_app_sep : forall p d c x,
    find p d = None ->
    (forall l, last_c d = Some l -> mem_c l p = false) ->
    startswith [c] p = false ->
    find p (d ++ c :: x) = option_map (fun i => List.length d + 1 + i) (find p x).
Proof.
  intros p d c x Hnone Hlast Hsep.
  rewrite find_app_skip by (intros j Hj; apply startswith_no_straddle; assumption).
  rewrite find_cons.
  assert (Hc : startswith p (c :: x) = false).
  { destruct p as [|y p].
    - rewrite (find_startswith [] d (startswith_nil d)) in Hnone. discriminate Hnone.
    - cbn [startswith] in *.
      rewrite andb_true_r in Hsep. rewrite ascii_eqb_sym, Hsep. reflexivity. }
  rewrite Hc. destruct (find p x) as [i|]; [|reflexivity].
  cbn [option_map]. f_equal. lia.
Qed.

Lemma casefold_app : forall a b, casefold (a ++ b) = casefold a ++ casefold b.
Proof. intros a b. unfold casefold. apply map_app. Qed.

Lemma casefold_length : forall s, List.length (casefold s) = List.length s.
Proof. intros s. unfold casefold. apply map_length. Qed.

Lemma casefold_cons : forall c s, casefold (c :: s) = lower_c c :: casefold s.
Proof. reflexivity. Qed.

Lemma lower_c_not_upper : forall c, isupper_c (lower_c c) = false.
Proof.
  intros c. unfold lower_c. destruct (isupper_c c) eqn:E; [|exact E]. apply negb_true_iff.
  apply (ascii_range_forallb (fun x => negb (isupper_c (ch (code x + 32)))) 65 26 eq_refl).
  unfold isupper_c in E. apply andb_true_iff in E. destruct E as [E1 E2].
  apply Nat.leb_le in E1, E2. lia.
Qed.

Lemma lower_c_idem : forall c, lower_c (lower_c c) = lower_c c.
Proof. intros c. unfold lower_c at 1. rewrite lower_c_not_upper. reflexivity. Qed.

Lemma casefold_idem : forall s, casefold (casefold s) = casefold s.
Proof.
  intros s. unfold casefold. rewrite map_map. apply map_ext. intros c. apply lower_c_idem.
Qed.

Lemma last_c_casefold : forall s, last_c (casefold s) = option_map lower_c (last_c s).
Proof.
  intros s. unfold last_c, casefold. rewrite <- map_rev. destruct (rev s); reflexivity.
Qed.

Lemma lower_c_isdigit : forall c, isdigit c = true -> lower_c c = c.
Proof.
  intros c H. apply isdigit_In in H. revert c H. apply Forall_forall.
  repeat constructor. (* one evaluation for each of the ten digits *)
Qed.

Lemma casefold_digits : forall s, forallb isdigit s = true -> casefold s = s.
Proof.
  induction s as [|c s IHs]; intros H; [reflexivity|].
  cbn [forallb] in H. apply andb_true_iff in H. destruct H as [Hc Hs].
  rewrite casefold_cons, (lower_c_isdigit c Hc), (IHs Hs). reflexivity.
Qed.

Lemma dropwhile_head_false : forall (p : ascii -> bool) (s : str),
    (forall c, head_c s = Some c -> p c = false) -> dropwhile p s = s.
Proof.
  intros p [|c s] H; [reflexivity|]. cbn [dropwhile]. rewrite (H c eq_refl). reflexivity.
Qed.

Lemma dropwhile_In : forall {A} (p : A -> bool) l x, In x (dropwhile p l) -> In x l.
Proof.
  intros A p l x. induction l as [|c t IH]; intros H; [exact H|].
  cbn [dropwhile] in H. destruct (p c); [right; apply IH; exact H|exact H].
Qed.

Lemma dropwhile_app_all : forall {A} (p : A -> bool) a b,
    forallb p a = true -> dropwhile p (a ++ b) = dropwhile p b.
Proof.
  intros A p a b. induction a as [|x t IH]; intros H; [reflexivity|].
  cbn [forallb] in H. apply andb_true_iff in H. destruct H as [Hx Ht].
  cbn [app dropwhile]. rewrite Hx. apply IH. exact Ht.
Qed.

Lemma takewhile_app_all : forall {A} (p : A -> bool) a s,
    forallb p a = true -> takewhile p (a ++ s) = a ++ takewhile p s.
Proof.
  intros A p a s. induction a as [|x a IH]; intros H; [reflexivity|].
  cbn [forallb] in H. apply andb_true_iff in H. destruct H as [Hx Ha].
  cbn [app takewhile]. rewrite Hx, (IH Ha). reflexivity.
Qed.

Lemma lstrip_by_id : forall p s,
    (forall c, head_c s = Some c -> p c = false) -> lstrip_by p s = s.
Proof. intros p s H. unfold lstrip_by. apply dropwhile_head_false. exact H. Qed.

Lemma rstrip_by_id : forall p s,
    (forall c, last_c s = Some c -> p c = false) -> rstrip_by p s = s.
Proof.
  intros p s H. unfold rstrip_by. rewrite dropwhile_head_false; [apply rev_involutive|].
  intros c Hc. apply H. unfold last_c. unfold head_c in Hc. destruct (rev s); congruence.
Qed.

Lemma strip_by_id : forall p s,
    (forall c, head_c s = Some c -> p c = false) ->
    (forall c, last_c s = Some c -> p c = false) -> strip_by p s = s.
Proof.
  intros p s Hh Hl. unfold strip_by. rewrite (lstrip_by_id p s Hh). apply rstrip_by_id. exact Hl.
Qed.

Lemma rstrip_by_app_all : forall p s b, forallb p b = true -> rstrip_by p (s ++ b) = rstrip_by p s.
Proof.
  intros p s b H. unfold rstrip_by. rewrite rev_app_distr, dropwhile_app_all; [reflexivity|].
  rewrite forallb_forall in *. intros c Hc. apply H. apply in_rev. exact Hc.
Qed.

Lemma strip_by_forallb : forall p s,
    forallb (fun c => negb (p c)) s = true -> strip_by p s = s.
Proof.
  intros p s H. rewrite forallb_forall in H. apply strip_by_id.
  - intros c Hc. apply negb_true_iff. apply H. destruct s as [|x s]; [discriminate|].
    injection Hc as Hc. subst. left. reflexivity.
  - intros c Hc. apply negb_true_iff. apply H. apply last_c_In. exact Hc.
Qed.

Lemma strip_chars_id : forall cs s,
    (forall c, head_c s = Some c -> mem_c c cs = false) ->
    (forall c, last_c s = Some c -> mem_c c cs = false) -> strip_chars cs s = s.
Proof. intros cs s Hh Hl. unfold strip_chars. apply strip_by_id; assumption. Qed.

Lemma strip_chars_forallb : forall cs s,
    forallb (fun c => negb (mem_c c cs)) s = true -> strip_chars cs s = s.
Proof. intros cs s H. unfold strip_chars. apply strip_by_forallb. exact H. Qed.

Lemma strip_by_nil : forall p, strip_by p [] = [].
Proof. reflexivity. Qed.

Lemma repeat_str_forallb : forall (P : ascii -> bool) s n,
    forallb P s = true -> forallb P (repeat_str s n) = true.
Proof.
  intros P s n H. unfold repeat_str. induction n as [|n IH]; [reflexivity|].
  cbn [repeat concat]. rewrite forallb_app, H. exact IH.
Qed.

Lemma forallb_impl : forall {A} (P Q : A -> bool) s,
    (forall c, P c = true -> Q c = true) -> forallb P s = true -> forallb Q s = true.
Proof.
  intros A P Q s HPQ H. rewrite forallb_forall in *. intros c Hc. apply HPQ. apply H. exact Hc.
Qed.

Lemma digit_char : forall d, d < 10 -> isdigit (ch (48 + d)) = true /\ code (ch (48 + d)) = 48 + d.
Proof.
  intros d Hd.
  do 10 (destruct d as [|d]; [split; reflexivity|]). lia.
Qed.

Definition dec_step (acc : N) (c : ascii) : N := (acc * 10 + N.of_nat (code c - 48))%N.

Lemma N_of_dec_app_single : forall s c,
    N_of_dec (s ++ [c]) = (N_of_dec s * 10 + N.of_nat (code c - 48))%N.
Proof. intros s c. unfold N_of_dec. rewrite fold_left_app. reflexivity. Qed.

Lemma mod10_lt : forall n, N.to_nat (n mod 10) < 10.
Proof.
  intros n. assert (H : (n mod 10 < 10)%N) by (apply N.mod_lt; discriminate). lia.
Qed.

Lemma dec_aux_value : forall fuel n acc,
    (n < 2 ^ N.of_nat fuel)%N ->
    fold_left dec_step (dec_of_pos_aux fuel n acc) 0%N = fold_left dec_step acc n.
Proof.
  induction fuel as [|f IHf]; intros n acc Hn.
  - cbn [dec_of_pos_aux]. change (2 ^ N.of_nat 0)%N with 1%N in Hn.
    assert (n = 0%N) by lia. subst. reflexivity.
  - cbn [dec_of_pos_aux].
    pose proof (mod10_lt n) as Hd.
    destruct (digit_char _ Hd) as [_ Hcode].
    pose proof (N.div_mod n 10 ltac:(discriminate)) as Hdm.
    assert (Hqlt : (n / 10 < 2 ^ N.of_nat f)%N).
    { rewrite Nat2N.inj_succ, N.pow_succ_r' in Hn.
      apply N.div_lt_upper_bound; [discriminate|].
      set (P := (2 ^ N.of_nat f)%N) in *. clearbody P. lia. }
    assert (Hstep : dec_step (n / 10) (ch (48 + N.to_nat (n mod 10))) = n).
    { unfold dec_step. rewrite Hcode.
      set (q := (n / 10)%N) in *. set (m := (n mod 10)%N) in *. clearbody q m. lia. }
    destruct (N.eqb (n / 10) 0) eqn:Hq.
    + apply N.eqb_eq in Hq. cbn [fold_left]. f_equal. rewrite Hq in Hstep.
      unfold dec_step in *. exact Hstep.
    + rewrite IHf by exact Hqlt. cbn [fold_left]. rewrite Hstep. reflexivity.
Qed.

Lemma log2_fuel : forall n, (n < 2 ^ N.of_nat (S (N.to_nat (N.log2 n))))%N.
Proof.
  intros n. rewrite Nat2N.inj_succ, N2Nat.id.
  destruct n as [|p].
  - reflexivity.
  - apply N.log2_spec. reflexivity.
Qed.

(* int(str(n)) = n *)
Lemma N_of_dec_of_N : forall n, N_of_dec (dec_of_N n) = n.
Proof.
  intros n. exact (dec_aux_value _ n [] (log2_fuel n)).
Qed.

Lemma dec_aux_digits : forall fuel n acc,
    forallb isdigit acc = true -> forallb isdigit (dec_of_pos_aux fuel n acc) = true.
Proof.
  induction fuel as [|f IHf]; intros n acc Hacc; cbn [dec_of_pos_aux]; [exact Hacc|].
  destruct (digit_char _ (mod10_lt n)) as [Hdig _].
  assert (Hacc' : forallb isdigit (ch (48 + N.to_nat (n mod 10)) :: acc) = true).
  { cbn [forallb]. rewrite Hdig, Hacc. reflexivity. }
  destruct (N.eqb (n / 10) 0); [exact Hacc'|]. apply IHf. exact Hacc'.
Qed.

Lemma dec_aux_nonnil : forall fuel n acc, acc <> [] -> dec_of_pos_aux fuel n acc <> [].
Proof.
  induction fuel as [|f IHf]; intros n acc Hacc; cbn [dec_of_pos_aux]; [exact Hacc|].
  destruct (N.eqb (n / 10) 0); [discriminate|]. apply IHf. discriminate.
Qed.

Lemma dec_of_N_digits : forall n, forallb isdigit (dec_of_N n) = true.
Proof. intros n. unfold dec_of_N. apply dec_aux_digits. reflexivity. Qed.

Lemma dec_of_N_nonnil : forall n, dec_of_N n <> [].
Proof.
  intros n. unfold dec_of_N. cbn [dec_of_pos_aux].
  destruct (N.eqb (n / 10) 0); [discriminate|]. apply dec_aux_nonnil. discriminate.
Qed.

Lemma isdecimal_iff : forall s, isdecimal s = true <-> s <> [] /\ forallb isdigit s = true.
Proof.
  intros [|c s]; unfold isdecimal; split.
  - discriminate.
  - intros [H _]. contradiction.
  - intros H. split; [discriminate|exact H].
  - intros [_ H]. exact H.
Qed.

Lemma isdecimal_dec_of_N : forall n, isdecimal (dec_of_N n) = true.
Proof.
  intros n. apply isdecimal_iff. split; [apply dec_of_N_nonnil|apply dec_of_N_digits].
Qed.

Lemma dec_of_N_head_digit : forall n, exists c r, dec_of_N n = c :: r /\ isdigit c = true.
Proof.
  intros n. pose proof (dec_of_N_nonnil n) as Hn. pose proof (dec_of_N_digits n) as Hd.
  destruct (dec_of_N n) as [|c r]; [contradiction|].
  exists c, r. split; [reflexivity|].
  cbn [forallb] in Hd. apply andb_true_iff in Hd. apply Hd.
Qed.

(* characters of str(int): digits, with a leading minus sign for negatives *)
Definition intchar (c : ascii) : bool := isdigit c || ascii_eqb c (ch 45).

Lemma dec_of_Z_nonneg_digits : forall z, (0 <= z)%Z -> forallb isdigit (dec_of_Z z) = true.
Proof.
  intros [|p|p] Hz; cbn [dec_of_Z]; [reflexivity|apply dec_of_N_digits|lia].
Qed.

Lemma dec_of_Z_nonneg_N : forall z, (0 <= z)%Z -> dec_of_Z z = dec_of_N (Z.to_N z).
Proof. intros [|p|p] Hz; [reflexivity|reflexivity|lia]. Qed.

Lemma dec_of_Z_neg : forall p, dec_of_Z (Zneg p) = ch 45 :: dec_of_Z (Zpos p).
Proof. reflexivity. Qed.

Lemma dec_of_Z_intchars : forall z, forallb intchar (dec_of_Z z) = true.
Proof.
  assert (Hd : forall s, forallb isdigit s = true -> forallb intchar s = true).
  { intros s. apply forallb_impl. intros c Hc. unfold intchar. rewrite Hc. reflexivity. }
  intros [|p|p]; cbn [dec_of_Z].
  - reflexivity.
  - apply Hd. apply dec_of_N_digits.
  - cbn [forallb]. rewrite (Hd _ (dec_of_N_digits (Npos p))). reflexivity.
Qed.

Lemma dec_of_Z_nonnil : forall z, dec_of_Z z <> [].
Proof. intros [|p|p]; cbn [dec_of_Z]; [discriminate|apply dec_of_N_nonnil|discriminate]. Qed.

Lemma isdecimal_dec_of_Z_nonneg : forall z, (0 <= z)%Z -> isdecimal (dec_of_Z z) = true.
Proof.
  intros z Hz. apply isdecimal_iff. split; [apply dec_of_Z_nonnil|apply dec_of_Z_nonneg_digits; exact Hz].
Qed.

Lemma isdecimal_dec_of_Z_neg : forall p, isdecimal (dec_of_Z (Zneg p)) = false.
Proof. reflexivity. Qed.

Lemma N_of_dec_of_Z_nonneg : forall z, (0 <= z)%Z -> Z.of_N (N_of_dec (dec_of_Z z)) = z.
Proof.
  intros [|p|p] Hz; cbn [dec_of_Z]; [reflexivity| |lia].
  rewrite N_of_dec_of_N. reflexivity.
Qed.

(* identifier characters are the digits, the letters and the underscore: codes from 48 on, while
   blanks have codes up to 32 *)
Lemma is_id_char_code : forall c, is_id_char c = true -> 48 <= code c <= 122.
Proof.
  intros c H. unfold is_id_char, isalnum_c in H.
  apply orb_true_iff in H. destruct H as [H|H]; [apply orb_true_iff in H; destruct H as [H|H]|].
  - apply isalpha_c_code in H. lia.
  - apply isdigit_code in H. lia.
  - apply ascii_eqb_eq in H. subst c. change (code (ch 95)) with 95. lia.
Qed.

Lemma is_id_char_not_space : forall c, is_id_char c = true -> isspace c = false.
Proof.
  intros c H. destruct (is_id_char_code c H) as [Hlo _]. unfold isspace. cbv zeta.
  apply orb_false_iff. split; apply andb_false_iff; right; apply Nat.leb_gt; lia.
Qed.

Lemma isdigit_not_sign : forall c, isdigit c = true ->
    ascii_eqb c (ch 45) = false /\ ascii_eqb c (ch 43) = false.
Proof. intros c H. split; apply (ascii_eqb_class_false isdigit c _ H); reflexivity. Qed.

Lemma Z_of_dec_signed_digits : forall s,
    isdecimal s = true -> Z_of_dec_signed s = Some (Z.of_N (N_of_dec s)).
Proof.
  intros s Hs. pose proof Hs as Hs'. apply isdecimal_iff in Hs'. destruct Hs' as [Hnil Hdig].
  destruct s as [|c r]; [contradiction|].
  cbn [forallb] in Hdig. apply andb_true_iff in Hdig. destruct Hdig as [Hc _].
  destruct (isdigit_not_sign c Hc) as [Hm Hp].
  unfold Z_of_dec_signed. rewrite Hm, Hp, Hs. reflexivity.
Qed.

(* int(str(z)) = z *)
Lemma Z_of_dec_signed_dec_of_Z : forall z, Z_of_dec_signed (dec_of_Z z) = Some z.
Proof.
  intros [|p|p].
  - reflexivity.
  - cbn [dec_of_Z]. rewrite Z_of_dec_signed_digits by apply isdecimal_dec_of_N.
    rewrite N_of_dec_of_N. reflexivity.
  - cbn [dec_of_Z]. unfold Z_of_dec_signed. rewrite ascii_eqb_refl.
    rewrite isdecimal_dec_of_N, N_of_dec_of_N. reflexivity.
Qed.
