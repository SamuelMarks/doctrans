(* DocParseFacts: the ReST scanner and parser of DocParse.v, the style cascade, and the ReST part of property C01
   (C01Spec.v).  In this order:
   - the scanner on a text made of token-free blocks (scan_rest_blocks), style detection, junction lemmas for
     no_rest_token;
   - strings of one line: the fields of a  :key name: value  line, strip on padded text (edge_ok, strip_pad);
   - interpolate_defaults (lemmas named I_...) and _set_name_and_type (S_...), the latter in two steps shared with
     DocParseNGFacts (name_type_stage, name_type_tail);
   - one scanned line through the parse phase (step_key_line, step_ret_line and their instances; key_line_pad is the
     line with any blank padding after the colon), token-freeness of the pieces of a line;
   - the default sentence, and what one entry does to the parser state (entry_spec, entry_nodefault,
     entry_default_typ, entry_default_notyp);
   - reading the guard (param_class_inv), entries as blocks of text (entry, eblocks, mk_entry, param_entry_all,
     return_entry), the run over all entries (run_entries, final_params);
   - parse_blocks: the parser on summary part ++ blocks; C01_rest_partial_lemma is its instance for the guard;
   - the executable form of the property, its refutation, one witness per finding class, non-vacuity;
   - corollaries stated on lines and on class-free interfaces (param_pair_parse_lemma, C01_rest_no_defaults_lemma,
     param_class_int_default_lemma). *)
From Coq Require Import List Ascii Bool Arith ZArith Lia.
From Coq Require String.
Import String.StringSyntax.
From DT Require Import PyStr Sexp PyVal TyExpr PureUtils Defaults PyAst IR Extracted C17Spec DocParse C01Spec.
From DT Require Import PyStrFacts SplitFacts PureUtilsFacts DefaultsFacts.
Import ListNotations.

Lemma endswith_rev : forall p s, endswith p s = startswith (rev p) (rev s).
Proof. reflexivity. Qed.

Lemma contains_false_startswith : forall t s, contains t s = false -> startswith t s = false.
Proof.
  intros t s H. destruct (startswith t s) eqn:E; [|reflexivity].
  apply find_startswith in E. unfold contains in H. rewrite E in H. discriminate.
Qed.

Lemma contains_false_no_occ : forall t s a b, contains t s = false -> s <> a ++ t ++ b.
Proof.
  intros t s a b H. apply contains_false_iff in H.
  apply (proj1 (find_None_no_occurrence t s) H).
Qed.

Lemma app_eq_app_cases : forall (A : Type) (a b c d : list A),
    a ++ b = c ++ d ->
    (exists m, c = a ++ m /\ b = m ++ d) \/ (exists m, m <> [] /\ a = c ++ m /\ d = m ++ b).
Proof.
  intros A a b c d H. destruct (app_eq_app _ _ _ _ H) as [l [[H1 H2]|[H1 H2]]].
  - destruct l as [|x l]; [|right; exists (x :: l); split; [discriminate|split; assumption]].
    left. exists []. rewrite app_nil_r in *. cbn [app] in H2. subst a d. split; reflexivity.
  - left. exists l. split; assumption.
Qed.

Definition colon : ascii := ch 58.

Definition tok_shape (t : str) : bool :=
  match t with
  | c :: r => ascii_eqb c colon && negb (mem_c colon r)
  | [] => false
  end.

(* what the scanner theorem needs of the token tuple; discharged by computation for Extracted *)
Definition toks_wf (toks : list str) : bool :=
  forallb tok_shape toks
  && forallb (fun t => forallb (fun t' => negb (startswith t t') || str_eqb t t') toks) toks
  && nodup_str toks.

Lemma tok_shape_inv : forall t, tok_shape t = true -> exists r, t = colon :: r /\ ~ In colon r.
Proof.
  intros [|c r] H; [discriminate|]. cbn [tok_shape] in H.
  apply andb_true_iff in H. destruct H as [Hc Hr]. apply ascii_eqb_eq in Hc. subst c.
  exists r. split; [reflexivity|]. intros Hin. apply mem_c_In in Hin.
  rewrite Hin in Hr. discriminate.
Qed.

Lemma tok_shape_suffix : forall t t' a,
    tok_shape t = true -> tok_shape t' = true -> t = a ++ t' -> a = [].
Proof.
  intros t t' a Ht Ht' E.
  destruct (tok_shape_inv t Ht) as [r [Er Hr]]. destruct (tok_shape_inv t' Ht') as [r' [Er' _]].
  destruct a as [|x a]; [reflexivity|]. exfalso. rewrite Er, Er' in E. cbn [app] in E.
  injection E as _ E. apply Hr. rewrite E. apply in_or_app. right. left. reflexivity.
Qed.

Lemma nodup_str_NoDup : forall l, nodup_str l = true -> NoDup l.
Proof.
  induction l as [|x l IH]; intros H; [constructor|].
  cbn [nodup_str] in H. apply andb_true_iff in H. destruct H as [Hx Hl]. constructor; [|apply IH; exact Hl].
  intros Hin. apply negb_true_iff in Hx.
  assert (E : existsb (str_eqb x) l = true).
  { apply existsb_exists. exists x. split; [exact Hin|apply str_eqb_refl]. }
  congruence.
Qed.

Definition blk (b : str * str) : str := fst b ++ snd b.

Definition nonempty_flag {A} (l : list A) : bool := match l with [] => false | _ => true end.

Section ScanRest.
  Variable toks : list str.
  Hypothesis Hwf : toks_wf toks = true.

  Lemma wf_shape : forall t, In t toks -> tok_shape t = true.
  Proof.
    intros t Hin. unfold toks_wf in Hwf. apply andb_true_iff in Hwf. destruct Hwf as [H _].
    apply andb_true_iff in H. destruct H as [H _].
    exact (proj1 (forallb_forall _ _) H t Hin).
  Qed.

  Lemma wf_prefix_free : forall t t', In t toks -> In t' toks -> startswith t t' = true -> t = t'.
  Proof.
    intros t t' Hin Hin' Hsw. unfold toks_wf in Hwf. apply andb_true_iff in Hwf. destruct Hwf as [H _].
    apply andb_true_iff in H. destruct H as [_ H].
    pose proof (proj1 (forallb_forall _ _) H t Hin) as H1. cbv beta in H1.
    pose proof (proj1 (forallb_forall _ _) H1 t' Hin') as H2. cbv beta in H2.
    rewrite Hsw in H2. cbn [negb orb] in H2. apply str_eqb_eq. exact H2.
  Qed.

  Lemma suffix_unique : forall t t' x,
      In t toks -> In t' toks -> endswith t x = true -> endswith t' x = true -> t = t'.
  Proof.
    intros t t' x Hin Hin' H H'.
    apply endswith_iff in H. destruct H as [u Hu]. apply endswith_iff in H'. destruct H' as [u' Hu'].
    rewrite Hu in Hu'.
    destruct (app_eq_app_cases _ _ _ _ _ Hu') as [[m [H1 H2]]|[m [Hm [H1 H2]]]].
    - pose proof (tok_shape_suffix t t' m (wf_shape t Hin) (wf_shape t' Hin') H2) as E.
      subst m. exact H2.
    - pose proof (tok_shape_suffix t' t m (wf_shape t' Hin') (wf_shape t Hin) H2) as E.
      contradiction.
  Qed.

  Lemma fold_nomatch : forall l rs1 st,
      (forall t, In t l -> startswith (rev t) rs1 = false) ->
      fold_left (scan_tok_step rs1) l st = st.
  Proof.
    induction l as [|t l IH]; intros rs1 st H; [reflexivity|].
    cbn [fold_left]. unfold scan_tok_step at 2. destruct st as [rstack rscanned].
    rewrite (H t (or_introl eq_refl)). apply IH. intros t' Hin. apply H. right. exact Hin.
  Qed.

  Lemma fold_match : forall tok rs1 sc,
      In tok toks -> startswith (rev tok) rs1 = true ->
      fold_left (scan_tok_step rs1) toks (rs1, sc)
      = (firstn (List.length tok) rs1, (nonempty_flag sc, rev (skipn (List.length tok) rs1)) :: sc).
  Proof.
    intros tok rs1 sc Hin Hm.
    destruct (in_split _ _ Hin) as [l1 [l2 E]].
    assert (Hn12 : ~ In tok (l1 ++ l2)).
    { apply NoDup_remove_2. rewrite <- E. apply nodup_str_NoDup.
      unfold toks_wf in Hwf. apply andb_true_iff in Hwf. apply Hwf. }
    assert (Hn1 : ~ In tok l1) by (intros H; apply Hn12; apply in_or_app; left; exact H).
    assert (Hn2 : ~ In tok l2) by (intros H; apply Hn12; apply in_or_app; right; exact H).
    assert (Hother : forall t, In t toks -> startswith (rev t) rs1 = true -> t = tok).
    { intros t Ht Hmt. apply (suffix_unique t tok (rev rs1) Ht Hin).
      - rewrite endswith_rev, rev_involutive. exact Hmt.
      - rewrite endswith_rev, rev_involutive. exact Hm. }
    assert (Hno : forall l, (forall t, In t l -> In t toks) -> ~ In tok l ->
                            forall t, In t l -> startswith (rev t) rs1 = false).
    { intros l Hsub Hnot t Ht. destruct (startswith (rev t) rs1) eqn:Em; [|reflexivity].
      exfalso. apply Hnot. rewrite <- (Hother t (Hsub t Ht) Em). exact Ht. }
    rewrite E at 1. rewrite fold_left_app.
    rewrite (fold_nomatch l1).
    2:{ apply Hno; [|exact Hn1]. intros t Ht. rewrite E. apply in_or_app. left. exact Ht. }
    cbn [fold_left]. unfold scan_tok_step at 2. rewrite Hm.
    assert (Hne : Nat.eqb (List.length tok) 0 = false).
    { destruct (tok_shape_inv tok (wf_shape tok Hin)) as [r [Er _]]. subst tok. reflexivity. }
    rewrite Hne.
    rewrite (fold_nomatch l2).
    2:{ apply Hno; [|exact Hn2]. intros t Ht. rewrite E. apply in_or_app. right. right. exact Ht. }
    destruct sc; reflexivity.
  Qed.

  Lemma run_nomatch : forall x cur sc rest,
      (forall x1 x2, x = x1 ++ x2 -> x1 <> [] -> forall t, In t toks -> endswith t (cur ++ x1) = false) ->
      scan_rest_chars toks (x ++ rest) (rev cur) sc = scan_rest_chars toks rest (rev (cur ++ x)) sc.
  Proof.
    induction x as [|c x IH]; intros cur sc rest H.
    - rewrite app_nil_r. reflexivity.
    - cbn [app scan_rest_chars].
      assert (E : c :: rev cur = rev (cur ++ [c])).
      { rewrite rev_app_distr. reflexivity. }
      rewrite E. rewrite fold_nomatch.
      2:{ intros t Ht. rewrite <- endswith_rev. apply (H [c] x eq_refl); [discriminate|exact Ht]. }
      cbn [fst snd]. rewrite IH.
      + rewrite <- app_assoc. reflexivity.
      + intros x1 x2 Ex Hx1 t Ht. rewrite <- app_assoc. cbn [app].
        apply (H (c :: x1) x2); [rewrite Ex; reflexivity|discriminate|exact Ht].
  Qed.

  Lemma run_token : forall tok cur sc rest,
      In tok toks ->
      (forall t1 t2, tok = t1 ++ t2 -> t1 <> [] -> t2 <> [] ->
                     forall t, In t toks -> endswith t (cur ++ t1) = false) ->
      scan_rest_chars toks (tok ++ rest) (rev cur) sc
      = scan_rest_chars toks rest (rev tok) ((nonempty_flag sc, cur) :: sc).
  Proof.
    intros tok cur sc rest Hin H.
    destruct (tok_shape_inv tok (wf_shape tok Hin)) as [r0 [Er0 _]].
    assert (Hsplit : exists init c, tok = init ++ [c]).
    { destruct (exists_last (l := tok)) as [init [c Ec]]; [subst tok; discriminate|].
      exists init, c. exact Ec. }
    destruct Hsplit as [init [c Ec]].
    rewrite Ec at 1. rewrite <- app_assoc. rewrite run_nomatch.
    2:{ intros x1 x2 Ex Hx1 t Ht. apply (H x1 (x2 ++ [c])); [|exact Hx1| |exact Ht].
        - rewrite Ec, Ex, app_assoc. reflexivity.
        - destruct x2; discriminate. }
    cbn [app scan_rest_chars].
    assert (E : c :: rev (cur ++ init) = rev tok ++ rev cur).
    { rewrite Ec. rewrite !rev_app_distr. reflexivity. }
    rewrite E. rewrite (fold_match tok); [|exact Hin|apply startswith_app].
    cbn [fst snd].
    assert (Hl : List.length tok = List.length (rev tok)) by (symmetry; apply rev_length).
    rewrite Hl, firstn_app_exact, skipn_app_exact, rev_involutive. reflexivity.
  Qed.

  Definition token_free (s : str) : Prop := forall t, In t toks -> contains t s = false.

  Lemma cond_doc : forall doc, token_free doc ->
      forall x1 x2, doc = x1 ++ x2 -> x1 <> [] -> forall t, In t toks -> endswith t ([] ++ x1) = false.
  Proof.
    intros doc Hfree x1 x2 E _ t Ht. cbn [app].
    destruct (endswith t x1) eqn:Ee; [|reflexivity]. exfalso.
    apply endswith_iff in Ee. destruct Ee as [u Eu].
    apply (contains_false_no_occ t doc u x2 (Hfree t Ht)). rewrite E, Eu, <- app_assoc. reflexivity.
  Qed.

  Lemma cond_body : forall tk body, In tk toks -> token_free body ->
      forall x1 x2, body = x1 ++ x2 -> x1 <> [] -> forall t, In t toks -> endswith t (tk ++ x1) = false.
  Proof.
    intros tk body Hin Hfree x1 x2 E Hx1 t Ht.
    destruct (endswith t (tk ++ x1)) eqn:Ee; [|reflexivity]. exfalso.
    apply endswith_iff in Ee. destruct Ee as [u Eu].
    destruct (app_eq_app_cases _ _ _ _ _ Eu) as [[m [H1 H2]]|[m [Hm [H1 H2]]]].
    - (* t lies inside x1 *)
      apply (contains_false_no_occ t body m x2 (Hfree t Ht)). rewrite E, H2, <- app_assoc. reflexivity.
    - (* t = m ++ x1 with m a non-empty suffix of tk *)
      destruct (tok_shape_inv tk (wf_shape tk Hin)) as [rk [Erk Hrk]].
      destruct (tok_shape_inv t (wf_shape t Ht)) as [rt [Ert Hrt]].
      destruct u as [|y u].
      + (* m = tk : tk is a proper prefix of t *)
        cbn [app] in H1. subst m.
        assert (Hsw : startswith tk t = true) by (rewrite H2; apply startswith_app).
        pose proof (wf_prefix_free tk t Hin Ht Hsw) as Et. rewrite <- Et in H2.
        apply (f_equal (@List.length ascii)) in H2. rewrite app_length in H2.
        destruct x1; [contradiction|cbn [List.length] in H2; lia].
      + (* m sits in the tail of tk and begins with a colon *)
        destruct m as [|z m]; [contradiction|].
        rewrite Ert in H2. cbn [app] in H2. injection H2 as Hz _. subst z.
        rewrite Erk in H1. cbn [app] in H1. injection H1 as _ H1.
        apply Hrk. rewrite H1. apply in_or_app. right. left. reflexivity.
  Qed.

  Lemma cond_tok : forall tok cur, In tok toks ->
      forall t1 t2, tok = t1 ++ t2 -> t1 <> [] -> t2 <> [] ->
                    forall t, In t toks -> endswith t (cur ++ t1) = false.
  Proof.
    intros tok cur Hin t1 t2 E Ht1 Ht2 t Ht.
    destruct (endswith t (cur ++ t1)) eqn:Ee; [|reflexivity]. exfalso.
    apply endswith_iff in Ee. destruct Ee as [u Eu].
    destruct (tok_shape_inv tok (wf_shape tok Hin)) as [rk [Erk Hrk]].
    destruct (tok_shape_inv t (wf_shape t Ht)) as [rt [Ert Hrt]].
    destruct t1 as [|a t1]; [contradiction|].
    assert (Ea : a = colon). { rewrite Erk in E. cbn [app] in E. injection E as E _. symmetry. exact E. }
    subst a.
    destruct (app_eq_app_cases _ _ _ _ _ Eu) as [[m [H1 H2]]|[m [Hm [H1 H2]]]].
    - (* t is a suffix of t1 = colon :: ... *)
      destruct m as [|z m].
      + (* t = t1 : a proper prefix of tok *)
        cbn [app] in H2.
        assert (Hsw : startswith t tok = true) by (rewrite E, H2; apply startswith_app).
        pose proof (wf_prefix_free t tok Ht Hin Hsw) as Et.
        rewrite <- Et, H2 in E. apply (f_equal (@List.length ascii)) in E. rewrite app_length in E.
        destruct t2; [contradiction|cbn [List.length] in E; lia].
      + (* t begins inside the tail of t1, hence of tok *)
        cbn [app] in H2. injection H2 as _ H2.
        apply Hrk. rewrite Erk in E. cbn [app] in E. injection E as E. rewrite E, H2, Ert.
        apply in_or_app. left. apply in_or_app. right. left. reflexivity.
    - (* t = m ++ t1 with m non-empty: a colon inside the tail of t *)
      destruct m as [|z m]; [contradiction|].
      rewrite Ert in H2. cbn [app] in H2. injection H2 as _ H2.
      apply Hrt. rewrite H2. apply in_or_app. right. left. reflexivity.
  Qed.

  Fixpoint scan_blocks_spec (blocks : list (str * str)) (cur : str) (sc : list (bool * str))
    : str * list (bool * str) :=
    match blocks with
    | [] => (rev cur, sc)
    | b :: r => scan_blocks_spec r (blk b) ((nonempty_flag sc, cur) :: sc)
    end.

  Definition block_ok (b : str * str) : Prop := In (fst b) toks /\ token_free (snd b).

  Lemma run_blocks : forall blocks cur sc,
      (forall b, In b blocks -> block_ok b) ->
      (cur = [] -> blocks = []) ->
      scan_rest_chars toks (concat (map blk blocks)) (rev cur) sc = scan_blocks_spec blocks cur sc.
  Proof.
    induction blocks as [|b blocks IH]; intros cur sc Hok Hcur; [reflexivity|].
    destruct (Hok b (or_introl eq_refl)) as [Hin Hfree].
    cbn [map concat scan_blocks_spec]. unfold blk at 1. rewrite <- app_assoc.
    rewrite run_token; [|exact Hin|apply cond_tok; exact Hin].
    rewrite run_nomatch; [|apply (cond_body (fst b) (snd b) Hin Hfree)].
    apply IH.
    - intros b' Hb'. apply Hok. right. exact Hb'.
    - intros E. exfalso. destruct (tok_shape_inv _ (wf_shape _ Hin)) as [r [Er _]].
      unfold blk in E. rewrite Er in E. discriminate.
  Qed.

  Lemma spec_closed : forall blocks cur sc,
      blocks <> [] ->
      exists lc, fst (scan_blocks_spec blocks cur sc) = rev lc
                 /\ (exists b, In b blocks /\ lc = blk b)
                 /\ rev (snd (scan_blocks_spec blocks cur sc)) ++ [(true, lc)]
                    = rev sc ++ (nonempty_flag sc, cur) :: map (fun b => (true, blk b)) blocks.
  Proof.
    induction blocks as [|b blocks IH]; intros cur sc Hne; [contradiction|].
    cbn [scan_blocks_spec]. destruct blocks as [|b' blocks].
    - exists (blk b). cbn [scan_blocks_spec fst snd map]. split; [reflexivity|]. split.
      + exists b. split; [left; reflexivity|reflexivity].
      + cbn [rev]. rewrite <- app_assoc. reflexivity.
    - destruct (IH (blk b) ((nonempty_flag sc, cur) :: sc)) as [lc [H1 [[b0 [Hb0 Elc]] H3]]]; [discriminate|].
      exists lc. split; [exact H1|]. split.
      + exists b0. split; [right; exact Hb0|exact Elc].
      + rewrite H3. cbn [rev nonempty_flag]. rewrite <- app_assoc. reflexivity.
  Qed.

  (* the scanner on  doc ++ tok_1 ++ body_1 ++ ... ++ tok_k ++ body_k *)
  Theorem scan_rest_with_blocks : forall doc blocks,
      token_free doc ->
      (forall b, In b blocks -> block_ok b) ->
      blocks <> [] \/ doc <> [] ->
      scan_rest_with toks (doc ++ concat (map blk blocks))
      = (false, doc) :: map (fun b => (true, blk b)) blocks.
  Proof.
    intros doc blocks Hdoc Hok Hne.
    unfold scan_rest_with. cbv zeta.
    assert (Hstart : forall rest, scan_rest_chars toks (doc ++ rest) [] []
                                  = scan_rest_chars toks rest (rev doc) []).
    { intros rest. apply (run_nomatch doc [] [] rest (cond_doc doc Hdoc)). }
    rewrite !Hstart.
    destruct blocks as [|b blocks].
    - cbn [map concat scan_rest_chars fst snd].
      destruct Hne as [Hne|Hne]; [contradiction|].
      destruct (rev doc) as [|c rd] eqn:Erd.
      + exfalso. apply Hne. rewrite <- (rev_involutive doc), Erd. reflexivity.
      + rewrite <- Erd, rev_involutive. cbn [orb rev app].
        assert (Hno : existsb (fun t => startswith t doc) toks = false).
        { destruct (existsb (fun t => startswith t doc) toks) eqn:Ex; [|reflexivity].
          apply existsb_exists in Ex. destruct Ex as [t [Ht Hs]].
          rewrite (contains_false_startswith t doc (Hdoc t Ht)) in Hs. discriminate. }
        rewrite Hno. reflexivity.
    - assert (Hrun : scan_rest_chars toks (concat (map blk (b :: blocks))) (rev doc) []
                     = scan_blocks_spec (b :: blocks) doc []).
      { destruct doc as [|d0 doc'].
        - (* empty doc: the first token is read against the empty stack *)
          destruct (Hok b (or_introl eq_refl)) as [Hin Hfree].
          cbn [map concat scan_blocks_spec]. unfold blk at 1. rewrite <- app_assoc.
          rewrite run_token; [|exact Hin|apply cond_tok; exact Hin].
          rewrite run_nomatch; [|apply (cond_body (fst b) (snd b) Hin Hfree)].
          apply run_blocks.
          + intros b' Hb'. apply Hok. right. exact Hb'.
          + intros E. exfalso. destruct (tok_shape_inv _ (wf_shape _ Hin)) as [r [Er _]].
            unfold blk in E. rewrite Er in E. discriminate.
        - apply run_blocks; [exact Hok|discriminate]. }
      rewrite Hrun.
      destruct (spec_closed (b :: blocks) doc []) as [lc [H1 [[b0 [Hb0 Elc]] H3]]]; [discriminate|].
      rewrite H1.
      destruct (rev lc) as [|c rl] eqn:Erl.
      + exfalso. destruct (Hok b0 Hb0) as [Hin _].
        destruct (tok_shape_inv _ (wf_shape _ Hin)) as [r [Er _]].
        assert (El : lc = []) by (rewrite <- (rev_involutive lc), Erl; reflexivity).
        rewrite Elc in El. unfold blk in El. rewrite Er in El. discriminate.
      + rewrite <- Erl, rev_involutive.
        assert (Hflag : existsb (fun t => startswith t lc) toks = true).
        { destruct (Hok b0 Hb0) as [Hin _]. apply existsb_exists. exists (fst b0).
          split; [exact Hin|]. rewrite Elc. apply startswith_app. }
        rewrite Hflag, orb_true_r. cbn [rev]. exact H3.
  Qed.
End ScanRest.

Lemma rest_scan_tokens_eq : rest_scan_tokens = Extracted.rest_tokens.
Proof. reflexivity. Qed.

Lemma rest_scan_tokens_wf : toks_wf rest_scan_tokens = true.
Proof. vm_compute. reflexivity. Qed.

Lemma no_rest_token_spec : forall x, no_rest_token x = true <->
    forall t, In t Extracted.rest_tokens -> contains t x = false.
Proof.
  intros x. unfold no_rest_token. rewrite forallb_forall. split; intros H t Ht.
  - apply negb_true_iff. apply H. exact Ht.
  - apply negb_true_iff. apply H. exact Ht.
Qed.

Theorem scan_rest_blocks : forall doc blocks,
    no_rest_token doc = true ->
    (forall b, In b blocks -> In (fst b) rest_scan_tokens /\ no_rest_token (snd b) = true) ->
    blocks <> [] \/ doc <> [] ->
    scan_rest (doc ++ concat (map blk blocks))
    = (false, doc) :: map (fun b => (true, blk b)) blocks.
Proof.
  intros doc blocks Hdoc Hok Hne. unfold scan_rest.
  assert (Hfree : forall s, no_rest_token s = true -> token_free rest_scan_tokens s).
  { intros s Hs t Ht. rewrite rest_scan_tokens_eq in Ht. exact (proj1 (no_rest_token_spec s) Hs t Ht). }
  apply (scan_rest_with_blocks rest_scan_tokens rest_scan_tokens_wf).
  - apply Hfree. exact Hdoc.
  - intros b Hb. destruct (Hok b Hb) as [H1 H2]. split; [exact H1|apply Hfree; exact H2].
  - exact Hne.
Qed.

Lemma existsb_contains_true : forall (toks : list str) d t,
    In t toks -> contains t d = true -> existsb (fun t => contains t d) toks = true.
Proof. intros toks d t Hin Hc. apply existsb_exists. exists t. split; assumption. Qed.

Lemma existsb_false : forall {A} (f : A -> bool) l, (forall x, In x l -> f x = false) -> existsb f l = false.
Proof.
  intros A f l H. destruct (existsb f l) eqn:E; [|reflexivity].
  apply existsb_exists in E. destruct E as [x [Hin Hx]]. rewrite (H x Hin) in Hx. discriminate.
Qed.

Theorem detect_style_rest : forall d t,
    In t Extracted.rest_tokens -> contains t d = true -> detect_style (Some d) = Rest.
Proof.
  intros d t Hin Hc. unfold detect_style. rewrite (existsb_contains_true _ d t Hin Hc). reflexivity.
Qed.

Theorem detect_style_google : forall d t,
    no_rest_token d = true -> In t Extracted.google_tokens -> contains t d = true ->
    detect_style (Some d) = Google.
Proof.
  intros d t Hno Hin Hc. unfold detect_style.
  rewrite (existsb_false _ _ (proj1 (no_rest_token_spec d) Hno)), (existsb_contains_true _ d t Hin Hc). reflexivity.
Qed.

Theorem detect_style_numpydoc : forall d,
    no_rest_token d = true ->
    (forall t, In t Extracted.google_tokens -> contains t d = false) ->
    detect_style (Some d) = Numpydoc.
Proof.
  intros d Hno Hg. unfold detect_style.
  rewrite (existsb_false _ _ (proj1 (no_rest_token_spec d) Hno)), (existsb_false _ _ Hg). reflexivity.
Qed.

Theorem detect_style_None : detect_style None = Rest.
Proof. reflexivity. Qed.

(* the section tokens of one style contain no token of a style tested earlier in the cascade
   (computed from the live token tuples) *)
Definition tokens_disjoint : bool :=
  forallb no_rest_token (Extracted.google_tokens ++ Extracted.numpydoc_tokens)
  && forallb (fun n => forallb (fun g => negb (contains g n)) Extracted.google_tokens) Extracted.numpydoc_tokens
  && forallb (fun r => forallb (fun g => negb (contains g r))
                               (Extracted.google_tokens ++ Extracted.numpydoc_tokens)) Extracted.rest_tokens
  && forallb (fun g => forallb (fun n => negb (contains n g)) Extracted.numpydoc_tokens) Extracted.google_tokens.

Theorem style_tokens_disjoint : tokens_disjoint = true.
Proof. vm_compute. reflexivity. Qed.

(* every ReST token is a colon followed by lower-case letters, so a token cannot straddle a
   junction whose right side does not begin with a lower-case letter, nor one whose left side
   ends in something that is neither a colon nor a lower-case letter *)
Definition tok_lower (t : str) : bool :=
  match t with
  | c :: r => ascii_eqb c colon && forallb islower_c r
  | [] => false
  end.

Lemma rest_tokens_lower : forallb tok_lower Extracted.rest_tokens = true.
Proof. vm_compute. reflexivity. Qed.

Lemma contains_straddle : forall t a b,
    contains t a = false -> contains t b = false -> contains t (a ++ b) = true ->
    exists m m', m <> [] /\ m' <> [] /\ t = m ++ m' /\ endswith m a = true /\ startswith m' b = true.
Proof.
  intros t a b Ha Hb Hab. apply contains_true_iff in Hab. destruct Hab as [u [w E]].
  destruct (app_eq_app_cases _ _ _ _ _ E) as [[m [H1 H2]]|[m [Hm [H1 H2]]]].
  - exfalso. exact (contains_false_no_occ t b m w Hb H2).
  - symmetry in H2. destruct (app_eq_app_cases _ _ _ _ _ H2) as [[m' [H3 H4]]|[m' [Hm' [H3 H4]]]].
    + destruct m' as [|y m'].
      * exfalso. apply (contains_false_no_occ t a u [] Ha).
        rewrite H1, H3, !app_nil_r. reflexivity.
      * exists m, (y :: m'). split; [exact Hm|]. split; [discriminate|]. split; [exact H3|]. split.
        -- apply endswith_iff. exists u. exact H1.
        -- apply startswith_iff. exists w. exact H4.
    + exfalso. apply (contains_false_no_occ t a u m' Ha). rewrite H1, H3. reflexivity.
Qed.

Theorem no_rest_token_app_r : forall a b,
    no_rest_token a = true -> no_rest_token b = true ->
    (forall c, head_c b = Some c -> islower_c c = false) ->
    no_rest_token (a ++ b) = true.
Proof.
  intros a b Ha Hb Hhead. apply no_rest_token_spec. intros t Ht.
  destruct (contains t (a ++ b)) eqn:E; [|reflexivity]. exfalso.
  pose proof (proj1 (no_rest_token_spec a) Ha t Ht) as Ha'.
  pose proof (proj1 (no_rest_token_spec b) Hb t Ht) as Hb'.
  destruct (contains_straddle t a b Ha' Hb' E) as [m [m' [Hm [Hm' [Et [_ Hsw]]]]]].
  pose proof (proj1 (forallb_forall _ _) rest_tokens_lower t Ht) as Hl.
  destruct m as [|x m]; [contradiction|]. destruct m' as [|y m']; [contradiction|].
  rewrite Et in Hl. cbn [app tok_lower] in Hl. apply andb_true_iff in Hl. destruct Hl as [_ Hl].
  rewrite forallb_app in Hl. apply andb_true_iff in Hl. destruct Hl as [_ Hl].
  cbn [forallb] in Hl. apply andb_true_iff in Hl. destruct Hl as [Hy _].
  destruct b as [|c b]; [discriminate|]. cbn [startswith] in Hsw.
  apply andb_true_iff in Hsw. destruct Hsw as [Hyc _]. apply ascii_eqb_eq in Hyc. subst c.
  rewrite (Hhead y eq_refl) in Hy. discriminate.
Qed.

Theorem no_rest_token_app_l : forall a b,
    no_rest_token a = true -> no_rest_token b = true ->
    (forall c, last_c a = Some c -> islower_c c = false /\ c <> colon) ->
    no_rest_token (a ++ b) = true.
Proof.
  intros a b Ha Hb Hlast. apply no_rest_token_spec. intros t Ht.
  destruct (contains t (a ++ b)) eqn:E; [|reflexivity]. exfalso.
  pose proof (proj1 (no_rest_token_spec a) Ha t Ht) as Ha'.
  pose proof (proj1 (no_rest_token_spec b) Hb t Ht) as Hb'.
  destruct (contains_straddle t a b Ha' Hb' E) as [m [m' [Hm [Hm' [Et [Hew _]]]]]].
  pose proof (proj1 (forallb_forall _ _) rest_tokens_lower t Ht) as Hl.
  destruct (exists_last Hm) as [mi [c Em]].
  assert (Hlc : last_c a = Some c).
  { apply endswith_iff in Hew. destruct Hew as [u Eu]. apply last_c_spec.
    exists (u ++ mi). rewrite Eu, Em, app_assoc. reflexivity. }
  destruct (Hlast c Hlc) as [Hnl Hnc].
  rewrite Et, Em in Hl. destruct mi as [|x mi].
  - cbn [app tok_lower] in Hl. apply andb_true_iff in Hl. destruct Hl as [Hc _].
    apply ascii_eqb_eq in Hc. contradiction.
  - cbn [app tok_lower] in Hl. apply andb_true_iff in Hl. destruct Hl as [_ Hl].
    rewrite <- app_assoc in Hl. rewrite forallb_app in Hl. apply andb_true_iff in Hl. destruct Hl as [_ Hl].
    cbn [app forallb] in Hl. apply andb_true_iff in Hl. destruct Hl as [Hc _]. congruence.
Qed.

Lemma contains_block_token : forall doc blocks b,
    In b blocks -> contains (fst b) (doc ++ concat (map blk blocks)) = true.
Proof.
  intros doc blocks b Hin. apply in_split in Hin. destruct Hin as [l1 [l2 E]]. subst blocks.
  rewrite map_app, concat_app. cbn [map concat]. unfold blk at 2.
  apply contains_true_iff. exists (doc ++ concat (map blk l1)), (snd b ++ concat (map blk l2)).
  rewrite <- !app_assoc. reflexivity.
Qed.

Lemma norm_idx_nat : forall len k, norm_idx len (Z.of_nat k) = Nat.min k len.
Proof.
  intros len k. unfold norm_idx. destruct (Z.ltb_spec (Z.of_nat k) 0) as [H|H]; [lia|].
  rewrite Nat2Z.id. reflexivity.
Qed.

Lemma find_z_skip : forall sub s k,
    find_z sub s k = match find sub (skipn k s) with Some i => Z.of_nat (k + i) | None => (-1)%Z end.
Proof.
  intros sub s k. unfold find_z. rewrite find_from_shift. unfold find.
  destruct (find_from sub (skipn k s) 0); reflexivity.
Qed.

Lemma key_line_fields : forall tokn n rest,
    mem_c sp tokn = false -> mem_c colon n = false ->
    let line := tokn ++ sp :: n ++ colon :: rest in
    let fst_space := py_find [sp] line 0 in
    let nxt_colon := py_find [colon] line fst_space in
    py_slice line (fst_space + 1) nxt_colon = n
    /\ py_slice_from line (nxt_colon + 1) = rest.
Proof.
  intros tokn n rest Htok Hn line fst_space nxt_colon.
  assert (Hlen : List.length line = List.length tokn + 1 + List.length n + 1 + List.length rest).
  { unfold line. rewrite app_length. cbn [List.length]. rewrite app_length. cbn [List.length]. lia. }
  assert (Hfs : fst_space = Z.of_nat (List.length tokn)).
  { unfold fst_space, py_find. change 0%Z with (Z.of_nat 0). rewrite norm_idx_nat.
    cbn [Nat.min]. rewrite find_z_skip. cbn [skipn]. unfold line.
    rewrite (find_char_first sp tokn _ Htok). reflexivity. }
  assert (Hnc : nxt_colon = Z.of_nat (List.length tokn + 1 + List.length n)).
  { unfold nxt_colon, py_find. rewrite Hfs, norm_idx_nat.
    rewrite Nat.min_l by lia. rewrite find_z_skip. unfold line. rewrite skipn_app_exact.
    change (sp :: n ++ colon :: rest) with ((sp :: n) ++ colon :: rest).
    rewrite find_char_first.
    - cbn [List.length]. f_equal. lia.
    - rewrite mem_c_cons. rewrite Hn. reflexivity. }
  split.
  - unfold py_slice. rewrite Hfs, Hnc.
    replace (Z.of_nat (List.length tokn) + 1)%Z with (Z.of_nat (List.length tokn + 1)) by lia.
    rewrite !norm_idx_nat. rewrite !Nat.min_l by lia. unfold slice, line.
    replace (List.length tokn + 1) with (List.length (tokn ++ [sp])) by (rewrite app_length; reflexivity).
    change (tokn ++ sp :: n ++ colon :: rest) with (tokn ++ [sp] ++ n ++ colon :: rest).
    rewrite app_assoc. rewrite skipn_app_exact.
    replace (List.length (tokn ++ [sp]) + List.length n - List.length (tokn ++ [sp])) with (List.length n) by lia.
    apply firstn_app_exact.
  - unfold py_slice_from. rewrite Hnc.
    replace (Z.of_nat (List.length tokn + 1 + List.length n) + 1)%Z
      with (Z.of_nat (List.length tokn + 1 + List.length n + 1)) by lia.
    rewrite norm_idx_nat, Nat.min_l by lia. unfold line.
    change (tokn ++ sp :: n ++ colon :: rest) with (tokn ++ [sp] ++ n ++ [colon] ++ rest).
    rewrite !app_assoc.
    replace (List.length tokn + 1 + List.length n + 1) with (List.length (((tokn ++ [sp]) ++ n) ++ [colon])).
    + apply skipn_app_exact.
    + rewrite !app_length. reflexivity.
Qed.

Lemma ret_line_value : forall key rest,
    mem_c colon key = false ->
    let line := colon :: key ++ colon :: rest in
    py_slice_from line (py_find [colon] line 1 + 1) = rest.
Proof.
  intros key rest Hk line.
  assert (Hlen : List.length line = 1 + List.length key + 1 + List.length rest).
  { unfold line. cbn [List.length]. rewrite app_length. cbn [List.length]. lia. }
  unfold py_find. change 1%Z with (Z.of_nat 1). rewrite norm_idx_nat, Nat.min_l by lia.
  rewrite find_z_skip.
  assert (Hf : find [colon] (skipn 1 line) = Some (List.length key)).
  { unfold line. cbn [skipn]. apply find_char_first. exact Hk. }
  rewrite Hf. unfold py_slice_from.
  replace (Z.of_nat (1 + List.length key) + Z.of_nat 1)%Z with (Z.of_nat (1 + List.length key + 1)) by lia.
  rewrite norm_idx_nat, Nat.min_l by lia. unfold line.
  replace (key ++ colon :: rest) with ((key ++ [colon]) ++ rest) by (rewrite <- app_assoc; reflexivity).
  change (colon :: (key ++ [colon]) ++ rest) with ((colon :: key ++ [colon]) ++ rest).
  replace (1 + List.length key + 1) with (List.length (colon :: key ++ [colon])).
  - apply skipn_app_exact.
  - cbn [List.length]. rewrite app_length. cbn [List.length]. lia.
Qed.

Lemma lstrip_pad : forall a s, forallb isspace a = true -> lstrip (a ++ s) = lstrip s.
Proof. intros a s H. unfold lstrip, lstrip_by. apply dropwhile_app_all. exact H. Qed.

Lemma rstrip_pad : forall s b, forallb isspace b = true -> rstrip (s ++ b) = rstrip s.
Proof.
  intros s b H. unfold rstrip, rstrip_by. rewrite rev_app_distr. rewrite dropwhile_app_all; [reflexivity|].
  rewrite forallb_forall in *. intros c Hc. apply H. apply in_rev. exact Hc.
Qed.

Definition edge_ok (x : str) : Prop :=
  (exists c r, x = c :: r /\ isspace c = false) /\ (exists c, last_c x = Some c /\ isspace c = false).

Lemma strip_edge_ok : forall x, edge_ok x -> strip x = x.
Proof.
  intros x [[c [r [E Hc]]] [l [Hl Hls]]]. unfold strip. apply strip_by_id.
  - intros c' Hc'. rewrite E in Hc'. injection Hc' as Hc'. subst c'. exact Hc.
  - intros c' Hc'. rewrite Hl in Hc'. injection Hc' as Hc'. subst c'. exact Hls.
Qed.

Lemma strip_pad : forall a x b,
    forallb isspace a = true -> forallb isspace b = true -> edge_ok x -> strip (a ++ x ++ b) = x.
Proof.
  intros a x b Ha Hb Hx. pose proof Hx as [[c [r [E Hc]]] [l [Hl Hls]]].
  unfold strip, strip_by. change (lstrip_by isspace) with lstrip. change (rstrip_by isspace) with rstrip.
  rewrite lstrip_pad by exact Ha.
  assert (El : lstrip (x ++ b) = x ++ b).
  { unfold lstrip. apply lstrip_by_id. intros c' Hc'. rewrite E in Hc'. injection Hc' as Hc'. subst c'. exact Hc. }
  rewrite El, rstrip_pad by exact Hb.
  unfold rstrip. apply rstrip_by_id. intros c' Hc'. rewrite Hl in Hc'. injection Hc' as Hc'. subst c'. exact Hls.
Qed.

Lemma dropwhile_length : forall (p : ascii -> bool) s, List.length (dropwhile p s) <= List.length s.
Proof.
  intros p s. induction s as [|c s IH]; [reflexivity|]. cbn [dropwhile].
  destruct (p c); cbn [List.length]; lia.
Qed.

Lemma strip_fix_edge_ok : forall x, x <> [] -> strip x = x -> edge_ok x.
Proof.
  intros x Hne H. unfold strip, strip_by, lstrip_by, rstrip_by in H.
  assert (Hl : dropwhile isspace x = x).
  { destruct x as [|c r]; [contradiction|]. cbn [dropwhile] in *.
    destruct (isspace c) eqn:Ec; [|reflexivity]. exfalso.
    pose proof (dropwhile_length isspace r) as H1.
    pose proof (dropwhile_length isspace (rev (dropwhile isspace r))) as H2.
    rewrite rev_length in H2.
    apply (f_equal (@List.length ascii)) in H. rewrite rev_length in H.
    cbn [List.length] in H. lia. }
  rewrite Hl in H. split.
  - destruct x as [|c r]; [contradiction|]. exists c, r. split; [reflexivity|].
    cbn [dropwhile] in Hl. destruct (isspace c) eqn:Ec; [|reflexivity].
    pose proof (dropwhile_length isspace r) as H1. apply (f_equal (@List.length ascii)) in Hl.
    cbn [List.length] in Hl. lia.
  - destruct (last_c x) as [l|] eqn:El.
    + exists l. split; [reflexivity|]. apply last_c_spec in El. destruct El as [r Er].
      rewrite Er in H. rewrite rev_app_distr in H. cbn [rev app dropwhile] in H.
      destruct (isspace l) eqn:Ec; [|reflexivity].
      apply (f_equal (@List.length ascii)) in H. rewrite rev_length in H.
      pose proof (dropwhile_length isspace (rev r)) as H1. rewrite rev_length in H1.
      rewrite app_length in H. cbn [List.length] in H. lia.
    + apply last_c_nil_iff in El. contradiction.
Qed.

(* the doc normalisation of _set_name_and_type is the identity on a clean line *)
Lemma doc_norm_id : forall ww d, mem_c nl d = false -> edge_ok d ->
    rstrip (if ww : bool then join [sp] (map strip (split_nl d)) else d) = d.
Proof.
  intros ww d Hnl He.
  assert (Hr : rstrip d = d).
  { destruct He as [_ [l [Hl Hls]]]. unfold rstrip. apply rstrip_by_id.
    intros c' Hc'. rewrite Hl in Hc'. injection Hc' as Hc'. subst c'. exact Hls. }
  destruct ww; [|exact Hr].
  rewrite split_nl_one by exact Hnl. cbn [map join]. rewrite (strip_edge_ok d He). exact Hr.
Qed.

Lemma replace_aux_no_bt : forall fuel t,
    mem_c bt t = false -> List.length t < fuel -> replace_aux fuel (L "```") [] t = t.
Proof.
  induction fuel as [|f IH]; intros t Ht Hf; [lia|].
  destruct t as [|c r]; [reflexivity|]. cbn [replace_aux].
  rewrite mem_c_cons in Ht. apply orb_false_iff in Ht. destruct Ht as [Hc Hr].
  assert (Hsw : startswith (L "```") (c :: r) = false).
  { change (L "```") with [bt; bt; bt]. cbn [startswith]. rewrite Hc. reflexivity. }
  rewrite Hsw. f_equal. apply IH; [exact Hr|cbn [List.length] in Hf; lia].
Qed.

Lemma replace_aux_bt_tail : forall fuel t,
    mem_c bt t = false -> List.length t + 3 < fuel ->
    replace_aux fuel (L "```") [] (t ++ L "```") = t.
Proof.
  induction fuel as [|f IH]; intros t Ht Hf; [lia|].
  destruct t as [|c r].
  - cbn [app]. destruct f as [|f]; [cbn in Hf; lia|]. reflexivity.
  - cbn [app replace_aux].
    rewrite mem_c_cons in Ht. apply orb_false_iff in Ht. destruct Ht as [Hc Hr].
    assert (Hsw : startswith (L "```") (c :: r ++ L "```") = false).
    { change (L "```") with [bt; bt; bt]. cbn [startswith]. rewrite Hc. reflexivity. }
    rewrite Hsw. f_equal. apply IH; [exact Hr|cbn [List.length] in Hf; lia].
Qed.

Lemma replace_aux_step_match : forall f a b c r,
    startswith a (c :: r) = true ->
    replace_aux (S f) a b (c :: r) = b ++ replace_aux f a b (skipn (List.length a) (c :: r)).
Proof. intros f a b c r H. cbn [replace_aux]. rewrite H. reflexivity. Qed.

Lemma replace_bt_wrapped : forall t, mem_c bt t = false ->
    replace (L "```") [] (L "```" ++ t ++ L "```") = t.
Proof.
  intros t Ht. unfold replace.
  change (L "```" ++ t ++ L "```") with (bt :: (bt :: bt :: t ++ L "```")).
  rewrite replace_aux_step_match by reflexivity.
  change (skipn (List.length (L "```")) (bt :: bt :: bt :: t ++ L "```")) with (t ++ L "```").
  cbn [app]. apply replace_aux_bt_tail; [exact Ht|].
  cbn [List.length]. rewrite app_length. change (List.length (L "```")) with 3. lia.
Qed.

Lemma I_nodoc : forall t v ann edd,
    interpolate_defaults (mkParam Missing t v) ann false edd = Ok (mkParam Missing t v).
Proof. reflexivity. Qed.

Lemma I_extract : forall doc t v0 ann edd doc' w,
    extract_default doc true ann (fget t) edd = Ok (doc', w) ->
    interpolate_defaults (mkParam (Has doc) t v0) ann false edd
    = Ok (mkParam (Has doc') t (match w with None | Some VNone => v0 | Some v => Some (unquote_val v) end)).
Proof.
  intros doc t v0 ann edd doc' w H. unfold interpolate_defaults.
  cbn [p_doc p_typ p_default extract_default_fld]. rewrite H. reflexivity.
Qed.

Lemma I_noannounce : forall d t v edd,
    no_announce d = true ->
    interpolate_defaults (mkParam (Has d) t v) default_announces false edd = Ok (mkParam (Has d) t v).
Proof.
  intros d t v edd H.
  rewrite (I_extract d t v default_announces edd d None); [reflexivity|].
  apply extract_default_no_announce. exact H.
Qed.

Lemma coerce_not_none : forall t v, coerce t v <> Ok VNone.
Proof.
  intros t v. unfold coerce.
  destruct (str_eqb t (L "bool")); [discriminate|].
  destruct (str_eqb t (L "str")); [discriminate|].
  destruct (str_eqb t (L "int")).
  { destruct v; try discriminate.
    - destruct (int_of_float_repr r); discriminate.
    - destruct (Z_of_dec_signed (strip s)); discriminate. }
  destruct (str_eqb t (L "float")); [|discriminate].
  destruct v; try discriminate.
  - destruct (float_of_Z z); discriminate.
  - destruct (float_of_str s); discriminate.
Qed.

Lemma coerce_default_not_none : forall t s, coerce_default t s <> Ok VNone.
Proof.
  intros t s. unfold coerce_default.
  destruct (match t with Some t0 => in_simple_types t0 && negb (in_none_types (VStr s)) | None => false end).
  - destruct t as [t0|]; [|discriminate].
    destruct (literal_eval_scalar s) as [lit|e]; [|discriminate]. cbn [bind]. apply coerce_not_none.
  - destruct (isdecimal s); [discriminate|].
    destruct (signed_decimal s). { destruct (Z_of_dec_signed s); discriminate. }
    destruct (str_eqb s (L "True")); [discriminate|].
    destruct (str_eqb s (L "False")); [discriminate|].
    destruct (float_of_str s) as [r|e]; [discriminate|]. destruct e; discriminate.
Qed.

Lemma infer_default_of_res : forall d t w t' w',
    infer_res t w = Ok (t', w') ->
    infer_default (mkParam d t (Some w)) false = Ok (mkParam d t' (Some w')).
Proof.
  intros d t w t' w' H. unfold infer_res, infer_default in *.
  cbn [p_default p_typ p_doc andb] in *.
  destruct (needs_quoting (fget t)) as [nq|e]; cbn [bind] in *; [|discriminate].
  set (d1 := if in_none_types w then VStr NoneStr else w) in *.
  set (d2 := if nq || is_str_val d1 then unquote_val d1 else d1) in *.
  set (t2 := if fld_is_none t && negb (pyval_eqb d2 (VStr NoneStr)) then Has (type_name d2) else t) in *.
  destruct (negb (pyval_eqb d2 (VStr NoneStr)) && code_quoted_val d2).
  - destruct t2 as [| |tt]; try discriminate.
    destruct (contains [ch 91] tt); cbn [p_default p_typ] in H; injection H as H1 H2; subst; reflexivity.
  - cbn [p_default p_typ] in H. injection H as H1 H2. subst. reflexivity.
Qed.

Definition doc_fine (d : str) : Prop :=
  d <> [] /\ mem_c nl d = false /\ edge_ok d /\ starts_optional d = false.

Definition typ_fine (t : fld str) : Prop :=
  match t with Has t0 => endswith google_opt t0 = false | Missing => True | FNone => False end.

Definition plain_name (n : str) : Prop :=
  endswith (L "kwargs") n = false /\ startswith (L "**") n = false.

Definition kwargs_typ (T : fld str) : fld str :=
  match T with
  | Missing => Has (L "Optional[dict]")
  | Has t => if str_eqb t (L "dict") then Has (L "Optional[dict]") else Has t
  | FNone => FNone
  end.

(* the prose as _set_name_and_type leaves it: an empty one is dropped *)
Definition doc_fld (d : str) : fld str := match d with [] => Missing | _ => Has d end.

(* _set_name_and_type in two steps, shared by the two transcriptions of the model (DocParse, DocParseNG).  First the
   name: a ...kwargs or ** name gets the dict type and a None default; any other name has its default, if any, passed
   through _infer_default ([infer]: the one thing in which the transcriptions differ).  Then the ", optional" suffix
   of the type, the prose (dropped when empty, else re-joined and stripped on the right) and its Optional prefix. *)
Definition name_type_stage (infer : param -> pyval -> outcome param) (n : str) (p : param) : outcome (str * param) :=
  if endswith (L "kwargs") n || startswith (L "**") n then
    Ok (lstrip_chars [ch 42] n,
        mkParam (p_doc p) (kwargs_typ (p_typ p)) (match p_default p with None => Some (VStr NoneStr) | d => d end))
  else match p_default p with
       | Some v => do p' <- infer p v; Ok (n, p')
       | None => Ok (n, p)
       end.

Definition name_type_tail (ww : bool) (n1 : str) (p1 : param) : outcome (str * param) :=
  let typ1 := match p_typ p1 with
              | Has t => if endswith google_opt t
                         then Has (L "Optional[" ++ firstn (List.length t - List.length google_opt) t ++ L "]")
                         else Has t
              | x => x
              end in
  match p_doc p1 with
  | Has (c :: dr) =>
    let d := c :: dr in
    let d' := rstrip (if ww then join [sp] (map strip (split_nl d)) else d) in
    if startswith (L "(Optional)") d' || startswith (L "Optional") d' then
      match typ1 with
      | Missing => Ok (n1, mkParam (Has d') typ1 (p_default p1))
      | FNone => Err AttributeError
      | Has t => if startswith (L "Optional[") t then Ok (n1, mkParam (Has d') typ1 (p_default p1))
                 else Ok (n1, mkParam (Has d') (Has (L "Optional[" ++ t ++ L "]")) (p_default p1))
      end
    else Ok (n1, mkParam (Has d') typ1 (p_default p1))
  | _ => Ok (n1, mkParam Missing typ1 (p_default p1))
  end.

Lemma set_name_and_type_steps : forall n p it ww,
    set_name_and_type (Some n) p it ww
    = (do np <- name_type_stage (fun p _ => infer_default p it) n p; name_type_tail ww (fst np) (snd np)).
Proof. reflexivity. Qed.

Lemma name_type_stage_plain : forall infer n p,
    plain_name n ->
    name_type_stage infer n p
    = match p_default p with Some v => do p' <- infer p v; Ok (n, p') | None => Ok (n, p) end.
Proof. intros infer n p [Hk Hs]. unfold name_type_stage. rewrite Hk, Hs. reflexivity. Qed.

Lemma name_type_stage_kwargs : forall infer n p,
    endswith (L "kwargs") n || startswith (L "**") n = true -> startswith [ch 42] n = false ->
    name_type_stage infer n p
    = Ok (n, mkParam (p_doc p) (kwargs_typ (p_typ p)) (match p_default p with None => Some (VStr NoneStr) | d => d end)).
Proof.
  intros infer n p Hk Hstar. unfold name_type_stage. rewrite Hk.
  assert (Els : lstrip_chars [ch 42] n = n).
  { unfold lstrip_chars. apply lstrip_by_id. intros c Hc. destruct n as [|x n]; [discriminate|].
    injection Hc as Hc. subst x. cbn [startswith] in Hstar. rewrite andb_true_r in Hstar.
    cbn [mem_c existsb]. rewrite ascii_eqb_sym, Hstar. reflexivity. }
  rewrite Els. reflexivity.
Qed.

Lemma name_type_tail_id : forall ww n1 d T dflt,
    typ_fine T -> mem_c nl d = false -> (d <> [] -> edge_ok d) ->
    (forall t, T = Has t -> starts_optional d && negb (startswith (L "Optional[") t) = false) ->
    name_type_tail ww n1 (mkParam (Has d) T dflt) = Ok (n1, mkParam (doc_fld d) T dflt).
Proof.
  intros ww n1 d T dflt HT Hnl He Hopt. unfold name_type_tail. cbn [p_typ p_doc p_default].
  destruct d as [|c dr].
  - destruct T as [| |t]; [reflexivity|contradiction|]. cbn [typ_fine] in HT. rewrite HT. reflexivity.
  - assert (He' : edge_ok (c :: dr)) by (apply He; discriminate).
    cbv zeta. rewrite (doc_norm_id ww (c :: dr) Hnl He'). cbn [doc_fld].
    destruct T as [| |t]; [|contradiction|].
    + destruct (startswith (L "(Optional)") (c :: dr) || startswith (L "Optional") (c :: dr)); reflexivity.
    + cbn [typ_fine] in HT. rewrite HT. specialize (Hopt t eq_refl). unfold starts_optional in Hopt.
      destruct (startswith (L "(Optional)") (c :: dr) || startswith (L "Optional") (c :: dr)); [|reflexivity].
      apply negb_false_iff in Hopt. rewrite Hopt. reflexivity.
Qed.

Lemma name_type_tail_nodoc : forall ww n1 T dflt,
    typ_fine T -> name_type_tail ww n1 (mkParam Missing T dflt) = Ok (n1, mkParam Missing T dflt).
Proof.
  intros ww n1 T dflt HT. unfold name_type_tail. cbn [p_typ p_doc p_default].
  destruct T as [| |t]; [reflexivity|contradiction|]. cbn [typ_fine] in HT. rewrite HT. reflexivity.
Qed.

Lemma S_plain : forall n p p1 ww,
    plain_name n ->
    (match p_default p with Some _ => infer_default p false | None => Ok p end) = Ok p1 ->
    typ_fine (p_typ p1) ->
    (match p_doc p1 with Has d => doc_fine d | Missing => True | FNone => False end) ->
    set_name_and_type (Some n) p false ww = Ok (n, p1).
Proof.
  intros n p p1 ww Hn Hstage Htyp Hdoc. rewrite set_name_and_type_steps, (name_type_stage_plain _ n p Hn).
  assert (E : (match p_default p with
               | Some _ => do p' <- infer_default p false; Ok (n, p')
               | None => Ok (n, p)
               end) = Ok (n, p1)).
  { destruct (p_default p); [rewrite Hstage; reflexivity|injection Hstage as Hstage; subst; reflexivity]. }
  rewrite E. cbn [bind fst snd].
  destruct p1 as [doc typ dflt]. cbn [p_doc p_typ p_default] in *.
  destruct doc as [| |d]; [apply name_type_tail_nodoc; exact Htyp|contradiction|].
  destruct Hdoc as [Hne [Hnl [He Hopt]]].
  rewrite name_type_tail_id; [destruct d; [contradiction|reflexivity]|exact Htyp|exact Hnl|intros _; exact He|].
  intros t _. rewrite Hopt. reflexivity.
Qed.

Lemma S_kwargs : forall n d T dflt ww,
    endswith (L "kwargs") n = true -> (exists c r, n = c :: r /\ c <> ch 42) ->
    typ_fine (kwargs_typ T) -> doc_fine d ->
    set_name_and_type (Some n) (mkParam (Has d) T dflt) false ww
    = Ok (n, mkParam (Has d) (kwargs_typ T) (match dflt with None => Some (VStr NoneStr) | x => x end)).
Proof.
  intros n d T dflt ww Hk [c [r [En Hc]]] Htyp [Hne [Hnl [He Hopt]]].
  rewrite set_name_and_type_steps, name_type_stage_kwargs; [|rewrite Hk; reflexivity|].
  - cbn [bind fst snd p_doc p_typ p_default].
    rewrite name_type_tail_id; [destruct d; [contradiction|destruct dflt; reflexivity]|exact Htyp|exact Hnl|intros _; exact He|].
    intros t _. rewrite Hopt. reflexivity.
  - subst n. cbn [startswith]. rewrite andb_true_r. apply ascii_eqb_neq. intros E. apply Hc. symmetry. exact E.
Qed.

(* a  :key name:<blanks>value<blanks>  line; the emitter writes one space after the colon *)
Definition key_line_pad (tokn n pad val ws : str) : str := tokn ++ sp :: n ++ colon :: pad ++ val ++ ws.
Definition key_line (tokn n val ws : str) : str := tokn ++ sp :: n ++ colon :: sp :: val ++ ws.

(* the flush of the running pair when the name changes *)
Definition flush_for (name : str) (st : rstate) : outcome (list (str * param) * (option str * param)) :=
  match fst (rs_cur st) with
  | Some n =>
    if negb (str_eqb n name) then
      match n with
      | [] => Err IndexError
      | c :: _ =>
        if ascii_eqb c (ch 42) then Ok (rs_params st, (None, empty_param))
        else Ok (od_set n (snd (rs_cur st)) (rs_params st), (None, empty_param))
      end
    else Ok (rs_params st, rs_cur st)
  | None => Ok (rs_params st, rs_cur st)
  end.

(* a  :param  or  :type  line: the name and the stripped value are found, the running pair is flushed if it belongs to
   another name, the value goes into the dict as [kv] says (prose or type), then interpolate_defaults and
   _set_name_and_type *)
Lemma step_key_line : forall ww edd st tokn n pad val ws kv,
    In tokn [L ":param"; L ":type"] -> mem_c colon n = false -> edge_ok val ->
    forallb isspace pad = true -> forallb isspace ws = true ->
    set_param_values (key_line_pad tokn n pad val ws) val (L ":type") = kv ->
    parse_rest_line false ww true edd st (true, key_line_pad tokn n pad val ws)
    = (do fl <- flush_for n st;
       do p2 <- interpolate_defaults (set_kv (snd (snd fl)) kv) default_announces false edd;
       do np <- set_name_and_type (Some n) p2 false ww;
       Ok (mkRS (rs_doc st) (fst fl) (rs_returns st) (Some (fst np), snd np))).
Proof.
  intros ww edd st tokn n pad val ws kv Htok Hn Hval Hpad Hws Hkv. unfold parse_rest_line.
  assert (Htokn : mem_c sp tokn = false
                  /\ existsb (fun t => startswith t (key_line_pad tokn n pad val ws)) Extracted.return_tokens_rest = false).
  { destruct Htok as [E|[E|[]]]; subst tokn; split; reflexivity. }
  destruct Htokn as [Hsp Hret]. rewrite Hret. unfold key_line_pad in *.
  destruct (key_line_fields tokn n (pad ++ val ++ ws) Hsp Hn) as [Hname Hval'].
  cbv zeta in Hname, Hval'. change (ch 58) with colon. rewrite Hname, Hval'.
  rewrite (strip_pad pad val ws Hpad Hws Hval), Hkv.
  fold (flush_for n st).
  destruct (flush_for n st) as [fl|e]; [|reflexivity]. cbn [bind].
  destruct (interpolate_defaults _ default_announces false edd) as [p2|e]; [|reflexivity]. cbn [bind].
  destruct (set_name_and_type (Some n) p2 false ww) as [np|e]; [|reflexivity]. cbn [bind].
  unfold maybe_remove. rewrite andb_false_r. reflexivity.
Qed.

Lemma bt_wrapped_edge_ok : forall t, edge_ok (L "```" ++ t ++ L "```").
Proof.
  intros t. split.
  - exists bt, (bt :: bt :: t ++ L "```"). split; reflexivity.
  - exists bt. split; [|reflexivity]. apply last_c_spec. exists (L "```" ++ t ++ L "``").
    rewrite <- !app_assoc. reflexivity.
Qed.

Lemma set_param_values_bt : forall line t sw,
    startswith sw line = true -> mem_c bt t = false -> startswith (L "**") t = false ->
    set_param_values line (L "```" ++ t ++ L "```") sw = (true, t).
Proof.
  intros line t sw Hsw Hbt Hstar. unfold set_param_values. rewrite Hsw, (replace_bt_wrapped t Hbt), Hstar. reflexivity.
Qed.

Lemma step_param_line_pad : forall ww edd st n pad val ws,
    mem_c colon n = false -> edge_ok val -> forallb isspace pad = true -> forallb isspace ws = true ->
    parse_rest_line false ww true edd st (true, key_line_pad (L ":param") n pad val ws)
    = (do fl <- flush_for n st;
       do p2 <- interpolate_defaults (mkParam (Has val) (p_typ (snd (snd fl))) (p_default (snd (snd fl))))
                                     default_announces false edd;
       do np <- set_name_and_type (Some n) p2 false ww;
       Ok (mkRS (rs_doc st) (fst fl) (rs_returns st) (Some (fst np), snd np))).
Proof.
  intros ww edd st n pad val ws Hn Hval Hpad Hws.
  apply (step_key_line ww edd st (L ":param") n pad val ws (false, val)); try assumption; [left|]; reflexivity.
Qed.

Lemma step_param_line : forall ww edd st n val ws,
    mem_c colon n = false -> edge_ok val -> forallb isspace ws = true ->
    parse_rest_line false ww true edd st (true, key_line (L ":param") n val ws)
    = (do fl <- flush_for n st;
       do p2 <- interpolate_defaults (mkParam (Has val) (p_typ (snd (snd fl))) (p_default (snd (snd fl))))
                                     default_announces false edd;
       do np <- set_name_and_type (Some n) p2 false ww;
       Ok (mkRS (rs_doc st) (fst fl) (rs_returns st) (Some (fst np), snd np))).
Proof. intros ww edd st n val ws Hn Hval Hws. apply (step_param_line_pad ww edd st n [sp] val ws Hn Hval eq_refl Hws). Qed.

Lemma step_type_line : forall ww edd st n t ws,
    mem_c colon n = false -> mem_c bt t = false -> t <> [] -> startswith (L "**") t = false ->
    forallb isspace ws = true ->
    parse_rest_line false ww true edd st (true, key_line (L ":type") n (L "```" ++ t ++ L "```") ws)
    = (do fl <- flush_for n st;
       do p2 <- interpolate_defaults (mkParam (p_doc (snd (snd fl))) (Has t) (p_default (snd (snd fl))))
                                     default_announces false edd;
       do np <- set_name_and_type (Some n) p2 false ww;
       Ok (mkRS (rs_doc st) (fst fl) (rs_returns st) (Some (fst np), snd np))).
Proof.
  intros ww edd st n t ws Hn Hbt Hne Hstar Hws.
  apply (step_key_line ww edd st (L ":type") n [sp] (L "```" ++ t ++ L "```") ws (true, t)); try assumption.
  - right. left. reflexivity.
  - apply bt_wrapped_edge_ok.
  - reflexivity.
  - apply set_param_values_bt; [reflexivity|exact Hbt|exact Hstar].
Qed.

Definition ret_line_pad (key pad val ws : str) : str := colon :: key ++ colon :: pad ++ val ++ ws.
Definition ret_line (key val ws : str) : str := colon :: key ++ colon :: sp :: val ++ ws.

Lemma step_ret_line : forall ww edd st key pad val ws kv p,
    In key [L "returns"; L "rtype"] -> edge_ok val -> forallb isspace pad = true -> forallb isspace ws = true ->
    set_param_values (ret_line_pad key pad val ws) val (last_str Extracted.return_tokens_rest) = kv ->
    interpolate_defaults (set_kv empty_param kv) default_announces false edd = Ok p ->
    parse_rest_line false ww true edd st (true, ret_line_pad key pad val ws)
    = Ok (mkRS (rs_doc st) (rs_params st)
               (Some (update_param (match rs_returns st with None => empty_param | Some r => r end) p))
               (rs_cur st)).
Proof.
  intros ww edd st key pad val ws kv p Hkey Hval Hpad Hws Hkv Hp. unfold parse_rest_line.
  assert (Hk : mem_c colon key = false
               /\ existsb (fun t => startswith t (ret_line_pad key pad val ws)) Extracted.return_tokens_rest = true).
  { destruct Hkey as [E|[E|[]]]; subst key; split; reflexivity. }
  destruct Hk as [Hcolon Hret]. rewrite Hret. unfold ret_line_pad in *. change (ch 58) with colon.
  pose proof (ret_line_value key (pad ++ val ++ ws) Hcolon) as Hv. cbv zeta in Hv. rewrite Hv.
  rewrite (strip_pad pad val ws Hpad Hws Hval), Hkv, Hp. reflexivity.
Qed.

Lemma step_returns_line_pad : forall ww edd st pad d ws,
    edge_ok d -> no_announce d = true -> forallb isspace pad = true -> forallb isspace ws = true ->
    parse_rest_line false ww true edd st (true, ret_line_pad (L "returns") pad d ws)
    = Ok (mkRS (rs_doc st) (rs_params st)
               (Some (update_param (match rs_returns st with None => empty_param | Some r => r end)
                                   (mkParam (Has d) Missing None)))
               (rs_cur st)).
Proof.
  intros ww edd st pad d ws Hd Hno Hpad Hws.
  apply (step_ret_line ww edd st (L "returns") pad d ws (false, d)); try assumption; [left; reflexivity|reflexivity|].
  apply (I_noannounce d Missing None edd Hno).
Qed.

Lemma step_returns_line : forall ww edd st d ws,
    edge_ok d -> no_announce d = true -> forallb isspace ws = true ->
    parse_rest_line false ww true edd st (true, ret_line (L "returns") d ws)
    = Ok (mkRS (rs_doc st) (rs_params st)
               (Some (update_param (match rs_returns st with None => empty_param | Some r => r end)
                                   (mkParam (Has d) Missing None)))
               (rs_cur st)).
Proof. intros ww edd st d ws Hd Hno Hws. apply (step_returns_line_pad ww edd st [sp] d ws Hd Hno eq_refl Hws). Qed.

Lemma step_rtype_line : forall ww edd st t ws,
    mem_c bt t = false -> startswith (L "**") t = false -> forallb isspace ws = true ->
    parse_rest_line false ww true edd st (true, ret_line (L "rtype") (L "```" ++ t ++ L "```") ws)
    = Ok (mkRS (rs_doc st) (rs_params st)
               (Some (update_param (match rs_returns st with None => empty_param | Some r => r end)
                                   (mkParam Missing (Has t) None)))
               (rs_cur st)).
Proof.
  intros ww edd st t ws Hbt Hstar Hws.
  apply (step_ret_line ww edd st (L "rtype") [sp] (L "```" ++ t ++ L "```") ws (true, t)); try assumption.
  - right. left. reflexivity.
  - apply bt_wrapped_edge_ok.
  - reflexivity.
  - apply set_param_values_bt; [reflexivity|exact Hbt|exact Hstar].
  - reflexivity.
Qed.

Lemma no_colon_no_token : forall x, mem_c colon x = false -> no_rest_token x = true.
Proof.
  intros x Hx. apply no_rest_token_spec. intros t Ht.
  destruct (contains t x) eqn:E; [|reflexivity]. exfalso.
  apply contains_true_iff in E. destruct E as [a [b E]].
  pose proof (proj1 (forallb_forall _ _) rest_tokens_lower t Ht) as Hl.
  destruct t as [|c r]; [discriminate|]. cbn [tok_lower] in Hl.
  apply andb_true_iff in Hl. destruct Hl as [Hc _]. apply ascii_eqb_eq in Hc. subst c.
  assert (Hin : mem_c colon x = true).
  { apply mem_c_In. rewrite E. apply in_or_app. right. left. reflexivity. }
  congruence.
Qed.

Lemma isspace_not_lower : forall c, isspace c = true -> islower_c c = false /\ c <> colon.
Proof.
  intros c H. unfold isspace, islower_c in *. split.
  - destruct (Nat.leb 97 (code c)) eqn:E1; [|reflexivity]. apply Nat.leb_le in E1.
    apply orb_true_iff in H. destruct H as [H|H]; apply andb_true_iff in H; destruct H as [_ H];
      apply Nat.leb_le in H; lia.
  - intros E. subst c. vm_compute in H. discriminate.
Qed.

Lemma no_rest_token_sp : forall a b, no_rest_token a = true -> no_rest_token b = true ->
    no_rest_token (a ++ sp :: b) = true.
Proof.
  intros a b Ha Hb. apply no_rest_token_app_r; [exact Ha| |].
  - change (sp :: b) with ([sp] ++ b). apply no_rest_token_app_l; [reflexivity|exact Hb|].
    intros c Hc. injection Hc as Hc. subst c. split; [reflexivity|discriminate].
  - intros c Hc. injection Hc as Hc. subst c. reflexivity.
Qed.

Lemma no_rest_token_ws : forall a ws, no_rest_token a = true -> forallb isspace ws = true ->
    no_rest_token (a ++ ws) = true.
Proof.
  intros a ws Ha. revert a Ha. induction ws as [|c ws IH]; intros a Ha Hws.
  - rewrite app_nil_r. exact Ha.
  - cbn [forallb] in Hws. apply andb_true_iff in Hws. destruct Hws as [Hc Hws].
    change (a ++ c :: ws) with (a ++ [c] ++ ws). rewrite app_assoc. apply IH; [|exact Hws].
    apply no_rest_token_app_r; [exact Ha| |].
    + apply no_colon_no_token. rewrite mem_c_cons. cbn [mem_c existsb]. rewrite orb_false_r.
      destruct (isspace_not_lower c Hc) as [_ Hn]. apply ascii_eqb_neq. intros E. apply Hn. symmetry. exact E.
    + intros c' Hc'. injection Hc' as Hc'. subst c'. apply (isspace_not_lower c Hc).
Qed.

Lemma no_rest_token_pad : forall pad x, forallb isspace pad = true -> no_rest_token x = true ->
    no_rest_token (pad ++ x) = true.
Proof.
  induction pad as [|c pad IH]; intros x Hp Hx; [exact Hx|].
  cbn [forallb] in Hp. apply andb_true_iff in Hp. destruct Hp as [Hc Hp].
  change ((c :: pad) ++ x) with ([c] ++ (pad ++ x)).
  apply no_rest_token_app_l.
  - apply no_colon_no_token. rewrite mem_c_cons. cbn [mem_c existsb]. rewrite orb_false_r.
    destruct (isspace_not_lower c Hc) as [_ Hn]. apply ascii_eqb_neq. intros E. apply Hn. symmetry. exact E.
  - apply IH; assumption.
  - intros c' Hc'. injection Hc' as Hc'. subst c'. apply (isspace_not_lower c Hc).
Qed.

Lemma no_rest_token_colon_pad : forall pad val ws,
    pad <> [] -> forallb isspace pad = true -> no_rest_token val = true -> forallb isspace ws = true ->
    no_rest_token (colon :: pad ++ val ++ ws) = true.
Proof.
  intros pad val ws Hne Hpad Hval Hws.
  change (colon :: pad ++ val ++ ws) with ([colon] ++ (pad ++ val ++ ws)).
  apply no_rest_token_app_r; [reflexivity| |].
  - apply no_rest_token_pad; [exact Hpad|]. apply no_rest_token_ws; assumption.
  - intros c Hc. destruct pad as [|c0 pad]; [contradiction|]. cbn [app head_c] in Hc. injection Hc as Hc. subst c0.
    cbn [forallb] in Hpad. apply andb_true_iff in Hpad. apply (isspace_not_lower c (proj1 Hpad)).
Qed.

Lemma key_body_token_free_pad : forall n pad val ws,
    mem_c colon n = false -> pad <> [] -> forallb isspace pad = true ->
    no_rest_token val = true -> forallb isspace ws = true ->
    no_rest_token (sp :: n ++ colon :: pad ++ val ++ ws) = true.
Proof.
  intros n pad val ws Hn Hne Hpad Hval Hws.
  change (sp :: n ++ colon :: pad ++ val ++ ws) with ([] ++ sp :: (n ++ colon :: pad ++ val ++ ws)).
  apply no_rest_token_sp; [reflexivity|].
  apply no_rest_token_app_r; [apply no_colon_no_token; exact Hn| |].
  - apply no_rest_token_colon_pad; assumption.
  - intros c Hc. injection Hc as Hc. subst c. reflexivity.
Qed.

Lemma key_body_token_free : forall n val ws,
    mem_c colon n = false -> no_rest_token val = true -> forallb isspace ws = true ->
    no_rest_token (sp :: n ++ colon :: sp :: val ++ ws) = true.
Proof.
  intros n val ws Hn Hval Hws. apply (key_body_token_free_pad n [sp] val ws Hn); [discriminate|reflexivity|exact Hval|exact Hws].
Qed.

Lemma bt_wrapped_token_free : forall t, no_rest_token t = true -> no_rest_token (L "```" ++ t ++ L "```") = true.
Proof.
  intros t Ht. apply no_rest_token_app_l; [reflexivity| |].
  - apply no_rest_token_app_r; [exact Ht|reflexivity|].
    intros c Hc. injection Hc as Hc. subst c. reflexivity.
  - intros c Hc. injection Hc as Hc. subst c. split; [reflexivity|discriminate].
Qed.

Definition sentence (d s : str) : str := d ++ L " Defaults to " ++ s.

(* what the guard of C17 gives about the sentence  d. Defaults to s : whatever type the reader
   assumes, the value text s is found and read; with removal exactly d is left *)
Lemma sentence_extract : forall d v typ s,
    guard_C17 ADefaultsTo d v typ = true -> shown_value v typ = Ok s ->
    forall t' w, coerce_default t' s = Ok w ->
      extract_default (sentence d s) true default_announces t' true = Ok (sentence d s, Some w)
      /\ extract_default (sentence d s) true default_announces t' false = Ok (d, Some w).
Proof.
  intros d v typ s Hg Hs t' w Hco.
  apply guard_C17_split in Hg. destruct Hg as [Hp Hv].
  destruct (prose_ok_inv d Hp) as [Hne [Hno [[l [Hl Hterm]] Hdef]]].
  destruct (value_ok_inv _ _ _ Hv) as [s' [v2 [Hs' [Hann [Hscan [Hstrip [Hparen _]]]]]]].
  rewrite Hs in Hs'. injection Hs' as E. subst s'.
  destruct (value_announce_ok_inv ADefaultsTo s Hann) as [e Hloc].
  exact (extract_default_sentence d l (announce_text ADefaultsTo) s t' e w true
           Hl (terminal_sep_ok l Hterm) Hno Hloc Hscan Hstrip Hparen Hco).
Qed.

(* the sentence is what set_default_doc writes *)
Lemma sentence_written : forall name d v typ s,
    guard_C17 ADefaultsTo d v typ = true -> shown_value v typ = Ok s ->
    endswith (L "kwargs") name = false ->
    exists v', set_default_doc name (mkParam (Has d) (fld_of_opt typ) (Some v)) true
               = Ok (mkParam (Has (sentence d s)) (fld_of_opt typ) (Some v')).
Proof.
  intros name d v typ s Hg Hs Hk.
  apply guard_C17_split in Hg. destruct Hg as [Hp _].
  destruct (prose_ok_inv d Hp) as [Hne [Hno [[l [Hl Hterm]] Hdef]]].
  destruct (shown_value_inv v typ s Hs) as [sv [Hsv Es]]. subst s.
  exists (if pyval_eqb v (VStr NoneStr) then VNone else v).
  rewrite (set_default_doc_writes name d l typ v sv Hl Hdef).
  - rewrite Hterm. reflexivity.
  - cbv zeta. split; [|exact Hsv]. rewrite Hk. cbn [negb]. apply orb_true_r.
Qed.

Lemma startswith_app_nospace : forall p d x,
    mem_c sp p = false -> startswith p (d ++ sp :: x) = startswith p d.
Proof.
  intros p d x Hp. destruct (startswith p d) eqn:E.
  - apply startswith_app_r. exact E.
  - destruct (startswith p (d ++ sp :: x)) eqn:E2; [|reflexivity]. exfalso.
    apply startswith_app_cases in E2. destruct E2 as [E2|[q [Hq1 [Hq2 Hq3]]]]; [congruence|].
    destruct q as [|c q]; [contradiction|]. cbn [startswith] in Hq3.
    apply andb_true_iff in Hq3. destruct Hq3 as [Hc _]. apply ascii_eqb_eq in Hc. subst c.
    rewrite Hq1, mem_c_app, mem_c_cons, ascii_eqb_refl in Hp. rewrite orb_true_r in Hp. discriminate.
Qed.

Lemma edge_ok_app : forall a b, edge_ok a -> edge_ok b -> edge_ok (a ++ b).
Proof.
  intros a b [[c [r [Ea Hc]]] _] [[c' [r' [Eb Hc']]] [l [Hl Hls]]]. split.
  - exists c, (r ++ b). rewrite Ea. split; [reflexivity|exact Hc].
  - exists l. split; [|exact Hls]. rewrite last_c_app_nonnil; [exact Hl|]. rewrite Eb. discriminate.
Qed.

Lemma value_text_clean_inv : forall s, value_text_clean s = true ->
    mem_c nl s = false /\ no_rest_token s = true /\ exists l, last_c s = Some l /\ isspace l = false.
Proof.
  intros s H. unfold value_text_clean in H.
  apply andb_true_iff in H. destruct H as [H Hl]. apply andb_true_iff in H. destruct H as [Hn Ht].
  apply negb_true_iff in Hn. split; [exact Hn|]. split; [exact Ht|].
  destruct (last_c s) as [l|]; [|discriminate]. exists l. split; [reflexivity|].
  apply negb_true_iff in Hl. exact Hl.
Qed.

Lemma sentence_fine : forall d s,
    doc_fine d -> value_text_clean s = true -> no_rest_token d = true ->
    doc_fine (sentence d s) /\ no_rest_token (sentence d s) = true.
Proof.
  intros d s [Hne [Hnl [He Hopt]]] Hs Htok.
  destruct (value_text_clean_inv s Hs) as [Hsnl [Hstok [l [Hl Hls]]]].
  unfold sentence. split; [split; [|split; [|split]]|].
  - destruct d; [contradiction|discriminate].
  - rewrite !mem_c_app, Hnl, Hsnl. reflexivity.
  - destruct He as [[c [r [Ed Hc]]] _]. split.
    + exists c, (r ++ L " Defaults to " ++ s). rewrite Ed. split; [reflexivity|exact Hc].
    + exists l. split; [|exact Hls]. rewrite app_assoc. rewrite last_c_app_nonnil; [exact Hl|].
      intros E. rewrite E in Hl. discriminate.
  - unfold starts_optional in *. change (L " Defaults to " ++ s) with (sp :: (L "Defaults to " ++ s)).
    rewrite !startswith_app_nospace by reflexivity. exact Hopt.
  - change (L " Defaults to " ++ s) with (sp :: (L "Defaults to" ++ sp :: s)).
    apply no_rest_token_sp; [exact Htok|]. apply no_rest_token_sp; [reflexivity|exact Hstok].
Qed.

Definition good_name (n : str) : Prop :=
  mem_c colon n = false /\ plain_name n /\ exists c r, n = c :: r /\ c <> ch 42.

Definition name_basic (n : str) : Prop := mem_c colon n = false /\ exists c r, n = c :: r /\ c <> ch 42.

Lemma good_name_basic : forall n, good_name n -> name_basic n.
Proof. intros n [H1 [_ H3]]. split; assumption. Qed.

(* the running pair before an entry named n is read *)
Definition cur_ok (cur : option str * param) (n : str) : Prop :=
  match fst cur with
  | None => snd cur = empty_param
  | Some m => m <> n /\ exists c r, m = c :: r /\ c <> ch 42
  end.

Definition flushed (done : list (str * param)) (cur : option str * param) : list (str * param) :=
  match fst cur with None => done | Some m => od_set m (snd cur) done end.

Lemma flush_for_other : forall n sdoc done rets cur,
    cur_ok cur n ->
    flush_for n (mkRS sdoc done rets cur) = Ok (flushed done cur, (None, empty_param)).
Proof.
  intros n sdoc done rets [[m|] pm] H; unfold cur_ok in H; cbn [fst snd] in H;
    unfold flush_for, flushed; cbn [rs_cur rs_params fst snd].
  - destruct H as [Hne [c [r [Em Hc]]]].
    assert (E : str_eqb m n = false) by (apply str_eqb_neq; exact Hne).
    rewrite E. cbn [negb]. rewrite Em.
    assert (Ec : ascii_eqb c (ch 42) = false) by (apply ascii_eqb_neq; exact Hc).
    rewrite Ec. reflexivity.
  - rewrite H. reflexivity.
Qed.

Lemma flush_for_same : forall n sdoc done rets pn,
    flush_for n (mkRS sdoc done rets (Some n, pn)) = Ok (done, (Some n, pn)).
Proof.
  intros n sdoc done rets pn. unfold flush_for. cbn [rs_cur rs_params fst snd].
  rewrite str_eqb_refl. reflexivity.
Qed.

Definition typ_facts (t : str) : Prop :=
  mem_c bt t = false /\ t <> [] /\ startswith (L "**") t = false /\ endswith google_opt t = false.

Definition prose_facts (d : str) : Prop := doc_fine d /\ no_announce d = true.

Definition step (ww edd : bool) := parse_rest_line false ww true edd.

(* I then S leave a settled dict without default alone *)
Lemma IS_nodefault : forall ww edd n odoc otyp,
    plain_name n ->
    (forall d, odoc = Some d -> prose_facts d) -> (forall t, otyp = Some t -> typ_facts t) ->
    interpolate_defaults (mkParam (fld_of_opt odoc) (fld_of_opt otyp) None) default_announces false edd
    = Ok (mkParam (fld_of_opt odoc) (fld_of_opt otyp) None)
    /\ set_name_and_type (Some n) (mkParam (fld_of_opt odoc) (fld_of_opt otyp) None) false ww
       = Ok (n, mkParam (fld_of_opt odoc) (fld_of_opt otyp) None).
Proof.
  intros ww edd n odoc otyp Hn Hd Ht. split.
  - destruct odoc as [d|]; cbn [fld_of_opt]; [|apply I_nodoc].
    apply I_noannounce. apply (Hd d eq_refl).
  - apply S_plain; [exact Hn|reflexivity| |]; cbn [p_typ p_doc].
    + destruct otyp as [t|]; cbn [fld_of_opt typ_fine]; [|exact I]. apply (Ht t eq_refl).
    + destruct odoc as [d|]; cbn [fld_of_opt]; [|exact I]. apply (Hd d eq_refl).
Qed.

Definition dline (n val ws : str) : bool * str := (true, key_line (L ":param") n val ws).
Definition tline (n t ws : str) : bool * str := (true, key_line (L ":type") n (L "```" ++ t ++ L "```") ws).

Lemma doc_fine_edge : forall d, doc_fine d -> edge_ok d.
Proof. intros d H. apply H. Qed.

Lemma run_doc_line_nodefault : forall ww edd n d ws sdoc done rets cur,
    good_name n -> cur_ok cur n -> prose_facts d -> forallb isspace ws = true ->
    step ww edd (mkRS sdoc done rets cur) (dline n d ws)
    = Ok (mkRS sdoc (flushed done cur) rets (Some n, mkParam (Has d) Missing None)).
Proof.
  intros ww edd n d ws sdoc done rets cur [Hc [Hp _]] Hcur Hd Hws. unfold step, dline.
  rewrite step_param_line; [|exact Hc|apply doc_fine_edge; apply Hd|exact Hws].
  rewrite (flush_for_other n sdoc done rets cur Hcur). cbn [bind fst snd empty_param p_typ p_default].
  destruct (IS_nodefault ww edd n (Some d) None Hp) as [HI HS].
  { intros d' E. injection E as E. subst d'. exact Hd. }
  { intros t E. discriminate. }
  cbn [fld_of_opt] in HI, HS. rewrite HI. cbn [bind]. rewrite HS. reflexivity.
Qed.

Lemma run_typ_line_nodefault_first : forall ww edd n t ws sdoc done rets cur,
    good_name n -> cur_ok cur n -> typ_facts t -> forallb isspace ws = true ->
    step ww edd (mkRS sdoc done rets cur) (tline n t ws)
    = Ok (mkRS sdoc (flushed done cur) rets (Some n, mkParam Missing (Has t) None)).
Proof.
  intros ww edd n t ws sdoc done rets cur [Hc [Hp _]] Hcur Ht Hws. unfold step, tline.
  pose proof Ht as [Hbt [Hne [Hstar Hopt]]].
  rewrite step_type_line; [|exact Hc|exact Hbt|exact Hne|exact Hstar|exact Hws].
  rewrite (flush_for_other n sdoc done rets cur Hcur). cbn [bind fst snd empty_param p_doc p_default].
  destruct (IS_nodefault ww edd n None (Some t) Hp) as [HI HS].
  { intros d' E. discriminate. }
  { intros t' E. injection E as E. subst t'. exact Ht. }
  cbn [fld_of_opt] in HI, HS. rewrite HI. cbn [bind]. rewrite HS. reflexivity.
Qed.

Lemma run_typ_line_nodefault_second : forall ww edd n d t ws sdoc done rets,
    good_name n -> prose_facts d -> typ_facts t -> forallb isspace ws = true ->
    step ww edd (mkRS sdoc done rets (Some n, mkParam (Has d) Missing None)) (tline n t ws)
    = Ok (mkRS sdoc done rets (Some n, mkParam (Has d) (Has t) None)).
Proof.
  intros ww edd n d t ws sdoc done rets [Hc [Hp _]] Hd Ht Hws. unfold step, tline.
  pose proof Ht as [Hbt [Hne [Hstar Hopt]]].
  rewrite step_type_line; [|exact Hc|exact Hbt|exact Hne|exact Hstar|exact Hws].
  rewrite flush_for_same. cbn [bind fst snd p_doc p_default].
  destruct (IS_nodefault ww edd n (Some d) (Some t) Hp) as [HI HS].
  { intros d' E. injection E as E. subst d'. exact Hd. }
  { intros t' E. injection E as E. subst t'. exact Ht. }
  cbn [fld_of_opt] in HI, HS. rewrite HI. cbn [bind]. rewrite HS. reflexivity.
Qed.

(* [lines] read from a state whose running pair belongs to another name leave the pair (n, mid);
   mid is a fixed point of the flush passes; the final interpolate_defaults pass turns it into fin *)
Definition entry_spec (ww edd : bool) (n : str) (lines : list (bool * str)) (mid fin : param) : Prop :=
  (forall sdoc done rets cur, cur_ok cur n ->
      fold_outcome (step ww edd) lines (mkRS sdoc done rets cur)
      = Ok (mkRS sdoc (flushed done cur) rets (Some n, mid)))
  /\ (exists mi, interpolate_defaults mid default_announces false edd = Ok mi
                 /\ set_name_and_type (Some n) mi false ww = Ok (n, mid))
  /\ interpolate_defaults mid default_announces false edd = Ok fin.

Definition nl1 : str := [nl].
Definition nl2 : str := [nl; nl].

Definition dblock (n val ws : str) : str * str := (L ":param", sp :: n ++ colon :: sp :: val ++ ws).
Definition tblock (n t ws : str) : str * str :=
  (L ":type", sp :: n ++ colon :: sp :: (L "```" ++ t ++ L "```") ++ ws).
Definition as_line (b : str * str) : bool * str := (true, blk b).

(* the blocks of one parameter: an optional prose line, an optional type line, then an empty line *)
Definition eblocks (n : str) (odoc otyp : option str) : list (str * str) :=
  (match odoc with Some D => [dblock n D (match otyp with Some _ => nl1 | None => nl2 end)] | None => [] end)
  ++ (match otyp with Some t => [tblock n t nl2] | None => [] end).

(* the lines of one parameter without default, each closed by any blanks *)
Definition plain_lines (n : str) (odoc otyp : option str) (ws1 ws2 : str) : list (bool * str) :=
  (match odoc with Some d => [dline n d ws1] | None => [] end)
  ++ (match otyp with Some t => [tline n t ws2] | None => [] end).

Lemma entry_plain_lines : forall ww edd n odoc otyp ws1 ws2,
    good_name n -> (forall d, odoc = Some d -> prose_facts d) -> (forall t, otyp = Some t -> typ_facts t) ->
    odoc <> None \/ otyp <> None -> forallb isspace ws1 = true -> forallb isspace ws2 = true ->
    entry_spec ww edd n (plain_lines n odoc otyp ws1 ws2)
               (mkParam (fld_of_opt odoc) (fld_of_opt otyp) None) (mkParam (fld_of_opt odoc) (fld_of_opt otyp) None).
Proof.
  intros ww edd n odoc otyp ws1 ws2 Hn Hd Ht Hsome Hw1 Hw2.
  destruct (IS_nodefault ww edd n odoc otyp (proj1 (proj2 Hn)) Hd Ht) as [HI HS].
  split; [|split; [eexists; split; [exact HI|exact HS]|exact HI]].
  intros sdoc done rets cur Hcur.
  destruct odoc as [d|]; destruct otyp as [t|]; cbn [plain_lines app fold_outcome fld_of_opt].
  - rewrite (run_doc_line_nodefault ww edd n d ws1 sdoc done rets cur Hn Hcur (Hd d eq_refl) Hw1). cbn [bind].
    rewrite (run_typ_line_nodefault_second ww edd n d t ws2 sdoc _ rets Hn (Hd d eq_refl) (Ht t eq_refl) Hw2).
    reflexivity.
  - rewrite (run_doc_line_nodefault ww edd n d ws1 sdoc done rets cur Hn Hcur (Hd d eq_refl) Hw1). reflexivity.
  - rewrite (run_typ_line_nodefault_first ww edd n t ws2 sdoc done rets cur Hn Hcur (Ht t eq_refl) Hw2). reflexivity.
  - exfalso. destruct Hsome as [H|H]; apply H; reflexivity.
Qed.

Lemma entry_nodefault : forall ww edd n odoc otyp,
    good_name n -> (forall d, odoc = Some d -> prose_facts d) -> (forall t, otyp = Some t -> typ_facts t) ->
    odoc <> None \/ otyp <> None ->
    entry_spec ww edd n (map as_line (eblocks n odoc otyp))
               (mkParam (fld_of_opt odoc) (fld_of_opt otyp) None) (mkParam (fld_of_opt odoc) (fld_of_opt otyp) None).
Proof.
  intros ww edd n odoc otyp Hn Hd Ht Hsome.
  assert (E : map as_line (eblocks n odoc otyp)
              = plain_lines n odoc otyp (match otyp with Some _ => nl1 | None => nl2 end) nl2)
    by (destruct odoc; destruct otyp; reflexivity).
  rewrite E. apply entry_plain_lines; try assumption; [destruct otyp|]; reflexivity.
Qed.

Lemma fld_eqb_eq : forall a b, fld_eqb a b = true -> a = b.
Proof.
  intros [| |x] [| |y] H; try discriminate; try reflexivity.
  cbn [fld_eqb] in H. apply str_eqb_eq in H. subst. reflexivity.
Qed.

Lemma settled_inv : forall T w, settled T w = true -> infer_res T w = Ok (T, w).
Proof.
  intros T w H. unfold settled in H. destruct (infer_res T w) as [[T' w']|e]; [|discriminate].
  apply andb_true_iff in H. destruct H as [H1 H2].
  apply fld_eqb_eq in H1. apply pyval_eqb_eq in H2. subst. reflexivity.
Qed.

Lemma type_name_fine : forall v, typ_fine (Has (type_name v)).
Proof. intros [|[|]|z|r|s]; reflexivity. Qed.

Lemma infer_res_missing_fine : forall w t' w', infer_res Missing w = Ok (t', w') -> typ_fine t'.
Proof.
  intros w t' w' H. unfold infer_res, infer_default in H.
  cbn [p_default p_typ p_doc andb fld_is_none fget] in H.
  change (needs_quoting None) with (Ok false : outcome bool) in H. cbn [bind orb] in H.
  set (d1 := if in_none_types w then VStr NoneStr else w) in *.
  set (d2 := if is_str_val d1 then unquote_val d1 else d1) in *.
  destruct (negb (pyval_eqb d2 (VStr NoneStr))) eqn:En; cbn [andb] in H.
  - destruct (code_quoted_val d2).
    + destruct (contains [ch 91] (type_name d2)); cbn [p_default p_typ] in H; injection H as H1 H2; subst;
        [apply type_name_fine|exact I].
    + cbn [p_default p_typ] in H. injection H as H1 H2. subst. apply type_name_fine.
  - cbn [p_default p_typ] in H. injection H as H1 H2. subst. exact I.
Qed.

Lemma coerce_ok_not_none : forall t s w, coerce_default t s = Ok w -> w <> VNone.
Proof. intros t s w H E. subst w. exact (coerce_default_not_none t s H). Qed.

Section DefaultEntry.
  Variables (ww edd : bool) (n d s : str) (v : pyval) (typ : option str).
  Hypothesis Hn : good_name n.
  Hypothesis Hd : prose_facts d.
  Hypothesis Hdtok : no_rest_token d = true.
  Hypothesis Hg : guard_C17 ADefaultsTo d v typ = true.
  Hypothesis Hs : shown_value v typ = Ok s.
  Hypothesis Hclean : value_text_clean s = true.

  Let Dw := sentence d s.
  Let Dk := if edd then Dw else d.

  Lemma Dk_fine : doc_fine Dk.
  Proof.
    unfold Dk. destruct edd; [|apply Hd].
    apply (sentence_fine d s (proj1 Hd) Hclean Hdtok).
  Qed.

  Lemma extract_Dw : forall t' w, coerce_default t' s = Ok w ->
      extract_default Dw true default_announces t' edd = Ok (Dk, Some w).
  Proof.
    intros t' w Hco. destruct (sentence_extract d v typ s Hg Hs t' w Hco) as [E1 E2].
    unfold Dk, Dw. destruct edd; assumption.
  Qed.

  (* first line: the sentence is read without a declared type *)
  Lemma run_doc_line_default : forall v1 typ1 w1 ws sdoc done rets cur,
      coerce_default None s = Ok v1 -> infer_res Missing (unquote_val v1) = Ok (typ1, w1) ->
      cur_ok cur n -> forallb isspace ws = true ->
      step ww edd (mkRS sdoc done rets cur) (dline n Dw ws)
      = Ok (mkRS sdoc (flushed done cur) rets (Some n, mkParam (Has Dk) typ1 (Some w1))).
  Proof.
    intros v1 typ1 w1 ws sdoc done rets cur Hv1 Hr1 Hcur Hws. unfold step, dline.
    destruct Hn as [Hc [Hp _]].
    assert (HDw : doc_fine Dw /\ no_rest_token Dw = true) by apply (sentence_fine d s (proj1 Hd) Hclean Hdtok).
    rewrite step_param_line; [|exact Hc|apply doc_fine_edge; apply HDw|exact Hws].
    rewrite (flush_for_other n sdoc done rets cur Hcur). cbn [bind fst snd empty_param p_typ p_default].
    rewrite (I_extract Dw Missing None default_announces edd Dk (Some v1) (extract_Dw None v1 Hv1)).
    assert (Em : (match Some v1 with None | Some VNone => None | Some v0 => Some (unquote_val v0) end)
                 = Some (unquote_val v1)).
    { destruct v1; try reflexivity. exfalso. exact (coerce_default_not_none None s Hv1). }
    rewrite Em. cbn [bind].
    rewrite (S_plain n _ (mkParam (Has Dk) typ1 (Some w1)) ww Hp).
    - reflexivity.
    - cbn [p_default]. apply infer_default_of_res. exact Hr1.
    - cbn [p_typ]. apply (infer_res_missing_fine _ _ _ Hr1).
    - cbn [p_doc]. apply Dk_fine.
  Qed.

  Lemma entry_default_notyp : forall v1 w1,
      typ = None ->
      coerce_default None s = Ok v1 -> infer_res Missing (unquote_val v1) = Ok (Missing, w1) ->
      (edd = false -> settled Missing w1 = true) ->
      entry_spec ww edd n [dline n Dw nl2]
                 (mkParam (Has Dk) Missing (Some w1))
                 (mkParam (Has Dk) Missing (Some (if edd then unquote_val v1 else w1))).
  Proof.
    intros v1 w1 Et Hv1 Hr1 Hset. pose proof Hn as [Hc [Hp _]].
    assert (HI : interpolate_defaults (mkParam (Has Dk) Missing (Some w1)) default_announces false edd
                 = Ok (mkParam (Has Dk) Missing (Some (if edd then unquote_val v1 else w1)))).
    { unfold Dk. destruct edd.
      - rewrite (I_extract Dw Missing (Some w1) default_announces true Dw (Some v1)).
        + destruct v1; try reflexivity. exfalso. exact (coerce_default_not_none None s Hv1).
        + destruct (sentence_extract d v typ s Hg Hs None v1 Hv1) as [E1 _]. exact E1.
      - apply I_noannounce. apply Hd. }
    split; [|split].
    - intros sdoc done rets cur Hcur. cbn [fold_outcome].
      rewrite (run_doc_line_default v1 Missing w1 nl2 sdoc done rets cur Hv1 Hr1 Hcur eq_refl). reflexivity.
    - eexists. split; [exact HI|].
      apply S_plain; [exact Hp| |exact I|apply Dk_fine].
      cbn [p_default]. apply infer_default_of_res.
      destruct edd; [exact Hr1|]. apply settled_inv. apply Hset. reflexivity.
    - exact HI.
  Qed.

  Lemma entry_default_typ : forall t v1 typ1 w1 w2 vfin,
      typ = Some t -> typ_facts t ->
      coerce_default None s = Ok v1 -> infer_res Missing (unquote_val v1) = Ok (typ1, w1) ->
      (if edd
       then exists v2, coerce_default (Some t) s = Ok v2 /\ infer_res (Has t) (unquote_val v2) = Ok (Has t, w2)
                       /\ vfin = unquote_val v2
       else infer_res (Has t) w1 = Ok (Has t, w2) /\ settled (Has t) w2 = true /\ vfin = w2) ->
      entry_spec ww edd n [dline n Dw nl1; tline n t nl2]
                 (mkParam (Has Dk) (Has t) (Some w2)) (mkParam (Has Dk) (Has t) (Some vfin)).
  Proof.
    intros t v1 typ1 w1 w2 vfin Et Ht Hv1 Hr1 Hj. pose proof Hn as [Hc [Hp _]].
    pose proof Ht as [Hbt [Hne [Hstar Hopt]]].
    (* the interpolate pass on a dict that has the type, whatever default it holds *)
    assert (HI : forall w0, interpolate_defaults (mkParam (Has Dk) (Has t) (Some w0)) default_announces false edd
                 = Ok (mkParam (Has Dk) (Has t) (Some (if edd then vfin else w0)))).
    { intros w0. unfold Dk. destruct edd.
      - destruct Hj as [v2 [Hv2 [_ Evf]]]. subst vfin.
        rewrite (I_extract Dw (Has t) (Some w0) default_announces true Dw (Some v2)).
        + destruct v2; try reflexivity. exfalso. exact (coerce_default_not_none (Some t) s Hv2).
        + destruct (sentence_extract d v typ s Hg Hs (Some t) v2 Hv2) as [E1 _]. exact E1.
      - apply I_noannounce. apply Hd. }
    (* the _set_name_and_type pass after it *)
    assert (HS : forall w0, (if edd then w0 = vfin else w0 = w1 \/ w0 = w2) ->
                 set_name_and_type (Some n) (mkParam (Has Dk) (Has t) (Some w0)) false ww
                 = Ok (n, mkParam (Has Dk) (Has t) (Some w2))).
    { intros w0 Hw0. apply S_plain; [exact Hp| |exact Hopt|apply Dk_fine].
      cbn [p_default]. apply infer_default_of_res. destruct edd.
      - destruct Hj as [v2 [_ [Hr2 Evf]]]. subst w0 vfin. exact Hr2.
      - destruct Hj as [Hr2 [Hset _]]. destruct Hw0 as [E|E]; subst w0; [exact Hr2|].
        apply settled_inv. exact Hset. }
    split; [|split].
    - intros sdoc done rets cur Hcur. cbn [fold_outcome].
      rewrite (run_doc_line_default v1 typ1 w1 nl1 sdoc done rets cur Hv1 Hr1 Hcur eq_refl). cbn [bind].
      unfold step, tline.
      rewrite step_type_line; [|exact Hc|exact Hbt|exact Hne|exact Hstar|reflexivity].
      rewrite flush_for_same. cbn [bind fst snd p_doc p_default].
      rewrite (HI w1). cbn [bind]. rewrite HS; [reflexivity|].
      destruct edd; [reflexivity|left; reflexivity].
    - eexists. split; [apply HI|]. apply HS. destruct edd; [reflexivity|right; reflexivity].
    - rewrite (HI w2). f_equal. f_equal. f_equal. destruct edd; [reflexivity|].
      destruct Hj as [_ [_ E]]. symmetry. exact E.
  Qed.
End DefaultEntry.

Lemma id_chars_exclude : forall c n, is_id_char c = false -> forallb is_id_char n = true -> mem_c c n = false.
Proof.
  intros c n Hc Hn. destruct (mem_c c n) eqn:E; [|reflexivity]. exfalso.
  apply mem_c_In in E. rewrite forallb_forall in Hn. rewrite (Hn c E) in Hc. discriminate.
Qed.

Lemma is_ident_no_char : forall s c, is_ident s = true -> is_id_char c = false -> mem_c c s = false.
Proof.
  intros s c H Hc. unfold is_ident in H. destruct s as [|x s]; [discriminate|].
  apply andb_true_iff in H. apply (id_chars_exclude c); [exact Hc|apply H].
Qed.

Lemma is_ident_basic : forall n, is_ident n = true -> name_basic n /\ mem_c nl n = false.
Proof.
  intros n Hi. split; [split|]; try (apply is_ident_no_char; [exact Hi|reflexivity]).
  unfold is_ident in Hi. destruct n as [|c r]; [discriminate|].
  exists c, r. split; [reflexivity|]. intros E. subst c. discriminate.
Qed.

Lemma is_ident_good : forall n, is_ident n = true -> endswith (L "kwargs") n = false ->
    good_name n /\ mem_c nl n = false.
Proof.
  intros n Hi Hk. destruct (is_ident_basic n Hi) as [[Hc [c [r [En Hstar]]]] Hnl].
  split; [|exact Hnl]. split; [exact Hc|]. split; [split; [exact Hk|]|exists c, r; split; assumption].
  subst n. change (L "**") with [ch 42; ch 42]. cbn [startswith].
  destruct (ascii_eqb (ch 42) c) eqn:E; [|reflexivity].
  apply ascii_eqb_eq in E. exfalso. apply Hstar. symmetry. exact E.
Qed.

Lemma type_in_domain_inv : forall t, type_in_domain t = true ->
    typ_facts t /\ mem_c nl t = false /\ no_rest_token t = true
    /\ exists nq, needs_quoting (Some t) = Ok nq.
Proof.
  intros t H. unfold type_in_domain in H.
  repeat (apply andb_true_iff in H; let H' := fresh "Hc" in destruct H as [H H']).
  apply negb_true_iff in Hc, Hc0, Hc3, Hc4.
  assert (Hne : t <> []). { intros E. subst t. discriminate. }
  split; [split; [exact Hc4|split; [exact Hne|split; [exact Hc|exact Hc0]]]|].
  split; [exact Hc3|]. split; [exact Hc1|].
  destruct (needs_quoting (Some t)) as [nq|e]; [exists nq; reflexivity|discriminate].
Qed.

Lemma clean_line_facts : forall d, d <> [] -> clean_line d = true -> starts_optional d = false -> doc_fine d.
Proof.
  intros d Hne Hc Ho. unfold clean_line in Hc. apply andb_true_iff in Hc. destruct Hc as [Hs Hn].
  apply str_eqb_eq in Hs. apply negb_true_iff in Hn.
  split; [exact Hne|]. split; [exact Hn|]. split; [|exact Ho]. apply strip_fix_edge_ok; assumption.
Qed.

(* the journey of a default outside every finding class, in the shape entry_default_notyp / entry_default_typ ask for *)
Lemma journey_inv : forall edd typ s v, default_journey edd typ s v = None ->
  exists v1 typ1 w1,
    coerce_default None s = Ok v1 /\ infer_res Missing (unquote_val v1) = Ok (typ1, w1)
    /\ match typ with
       | None => typ1 = Missing /\ (edd = false -> settled Missing w1 = true)
                 /\ same_val v (if edd then unquote_val v1 else w1) = true
       | Some t =>
         exists w2 vfin,
           (if edd
            then exists v2, coerce_default (Some t) s = Ok v2
                            /\ infer_res (Has t) (unquote_val v2) = Ok (Has t, w2) /\ vfin = unquote_val v2
            else infer_res (Has t) w1 = Ok (Has t, w2) /\ settled (Has t) w2 = true /\ vfin = w2)
           /\ same_val v vfin = true
       end.
Proof.
  intros edd typ s v H. unfold default_journey in H.
  destruct (coerce_default None s) as [v1|e] eqn:Ev1; [|destruct e; discriminate].
  destruct (infer_res Missing (unquote_val v1)) as [[typ1 w1]|e] eqn:Er1; [|destruct e; discriminate].
  exists v1, typ1, w1. split; [reflexivity|]. split; [exact Er1|].
  destruct typ as [t|].
  - destruct edd.
    + destruct (coerce_default (Some t) s) as [v2|e] eqn:Ev2; [|destruct e; discriminate].
      destruct (infer_res (Has t) (unquote_val v2)) as [[typ2 w2]|e] eqn:Er2; [|destruct e; discriminate].
      destruct (fld_eqb typ2 (Has t)) eqn:Et; cbn [negb] in H; [|discriminate].
      apply fld_eqb_eq in Et. subst typ2.
      destruct (same_val v (unquote_val v2)) eqn:Es; [|discriminate].
      exists w2, (unquote_val v2). split; [|exact Es]. exists v2. repeat split. exact Er2.
    + destruct (infer_res (Has t) w1) as [[typ2 w2]|e] eqn:Er2; [|destruct e; discriminate].
      destruct (fld_eqb typ2 (Has t)) eqn:Et; cbn [negb orb] in H; [|discriminate].
      apply fld_eqb_eq in Et. subst typ2.
      destruct (settled (Has t) w2) eqn:Eset; cbn [negb] in H; [|discriminate].
      destruct (same_val v w2) eqn:Es; [|discriminate].
      exists w2, w2. split; [|exact Es]. repeat split. exact Eset.
  - destruct (fld_eqb typ1 Missing) eqn:Et; cbn [negb] in H; [|discriminate].
    apply fld_eqb_eq in Et. split; [exact Et|]. destruct edd.
    + destruct (same_val v (unquote_val v1)) eqn:Es; [split; [discriminate|reflexivity]|discriminate].
    + destruct (settled Missing w1) eqn:Eset; cbn [negb] in H; [|discriminate].
      destruct (same_val v w1) eqn:Es; [split; reflexivity|discriminate].
Qed.

Lemma fld_str_Some_inv : forall f d, fld_str f = Some d -> f = Has d /\ d <> [].
Proof.
  intros [| |[|c r]] d H; try discriminate. injection H as H. subst d. split; [reflexivity|discriminate].
Qed.

Lemma entry_in_domain_inv : forall g, entry_in_domain g = true ->
    (forall d, g_doc g = Has d -> no_rest_token d = true)
    /\ exists typ, g_typ g = fld_of_opt typ /\ fld_str (g_typ g) = typ
                   /\ forall t, typ = Some t -> type_in_domain t = true.
Proof.
  intros g H. unfold entry_in_domain in H.
  apply andb_true_iff in H. destruct H as [H _]. apply andb_true_iff in H. destruct H as [Hdoc Htyp].
  split; [intros d E; rewrite E in Hdoc; exact Hdoc|].
  destruct (g_typ g) as [| |t]; [exists None; repeat split; intros t E; discriminate|discriminate|].
  exists (Some t). destruct (type_in_domain_inv t Htyp) as [[_ [Hne _]] _].
  destruct t as [|c r]; [contradiction|]. repeat split. intros t' E. injection E as E. subst t'. exact Htyp.
Qed.

(* the shapes of a parameter entry outside every finding class: an optional prose and an optional type, not both
   absent; a default only beside prose, and then with the journey of its sentence *)
Lemma param_class_inv : forall edd n g,
    endswith (L "kwargs") n = false -> entry_in_domain g = true -> param_class edd n g = None ->
    exists typ,
      g_typ g = fld_of_opt typ /\ (forall t, typ = Some t -> type_in_domain t = true)
      /\ (fld_str (g_doc g) <> None \/ typ <> None)
      /\ (forall d, fld_str (g_doc g) = Some d -> g_doc g = Has d /\ prose_facts d /\ no_rest_token d = true)
      /\ (g_default g = None
          \/ exists d v s, fld_str (g_doc g) = Some d /\ g_default g = Some (DV v)
                           /\ guard_C17 ADefaultsTo d v typ = true
                           /\ shown_value v typ = Ok s /\ value_text_clean s = true
                           /\ default_journey edd typ s v = None).
Proof.
  intros edd n g Hk Hdom Hc.
  destruct (entry_in_domain_inv g Hdom) as [Hdoc [typ [Etyp [Efs Htd]]]].
  exists typ. split; [exact Etyp|]. split; [exact Htd|].
  unfold param_class in Hc. rewrite Efs, Hk in Hc.
  destruct (fld_str (g_doc g)) as [d|] eqn:Ed.
  - destruct (fld_str_Some_inv _ _ Ed) as [Edoc Hne].
    destruct (clean_line d) eqn:Ecl; cbn [negb] in Hc; [|discriminate].
    destruct (starts_optional d) eqn:Eop; [discriminate|].
    destruct (no_announce d) eqn:Ena; cbn [negb] in Hc; [|discriminate].
    split; [left; discriminate|]. split.
    { intros d' E. injection E as E. subst d'. split; [exact Edoc|]. split; [|apply Hdoc; exact Edoc].
      split; [apply clean_line_facts; assumption|exact Ena]. }
    destruct (g_default g) as [[v|e|r]|]; [|discriminate|discriminate|left; reflexivity].
    right.
    destruct (finding_class_C17 ADefaultsTo d v typ) as [k|] eqn:Ek; [destruct k; discriminate|].
    destruct (shown_value v typ) as [s|e] eqn:Es; [|discriminate].
    destruct (value_text_clean s) eqn:Ev; cbn [negb] in Hc; [|discriminate].
    exists d, v, s. split; [reflexivity|]. split; [reflexivity|]. split.
    { unfold guard_C17, C17_domain. rewrite Ek, Ena. destruct d; [contradiction|reflexivity]. }
    split; [exact Es|]. split; [exact Ev|exact Hc].
  - destruct typ as [t|]; [|discriminate].
    split; [right; discriminate|]. split; [intros d E; discriminate|].
    left. destruct (g_default g); [discriminate|reflexivity].
Qed.

Record entry : Type := mkE {
  e_name : str;
  e_blocks : list (str * str);
  e_mid : param;
  e_fin : param
}.

Definition block_good (b : str * str) : Prop := In (fst b) rest_scan_tokens /\ no_rest_token (snd b) = true.

Definition entry_ok (ww edd : bool) (e : entry) : Prop :=
  name_basic (e_name e)
  /\ entry_spec ww edd (e_name e) (map as_line (e_blocks e)) (e_mid e) (e_fin e)
  /\ (forall b, In b (e_blocks e) -> block_good b)
  /\ e_blocks e <> [].

Lemma dblock_good : forall n val ws,
    mem_c colon n = false -> no_rest_token val = true -> forallb isspace ws = true -> block_good (dblock n val ws).
Proof.
  intros n val ws Hn Hv Hws. split.
  - left. reflexivity.
  - apply key_body_token_free; assumption.
Qed.

Lemma tblock_good : forall n t ws,
    mem_c colon n = false -> no_rest_token t = true -> forallb isspace ws = true -> block_good (tblock n t ws).
Proof.
  intros n t ws Hn Ht Hws. split.
  - right. right. right. right. left. reflexivity.
  - apply key_body_token_free; [exact Hn|apply bt_wrapped_token_free; exact Ht|exact Hws].
Qed.

Lemma eblocks_good : forall n odoc otyp,
    mem_c colon n = false ->
    (forall D, odoc = Some D -> no_rest_token D = true) -> (forall t, otyp = Some t -> no_rest_token t = true) ->
    forall b, In b (eblocks n odoc otyp) -> block_good b.
Proof.
  intros n odoc otyp Hn HD Ht b Hb. apply in_app_or in Hb. destruct Hb as [Hb|Hb].
  - destruct odoc as [D|]; [|destruct Hb]. destruct Hb as [Hb|[]]. subst b.
    apply dblock_good; [exact Hn|apply HD; reflexivity|destruct otyp; reflexivity].
  - destruct otyp as [t|]; [|destruct Hb]. destruct Hb as [Hb|[]]. subst b.
    apply tblock_good; [exact Hn|apply Ht; reflexivity|reflexivity].
Qed.

Lemma iabf_single : forall c r, isspace c = false -> mem_c nl (c :: r) = false ->
    indent_all_but_first (c :: r) 1 false = c :: r.
Proof.
  intros c r Hc Hnl. unfold indent_all_but_first, indent.
  rewrite (split_nl_one (c :: r) Hnl). cbn [indent_lines forallb]. rewrite Hc. cbn [andb join].
  assert (Et : repeat_str tab 1 = tab) by (unfold repeat_str; cbn [repeat concat]; apply app_nil_r).
  rewrite Et.
  assert (Hnl' : mem_c nl (tab ++ c :: r) = false).
  { rewrite mem_c_app, Hnl. reflexivity. }
  rewrite (split_nl_one _ Hnl'). cbn [join].
  rewrite (lstrip_pad tab (c :: r) eq_refl).
  unfold lstrip. apply lstrip_by_id. intros c' Hc'. injection Hc' as Hc'. subst c'. exact Hc.
Qed.

Lemma doc_line_text : forall n val ws,
    (L ":" ++ (L "param " ++ n) ++ L ": " ++ val) ++ ws = blk (dblock n val ws).
Proof. intros n val ws. unfold blk, dblock. cbn [fst snd]. rewrite <- !app_assoc. reflexivity. Qed.

Lemma typ_line_text : forall n t ws,
    (L ":" ++ (L "type " ++ n) ++ L ": ```" ++ t ++ L "```") ++ ws = blk (tblock n t ws).
Proof. intros n t ws. unfold blk, tblock. cbn [fst snd]. rewrite <- !app_assoc. reflexivity. Qed.

Lemma iabf_colon_line : forall x, mem_c nl (L ":" ++ x) = false -> indent_all_but_first (L ":" ++ x) 1 false = L ":" ++ x.
Proof. intros x H. apply (iabf_single colon x); [reflexivity|exact H]. Qed.

(* the lines the printer writes for an entry:  :key: prose  and  :key_typ: ```type```  *)
Definition elines (key key_typ : str) (odoc otyp : option str) : list str :=
  (match odoc with Some D => [L ":" ++ key ++ L ": " ++ D] | None => [] end)
  ++ (match otyp with Some t => [L ":" ++ key_typ ++ L ": ```" ++ t ++ L "```"] | None => [] end).

(* each begins with a colon and holds no line break, so the text is the lines, one per line *)
Lemma rest_param_text_lines : forall n g key key_typ odoc otyp,
    rest_param_lines n g = Ok (elines key key_typ odoc otyp) ->
    mem_c nl key = false -> mem_c nl key_typ = false ->
    (forall D, odoc = Some D -> mem_c nl D = false) -> (forall t, otyp = Some t -> mem_c nl t = false) ->
    rest_param_text n g = Ok (join [nl] (elines key key_typ odoc otyp)).
Proof.
  intros n g key key_typ odoc otyp Hl Hk Hkt HD Ht. unfold rest_param_text. rewrite Hl. cbn [bind].
  do 2 f_equal. unfold elines. rewrite map_app. f_equal.
  - destruct odoc as [D|]; [|reflexivity]. cbn [map]. f_equal. apply iabf_colon_line.
    rewrite !mem_c_app, Hk, (HD D eq_refl). reflexivity.
  - destruct otyp as [t|]; [|reflexivity]. cbn [map]. f_equal. apply iabf_colon_line.
    rewrite !mem_c_app, Hkt, (Ht t eq_refl). reflexivity.
Qed.

Lemma eblocks_text : forall n odoc otyp, odoc <> None \/ otyp <> None ->
    join [nl] (elines (L "param " ++ n) (L "type " ++ n) odoc otyp) ++ nl2 = concat (map blk (eblocks n odoc otyp)).
Proof.
  intros n [D|] [t|] Hsome; [| | |exfalso; destruct Hsome as [H|H]; apply H; reflexivity];
    cbn [elines eblocks app map join concat]; rewrite ?app_nil_r, <- ?doc_line_text, <- ?typ_line_text.
  - (* the two lines, kept folded *)
    set (ld := L ":" ++ (L "param " ++ n) ++ L ": " ++ D).
    set (lt := L ":" ++ (L "type " ++ n) ++ L ": ```" ++ t ++ L "```").
    rewrite <- !app_assoc. reflexivity.
  - reflexivity.
  - reflexivity.
Qed.

Lemma rest_param_lines_eq : forall n gd T gdf (odoc typ : option str),
    T = fld_of_opt typ -> (forall t, typ = Some t -> t <> []) ->
    (match odoc with
     | None => truthy_fld gd = false
     | Some D => exists d p p', gd = Has d /\ d <> [] /\ param_of_gparam (mkG gd T gdf) = Some p
                               /\ set_default_doc n p true = Ok p' /\ p_doc p' = Has D
     end) ->
    rest_param_lines n (mkG gd T gdf)
    = Ok (elines (if str_eqb n (L "return_type") then L "returns" else L "param " ++ n)
                 (if str_eqb n (L "return_type") then L "rtype" else L "type " ++ n) odoc typ).
Proof.
  intros n gd T gdf odoc typ ET Hne Hdoc. unfold rest_param_lines, elines. cbv zeta. cbn [g_doc g_typ].
  assert (Etl : forall kt, (match T with
                            | Has (c :: t) => [L ":" ++ kt ++ L ": ```" ++ (c :: t) ++ L "```"]
                            | _ => [] end)
                           = match typ with Some t => [L ":" ++ kt ++ L ": ```" ++ t ++ L "```"] | None => [] end).
  { intros kt. subst T. destruct typ as [t|]; [|reflexivity]. cbn [fld_of_opt].
    destruct t as [|c t]; [exfalso; apply (Hne [] eq_refl); reflexivity|reflexivity]. }
  rewrite Etl. destruct odoc as [D|].
  - destruct Hdoc as [d [p [p' [Egd [Hd [Hp [Hs HD]]]]]]].
    assert (Etr : truthy_fld gd = true). { subst gd. destruct d; [contradiction|reflexivity]. }
    rewrite Etr, Hp, Hs. cbn [bind]. rewrite HD. reflexivity.
  - rewrite Hdoc. reflexivity.
Qed.

Lemma rest_param_lines_nodefault : forall n gd (typ : option str),
    (forall t, typ = Some t -> t <> []) ->
    rest_param_lines n (mkG gd (fld_of_opt typ) None)
    = Ok (elines (if str_eqb n (L "return_type") then L "returns" else L "param " ++ n)
                 (if str_eqb n (L "return_type") then L "rtype" else L "type " ++ n) (fld_str gd) typ).
Proof.
  intros n gd typ Hne. apply rest_param_lines_eq; [reflexivity|exact Hne|].
  destruct (fld_str gd) as [d|] eqn:Ed.
  - destruct (fld_str_Some_inv _ _ Ed) as [Egd Hd]. subst gd.
    exists d, (mkParam (Has d) (fld_of_opt typ) None), (mkParam (Has d) (fld_of_opt typ) None).
    split; [reflexivity|]. split; [exact Hd|]. split; [reflexivity|]. split; [|reflexivity].
    apply set_default_doc_no_default; [reflexivity|discriminate].
  - destruct gd as [| |[|c r]]; try reflexivity. discriminate.
Qed.

Lemma opt_eqb_str_refl : forall o : option str, opt_eqb str_eqb o o = true.
Proof. intros [x|]; [apply str_eqb_refl|reflexivity]. Qed.

Lemma fld_str_nonempty : forall x, x <> [] -> fld_str (Has x) = Some x.
Proof. intros [|c r] H; [contradiction|reflexivity]. Qed.

Lemma fld_str_of_opt : forall f, fld_str (fld_of_opt (fld_str f)) = fld_str f.
Proof. intros [| |[|c r]]; reflexivity. Qed.

Lemma same_entry_fields : forall edd n g D T dv,
    fld_str T = fld_str (g_typ g) -> fld_str D = fld_str (g_doc g) ->
    same_default_ir (g_default g) (option_map DV dv) = true ->
    same_entry edd n g (gparam_of_param (mkParam D T dv)) = true.
Proof.
  intros edd n g D T dv HT HD Hv. unfold same_entry, same_prose_dflt, same_typ, same_prose.
  cbn [gparam_of_param g_typ g_doc g_default p_typ p_doc p_default].
  rewrite HT, HD, Hv, !opt_eqb_str_refl. destruct edd; reflexivity.
Qed.

(* an entry from its run through the parser and the lines the printer writes for it *)
Lemma mk_entry : forall ww edd n g odoc otyp mid fin,
    name_basic n -> mem_c nl n = false -> odoc <> None \/ otyp <> None ->
    (forall D, odoc = Some D -> no_rest_token D = true /\ mem_c nl D = false) ->
    (forall t, otyp = Some t -> no_rest_token t = true /\ mem_c nl t = false) ->
    entry_spec ww edd n (map as_line (eblocks n odoc otyp)) mid fin ->
    rest_param_lines n g = Ok (elines (L "param " ++ n) (L "type " ++ n) odoc otyp) ->
    same_entry edd n g (gparam_of_param fin) = true ->
    exists e, e_name e = n /\ entry_ok ww edd e
              /\ (exists txt, rest_param_text n g = Ok txt /\ txt ++ nl2 = concat (map blk (e_blocks e)))
              /\ same_entry edd n g (gparam_of_param (e_fin e)) = true.
Proof.
  intros ww edd n g odoc otyp mid fin Hn Hnnl Hsome HD Ht Hspec Hlines Hsame.
  exists (mkE n (eblocks n odoc otyp) mid fin). split; [reflexivity|]. split; [|split; [|exact Hsame]].
  - split; [exact Hn|]. split; [exact Hspec|]. split.
    + apply eblocks_good; [apply Hn|intros D E; apply (HD D E)|intros t E; apply (Ht t E)].
    + cbn [e_blocks]. destruct odoc; destruct otyp; try discriminate.
      exfalso. destruct Hsome as [H|H]; apply H; reflexivity.
  - exists (join [nl] (elines (L "param " ++ n) (L "type " ++ n) odoc otyp)). split; [|apply eblocks_text; exact Hsome].
    apply rest_param_text_lines; [exact Hlines| | |intros D E; apply (HD D E)|intros t E; apply (Ht t E)];
      rewrite mem_c_app, Hnnl; reflexivity.
Qed.

Theorem param_entry : forall ww edd n g,
    is_ident n = true -> endswith (L "kwargs") n = false -> str_eqb n (L "return_type") = false ->
    entry_in_domain g = true -> param_class edd n g = None ->
    exists e, e_name e = n /\ entry_ok ww edd e
              /\ (exists txt, rest_param_text n g = Ok txt /\ txt ++ nl2 = concat (map blk (e_blocks e)))
              /\ same_entry edd n g (gparam_of_param (e_fin e)) = true.
Proof.
  intros ww edd n g Hid Hk Hrt Hdom Hc.
  destruct (is_ident_good n Hid Hk) as [Hgood Hnnl].
  destruct (param_class_inv edd n g Hk Hdom Hc) as [typ [Etyp [Htd [Hsome [Hprose Hdflt]]]]].
  assert (Htfacts : forall t, typ = Some t -> typ_facts t /\ no_rest_token t = true /\ mem_c nl t = false).
  { intros t E. destruct (type_in_domain_inv t (Htd t E)) as [H1 [H2 [H3 _]]].
    split; [exact H1|split; [exact H3|exact H2]]. }
  assert (Htne : forall t, typ = Some t -> t <> []) by (intros t E; apply (Htfacts t E)).
  assert (Httok : forall t, typ = Some t -> no_rest_token t = true /\ mem_c nl t = false)
    by (intros t E; apply (Htfacts t E)).
  destruct g as [gd gt gdf]. cbn [g_doc g_typ g_default] in *. subst gt.
  destruct Hdflt as [Edf | [d [v [s [Ed [Edf [Hg [Hs [Hclean Hj]]]]]]]]]; subst gdf.
  - (* no default: the prose and the type, as far as present, come back as they are *)
    apply (mk_entry ww edd n _ (fld_str gd) typ (mkParam (fld_of_opt (fld_str gd)) (fld_of_opt typ) None)
                    (mkParam (fld_of_opt (fld_str gd)) (fld_of_opt typ) None) (good_name_basic n Hgood) Hnnl Hsome).
    + intros D E. destruct (Hprose D E) as [_ [Hp Htok]]. split; [exact Htok|apply Hp].
    + exact Httok.
    + apply entry_nodefault; [exact Hgood|intros D E; apply (Hprose D E)|intros t E; apply (Htfacts t E)|exact Hsome].
    + rewrite (rest_param_lines_nodefault n gd typ Htne), Hrt. reflexivity.
    + apply same_entry_fields; [reflexivity|apply fld_str_of_opt|reflexivity].
  - (* a default: the prose goes out with its sentence *)
    destruct (Hprose d Ed) as [Egd [Hpf Hdtok]]. subst gd. pose proof Hpf as [Hdf Hna].
    destruct (sentence_written n d v typ s Hg Hs Hk) as [v' Hw].
    destruct (sentence_fine d s Hdf Hclean Hdtok) as [HDwf HDwtok].
    assert (Hsomed : Some (sentence d s) <> None \/ typ <> None) by (left; discriminate).
    assert (HD : forall D, Some (sentence d s) = Some D -> no_rest_token D = true /\ mem_c nl D = false).
    { intros D E. injection E as E. subst D. split; [exact HDwtok|apply HDwf]. }
    assert (Hlines : rest_param_lines n (mkG (Has d) (fld_of_opt typ) (Some (DV v)))
              = Ok (elines (L "param " ++ n) (L "type " ++ n) (Some (sentence d s)) typ)).
    { rewrite (rest_param_lines_eq n (Has d) (fld_of_opt typ) (Some (DV v)) (Some (sentence d s)) typ eq_refl Htne), Hrt;
        [reflexivity|].
      exists d, (mkParam (Has d) (fld_of_opt typ) (Some v)), (mkParam (Has (sentence d s)) (fld_of_opt typ) (Some v')).
      split; [reflexivity|]. split; [apply Hdf|]. split; [reflexivity|]. split; [exact Hw|reflexivity]. }
    (* what the comparison needs of the final dict *)
    assert (Hsame : forall vfin, same_val v vfin = true ->
               same_entry edd n (mkG (Has d) (fld_of_opt typ) (Some (DV v)))
                          (gparam_of_param (mkParam (Has (if edd then sentence d s else d)) (fld_of_opt typ) (Some vfin))) = true).
    { intros vfin Hv. destruct edd; [|apply same_entry_fields; [reflexivity|reflexivity|exact Hv]].
      unfold same_entry, same_typ, same_prose_dflt, sentence_doc.
      cbn [param_of_gparam gparam_of_param g_default g_doc g_typ p_doc p_typ p_default option_map].
      rewrite Hw, opt_eqb_str_refl. cbn [p_doc].
      destruct HDwf as [HDwne _]. destruct (sentence d s) as [|c0 r0]; [contradiction|].
      cbn [fld_str andb]. rewrite str_eqb_refl, orb_true_r. exact Hv. }
    destruct (journey_inv edd typ s v Hj) as [v1 [typ1 [w1 [Hv1 [Hr1 Hcase]]]]].
    destruct typ as [t|].
    + destruct Hcase as [w2 [vfin [Hjj Hsv]]].
      eapply (mk_entry ww edd n _ (Some (sentence d s)) (Some t) _ _ (good_name_basic n Hgood) Hnnl Hsomed HD Httok);
        [|exact Hlines|exact (Hsame vfin Hsv)].
      exact (entry_default_typ ww edd n d s v (Some t) Hgood Hpf Hdtok Hg Hs Hclean
                               t v1 typ1 w1 w2 vfin eq_refl (proj1 (Htfacts t eq_refl)) Hv1 Hr1 Hjj).
    + destruct Hcase as [Etyp1 [Hset Hsv]]. subst typ1.
      eapply (mk_entry ww edd n _ (Some (sentence d s)) None _ _ (good_name_basic n Hgood) Hnnl Hsomed HD Httok);
        [|exact Hlines|exact (Hsame _ Hsv)].
      exact (entry_default_notyp ww edd n d s v None Hgood Hpf Hdtok Hg Hs Hclean v1 w1 eq_refl Hv1 Hr1 Hset).
Qed.

Lemma entry_kwargs : forall ww edd n d t,
    mem_c colon n = false -> endswith (L "kwargs") n = true -> (exists c r, n = c :: r /\ c <> ch 42) ->
    prose_facts d -> typ_facts t -> str_eqb t (L "dict") = false ->
    entry_spec ww edd n [dline n d nl1; tline n t nl2]
               (mkParam (Has d) (Has t) (Some (VStr NoneStr))) (mkParam (Has d) (Has t) (Some (VStr NoneStr))).
Proof.
  intros ww edd n d t Hc Hk Hstar Hd Ht Hnd.
  pose proof Ht as [Hbt [Hne [Hstar' Hopt]]].
  assert (HI : forall T v0, interpolate_defaults (mkParam (Has d) T v0) default_announces false edd
                            = Ok (mkParam (Has d) T v0)).
  { intros T v0. apply I_noannounce. apply Hd. }
  assert (HS2 : forall v0, v0 = None \/ v0 = Some (VStr NoneStr) ->
             set_name_and_type (Some n) (mkParam (Has d) (Has t) v0) false ww
             = Ok (n, mkParam (Has d) (Has t) (Some (VStr NoneStr)))).
  { intros v0 Hv0. rewrite (S_kwargs n d (Has t) v0 ww Hk Hstar).
    - cbn [kwargs_typ]. rewrite Hnd. destruct Hv0 as [E|E]; subst v0; reflexivity.
    - cbn [kwargs_typ]. rewrite Hnd. exact Hopt.
    - apply Hd. }
  split; [|split].
  - intros sdoc done rets cur Hcur. cbn [fold_outcome]. unfold step, dline.
    rewrite step_param_line; [|exact Hc|apply doc_fine_edge; apply Hd|reflexivity].
    rewrite (flush_for_other n sdoc done rets cur Hcur). cbn [bind fst snd empty_param p_typ p_default].
    rewrite HI. cbn [bind].
    rewrite (S_kwargs n d Missing None ww Hk Hstar); [|reflexivity|apply Hd]. cbn [bind fst snd kwargs_typ].
    unfold tline. rewrite step_type_line; [|exact Hc|exact Hbt|exact Hne|exact Hstar'|reflexivity].
    rewrite flush_for_same. cbn [bind fst snd p_doc p_default].
    rewrite HI. cbn [bind]. rewrite HS2; [reflexivity|right; reflexivity].
  - eexists. split; [apply HI|]. apply HS2. right. reflexivity.
  - apply HI.
Qed.

Lemma set_default_doc_kwargs_none : forall n d T v,
    endswith (L "kwargs") n = true -> (v = VNone \/ v = VStr NoneStr) ->
    exists p', set_default_doc n (mkParam (Has d) T (Some v)) true = Ok p' /\ p_doc p' = Has d.
Proof.
  intros n d T v Hk Hv. unfold set_default_doc. cbn [p_doc p_typ p_default].
  destruct (contains (L "Defaults") d || contains (L "defaults") d); cbn [negb andb].
  - eexists. split; reflexivity.
  - assert (E : (if pyval_eqb v (VStr NoneStr) then VNone else v) = VNone).
    { destruct Hv as [Hv|Hv]; subst v; reflexivity. }
    rewrite E. change (pyval_eqb VNone VNone) with true. rewrite Hk. cbn [negb orb].
    eexists. split; reflexivity.
Qed.

Lemma param_class_inv_kwargs : forall edd n g,
    endswith (L "kwargs") n = true -> entry_in_domain g = true -> param_class edd n g = None ->
    exists d t v, g_doc g = Has d /\ prose_facts d /\ no_rest_token d = true
                  /\ g_typ g = Has t /\ type_in_domain t = true /\ str_eqb t (L "dict") = false
                  /\ g_default g = Some (DV v) /\ (v = VNone \/ v = VStr NoneStr).
Proof.
  intros edd n g Hk Hdom Hc.
  destruct (entry_in_domain_inv g Hdom) as [Hdoc [typ [Etyp [Efs Htd]]]].
  unfold param_class in Hc. rewrite Efs, Hk in Hc.
  destruct (fld_str (g_doc g)) as [d|] eqn:Ed; [|destruct typ; discriminate].
  destruct (fld_str_Some_inv _ _ Ed) as [Edoc Hne].
  destruct (clean_line d) eqn:Ecl; cbn [negb] in Hc; [|discriminate].
  destruct (starts_optional d) eqn:Eop; [discriminate|].
  destruct (no_announce d) eqn:Ena; cbn [negb] in Hc; [|discriminate].
  destruct typ as [t|]; [|discriminate].
  destruct (g_default g) as [[v|e|rr]|]; try discriminate.
  destruct (pyval_eqb v VNone || pyval_eqb v (VStr NoneStr)) eqn:Ev; cbn [andb] in Hc; [|discriminate].
  destruct (str_eqb t (L "dict")) eqn:Edict; cbn [negb] in Hc; [discriminate|].
  exists d, t, v. split; [exact Edoc|]. split; [split; [apply clean_line_facts; assumption|exact Ena]|].
  split; [apply Hdoc; exact Edoc|]. split; [exact Etyp|]. split; [apply Htd; reflexivity|].
  split; [exact Edict|]. split; [reflexivity|].
  apply orb_true_iff in Ev. destruct Ev as [Ev|Ev]; apply pyval_eqb_eq in Ev; [left|right]; exact Ev.
Qed.

(* every parameter of the guard is an entry: the ...kwargs name, else param_entry *)
Theorem param_entry_all : forall ww edd n g,
    is_ident n = true -> str_eqb n (L "return_type") = false ->
    entry_in_domain g = true -> param_class edd n g = None ->
    exists e, e_name e = n /\ entry_ok ww edd e
              /\ (exists txt, rest_param_text n g = Ok txt /\ txt ++ nl2 = concat (map blk (e_blocks e)))
              /\ same_entry edd n g (gparam_of_param (e_fin e)) = true.
Proof.
  intros ww edd n g Hid Hrt Hdom Hc.
  destruct (endswith (L "kwargs") n) eqn:Hk; [|apply param_entry; assumption].
  destruct (param_class_inv_kwargs edd n g Hk Hdom Hc) as [d [t [v [Ed [Hpf [Hdtok [Et [Htd [Hnd [Edf Hv]]]]]]]]]].
  destruct (type_in_domain_inv t Htd) as [Htf [Htnl [Httok _]]].
  destruct (is_ident_basic n Hid) as [Hbasic Hnnl].
  destruct g as [gd gt gdf]. cbn [g_doc g_typ g_default] in *. subst gd gt gdf.
  assert (Hsome : Some d <> None \/ Some t <> None) by (left; discriminate).
  apply (mk_entry ww edd n _ (Some d) (Some t) (mkParam (Has d) (Has t) (Some (VStr NoneStr)))
                  (mkParam (Has d) (Has t) (Some (VStr NoneStr))) Hbasic Hnnl Hsome).
  - intros D E. injection E as E. subst D. split; [exact Hdtok|apply Hpf].
  - intros t' E. injection E as E. subst t'. split; assumption.
  - apply entry_kwargs; try assumption; apply Hbasic.
  - destruct (set_default_doc_kwargs_none n d (Has t) v Hk Hv) as [p' [Hw Hp']].
    rewrite (rest_param_lines_eq n (Has d) (Has t) (Some (DV v)) (Some d) (Some t) eq_refl), Hrt; [reflexivity| |].
    + intros t' E. injection E as E. subst t'. apply Htf.
    + exists d, (mkParam (Has d) (Has t) (Some v)), p'.
      split; [reflexivity|]. split; [apply Hpf|]. split; [reflexivity|]. split; [exact Hw|exact Hp'].
  - apply same_entry_fields; [reflexivity|reflexivity|]. destruct Hv as [Hv|Hv]; subst v; reflexivity.
Qed.

Lemma fold_outcome_app : forall {A B} (f : A -> B -> outcome A) l1 l2 a,
    fold_outcome f (l1 ++ l2) a = (do a' <- fold_outcome f l1 a; fold_outcome f l2 a').
Proof.
  intros A B f l1. induction l1 as [|x l1 IH]; intros l2 a; [reflexivity|].
  cbn [app fold_outcome]. destruct (f a x) as [a'|e]; [|reflexivity]. cbn [bind]. apply IH.
Qed.

Fixpoint run_spec (es : list entry) (done : list (str * param)) (cur : option str * param)
  : list (str * param) * (option str * param) :=
  match es with
  | [] => (done, cur)
  | e :: r => run_spec r (flushed done cur) (Some (e_name e), e_mid e)
  end.

Definition entry_lines (e : entry) : list (bool * str) := map as_line (e_blocks e).
Definition all_lines (es : list entry) : list (bool * str) := concat (map entry_lines es).

Fixpoint names_ok (cur : option str * param) (es : list entry) : Prop :=
  match es with
  | [] => True
  | e :: r => cur_ok cur (e_name e) /\ names_ok (Some (e_name e), e_mid e) r
  end.

Lemma run_entries : forall ww edd es sdoc done rets cur,
    (forall e, In e es -> entry_ok ww edd e) -> names_ok cur es ->
    fold_outcome (step ww edd) (all_lines es) (mkRS sdoc done rets cur)
    = Ok (mkRS sdoc (fst (run_spec es done cur)) rets (snd (run_spec es done cur))).
Proof.
  intros ww edd es. induction es as [|e es IH]; intros sdoc done rets cur Hok Hnames.
  - destruct cur. reflexivity.
  - unfold all_lines. cbn [map concat]. rewrite fold_outcome_app.
    destruct (Hok e (or_introl eq_refl)) as [_ [[Hrun _] _]].
    destruct Hnames as [Hcur Hnames].
    unfold entry_lines at 1. rewrite (Hrun sdoc done rets cur Hcur). cbn [bind run_spec].
    apply IH; [|exact Hnames]. intros e' He'. apply Hok. right. exact He'.
Qed.

Lemma od_set_fresh : forall {A} k (v : A) d, ~ In k (map fst d) -> od_set k v d = d ++ [(k, v)].
Proof.
  intros A k v d. induction d as [|[k' v'] d IH]; intros H; [reflexivity|].
  cbn [od_set map fst In] in *.
  assert (E : str_eqb k k' = false).
  { apply str_eqb_neq. intros E. apply H. left. symmetry. exact E. }
  rewrite E. cbn [app]. f_equal. apply IH. intros Hin. apply H. right. exact Hin.
Qed.

Lemma names_ok_of_nodup : forall ww edd es m pm,
    (forall e, In e es -> entry_ok ww edd e) ->
    (exists c r, m = c :: r /\ c <> ch 42) ->
    NoDup (m :: map e_name es) -> names_ok (Some m, pm) es.
Proof.
  intros ww edd es. induction es as [|e es IH]; intros m pm Hok Hm Hnd; [exact I|].
  cbn [names_ok]. split.
  - unfold cur_ok. cbn [fst]. split; [|exact Hm].
    intros E. inversion Hnd as [|x l Hnotin Hnd']. apply Hnotin. left. symmetry. exact E.
  - apply IH.
    + intros e' He'. apply Hok. right. exact He'.
    + destruct (Hok e (or_introl eq_refl)) as [[_ Hb] _]. exact Hb.
    + inversion Hnd as [|x l Hnotin Hnd']. exact Hnd'.
Qed.

(* after the last entry the final flush stores the running pair: all entries, in order *)
Lemma final_params : forall es done m pm,
    NoDup (map fst done ++ m :: map e_name es) ->
    exists nl pl, snd (run_spec es done (Some m, pm)) = (Some nl, pl)
      /\ od_set nl pl (fst (run_spec es done (Some m, pm)))
         = done ++ (m, pm) :: map (fun e => (e_name e, e_mid e)) es
      /\ ((es = [] /\ nl = m /\ pl = pm)
          \/ exists e, In e es /\ nl = e_name e /\ pl = e_mid e).
Proof.
  induction es as [|e es IH]; intros done m pm Hnd.
  - exists m, pm. cbn [run_spec fst snd map]. split; [reflexivity|]. split.
    + apply od_set_fresh. intros Hin. apply NoDup_remove_2 in Hnd. apply Hnd.
      apply in_or_app. left. exact Hin.
    + left. repeat split.
  - cbn [run_spec]. unfold flushed. cbn [fst snd].
    assert (Ef : od_set m pm done = done ++ [(m, pm)]).
    { apply od_set_fresh. intros Hin. apply NoDup_remove_2 in Hnd. apply Hnd. apply in_or_app. left. exact Hin. }
    rewrite Ef.
    destruct (IH (done ++ [(m, pm)]) (e_name e) (e_mid e)) as [nl [pl [H1 [H2 H3]]]].
    { rewrite map_app. cbn [map fst]. rewrite <- app_assoc. exact Hnd. }
    exists nl, pl. split; [exact H1|]. split.
    + rewrite H2. rewrite <- app_assoc. reflexivity.
    + right. destruct H3 as [[E1 [E2 E3]]|[e' [He' [E2 E3]]]].
      * exists e. split; [left; reflexivity|]. split; assumption.
      * exists e'. split; [right; exact He'|]. split; assumption.
Qed.

Inductive entries_of (ww edd : bool) : list (str * gparam) -> list entry -> Prop :=
| eo_nil : entries_of ww edd [] []
| eo_cons : forall n g ps e es,
    e_name e = n -> entry_ok ww edd e ->
    (exists txt, rest_param_text n g = Ok txt /\ txt ++ nl2 = concat (map blk (e_blocks e))) ->
    same_entry edd n g (gparam_of_param (e_fin e)) = true ->
    entries_of ww edd ps es -> entries_of ww edd ((n, g) :: ps) (e :: es).

Definition param_in_domain (kv : str * gparam) : bool :=
  is_ident (fst kv) && negb (str_eqb (fst kv) (L "return_type")) && entry_in_domain (snd kv).

Lemma entries_exist : forall ww edd ps,
    forallb param_in_domain ps = true ->
    first_class (fun kv => param_class edd (fst kv) (snd kv)) ps = None ->
    exists es, entries_of ww edd ps es.
Proof.
  intros ww edd ps. induction ps as [|[n g] ps IH]; intros Hdom Hc.
  - exists []. constructor.
  - cbn [forallb] in Hdom. apply andb_true_iff in Hdom. destruct Hdom as [Hd Hdom].
    unfold param_in_domain in Hd. cbn [fst snd] in Hd.
    apply andb_true_iff in Hd. destruct Hd as [Hd Hed]. apply andb_true_iff in Hd. destruct Hd as [Hid Hrt].
    apply negb_true_iff in Hrt.
    cbn [first_class fst snd] in Hc.
    destruct (param_class edd n g) as [k|] eqn:Ek; [discriminate|].
    destruct (IH Hdom Hc) as [es Hes].
    destruct (param_entry_all ww edd n g Hid Hrt Hed Ek) as [e [En [Hok [Htxt Hsame]]]].
    exists (e :: es). constructor; assumption.
Qed.

Lemma entries_names : forall ww edd ps es, entries_of ww edd ps es -> map e_name es = map fst ps.
Proof. intros ww edd ps es H. induction H; [reflexivity|]. cbn [map fst]. rewrite IHentries_of. f_equal. assumption. Qed.

Lemma entries_ok : forall ww edd ps es, entries_of ww edd ps es -> forall e, In e es -> entry_ok ww edd e.
Proof.
  intros ww edd ps es H. induction H; intros e' He'; [destruct He'|].
  destruct He' as [E|He']; [subst e'; assumption|apply IHentries_of; exact He'].
Qed.

Definition all_blocks (es : list entry) : list (str * str) := concat (map e_blocks es).

Lemma all_lines_blocks : forall es, all_lines es = map as_line (all_blocks es).
Proof.
  induction es as [|e es IH]; [reflexivity|].
  unfold all_lines, all_blocks in *. cbn [map concat]. rewrite map_app, IH. reflexivity.
Qed.

Lemma entries_text : forall ww edd ps es, entries_of ww edd ps es ->
    exists txts, map_outcome (fun kv => rest_param_text (fst kv) (snd kv)) ps = Ok txts
                 /\ concat (map (fun t => t ++ nl2) txts) = concat (map blk (all_blocks es))
                 /\ List.length txts = List.length ps.
Proof.
  intros ww edd ps es H. induction H as [|n g ps e es En Hok [txt [Ht Htxt]] Hsame Hes [txts [IH1 [IH2 IH3]]]].
  - exists []. repeat split.
  - exists (txt :: txts). cbn [map_outcome fst snd]. rewrite Ht. cbn [bind]. rewrite IH1. cbn [bind].
    split; [reflexivity|]. split.
    + unfold all_blocks. cbn [map concat]. rewrite map_app, concat_app, Htxt.
      unfold all_blocks in IH2. rewrite IH2. reflexivity.
    + cbn [List.length]. rewrite IH3. reflexivity.
Qed.

Lemma entries_same : forall ww edd ps es, entries_of ww edd ps es ->
    same_params edd ps (map (fun e => (e_name e, gparam_of_param (e_fin e))) es) = true.
Proof.
  intros ww edd ps es H. induction H; [reflexivity|].
  cbn [map same_params]. rewrite H, str_eqb_refl, H2, IHentries_of. reflexivity.
Qed.

Definition dblock_pad (n pad val ws : str) : str * str := (L ":param", sp :: n ++ colon :: pad ++ val ++ ws).
Definition rblock_pad (pad val ws : str) : str * str := (L ":return", L "s" ++ colon :: pad ++ val ++ ws).
Definition rblock (d ws : str) : str * str := (L ":return", L "s" ++ colon :: sp :: d ++ ws).
Definition rtblock (t ws : str) : str * str := (L ":rtype", colon :: sp :: (L "```" ++ t ++ L "```") ++ ws).

Lemma rblock_line : forall d ws, as_line (rblock d ws) = (true, ret_line (L "returns") d ws).
Proof. reflexivity. Qed.

Lemma rtblock_line : forall t ws, as_line (rtblock t ws) = (true, ret_line (L "rtype") (L "```" ++ t ++ L "```") ws).
Proof. reflexivity. Qed.

Lemma rblock_good_pad : forall pad d ws,
    pad <> [] -> forallb isspace pad = true -> no_rest_token d = true -> forallb isspace ws = true ->
    block_good (rblock_pad pad d ws).
Proof.
  intros pad d ws Hne Hpad Hd Hws. split.
  - right. right. right. right. right. left. reflexivity.
  - cbn [snd rblock_pad]. apply no_rest_token_app_r; [reflexivity| |].
    + apply no_rest_token_colon_pad; assumption.
    + intros c Hc. injection Hc as Hc. subst c. reflexivity.
Qed.

Lemma rblock_good : forall d ws, no_rest_token d = true -> forallb isspace ws = true -> block_good (rblock d ws).
Proof. intros d ws Hd Hws. apply (rblock_good_pad [sp] d ws); [discriminate|reflexivity|exact Hd|exact Hws]. Qed.

Lemma rtblock_good : forall t ws, no_rest_token t = true -> forallb isspace ws = true -> block_good (rtblock t ws).
Proof.
  intros t ws Ht Hws. split.
  - right. right. right. right. right. right. left. reflexivity.
  - cbn [snd rtblock]. change (colon :: sp :: (L "```" ++ t ++ L "```") ++ ws)
      with ([colon] ++ sp :: ((L "```" ++ t ++ L "```") ++ ws)).
    apply no_rest_token_sp; [reflexivity|]. apply no_rest_token_ws; [|exact Hws].
    apply bt_wrapped_token_free. exact Ht.
Qed.

Lemma ret_doc_line_text : forall d ws, (L ":" ++ L "returns" ++ L ": " ++ d) ++ ws = blk (rblock d ws).
Proof. intros d ws. unfold blk, rblock. cbn [fst snd]. rewrite <- !app_assoc. reflexivity. Qed.

Lemma ret_typ_line_text : forall t ws, (L ":" ++ L "rtype" ++ L ": ```" ++ t ++ L "```") ++ ws = blk (rtblock t ws).
Proof. intros t ws. unfold blk, rtblock. cbn [fst snd]. rewrite <- !app_assoc. reflexivity. Qed.

Definition ret_blocks (odoc otyp : option str) : list (str * str) :=
  (match odoc with Some d => [rblock d nl1] | None => [] end)
  ++ (match otyp with Some t => [rtblock t nl1] | None => [] end).

Lemma ret_blocks_text : forall odoc otyp, odoc <> None \/ otyp <> None ->
    join [nl] (elines (L "returns") (L "rtype") odoc otyp) ++ nl1 = concat (map blk (ret_blocks odoc otyp)).
Proof.
  intros [d|] [t|] Hsome; [| | |exfalso; destruct Hsome as [H|H]; apply H; reflexivity];
    cbn [elines ret_blocks app map join concat]; rewrite ?app_nil_r, <- ?ret_doc_line_text, <- ?ret_typ_line_text.
  - set (ld := L ":" ++ L "returns" ++ L ": " ++ d).
    set (lt := L ":" ++ L "rtype" ++ L ": ```" ++ t ++ L "```").
    rewrite <- !app_assoc. reflexivity.
  - reflexivity.
  - reflexivity.
Qed.

Lemma ret_blocks_good : forall odoc otyp,
    (forall d, odoc = Some d -> no_rest_token d = true) -> (forall t, otyp = Some t -> no_rest_token t = true) ->
    forall b, In b (ret_blocks odoc otyp) -> block_good b.
Proof.
  intros odoc otyp Hd Ht b Hb. apply in_app_or in Hb. destruct Hb as [Hb|Hb].
  - destruct odoc as [d|]; [|destruct Hb]. destruct Hb as [Hb|[]]. subst b.
    apply rblock_good; [apply Hd; reflexivity|reflexivity].
  - destruct otyp as [t|]; [|destruct Hb]. destruct Hb as [Hb|[]]. subst b.
    apply rtblock_good; [apply Ht; reflexivity|reflexivity].
Qed.

Lemma ret_blocks_run : forall ww edd odoc otyp st,
    (forall d, odoc = Some d -> edge_ok d /\ no_announce d = true) ->
    (forall t, otyp = Some t -> mem_c bt t = false /\ startswith (L "**") t = false) ->
    odoc <> None \/ otyp <> None -> rs_returns st = None ->
    fold_outcome (step ww edd) (map as_line (ret_blocks odoc otyp)) st
    = Ok (mkRS (rs_doc st) (rs_params st) (Some (mkParam (fld_of_opt odoc) (fld_of_opt otyp) None)) (rs_cur st)).
Proof.
  intros ww edd odoc otyp st Hd Ht Hsome Hst.
  destruct st as [sdoc ps rets cur]. cbn [rs_returns rs_doc rs_params rs_cur] in *. subst rets.
  destruct odoc as [d|]; destruct otyp as [t|]; cbn [ret_blocks app map fold_outcome fld_of_opt];
    rewrite ?rblock_line, ?rtblock_line; unfold step.
  - destruct (Hd d eq_refl) as [He Hna]. destruct (Ht t eq_refl) as [Hbt Hstar].
    rewrite step_returns_line; [|exact He|exact Hna|reflexivity]. cbn [bind].
    rewrite step_rtype_line; [|exact Hbt|exact Hstar|reflexivity]. reflexivity.
  - destruct (Hd d eq_refl) as [He Hna].
    rewrite step_returns_line; [|exact He|exact Hna|reflexivity]. reflexivity.
  - destruct (Ht t eq_refl) as [Hbt Hstar].
    rewrite step_rtype_line; [|exact Hbt|exact Hstar|reflexivity]. reflexivity.
  - exfalso. destruct Hsome as [H|H]; apply H; reflexivity.
Qed.

Definition ret_spec (edd : bool) (g : gparam) (rblocks : list (str * str)) (rp : param) : Prop :=
  (forall ww st, rs_returns st = None ->
      fold_outcome (step ww edd) (map as_line rblocks) st
      = Ok (mkRS (rs_doc st) (rs_params st) (Some rp) (rs_cur st)))
  /\ interpolate_defaults rp default_announces false edd = Ok rp
  /\ (exists txt, rest_param_text (L "return_type") g = Ok txt /\ txt ++ nl1 = concat (map blk rblocks))
  /\ (forall b, In b rblocks -> block_good b)
  /\ same_entry edd (L "return_type") g (gparam_of_param rp) = true.

Lemma return_entry : forall edd g,
    entry_in_domain g = true -> return_class g = None ->
    exists rblocks rp, ret_spec edd g rblocks rp.
Proof.
  intros edd g Hdom Hc.
  destruct (entry_in_domain_inv g Hdom) as [Hdoc [typ [Etyp [Efs Htd]]]].
  destruct g as [gd gt gdf]. cbn [g_doc g_typ g_default] in *. subst gt.
  unfold return_class in Hc. cbn [g_doc g_typ g_default] in Hc. rewrite Efs in Hc.
  assert (Hdf : gdf = None).
  { destruct (fld_str gd); destruct typ; destruct gdf; try discriminate; reflexivity. }
  subst gdf.
  assert (Hsome : fld_str gd <> None \/ typ <> None).
  { destruct (fld_str gd); [left; discriminate|]. destruct typ; [right; discriminate|discriminate]. }
  assert (Hd : forall d, fld_str gd = Some d ->
                         edge_ok d /\ mem_c nl d = false /\ no_announce d = true /\ no_rest_token d = true).
  { intros d E. rewrite E in Hc. destruct (fld_str_Some_inv _ _ E) as [Egd Hne].
    destruct (clean_line d) eqn:Ecl; cbn [negb] in Hc; [|destruct typ; discriminate].
    destruct (no_announce d) eqn:Ena; cbn [negb] in Hc; [|destruct typ; discriminate].
    unfold clean_line in Ecl. apply andb_true_iff in Ecl. destruct Ecl as [Es En].
    apply str_eqb_eq in Es. apply negb_true_iff in En.
    split; [apply strip_fix_edge_ok; assumption|]. split; [exact En|]. split; [reflexivity|apply Hdoc; exact Egd]. }
  exists (ret_blocks (fld_str gd) typ), (mkParam (fld_of_opt (fld_str gd)) (fld_of_opt typ) None).
  split; [|split; [|split; [|split]]].
  - intros ww st Hst. apply ret_blocks_run; [| |exact Hsome|exact Hst].
    + intros d E. destruct (Hd d E) as [He [_ [Hna _]]]. split; assumption.
    + intros t E. destruct (type_in_domain_inv t (Htd t E)) as [[Hbt [_ [Hstar _]]] _]. split; assumption.
  - destruct (fld_str gd) as [d|] eqn:Ed; cbn [fld_of_opt]; [|apply I_nodoc].
    apply I_noannounce. apply (Hd d eq_refl).
  - exists (join [nl] (elines (L "returns") (L "rtype") (fld_str gd) typ)). split; [|apply ret_blocks_text; exact Hsome].
    apply rest_param_text_lines; [|reflexivity|reflexivity|intros d E; apply (Hd d E)|].
    + rewrite rest_param_lines_nodefault; [reflexivity|].
      intros t E. destruct (type_in_domain_inv t (Htd t E)) as [[_ [Hne _]] _]. exact Hne.
    + intros t E. apply (type_in_domain_inv t (Htd t E)).
  - apply ret_blocks_good.
    + intros d E. apply (Hd d E).
    + intros t E. apply (type_in_domain_inv t (Htd t E)).
  - apply same_entry_fields; [reflexivity|apply fld_str_of_opt|reflexivity].
Qed.

Lemma join_sep_concat : forall sep (l : list str), l <> [] ->
    join sep l ++ sep = concat (map (fun x => x ++ sep) l).
Proof.
  intros sep l. induction l as [|x l IH]; intros Hne; [contradiction|].
  destruct l as [|y l].
  - cbn [join map concat]. rewrite app_nil_r. reflexivity.
  - change (join sep (x :: y :: l)) with (x ++ sep ++ join sep (y :: l)).
    rewrite <- !app_assoc. rewrite IH by discriminate. cbn [map concat]. rewrite <- !app_assoc. reflexivity.
Qed.

Lemma map_params_entries : forall edd es,
    (forall e, In e es -> interpolate_defaults (e_mid e) default_announces false edd = Ok (e_fin e)) ->
    map_params (fun p => interpolate_defaults p default_announces false edd)
               (map (fun e => (e_name e, e_mid e)) es)
    = Ok (map (fun e => (e_name e, e_fin e)) es).
Proof.
  intros edd es. induction es as [|e es IH]; intros H; [reflexivity|].
  unfold map_params in *. cbn [map map_outcome fst snd].
  rewrite (H e (or_introl eq_refl)). cbn [bind]. rewrite IH; [reflexivity|].
  intros e' He'. apply H. right. exact He'.
Qed.

Lemma docpart_facts : forall sdoc ws, no_rest_token sdoc = true -> strip sdoc = sdoc ->
    forallb isspace ws = true ->
    no_rest_token ([nl] ++ sdoc ++ ws) = true /\ strip ([nl] ++ sdoc ++ ws) = sdoc.
Proof.
  intros sdoc ws Htok Hs Hws. split.
  - apply no_rest_token_app_l; [reflexivity| |].
    + apply no_rest_token_ws; [exact Htok|exact Hws].
    + intros c Hc. injection Hc as Hc. subst c. split; [reflexivity|discriminate].
  - destruct sdoc as [|c r].
    + cbn [app]. change (nl :: ws) with ([nl] ++ ws).
      assert (Hall : forallb isspace ([nl] ++ ws) = true) by (cbn [app forallb]; rewrite Hws; reflexivity).
      unfold strip, strip_by. change (lstrip_by isspace) with lstrip.
      rewrite <- (app_nil_r ([nl] ++ ws)). rewrite (lstrip_pad _ [] Hall). reflexivity.
    + apply strip_pad; [reflexivity|exact Hws|]. apply strip_fix_edge_ok; [discriminate|exact Hs].
Qed.

Lemma parse_dot_rest : forall ng (text : str) it prop edd,
    text <> [] -> detect_style (Some text) = Rest ->
    parse_dot_docstring ng text it prop edd = parse_rest text it true prop edd.
Proof.
  intros ng text it prop edd Hne Hs. unfold parse_dot_docstring, parse_docstring.
  destruct text as [|c r]; [contradiction|]. rewrite Hs. reflexivity.
Qed.

Lemma returns_part : forall edd irets,
    (match irets with Has g => entry_in_domain g | _ => true end) = true ->
    match fld_opt irets with Some g => return_class g | None => None end = None ->
    exists rblocks orp,
      (forall ww st, rs_returns st = None ->
          fold_outcome (step ww edd) (map as_line rblocks) st
          = Ok (mkRS (rs_doc st) (rs_params st) orp (rs_cur st)))
      /\ map_returns (fun p => interpolate_defaults p default_announces false edd) orp = Ok orp
      /\ (exists rtxt, (match irets with
                        | Has g => do t <- rest_param_text (L "return_type") g; Ok (nl :: t)
                        | _ => Ok [] end) = Ok rtxt
                       /\ [nl] ++ rtxt ++ [nl] = nl2 ++ concat (map blk rblocks))
      /\ (forall b, In b rblocks -> block_good b)
      /\ same_returns edd irets (match orp with None => FNone | Some r => Has (gparam_of_param r) end) = true
      /\ (fld_opt irets <> None -> rblocks <> []).
Proof.
  intros edd irets Hret_dom Hretc.
  destruct irets as [| |g]; cbn [fld_opt] in Hretc.
  (* no return entry: no block, no dict *)
  1, 2: exists [], None; split; [intros ww st Hst; destruct st; cbn in *; subst; reflexivity|].
  1, 2: split; [reflexivity|]; split; [exists []; split; reflexivity|]; split; [intros b []|].
  1, 2: split; [reflexivity|]; intros H; exfalso; apply H; reflexivity.
  destruct (return_entry edd g Hret_dom Hretc) as [rblocks [rp [H1 [H2 [[rtxt [H3 H3']] [H4 H5]]]]]].
  exists rblocks, (Some rp). split; [exact H1|]. split; [cbn [map_returns]; rewrite H2; reflexivity|].
  split; [|split; [exact H4|split]].
  - exists (nl :: rtxt). rewrite H3. split; [reflexivity|]. rewrite <- H3'. unfold nl1, nl2.
    cbn [app]. reflexivity.
  - unfold same_returns. cbn [fld_opt opt_eqb]. exact H5.
  - intros _ E. subst rblocks. cbn [map concat] in H3'. destruct rtxt; discriminate.
Qed.

Lemma guard_C01_rest_inv : forall edd i, guard_C01_rest edd i = true ->
    exists sdoc,
      ir_doc i = Has sdoc /\ no_rest_token sdoc = true /\ strip sdoc = sdoc
      /\ forallb param_in_domain (ir_params i) = true
      /\ nodup_str (map fst (ir_params i)) = true
      /\ (match ir_returns i with Has g => entry_in_domain g | _ => true end) = true
      /\ first_class (fun kv => param_class edd (fst kv) (snd kv)) (ir_params i) = None
      /\ match fld_opt (ir_returns i) with Some g => return_class g | None => None end = None
      /\ (ir_params i = [] -> fld_opt (ir_returns i) <> None).
Proof.
  intros edd i Hg. unfold guard_C01_rest in Hg. apply andb_true_iff in Hg. destruct Hg as [Hdom Hcls].
  destruct (finding_class_C01_rest false edd i) as [k|] eqn:Hc; [discriminate|]. clear Hcls.
  unfold in_domain_C01 in Hdom.
  apply andb_true_iff in Hdom. destruct Hdom as [Hdom Hret_dom].
  apply andb_true_iff in Hdom. destruct Hdom as [Hdom Hnodup].
  apply andb_true_iff in Hdom. destruct Hdom as [Hsum Hparams].
  destruct (ir_doc i) as [| |sdoc] eqn:Edoc; try discriminate.
  exists sdoc. split; [reflexivity|]. split; [exact Hsum|].
  unfold finding_class_C01_rest in Hc. cbn [andb] in Hc. rewrite Edoc in Hc.
  assert (Hc' : str_eqb (strip sdoc) sdoc = true
                /\ first_class (fun kv => param_class edd (fst kv) (snd kv)) (ir_params i) = None
                /\ match fld_opt (ir_returns i) with Some g => return_class g | None => None end = None
                /\ (ir_params i = [] -> fld_opt (ir_returns i) <> None)).
  { destruct (ir_params i) as [|p0 ps0]; destruct (fld_opt (ir_returns i)) as [g|]; try discriminate.
    - destruct (str_eqb (strip sdoc) sdoc); cbn [negb] in Hc; [|discriminate].
      cbn [first_class] in Hc. repeat split; try exact Hc. intros _. discriminate.
    - destruct (str_eqb (strip sdoc) sdoc); cbn [negb] in Hc; [|discriminate].
      destruct (first_class (fun kv => param_class edd (fst kv) (snd kv)) (p0 :: ps0)); [discriminate|].
      repeat split; try exact Hc. intros E. discriminate.
    - destruct (str_eqb (strip sdoc) sdoc); cbn [negb] in Hc; [|discriminate].
      destruct (first_class (fun kv => param_class edd (fst kv) (snd kv)) (p0 :: ps0)); [discriminate|].
      repeat split. intros E. discriminate. }
  destruct Hc' as [Hstrip [Hfirst [Hretc Hne]]]. apply str_eqb_eq in Hstrip.
  repeat (split; [assumption|]). assumption.
Qed.

Lemma blk_nonnil : forall b, block_good b -> blk b <> [].
Proof.
  intros b [Htok _] E. apply app_eq_nil in E. destruct E as [E _]. rewrite E in Htok.
  pose proof (wf_shape rest_scan_tokens rest_scan_tokens_wf [] Htok) as H. discriminate H.
Qed.

Lemma all_blocks_good : forall ww edd es,
    (forall e, In e es -> entry_ok ww edd e) -> forall b, In b (all_blocks es) -> block_good b.
Proof.
  intros ww edd es Hoks b Hb. unfold all_blocks in Hb. apply in_concat in Hb.
  destruct Hb as [bl [Hbl Hb]]. apply in_map_iff in Hbl. destruct Hbl as [e [Ee He]]. subst bl.
  destruct (Hoks e He) as [_ [_ [Hg _]]]. apply Hg. exact Hb.
Qed.

Lemma blocks_detect_style : forall docpart blocks b,
    In b blocks -> block_good b -> detect_style (Some (docpart ++ concat (map blk blocks))) = Rest.
Proof.
  intros docpart blocks b Hb Hgood. apply (detect_style_rest _ (fst b)).
  - rewrite <- rest_scan_tokens_eq. apply Hgood.
  - apply contains_block_token. exact Hb.
Qed.

(* the lines of the entries, then those of the return entry, from the state after the summary line: the final flush
   stores the running pair, so the parameters come out in order *)
Lemma rest_phase_blocks : forall edd docpart es rblocks rfin,
    (forall e, In e es -> entry_ok true edd e) -> NoDup (map e_name es) ->
    (forall st, rs_returns st = None ->
        fold_outcome (step true edd) (map as_line rblocks) st = Ok (mkRS (rs_doc st) (rs_params st) rfin (rs_cur st))) ->
    exists cur', parse_phase_rest ((false, docpart) :: map as_line (all_blocks es ++ rblocks)) false true true edd
                 = Ok (mkRS (strip docpart) (map (fun e => (e_name e, e_mid e)) es) rfin cur').
Proof.
  intros edd docpart es rblocks rfin Hoks Hnd Hrrun.
  unfold parse_phase_rest. cbn [fold_outcome]. unfold parse_rest_line at 1. cbn [init_rstate rs_doc].
  unfold init_rstate. cbn [bind rs_params rs_returns rs_cur rs_doc].
  rewrite map_app, fold_outcome_app, <- all_lines_blocks. fold (step true edd).
  destruct es as [|e1 es1].
  - (* no parameter: the running pair never gets a name, nothing is flushed *)
    cbn [all_lines map concat fold_outcome bind].
    rewrite Hrrun by reflexivity. cbn [bind rs_doc rs_params rs_returns rs_cur fst].
    eexists. reflexivity.
  - rewrite (run_entries true edd (e1 :: es1) (strip docpart) [] None (None, empty_param) Hoks).
    2:{ cbn [names_ok]. split; [reflexivity|].
        apply (names_ok_of_nodup true edd).
        - intros e He. apply Hoks. right. exact He.
        - destruct (Hoks e1) as [[_ Hb] _]; [left; reflexivity|exact Hb].
        - exact Hnd. }
    cbn [bind]. rewrite Hrrun by reflexivity. cbn [bind rs_doc rs_params rs_returns rs_cur].
    cbn [run_spec]. change (flushed [] (None, empty_param)) with (@nil (str * param)).
    destruct (final_params es1 [] (e_name e1) (e_mid e1)) as [nl' [pl [H1 [H2 H3]]]].
    { cbn [map app]. exact Hnd. }
    rewrite H1. cbn [fst snd].
    assert (Hlast : exists e, In e (e1 :: es1) /\ nl' = e_name e /\ pl = e_mid e).
    { destruct H3 as [[E1 [E2 E3]]|[e [He [E2 E3]]]].
      - exists e1. split; [left; reflexivity|]. split; assumption.
      - exists e. split; [right; exact He|]. split; assumption. }
    destruct Hlast as [el [Hel [Enl Epl]]]. subst nl' pl.
    destruct (Hoks el Hel) as [_ [[_ [[mi [HI HS]] _]] _]].
    rewrite HI. cbn [bind]. rewrite HS. cbn [bind fst snd]. unfold maybe_remove. rewrite andb_false_r. cbn [bind].
    rewrite H2. eexists. reflexivity.
Qed.

(* the ReST parser on a text given as blocks: a token-free summary part, then the blocks of the parameter entries, then
   those of an optional return entry; parse.docstring reads back exactly the entries *)
Theorem parse_blocks : forall edd docpart es rblocks rfin,
    no_rest_token docpart = true ->
    (forall e, In e es -> entry_ok true edd e) -> NoDup (map e_name es) ->
    (forall b, In b rblocks -> block_good b) ->
    (forall st, rs_returns st = None ->
        fold_outcome (step true edd) (map as_line rblocks) st = Ok (mkRS (rs_doc st) (rs_params st) rfin (rs_cur st))) ->
    map_returns (fun p => interpolate_defaults p default_announces false edd) rfin = Ok rfin ->
    all_blocks es ++ rblocks <> [] ->
    parse_dot_docstring ng_unmodelled (docpart ++ concat (map blk (all_blocks es ++ rblocks))) false true edd
    = Ok (ir_of_parts (strip docpart) (map (fun e => (e_name e, e_fin e)) es) rfin).
Proof.
  intros edd docpart es rblocks rfin Hdoctok Hoks Hnd Hrgood Hrrun Hrpost Hne.
  set (blocks := all_blocks es ++ rblocks) in *.
  assert (Hgood : forall b, In b blocks -> block_good b).
  { intros b Hb. apply in_app_or in Hb. destruct Hb as [Hb|Hb]; [apply (all_blocks_good true edd es Hoks)|apply Hrgood]; exact Hb. }
  destruct blocks as [|b0 bs] eqn:Eblocks; [contradiction|]. rewrite <- Eblocks in *.
  assert (Hb0 : In b0 blocks) by (rewrite Eblocks; left; reflexivity).
  assert (Hstyle : detect_style (Some (docpart ++ concat (map blk blocks))) = Rest).
  { apply (blocks_detect_style docpart blocks b0 Hb0). apply (Hgood b0 Hb0). }
  rewrite parse_dot_rest; [| |exact Hstyle].
  - unfold parse_rest. rewrite (scan_rest_blocks docpart blocks Hdoctok Hgood) by (left; exact Hne).
    destruct (rest_phase_blocks edd docpart es rblocks rfin Hoks Hnd Hrrun) as [cur' Hphase].
    fold as_line. unfold blocks. rewrite Hphase. cbn [bind rs_params rs_returns rs_doc].
    rewrite (map_params_entries edd es).
    2:{ intros e He. destruct (Hoks e He) as [_ [[_ [_ H]] _]]. exact H. }
    cbn [bind]. rewrite Hrpost. reflexivity.
  - rewrite Eblocks. cbn [map concat]. intros E. apply app_eq_nil in E. destruct E as [_ E].
    apply app_eq_nil in E. destruct E as [E _]. apply (blk_nonnil b0 (Hgood b0 Hb0) E).
Qed.

Theorem C01_rest_partial_lemma : forall edd i, guard_C01_rest edd i = true -> C01_rest_at edd i.
Proof.
  intros edd i Hg.
  destruct (guard_C01_rest_inv edd i Hg) as
      [sdoc [Edoc [Hsum [Hstrip [Hparams [Hnodup [Hret_dom [Hfirst [Hretc Hsome]]]]]]]]].
  destruct i as [iname itype idoc ps irets iint]. cbn [ir_doc ir_params ir_returns] in *. subst idoc.
  destruct (entries_exist true edd ps Hparams Hfirst) as [es Hes].
  pose proof (entries_names _ _ _ _ Hes) as Hnames.
  pose proof (entries_ok _ _ _ _ Hes) as Hoks.
  destruct (entries_text _ _ _ _ Hes) as [txts [Htxts [Htext Hlen]]].
  destruct (returns_part edd irets Hret_dom Hretc)
    as [rblocks [orp [Hrrun [Hrpost [[rtxt [Hrtxt Hrtext]] [Hrgood [Hrsame Hrne]]]]]]].
  (* the text: after the summary come two line breaks, and two more when there is no parameter *)
  set (sep := match ps with [] => nl2 ++ nl2 | _ => nl2 end).
  set (docpart := [nl] ++ sdoc ++ sep).
  set (blocks := all_blocks es ++ rblocks).
  assert (Htext_eq : rest_text_of (mkIR iname itype (Has sdoc) ps irets iint)
                     = Ok (docpart ++ concat (map blk blocks))).
  { unfold rest_text_of. cbn [ir_doc ir_params ir_returns bind]. rewrite Htxts. cbn [bind].
    rewrite Hrtxt. cbn [bind]. f_equal. unfold docpart, blocks, sep.
    rewrite map_app, concat_app, <- Htext.
    destruct ps as [|p0 ps0].
    - destruct txts; [|discriminate]. cbn [join map concat]. unfold nl2 in *.
      cbn [app] in *. rewrite <- !app_assoc. cbn [app]. f_equal. f_equal. f_equal. f_equal.
      cbn [app] in Hrtext. exact Hrtext.
    - assert (Htxts_ne : txts <> []) by (intros E; subst txts; discriminate).
      rewrite <- (join_sep_concat nl2 txts Htxts_ne).
      unfold nl2 in *. rewrite <- !app_assoc. f_equal. f_equal. f_equal. f_equal. exact Hrtext. }
  assert (Hsepws : forallb isspace sep = true) by (unfold sep; destruct ps; reflexivity).
  destruct (docpart_facts sdoc sep Hsum Hstrip Hsepws) as [Hdoctok Hdocstrip]. fold docpart in Hdoctok, Hdocstrip.
  assert (Hne : blocks <> []).
  { unfold blocks. destruct es as [|e1 es1].
    - assert (Eps : ps = []) by (inversion Hes; reflexivity). exact (Hrne (Hsome Eps)).
    - destruct (Hoks e1 (or_introl eq_refl)) as [_ [_ [_ Hne]]]. unfold all_blocks. cbn [map concat].
      intros E. apply app_eq_nil in E. destruct E as [E _]. apply app_eq_nil in E. destruct E as [E _]. exact (Hne E). }
  assert (Hnd : NoDup (map e_name es)) by (rewrite Hnames; apply nodup_str_NoDup; exact Hnodup).
  pose proof (parse_blocks edd docpart es rblocks orp Hdoctok Hoks Hnd Hrgood (Hrrun true) Hrpost Hne) as Hparse.
  rewrite Hdocstrip in Hparse. fold blocks in Hparse.
  exists (docpart ++ concat (map blk blocks)), (ir_of_parts sdoc (map (fun e => (e_name e, e_fin e)) es) orp).
  split; [exact Htext_eq|]. split; [|split; [exact Hparse|]].
  - destruct blocks as [|b0 bs] eqn:Eb; [contradiction|]. rewrite <- Eb.
    assert (Hb0 : In b0 blocks) by (rewrite Eb; left; reflexivity).
    apply (blocks_detect_style docpart blocks b0 Hb0). unfold blocks in Hb0. apply in_app_or in Hb0.
    destruct Hb0 as [Hb0|Hb0]; [apply (all_blocks_good true edd es Hoks b0 Hb0)|apply (Hrgood b0 Hb0)].
  - unfold same_interface, same_summary, ir_of_parts. cbn [ir_doc ir_params ir_returns fld_opt opt_eqb].
    rewrite str_eqb_refl. cbn [andb]. rewrite map_map. cbn [fst snd].
    rewrite (entries_same _ _ _ _ Hes). cbn [andb]. exact Hrsame.
Qed.

Lemma C01_rest_at_b_complete : forall edd i, C01_rest_at edd i -> C01_rest_at_b edd i = true.
Proof.
  intros edd i [text [i' [H1 [H2 [H3 H4]]]]]. unfold C01_rest_at_b. rewrite H1, H2, H3, H4. reflexivity.
Qed.

Lemma C01_rest_at_b_sound : forall edd i, C01_rest_at_b edd i = true -> C01_rest_at edd i.
Proof.
  intros edd i H. unfold C01_rest_at_b in H.
  destruct (rest_text_of i) as [text|e] eqn:E1; [|discriminate].
  apply andb_true_iff in H. destruct H as [H2 H3].
  destruct (detect_style (Some text)) eqn:E2; try discriminate.
  destruct (parse_dot_docstring ng_unmodelled text false true edd) as [i'|e] eqn:E3; [|discriminate].
  exists text, i'. repeat split; assumption.
Qed.

(* the property over the whole domain, ReST style *)
Definition C01_rest_statement : Prop :=
  forall edd i, in_domain_C01 i = true -> C01_rest_at edd i.

Definition mk_ir (doc : str) (ps : list (str * gparam)) (r : fld gparam) : ir :=
  mkIR FNone (Has (L "static")) (Has doc) ps r None.

Definition gp (doc typ : option str) (dflt : option pyval) : gparam :=
  mkG (fld_of_opt doc) (fld_of_opt typ) (option_map DV dflt).

(* a docstring that documents only a return value: since the parser only flushes a named pending
   parameter it round-trips, and is inside the guard *)
Definition w_return_only : ir :=
  mk_ir (L "Summary.") [] (Has (gp (Some (L "the result.")) (Some (L "int")) None)).

Lemma w_return_only_round_trips :
  guard_C01_rest true w_return_only = true /\ guard_C01_rest false w_return_only = true
  /\ C01_rest_at_b true w_return_only = true /\ C01_rest_at_b false w_return_only = true.
Proof. repeat apply conj; vm_compute; reflexivity. Qed.

(* a parameter with a type and a default but no prose: the default is only ever written into prose *)
Definition w_type_only_default : ir :=
  mk_ir (L "Summary.") [(L "lr", gp None (Some (L "float")) (Some (VFloat (L "0.5"))))] FNone.

Lemma w_type_only_default_fails :
  in_domain_C01 w_type_only_default = true /\ C01_rest_at_b true w_type_only_default = false.
Proof. split; vm_compute; reflexivity. Qed.

Theorem C01_rest_refuted_lemma : ~ C01_rest_statement.
Proof.
  intros H. destruct w_type_only_default_fails as [Hd Hb].
  pose proof (C01_rest_at_b_complete true _ (H true _ Hd)) as Hc. congruence.
Qed.

(* one witness per finding class: in the domain, in the class, and the property fails in the model *)
Definition witness_ok (edd : bool) (k : c01_class) (i : ir) : bool :=
  in_domain_C01 i
  && (match finding_class_C01_rest false edd i with
      | Some k' => str_eqb (c01_class_name k') (c01_class_name k)
      | None => false end)
  && negb (C01_rest_at_b edd i).

Definition one (n : str) (g : gparam) : ir := mk_ir (L "Summary.") [(n, g)] FNone.

Definition class_witnesses : list (bool * c01_class * ir) :=
  [ (true, K01_no_entries, mk_ir (L "Summary.") [] FNone);
    (true, K01_entry_vanishes,
     mk_ir (L "Summary.") [(L "a", gp (Some (L "first.")) (Some (L "int")) None); (L "b", gp None None None)] FNone);
    (true, K01_type_only_default_lost, w_type_only_default);
    (true, K01_prose_only_type_invented, one (L "n") (gp (Some (L "count.")) None (Some (VInt 5))));
    (true, K01_summary_shape, mk_ir (L " Summary.") [(L "a", gp (Some (L "first.")) (Some (L "int")) None)] FNone);
    (true, K01_prose_shape, one (L "a") (gp (Some (L "first line." ++ [nl] ++ L "second line.")) (Some (L "int")) None));
    (true, K01_prose_optional, one (L "a") (gp (Some (L "Optional count.")) (Some (L "int")) None));
    (true, K01_prose_announces, one (L "a") (gp (Some (L "count; default: 5 items.")) (Some (L "int")) None));
    (false, K01_default K_prose_no_terminal, one (L "a") (gp (Some (L "count")) (Some (L "int")) (Some (VInt 5))));
    (true, K01_default K_prose_mentions_defaults, one (L "a") (gp (Some (L "the defaults.")) (Some (L "int")) (Some (VInt 5))));
    (true, K01_default K_scan_cut, one (L "a") (gp (Some (L "name.")) (Some (L "str")) (Some (VStr (L "a.b")))));
    (true, K01_default K_strip_changes,
     one (L "a") (gp (Some (L "items.")) (Some (L "List[int]")) (Some (VStr (L "```[1, 2]```")))));
    (true, K01_default K_typed_literal, one (L "a") (gp (Some (L "rate.")) (Some (L "float")) (Some (VFloat (L "inf")))));
    (true, K01_default K_str_reads_as_other, one (L "a") (gp (Some (L "x.")) None (Some (VStr (L "5")))));
    (true, K01_default_text, one (L "a") (gp (Some (L "x.")) (Some (L "Optional[str]")) (Some (VStr []))));
    (true, K01_default_settle, one (L "a") (gp (Some (L "x.")) (Some (L "str")) (Some (VStr (L "```x```")))));
    (true, K01_kwargs_shape, one (L "kwargs") (gp (Some (L "extra.")) (Some (L "dict")) None));
    (true, K01_return_default,
     mk_ir (L "Summary.") [(L "a", gp (Some (L "first.")) (Some (L "int")) None)]
           (Has (gp (Some (L "the result.")) (Some (L "int")) (Some (VStr (L "```5```"))))))
  ].

Lemma class_witnesses_ok :
  forallb (fun w => witness_ok (fst (fst w)) (snd (fst w)) (snd w)) class_witnesses = true.
Proof. vm_compute. reflexivity. Qed.

(* non-vacuity: two parameters with defaults and a return entry, inside the guard, both parse modes *)
Definition w_in_guard : ir :=
  mk_ir (L "Summary.")
        [(L "a", gp (Some (L "first.")) (Some (L "int")) (Some (VInt 5)));
         (L "b", gp (Some (L "name.")) (Some (L "str")) (Some (VStr (L "adam"))));
         (L "c", gp (Some (L "maybe.")) (Some (L "Optional[int]")) (Some VNone));
         (L "kwargs", gp (Some (L "extra.")) (Some (L "Optional[dict]")) (Some VNone))]
        (Has (gp (Some (L "ok.")) (Some (L "bool")) None)).

Lemma C01_rest_nonvacuous_lemma :
  guard_C01_rest true w_in_guard = true /\ guard_C01_rest false w_in_guard = true.
Proof. split; vm_compute; reflexivity. Qed.

Lemma param_line_form : forall n val ws,
    L ":param " ++ n ++ L ": " ++ val ++ ws = key_line (L ":param") n val ws.
Proof. reflexivity. Qed.

Lemma type_line_form : forall n t ws,
    L ":type " ++ n ++ L ": ```" ++ t ++ L "```" ++ ws = key_line (L ":type") n (L "```" ++ t ++ L "```") ws.
Proof. intros n t ws. unfold key_line. rewrite <- !app_assoc. reflexivity. Qed.

(* :param n: d Defaults to s  +  :type n: ```t```  with d, v, t in the guard of C17: the parsed entry has
   prose d (d with its sentence when the parse keeps it), type t, and a default equal to v *)
Theorem param_pair_parse_lemma : forall ww edd n d t v s sdoc,
    is_ident n = true -> endswith (L "kwargs") n = false ->
    doc_fine d -> no_rest_token d = true -> type_in_domain t = true ->
    guard_C17 ADefaultsTo d v (Some t) = true -> shown_value v (Some t) = Ok s ->
    value_text_clean s = true -> default_journey edd (Some t) s v = None ->
    exists w vfin,
      fold_outcome (parse_rest_line false ww true edd)
                   [(true, L ":param " ++ n ++ L ": " ++ sentence d s ++ [nl]);
                    (true, L ":type " ++ n ++ L ": ```" ++ t ++ L "```" ++ [nl; nl])]
                   (mkRS sdoc [] None (None, empty_param))
      = Ok (mkRS sdoc [] None
                 (Some n, mkParam (Has (if edd then sentence d s else d)) (Has t) (Some w)))
      /\ interpolate_defaults (mkParam (Has (if edd then sentence d s else d)) (Has t) (Some w))
                              default_announces false edd
         = Ok (mkParam (Has (if edd then sentence d s else d)) (Has t) (Some vfin))
      /\ same_val v vfin = true.
Proof.
  intros ww edd n d t v s sdoc Hid Hk Hdf Hdtok Htd Hg Hs Hclean Hj.
  destruct (is_ident_good n Hid Hk) as [Hgood _].
  destruct (type_in_domain_inv t Htd) as [Htf _].
  assert (Hna : no_announce d = true).
  { unfold guard_C17, C17_domain in Hg. apply andb_true_iff in Hg. destruct Hg as [Hg _].
    apply andb_true_iff in Hg. apply Hg. }
  destruct (journey_inv edd (Some t) s v Hj) as [v1 [typ1 [w1 [Hv1 [Hr1 [w2 [vfin [Hjj Hsv]]]]]]]].
  destruct (entry_default_typ ww edd n d s v (Some t) Hgood (conj Hdf Hna) Hdtok Hg Hs Hclean
                              t v1 typ1 w1 w2 vfin eq_refl Htf Hv1 Hr1 Hjj) as [Hrun [_ Hfin]].
  exists w2, vfin. split; [|split; [exact Hfin|exact Hsv]].
  rewrite param_line_form, type_line_form.
  exact (Hrun sdoc [] None (None, empty_param) eq_refl).
Qed.

(* prose the proved region accepts, whatever follows it *)
Definition plain_prose (d : str) : bool :=
  negb (match d with [] => true | _ => false end)
  && clean_line d && negb (starts_optional d) && no_announce d && no_rest_token d.

Definition simple_param (kv : str * gparam) : bool :=
  is_ident (fst kv) && negb (endswith (L "kwargs") (fst kv)) && negb (str_eqb (fst kv) (L "return_type"))
  && match g_doc (snd kv), g_typ (snd kv), g_default (snd kv) with
     | Has d, Has t, None => plain_prose d && type_in_domain t
     | _, _, _ => false
     end.

Definition simple_ir (i : ir) : bool :=
  (match ir_doc i with Has d => no_rest_token d && str_eqb (strip d) d | _ => false end)
  && (match ir_params i with [] => false | _ => true end)
  && forallb simple_param (ir_params i)
  && nodup_str (map fst (ir_params i))
  && (match ir_returns i with Has _ => false | _ => true end).

Lemma simple_param_facts : forall edd n g, simple_param (n, g) = true ->
    param_in_domain (n, g) = true /\ param_class edd n g = None.
Proof.
  intros edd n g H. unfold simple_param in H. cbn [fst snd] in H.
  apply andb_true_iff in H. destruct H as [H Hg].
  apply andb_true_iff in H. destruct H as [H Hrt].
  apply andb_true_iff in H. destruct H as [Hid Hk]. apply negb_true_iff in Hk.
  destruct g as [gd gt gdf]. cbn [g_doc g_typ g_default] in Hg.
  destruct gd as [| |d]; try discriminate. destruct gt as [| |t]; try discriminate.
  destruct gdf; [discriminate|].
  apply andb_true_iff in Hg. destruct Hg as [Hp Htd].
  unfold plain_prose in Hp.
  apply andb_true_iff in Hp. destruct Hp as [Hp Htok].
  apply andb_true_iff in Hp. destruct Hp as [Hp Hna].
  apply andb_true_iff in Hp. destruct Hp as [Hp Hop].
  apply andb_true_iff in Hp. destruct Hp as [Hne Hcl]. apply negb_true_iff in Hop.
  destruct d as [|c r]; [discriminate|].
  destruct (type_in_domain_inv t Htd) as [[_ [Htne _]] _]. destruct t as [|ct rt]; [contradiction|].
  split.
  - unfold param_in_domain, entry_in_domain. cbn [fst snd g_doc g_typ g_default].
    rewrite Hid, Hrt, Htok, Htd. reflexivity.
  - unfold param_class. cbn [g_doc g_typ g_default fld_str]. rewrite Hcl, Hop, Hna, Hk. reflexivity.
Qed.

Lemma simple_ir_guard : forall edd i, simple_ir i = true -> guard_C01_rest edd i = true.
Proof.
  intros edd i H. unfold simple_ir in H.
  apply andb_true_iff in H. destruct H as [H Hret].
  apply andb_true_iff in H. destruct H as [H Hnd].
  apply andb_true_iff in H. destruct H as [H Hps].
  apply andb_true_iff in H. destruct H as [Hdoc Hne].
  destruct i as [iname itype idoc ps irets iint]. cbn [ir_doc ir_params ir_returns] in *.
  destruct idoc as [| |sdoc]; try discriminate.
  apply andb_true_iff in Hdoc. destruct Hdoc as [Htok Hstrip].
  assert (Hall : forallb param_in_domain ps = true
                 /\ first_class (fun kv => param_class edd (fst kv) (snd kv)) ps = None).
  { clear Hne Hnd. induction ps as [|[n g] ps IH]; [split; reflexivity|].
    cbn [forallb] in Hps. apply andb_true_iff in Hps. destruct Hps as [Hp Hps].
    destruct (simple_param_facts edd n g Hp) as [H1 H2]. destruct (IH Hps) as [H3 H4].
    split.
    - cbn [forallb]. rewrite H1, H3. reflexivity.
    - cbn [first_class fst snd]. rewrite H2. exact H4. }
  destruct Hall as [Hdom Hfirst].
  unfold guard_C01_rest, in_domain_C01, finding_class_C01_rest.
  cbn [ir_doc ir_params ir_returns andb].
  fold param_in_domain.
  change (fun kv : str * gparam => is_ident (fst kv) && negb (str_eqb (fst kv) (L "return_type"))
                                   && entry_in_domain (snd kv)) with param_in_domain.
  rewrite Htok, Hdom, Hnd. cbn [andb].
  destruct irets as [| |g]; try discriminate; cbn [fld_opt andb].
  - destruct ps as [|p0 ps0]; [discriminate|]. rewrite Hstrip. cbn [negb]. rewrite Hfirst. reflexivity.
  - destruct ps as [|p0 ps0]; [discriminate|]. rewrite Hstrip. cbn [negb]. rewrite Hfirst. reflexivity.
Qed.

(* every interface whose parameters all have clean prose and a declared type, without defaults and
   without a return entry, round-trips through ReST, for both parse modes *)
Theorem C01_rest_no_defaults_lemma : forall edd i, simple_ir i = true -> C01_rest_at edd i.
Proof. intros edd i H. apply C01_rest_partial_lemma. apply simple_ir_guard. exact H. Qed.

Lemma intchar_facts : forall z,
    mem_c nl (dec_of_Z z) = false /\ mem_c colon (dec_of_Z z) = false
    /\ exists l, last_c (dec_of_Z z) = Some l /\ isspace l = false.
Proof.
  intros z. pose proof (dec_of_Z_intchars z) as H. rewrite forallb_forall in H.
  assert (Hno : forall c, intchar c = false -> mem_c c (dec_of_Z z) = false).
  { intros c Hc. destruct (mem_c c (dec_of_Z z)) eqn:E; [|reflexivity].
    apply mem_c_In in E. rewrite (H c E) in Hc. discriminate. }
  split; [apply Hno; reflexivity|]. split; [apply Hno; reflexivity|].
  destruct (last_c (dec_of_Z z)) as [l|] eqn:El.
  - exists l. split; [reflexivity|]. apply last_c_In in El. pose proof (H l El) as Hl.
    unfold intchar in Hl. unfold isspace.
    apply orb_true_iff in Hl. destruct Hl as [Hl|Hl].
    + unfold isdigit in Hl. apply andb_true_iff in Hl. destruct Hl as [Ha Hb].
      apply Nat.leb_le in Ha. apply Nat.leb_le in Hb.
      destruct (Nat.leb 9 (code l) && Nat.leb (code l) 13) eqn:E1.
      { apply andb_true_iff in E1. destruct E1 as [_ E1]. apply Nat.leb_le in E1. lia. }
      destruct (Nat.leb 28 (code l) && Nat.leb (code l) 32) eqn:E2; [|reflexivity].
      apply andb_true_iff in E2. destruct E2 as [_ E2]. apply Nat.leb_le in E2. lia.
    + apply ascii_eqb_eq in Hl. subst l. reflexivity.
  - apply last_c_nil_iff in El. exfalso. exact (dec_of_Z_nonnil z El).
Qed.

(* an int default under the declared type int is inside the guard, for every clean prose that ends
   in a full stop or comma *)
Theorem param_class_int_default_lemma : forall edd n d z,
    endswith (L "kwargs") n = false ->
    prose_ok d = true -> clean_line d = true -> starts_optional d = false ->
    param_class edd n (mkG (Has d) (Has (L "int")) (Some (DV (VInt z)))) = None.
Proof.
  intros edd n d z Hk Hp Hcl Hop.
  destruct (prose_ok_inv d Hp) as [Hne [Hna _]].
  assert (Hg : guard_C17 ADefaultsTo d (VInt z) (Some (L "int")) = true).
  { apply guard_C17_split. split; [exact Hp|apply value_ok_int_typed]. }
  assert (Efs : fld_str (Has (L "int")) = Some (L "int")) by reflexivity.
  unfold param_class. cbn [g_doc g_typ g_default]. rewrite Efs. destruct d as [|c r]; [contradiction|].
  change (fld_str (Has (c :: r))) with (Some (c :: r)). cbv iota.
  rewrite Hcl, Hop, Hna, Hk. cbn [negb].
  unfold guard_C17 in Hg. apply andb_true_iff in Hg. destruct Hg as [_ Hg].
  destruct (finding_class_C17 ADefaultsTo (c :: r) (VInt z) (Some (L "int"))); [discriminate|].
  rewrite shown_value_int.
  destruct (intchar_facts z) as [Hnl [Hcolon [l [Hl Hls]]]].
  assert (Hvc : value_text_clean (dec_of_Z z) = true).
  { unfold value_text_clean. rewrite Hnl, (no_colon_no_token _ Hcolon), Hl, Hls. reflexivity. }
  rewrite Hvc. cbn [negb].
  unfold default_journey. rewrite coerce_default_int_untyped.
  change (infer_res Missing (unquote_val (VInt z))) with (Ok (Has (L "int"), VInt z) : outcome (fld str * pyval)).
  rewrite coerce_default_int_typed.
  assert (Hir : infer_res (Has (L "int")) (VInt z) = Ok (Has (L "int"), VInt z)) by (vm_compute; reflexivity).
  cbn [unquote_val]. rewrite Hir.
  assert (Hset : settled (Has (L "int")) (VInt z) = true).
  { unfold settled. rewrite Hir. cbn [fld_eqb]. rewrite str_eqb_refl. unfold pyval_eqb. rewrite Z.eqb_refl. reflexivity. }
  rewrite Hset.
  assert (Hsv : same_val (VInt z) (VInt z) = true).
  { unfold same_val, pyval_eqb. rewrite Z.eqb_refl. reflexivity. }
  rewrite Hsv. cbn [fld_eqb]. rewrite str_eqb_refl. destruct edd; reflexivity.
Qed.
