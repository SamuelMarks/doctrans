(* SyncFacts: model/Sync.v (conform, conform_files, conform_kinds, ground_truth) over every
   instantiation of the conversion layers and every fault assignment.  Frame, atomicity, error safety,
   and stability / idempotence from named laws.  One call is characterised by conform_cases; a run by the three
   sections Lift (an invariant kept by every call), Quiesce (a run that writes nothing) and Establish (what a
   successful run leaves of each target); the laws, the predicates of the theorems (stable, settled, synced,
   sync_args_ok, safe_path ...) and the instance Toy that meets the laws are defined here. *)
From Coq Require Import List Ascii Bool Arith Lia Relations.
From Coq Require String.
Import String.StringSyntax.
From DT Require Import PyStr Sexp PyVal PureUtils FS Sync PyStrFacts ListFacts SplitFacts FSFacts.
Import ListNotations.

Lemma strip_split_nonnil : forall sep s, strip_split sep s <> [].
Proof.
  intros sep s H. unfold strip_split in H. apply map_eq_nil in H. exact (split_nonnil sep s H).
Qed.

Lemma kind_eq_dec : forall a b : kind, {a = b} + {a <> b}.
Proof. decide equality. Qed.

Lemma kind_in_order : forall k, In k kinds_in_order.
Proof. intros []; cbn [kinds_in_order In]; auto. Qed.

(* the paths conform_files really works on: the listed ones other than the truth *)
Definition proc (truth : path) (files : list path) : list path :=
  filter (fun f => negb (str_eqb f truth)) files.

Lemma proc_In : forall truth files f, In f (proc truth files) <-> In f files /\ f <> truth.
Proof.
  intros truth files f. unfold proc. rewrite filter_In. split; intros [H1 H2]; (split; [exact H1|]).
  - apply negb_true_iff in H2. apply str_eqb_neq in H2. exact H2.
  - apply negb_true_iff. apply str_eqb_neq. exact H2.
Qed.

Lemma proc_app : forall truth a b, proc truth (a ++ b) = proc truth a ++ proc truth b.
Proof. intros truth a b. unfold proc. apply filter_app. Qed.

Section SyncFacts.
  Variables (node tree irT opts : Type).
  Variable emit_k : kind -> irT -> opts -> outcome node.
  Variable parse_file : path -> bytes -> outcome tree.
  Variable find : list str -> tree -> option node.
  Variable rewrite : list str -> node -> tree -> tree * bool.
  Variable cmp : node -> node -> bool.
  Variable render_node : node -> outcome bytes.
  Variable render_tree : tree -> outcome bytes.
  Variable opts_of : option node -> list str -> kind -> opts.
  Variable type_ok : kind -> node -> bool.
  Variable parse_truth : kind -> option node -> list str -> outcome irT.

  Notation conf :=
    (conform emit_k parse_file find rewrite cmp render_node render_tree opts_of type_ok).
  Notation conf_files :=
    (conform_files emit_k parse_file find rewrite cmp render_node render_tree opts_of type_ok).
  Notation conf_kinds :=
    (conform_kinds emit_k parse_file find rewrite cmp render_node render_tree opts_of type_ok).
  Notation gtruth :=
    (ground_truth emit_k parse_file find rewrite cmp render_node render_tree opts_of type_ok
                  parse_truth).

  Definition printed_line (replaced : bool) (file : path) : list str :=
    [(if replaced then L "modified" else L "unchanged") ++ [tabch] ++ file].

  (* the file holds content, which parses to t; o is found at the location, and n is what is emitted for it *)
  Definition found_at (c : option bytes) (file : path) (search : list str) (k : kind) (ir : irT)
             (content : bytes) (t : tree) (o n : node) : Prop :=
    c = Some content /\ parse_file file content = Ok t /\ find search t = Some o
    /\ emit_k k ir (opts_of (Some o) search k) = Ok n /\ search <> [] /\ type_ok k n = true.

  (* conform decides from the bytes c of the file alone.  It leaves the file alone, with a result and lines printed:
     a conversion error; found and equal; found, different and declined by the rewriter ... *)
  Inductive keeps (c : option bytes) (file : path) (search : list str) (k : kind) (ir : irT)
    : outcome bool -> list str -> Prop :=
  | KErr : forall e, keeps c file search k ir (Err e) []
  | KEqual : forall content t o n,
      found_at c file search k ir content t o n -> cmp o n = true ->
      keeps c file search k ir (Ok false) []
  | KDeclined : forall content t o n,
      found_at c file search k ir content t o n -> cmp o n = false -> snd (rewrite search n t) = false ->
      keeps c file search k ir (Ok false) (printed_line false file).

  (* ... or makes one emit.file call, with a mode, a text to render and lines printed: created, appended, rewritten *)
  Inductive writes (c : option bytes) (file : path) (search : list str) (k : kind) (ir : irT)
    : mode -> outcome bytes -> list str -> Prop :=
  | WCreate : forall n,
      c = None -> emit_k k ir (opts_of None search k) = Ok n ->
      writes c file search k ir Wt (render_node n) []
  | WAppend : forall content t n,
      c = Some content -> parse_file file content = Ok t -> find search t = None ->
      emit_k k ir (opts_of None search k) = Ok n ->
      writes c file search k ir Ap (render_node n) []
  | WRewrite : forall content t o n t',
      found_at c file search k ir content t o n -> cmp o n = false -> rewrite search n t = (t', true) ->
      writes c file search k ir Wt (render_tree t') (printed_line true file).

  Inductive conform_case (fs : fsys) (file : path) (search : list str) (k : kind) (ir : irT) (f : fault)
    : out3 bool -> Prop :=
  | CKeep : forall r pr,
      keeps (fs_get file fs) file search k ir r pr -> conform_case fs file search k ir f (fs, r, pr)
  | CWrote : forall m rd pr fs' u,
      writes (fs_get file fs) file search k ir m rd pr -> emit_file fs file m rd f = (fs', Ok u) ->
      conform_case fs file search k ir f (fs', Ok true, pr)
  | CFailed : forall m rd pr fs' e,
      writes (fs_get file fs) file search k ir m rd pr -> emit_file fs file m rd f = (fs', Err e) ->
      conform_case fs file search k ir f (fs', Err e, pr).

  Lemma conform_cases : forall fs file search k ir f fs' r pr,
      conf fs file search k ir f = (fs', r, pr) -> conform_case fs file search k ir f (fs', r, pr).
  Proof.
    intros fs file search k ir f fs' r pr H. rewrite <- H. clear H.
    assert (HW : forall m rd pr0, writes (fs_get file fs) file search k ir m rd pr0 ->
                   conform_case fs file search k ir f (lift_write (emit_file fs file m rd f) true pr0)).
    { intros m rd pr0 HW. destruct (emit_file fs file m rd f) as [fs2 [u|e]] eqn:EW; cbn [lift_write].
      - apply (CWrote _ _ _ _ _ _ _ _ _ _ _ HW EW).
      - apply (CFailed _ _ _ _ _ _ _ _ _ _ _ HW EW). }
    pose proof (CKeep fs file search k ir f) as HK.
    unfold conform. destruct (fs_get file fs) as [content|].
    - destruct (parse_file file content) as [t|e] eqn:EP; [|apply HK, KErr]. cbv zeta.
      destruct (find search t) as [o|] eqn:EF.
      + destruct (emit_k k ir (opts_of (Some o) search k)) as [n|e] eqn:EE; [|apply HK, KErr].
        destruct search as [|s0 sr]; [apply HK, KErr|].
        destruct (type_ok k n) eqn:ET; [|apply HK, KErr]. cbn [negb].
        assert (Hf : found_at (Some content) file (s0 :: sr) k ir content t o n).
        { repeat (split; [first [reflexivity|assumption|discriminate]|]). exact ET. }
        destruct (cmp o n) eqn:EC; [apply HK, (KEqual _ _ _ _ _ _ _ _ _ Hf EC)|].
        destruct (rewrite (s0 :: sr) n t) as [t' b] eqn:ER. destruct b.
        * apply HW, (WRewrite _ _ _ _ _ _ _ _ _ _ Hf EC ER).
        * apply HK, (KDeclined _ _ _ _ _ _ _ _ _ Hf EC). rewrite ER. reflexivity.
      + destruct (emit_k k ir (opts_of None search k)) as [n|e] eqn:EE; [|apply HK, KErr].
        apply HW, (WAppend _ _ _ _ _ _ _ _ eq_refl EP EF EE).
    - destruct (emit_k k ir (opts_of None search k)) as [n|e] eqn:EE; [|apply HK, KErr].
      apply HW, (WCreate _ _ _ _ _ _ eq_refl EE).
  Qed.

  (* C11 at file granularity, one call: only the file and its temporary name can change *)
  Lemma conform_frame : forall fs file search k ir f fs' r pr,
      conf fs file search k ir f = (fs', r, pr) ->
      forall p, p <> file -> p <> tmp_of file -> fs_get p fs' = fs_get p fs.
  Proof.
    intros fs file search k ir f fs' r pr H p Hf Ht.
    pose proof (conform_cases _ _ _ _ _ _ _ _ _ H) as HC. inversion HC as [r0 pr0 _|m rd pr0 fs0 u _ EW|m rd pr0 fs0 e _ EW].
    - reflexivity.
    - apply (emit_file_frame _ _ _ _ _ _ _ EW); assumption.
    - apply (emit_file_frame _ _ _ _ _ _ _ EW); assumption.
  Qed.

  (* C10: reported unchanged => the file system is the same one *)
  Lemma conform_false_unchanged : forall fs file search k ir f fs' pr,
      conf fs file search k ir f = (fs', Ok false, pr) -> fs' = fs.
  Proof.
    intros fs file search k ir f fs' pr H. pose proof (conform_cases _ _ _ _ _ _ _ _ _ H) as HC. inversion HC. reflexivity.
  Qed.

  (* C20: a conversion error or an I/O fault leaves every path but the temporary one as it was;
     in particular the current file *)
  Lemma conform_err_safe : forall fs file search k ir f fs' e pr,
      conf fs file search k ir f = (fs', Err e, pr) ->
      fs_get file fs' = fs_get file fs
      /\ (forall p, p <> tmp_of file -> fs_get p fs' = fs_get p fs)
      /\ (fs_get (tmp_of file) fs = None -> fs' = fs).
  Proof.
    intros fs file search k ir f fs' e pr H.
    assert (Hall : (forall p, p <> tmp_of file -> fs_get p fs' = fs_get p fs)
                   /\ (fs_get (tmp_of file) fs = None -> fs' = fs)).
    { pose proof (conform_cases _ _ _ _ _ _ _ _ _ H) as HC. inversion HC as [r0 pr0 _| |m rd pr0 fs0 e0 _ EW].
      - split; reflexivity.
      - split; [apply (emit_file_err_get _ _ _ _ _ _ _ EW)|].
        intros Ht. apply (emit_file_err_eq _ _ _ _ _ _ _ Ht EW). }
    destruct Hall as [H1 H2]. split; [apply H1; apply tmp_of_neq_sym|]. split; assumption.
  Qed.

  Lemma conform_tmp_clean : forall fs file search k ir f fs' r pr,
      fs_get (tmp_of file) fs = None ->
      conf fs file search k ir f = (fs', r, pr) -> fs_get (tmp_of file) fs' = None.
  Proof.
    intros fs file search k ir f fs' r pr Ht H.
    pose proof (conform_cases _ _ _ _ _ _ _ _ _ H) as HC. inversion HC as [r0 pr0 _|m rd pr0 fs0 u _ EW|m rd pr0 fs0 e _ EW].
    - subst fs'. exact Ht.
    - apply (emit_file_tmp_clean _ _ _ _ _ _ _ Ht EW).
    - apply (emit_file_tmp_clean _ _ _ _ _ _ _ Ht EW).
  Qed.

  (* reported modified => the file holds the complete intended text of the branch taken *)
  Lemma conform_true_wrote : forall fs file search k ir f fs' pr,
      conf fs file search k ir f = (fs', Ok true, pr) ->
      (* the file did not exist: the emitted node alone, written *)
      (fs_get file fs = None /\
       exists n src, emit_k k ir (opts_of None search k) = Ok n /\ render_node n = Ok src
                     /\ fs' = written fs file Wt src /\ pr = [])
      \/
      (* the file exists, nothing at the location: appended *)
      (exists content t n src,
          fs_get file fs = Some content /\ parse_file file content = Ok t /\ find search t = None
          /\ emit_k k ir (opts_of None search k) = Ok n /\ render_node n = Ok src
          /\ fs' = written fs file Ap src /\ pr = [])
      \/
      (* found and different: the rewritten tree, written *)
      (exists content t o n t' src,
          fs_get file fs = Some content /\ parse_file file content = Ok t /\ find search t = Some o
          /\ emit_k k ir (opts_of (Some o) search k) = Ok n /\ search <> [] /\ type_ok k n = true
          /\ cmp o n = false /\ rewrite search n t = (t', true) /\ render_tree t' = Ok src
          /\ fs' = written fs file Wt src /\ pr = printed_line true file).
  Proof.
    intros fs file search k ir f fs' pr H.
    pose proof (conform_cases _ _ _ _ _ _ _ _ _ H) as HC. inversion HC as [r0 pr0 HK|m rd pr0 fs0 u HW EW|]; [inversion HK|].
    destruct (emit_file_ok _ _ _ _ _ _ _ EW) as [src [-> ->]].
    inversion HW as [n Hc He Hm Hsrc Hpr|content t n Hc Hp Hf He Hm Hsrc Hpr
                     |content t o n t' [Hc [Hp [Hf [He [Hs Ht]]]]] Hcmp Hrw Hm Hsrc Hpr].
    - left. split; [exact Hc|]. exists n, src. repeat (split; [first [assumption|reflexivity]|]). reflexivity.
    - right. left. exists content, t, n, src. repeat (split; [first [assumption|reflexivity]|]). reflexivity.
    - right. right. exists content, t, o, n, t', src.
      repeat (split; [first [assumption|reflexivity]|]). reflexivity.
  Qed.

  Lemma conform_true_intended : forall fs file search k ir f fs' pr,
      conf fs file search k ir f = (fs', Ok true, pr) ->
      exists m src, fs_get file fs' = Some (intended fs file m src).
  Proof.
    intros fs file search k ir f fs' pr H.
    pose proof (conform_cases _ _ _ _ _ _ _ _ _ H) as HC. inversion HC as [r0 pr0 HK|m rd pr0 fs0 u _ EW|]; [inversion HK|].
    destruct (emit_file_ok _ _ _ _ _ _ _ EW) as [src [_ ->]].
    exists m, src. apply written_get_file.
  Qed.

  Lemma conform_true_at : forall fs file search k ir f fs' pr content t,
      conf fs file search k ir f = (fs', Ok true, pr) ->
      fs_get file fs = Some content -> parse_file file content = Ok t ->
      (find search t = None /\
       exists n src, emit_k k ir (opts_of None search k) = Ok n /\ render_node n = Ok src
                     /\ fs' = written fs file Ap src /\ pr = [])
      \/
      (exists o n t' src,
          find search t = Some o /\ emit_k k ir (opts_of (Some o) search k) = Ok n /\ search <> []
          /\ type_ok k n = true /\ cmp o n = false /\ rewrite search n t = (t', true)
          /\ render_tree t' = Ok src /\ fs' = written fs file Wt src /\ pr = printed_line true file).
  Proof.
    intros fs file search k ir f fs' pr content t H Hc Hp.
    destruct (conform_true_wrote _ _ _ _ _ _ _ _ H)
      as [[Hnone _]|[[content0 [t0 [n [src [Hc0 [Hp0 Hrest]]]]]]
                    |[content0 [t0 [o [n [t' [src [Hc0 [Hp0 Hrest]]]]]]]]]].
    - rewrite Hc in Hnone. discriminate Hnone.
    - rewrite Hc in Hc0. injection Hc0 as <-. rewrite Hp in Hp0. injection Hp0 as <-.
      left. destruct Hrest as [Hf Hrest]. split; [exact Hf|]. exists n, src. exact Hrest.
    - rewrite Hc in Hc0. injection Hc0 as <-. rewrite Hp in Hp0. injection Hp0 as <-.
      right. exists o, n, t', src. exact Hrest.
  Qed.

  Definition targets_of (a : sync_args) (ks : list kind) : list path :=
    flat_map (fun k => match sa_files a k with Some l => l | None => [] end) ks.

  (* every file named on the command line, whatever its kind *)
  Definition targets (a : sync_args) : list path := targets_of a kinds_in_order.

  Lemma targets_of_In : forall a ks f,
      In f (targets_of a ks) <-> exists k files, In k ks /\ sa_files a k = Some files /\ In f files.
  Proof.
    intros a ks f. unfold targets_of. rewrite in_flat_map. split.
    - intros [k [Hk Hf]]. destruct (sa_files a k) as [files|] eqn:E; [|destruct Hf].
      exists k, files. split; [exact Hk|]. split; [exact E|exact Hf].
    - intros [k [files [Hk [E Hf]]]]. exists k. split; [exact Hk|]. rewrite E. exact Hf.
  Qed.

  (* an invariant of the file system kept by every call on a file worked on is kept by conform_files,
     conform_kinds and ground_truth, whatever they return *)
  Section Lift.
    Variable P : fsys -> Prop.
    Variable T : path -> Prop.                  (* the files worked on *)
    Variable truth : path.
    Variable faults : path -> fault.
    Hypothesis STEP : forall fs file search k ir fs' r pr,
        T file -> P fs -> conf fs file search k ir (faults file) = (fs', r, pr) -> P fs'.

    Lemma conform_files_lift : forall files search k ir fs acc printed fs' r pr,
        (forall f, In f files -> f <> truth -> T f) -> P fs ->
        conf_files fs truth files search k ir faults acc printed = (fs', r, pr) -> P fs'.
    Proof.
      induction files as [|file rest IH]; intros search k ir fs acc printed fs' r pr HT HP H;
        cbn [conform_files] in H.
      - injection H as <- _ _. exact HP.
      - destruct (str_eqb file truth) eqn:E.
        + apply (IH _ _ _ _ _ _ _ _ _ (fun f Hf => HT f (or_intror Hf)) HP H).
        + apply str_eqb_neq in E.
          destruct (conf fs file search k ir (faults file)) as [[fs2 r2] pr2] eqn:EC.
          pose proof (STEP _ _ _ _ _ _ _ _ (HT file (or_introl eq_refl) E) HP EC) as HP2.
          destruct r2 as [flag|e].
          * apply (IH _ _ _ _ _ _ _ _ _ (fun f Hf => HT f (or_intror Hf)) HP2 H).
          * injection H as <- _ _. exact HP2.
    Qed.

    Lemma conform_kinds_lift : forall a ks ir fs acc printed fs' r pr,
        (forall f, In f (targets_of a ks) -> f <> truth -> T f) -> P fs ->
        conf_kinds fs a truth ks ir faults acc printed = (fs', r, pr) -> P fs'.
    Proof.
      intros a. induction ks as [|k rest IH]; intros ir fs acc printed fs' r pr HT HP H;
        cbn [conform_kinds] in H.
      - injection H as <- _ _. exact HP.
      - assert (HTrest : forall f, In f (targets_of a rest) -> f <> truth -> T f).
        { intros f Hf. apply HT. unfold targets_of. cbn [flat_map]. apply in_or_app. right. exact Hf. }
        destruct (sa_files a k) as [files|] eqn:EF; [|apply (IH _ _ _ _ _ _ _ HTrest HP H)].
        destruct (name_of a k) as [nm|e]; [|injection H as <- _ _; exact HP].
        destruct (conf_files fs truth files (strip_split [ch 46] nm) k ir faults acc printed)
          as [[fs2 r2] pr2] eqn:EC.
        assert (HP2 : P fs2).
        { apply (conform_files_lift _ _ _ _ _ _ _ _ _ _) with (3 := EC); [|exact HP].
          intros f Hf. apply HT. unfold targets_of. cbn [flat_map]. rewrite EF.
          apply in_or_app. left. exact Hf. }
        destruct r2 as [acc2|e]; [apply (IH _ _ _ _ _ _ _ HTrest HP2 H)|injection H as <- _ _; exact HP2].
    Qed.

  End Lift.

  (* the conversion of the truth, before any target is touched *)
  Definition truth_ir (fs : fsys) (a : sync_args) (truth : path) : outcome irT :=
    match name_of a (sa_truth a) with
    | Err e => Err e
    | Ok nm =>
      match fs_get truth fs with
      | None => Err IOError
      | Some content =>
        match parse_file truth content with
        | Err e => Err e
        | Ok t => parse_truth (sa_truth a) (find (split [ch 46] nm) t) (split [ch 46] nm)
        end
      end
    end.

  Lemma ground_truth_unfold : forall fs a truth faults,
      gtruth fs a truth faults =
      match truth_ir fs a truth with
      | Err e => (fs, Err e, [])
      | Ok ir => conf_kinds fs a truth kinds_in_order ir faults [] []
      end.
  Proof.
    intros fs a truth faults. unfold ground_truth, truth_ir.
    destruct (name_of a (sa_truth a)) as [nm|e]; [|reflexivity].
    destruct (fs_get truth fs) as [content|]; [|reflexivity].
    destruct (parse_file truth content) as [t|e]; [|reflexivity].
    reflexivity.
  Qed.

  Lemma truth_ir_ext : forall fs1 fs2 a truth,
      fs_get truth fs1 = fs_get truth fs2 -> truth_ir fs1 a truth = truth_ir fs2 a truth.
  Proof. intros fs1 fs2 a truth H. unfold truth_ir. rewrite H. reflexivity. Qed.

  Lemma ground_truth_lift : forall (P : fsys -> Prop) (T : path -> Prop) truth faults,
      (forall fs file search k ir fs' r pr,
          T file -> P fs -> conf fs file search k ir (faults file) = (fs', r, pr) -> P fs') ->
      forall fs a fs' r pr,
        (forall f, In f (targets a) -> f <> truth -> T f) -> P fs ->
        gtruth fs a truth faults = (fs', r, pr) -> P fs'.
  Proof.
    intros P T truth faults Hstep fs a fs' r pr HT HP H.
    rewrite ground_truth_unfold in H. destruct (truth_ir fs a truth) as [ir|e].
    - apply (conform_kinds_lift P T truth faults Hstep _ _ _ _ _ _ _ _ _ HT HP H).
    - injection H as <- _ _. exact HP.
  Qed.

  (* frame: a path that is neither a file worked on nor the temporary name of one reads as before *)
  Definition clear_of (p file : path) : Prop := p <> file /\ p <> tmp_of file.

  Section Frame.
    Variables (p truth : path) (faults : path -> fault) (fs0 : fsys).

    Definition same_at (fs : fsys) : Prop := fs_get p fs = fs_get p fs0.

    Lemma conform_same_at : forall fs file search k ir fs' r pr,
        clear_of p file -> same_at fs -> conf fs file search k ir (faults file) = (fs', r, pr) -> same_at fs'.
    Proof.
      intros fs file search k ir fs' r pr [H1 H2] HP H. unfold same_at.
      rewrite (conform_frame _ _ _ _ _ _ _ _ _ H p H1 H2). exact HP.
    Qed.

    Lemma conform_files_frame : forall files search k ir acc printed fs' r pr,
        (forall f, In f (proc truth files) -> clear_of p f) ->
        conf_files fs0 truth files search k ir faults acc printed = (fs', r, pr) ->
        fs_get p fs' = fs_get p fs0.
    Proof.
      intros files search k ir acc printed fs' r pr HT H.
      apply (conform_files_lift same_at (clear_of p) truth faults conform_same_at _ _ _ _ _ _ _ _ _ _
               (fun f Hf Hne => HT f (proj2 (proc_In truth files f) (conj Hf Hne))) eq_refl H).
    Qed.

    Lemma conform_kinds_frame : forall a ks ir acc printed fs' r pr,
        (forall f, In f (proc truth (targets_of a ks)) -> clear_of p f) ->
        conf_kinds fs0 a truth ks ir faults acc printed = (fs', r, pr) ->
        fs_get p fs' = fs_get p fs0.
    Proof.
      intros a ks ir acc printed fs' r pr HT H.
      apply (conform_kinds_lift same_at (clear_of p) truth faults conform_same_at _ _ _ _ _ _ _ _ _
               (fun f Hf Hne => HT f (proj2 (proc_In truth _ f) (conj Hf Hne))) eq_refl H).
    Qed.

    Lemma ground_truth_frame : forall a fs' r pr,
        (forall f, In f (proc truth (targets a)) -> clear_of p f) ->
        gtruth fs0 a truth faults = (fs', r, pr) -> fs_get p fs' = fs_get p fs0.
    Proof.
      intros a fs' r pr HT H.
      apply (ground_truth_lift same_at (clear_of p) truth faults conform_same_at _ _ _ _ _
               (fun f Hf Hne => HT f (proj2 (proc_In truth _ f) (conj Hf Hne))) eq_refl H).
    Qed.

  End Frame.

  (* C11 at file granularity: a path that is neither a listed file nor the temporary name of one
     reads as before, for every outcome and every fault assignment *)
  Theorem ground_truth_only_targets : forall fs a truth faults fs' r pr p,
      gtruth fs a truth faults = (fs', r, pr) ->
      ~ In p (targets a) -> (forall t, In t (targets a) -> p <> tmp_of t) ->
      fs_get p fs' = fs_get p fs.
  Proof.
    intros fs a truth faults fs' r pr p H Hn Ht.
    apply (ground_truth_frame p truth faults fs _ _ _ _) with (2 := H).
    intros f Hf. apply proc_In in Hf. destruct Hf as [Hf _].
    split; [intros E; subst f; contradiction|apply Ht; exact Hf].
  Qed.

  (* C10: the truth is never modified, provided it is not the temporary name of a target *)
  Theorem ground_truth_truth_untouched : forall fs a truth faults fs' r pr,
      gtruth fs a truth faults = (fs', r, pr) ->
      (forall t, In t (targets a) -> t <> truth -> truth <> tmp_of t) ->
      fs_get truth fs' = fs_get truth fs.
  Proof.
    intros fs a truth faults fs' r pr H Ht.
    apply (ground_truth_frame truth truth faults fs _ _ _ _) with (2 := H).
    intros f Hf. apply proc_In in Hf. destruct Hf as [Hf Hne].
    split; [intros E; apply Hne; symmetry; exact E|apply Ht; assumption].
  Qed.

  (* C20(ii): every reachable file system is a sequence of complete writes *)

  Definition safe_step (fs fs' : fsys) : Prop :=
    (forall p, fs_get p fs' = fs_get p fs)
    \/ exists file m src,
        (forall p, p <> file -> p <> tmp_of file -> fs_get p fs' = fs_get p fs)
        /\ fs_get file fs' = Some (intended fs file m src)
        /\ fs_get (tmp_of file) fs' = fs_get (tmp_of file) fs.

  Definition safe_path : fsys -> fsys -> Prop := clos_refl_trans fsys safe_step.

  (* no temporary name of a file worked on exists beforehand or is itself worked on *)
  Definition no_tmp_clash (fs : fsys) (truth : path) (l : list path) : Prop :=
    forall t, In t l -> t <> truth ->
              fs_get (tmp_of t) fs = None /\ forall t', In t' l -> t' <> truth -> tmp_of t <> t'.

  Lemma conform_safe_step : forall fs file search k ir f fs' r pr,
      fs_get (tmp_of file) fs = None ->
      conf fs file search k ir f = (fs', r, pr) -> safe_step fs fs'.
  Proof.
    intros fs file search k ir f fs' r pr Ht H. destruct r as [[|]|e].
    - destruct (conform_true_intended _ _ _ _ _ _ _ _ H) as [m [src Hg]].
      right. exists file, m, src. split; [apply (conform_frame _ _ _ _ _ _ _ _ _ H)|].
      split; [exact Hg|]. rewrite Ht. apply (conform_tmp_clean _ _ _ _ _ _ _ _ _ Ht H).
    - left. rewrite (conform_false_unchanged _ _ _ _ _ _ _ _ H). reflexivity.
    - left. destruct (conform_err_safe _ _ _ _ _ _ _ _ _ H) as [_ [_ E]]. rewrite (E Ht). reflexivity.
  Qed.

  Theorem ground_truth_safe_path : forall fs a truth faults fs' r pr,
      no_tmp_clash fs truth (targets a) ->
      gtruth fs a truth faults = (fs', r, pr) ->
      safe_path fs fs' /\ no_tmp_clash fs' truth (targets a).
  Proof.
    intros fs a truth faults fs' r pr HC H.
    set (T := fun f => In f (targets a) /\ f <> truth
                       /\ forall t', In t' (targets a) -> t' <> truth -> tmp_of t' <> f).
    set (P := fun fs0 => safe_path fs fs0
                         /\ forall t, In t (targets a) -> t <> truth -> fs_get (tmp_of t) fs0 = None).
    assert (HL : P fs').
    { apply (ground_truth_lift P T truth faults) with (a := a) (fs := fs) (r := r) (pr := pr).
      - intros fs0 file search k ir fs1 r1 pr1 [HTin [HTne HTc]] [HS0 HP0] HS.
        pose proof (HP0 file HTin HTne) as Htmp. split.
        + apply (rt_trans _ _ _ _ _ HS0). apply rt_step. apply (conform_safe_step _ _ _ _ _ _ _ _ _ Htmp HS).
        + intros t Hin Hne. pose proof (HTc t Hin Hne) as Hc.
          destruct (list_eq_dec ascii_dec (tmp_of t) (tmp_of file)) as [E|E].
          * rewrite E. apply (conform_tmp_clean _ _ _ _ _ _ _ _ _ Htmp HS).
          * rewrite (conform_frame _ _ _ _ _ _ _ _ _ HS _ Hc E). apply HP0; assumption.
      - intros f Hin Hne. split; [exact Hin|]. split; [exact Hne|].
        intros t' Hin' Hne'. apply (proj2 (HC t' Hin' Hne')); assumption.
      - split; [apply rt_refl|]. intros t Hin Hne. apply (proj1 (HC t Hin Hne)).
      - exact H. }
    destruct HL as [HS HP]. split; [exact HS|].
    intros t Hin Hne. split; [apply HP; assumption|apply (proj2 (HC t Hin Hne))].
  Qed.

  (* what the closure says path by path: the bytes before, or the complete intended text of some
     write made from a reachable state -- never a truncated or partial one *)
  Lemma safe_path_pointwise : forall fs fs',
      safe_path fs fs' ->
      forall p, fs_get p fs' = fs_get p fs
                \/ exists fsm m src, safe_path fs fsm /\ fs_get p fs' = Some (intended fsm p m src).
  Proof.
    intros fs fs' H. apply clos_rt_rtn1 in H. induction H as [|y z Hyz Hxy IH]; intros p.
    - left. reflexivity.
    - apply clos_rtn1_rt in Hxy. destruct Hyz as [Hid|[file [m [src [Hfr [Hf Htm]]]]]].
      + rewrite Hid. apply IH.
      + destruct (list_eq_dec ascii_dec p file) as [E|E].
        * subst p. right. exists y, m, src. split; [exact Hxy|exact Hf].
        * destruct (list_eq_dec ascii_dec p (tmp_of file)) as [E2|E2].
          -- subst p. rewrite Htm. apply IH.
          -- rewrite (Hfr p E E2). apply IH.
  Qed.

  Corollary ground_truth_never_partial : forall fs a truth faults fs' r pr,
      no_tmp_clash fs truth (targets a) ->
      gtruth fs a truth faults = (fs', r, pr) ->
      forall p, fs_get p fs' = fs_get p fs
                \/ exists fsm m src, safe_path fs fsm /\ fs_get p fs' = Some (intended fsm p m src).
  Proof.
    intros fs a truth faults fs' r pr HC H.
    apply safe_path_pointwise. apply (ground_truth_safe_path _ _ _ _ _ _ _ HC H).
  Qed.

  (* the target is found at its location and equals the re-emission of the truth *)
  Definition stable (fs : fsys) (file : path) (search : list str) (k : kind) (ir : irT) : Prop :=
    exists content t o n,
      fs_get file fs = Some content /\ parse_file file content = Ok t /\ find search t = Some o
      /\ emit_k k ir (opts_of (Some o) search k) = Ok n /\ search <> [] /\ type_ok k n = true
      /\ cmp o n = true.

  (* weaker: ... or the rewriter declines to replace it (the run prints unchanged) *)
  Definition settled (fs : fsys) (file : path) (search : list str) (k : kind) (ir : irT) : Prop :=
    exists content t o n,
      fs_get file fs = Some content /\ parse_file file content = Ok t /\ find search t = Some o
      /\ emit_k k ir (opts_of (Some o) search k) = Ok n /\ search <> [] /\ type_ok k n = true
      /\ (cmp o n = true \/ snd (rewrite search n t) = false).

  (* both read: found_at, plus what the comparison or the rewriter says *)
  Lemma stable_found : forall fs file search k ir,
      stable fs file search k ir <->
      exists content t o n, found_at (fs_get file fs) file search k ir content t o n /\ cmp o n = true.
  Proof.
    intros fs file search k ir. unfold stable, found_at.
    split.
    - intros [content [t [o [n [H1 [H2 [H3 [H4 [H5 [H6 H7]]]]]]]]]]. exists content, t, o, n. repeat split; assumption.
    - intros [content [t [o [n [[H1 [H2 [H3 [H4 [H5 H6]]]]] H7]]]]]. exists content, t, o, n. repeat split; assumption.
  Qed.

  Lemma settled_found : forall fs file search k ir,
      settled fs file search k ir <->
      exists content t o n, found_at (fs_get file fs) file search k ir content t o n
                            /\ (cmp o n = true \/ snd (rewrite search n t) = false).
  Proof.
    intros fs file search k ir. unfold settled, found_at.
    split.
    - intros [content [t [o [n [H1 [H2 [H3 [H4 [H5 [H6 H7]]]]]]]]]]. exists content, t, o, n. repeat split; assumption.
    - intros [content [t [o [n [[H1 [H2 [H3 [H4 [H5 H6]]]]] H7]]]]]. exists content, t, o, n. repeat split; assumption.
  Qed.

  Lemma stable_settled : forall fs file search k ir,
      stable fs file search k ir -> settled fs file search k ir.
  Proof.
    intros fs file search k ir H. apply settled_found. apply stable_found in H.
    destruct H as [content [t [o [n [Hf Hc]]]]]. exists content, t, o, n. split; [exact Hf|left; exact Hc].
  Qed.

  Lemma stable_ext : forall fs1 fs2 file search k ir,
      fs_get file fs1 = fs_get file fs2 -> stable fs1 file search k ir -> stable fs2 file search k ir.
  Proof. intros fs1 fs2 file search k ir Hg H. apply stable_found. apply stable_found in H. rewrite <- Hg. exact H. Qed.

  Lemma settled_ext : forall fs1 fs2 file search k ir,
      fs_get file fs1 = fs_get file fs2 -> settled fs1 file search k ir -> settled fs2 file search k ir.
  Proof. intros fs1 fs2 file search k ir Hg H. apply settled_found. apply settled_found in H. rewrite <- Hg. exact H. Qed.

  (* conform on a file where the definition is found: nothing, or the rewrite *)
  Lemma found_conform : forall fs file search k ir f content t o n,
      found_at (fs_get file fs) file search k ir content t o n ->
      conf fs file search k ir f
      = if cmp o n then (fs, Ok false, [])
        else if snd (rewrite search n t)
             then lift_write (emit_file fs file Wt (render_tree (fst (rewrite search n t))) f) true
                             (printed_line true file)
             else (fs, Ok false, printed_line false file).
  Proof.
    intros fs file search k ir f content t o n [H1 [H2 [H3 [H4 [H5 H6]]]]].
    unfold conform. rewrite H1, H2. cbv zeta. rewrite H3, H4.
    destruct search as [|s0 sr]; [contradiction H5; reflexivity|].
    rewrite H6. cbn [negb]. destruct (cmp o n); [reflexivity|].
    destruct (rewrite (s0 :: sr) n t) as [t' b]. destruct b; reflexivity.
  Qed.

  Lemma stable_conform_noop : forall fs file search k ir f,
      stable fs file search k ir -> conf fs file search k ir f = (fs, Ok false, []).
  Proof.
    intros fs file search k ir f H. apply stable_found in H. destruct H as [content [t [o [n [Hf Hc]]]]].
    rewrite (found_conform _ _ _ _ _ f _ _ _ _ Hf), Hc. reflexivity.
  Qed.

  Lemma settled_conform_noop : forall fs file search k ir f,
      settled fs file search k ir -> exists pr, conf fs file search k ir f = (fs, Ok false, pr).
  Proof.
    intros fs file search k ir f H. apply settled_found in H. destruct H as [content [t [o [n [Hf Hd]]]]].
    rewrite (found_conform _ _ _ _ _ f _ _ _ _ Hf). destruct (cmp o n); [exists []; reflexivity|].
    destruct Hd as [Hd|Hd]; [discriminate Hd|]. rewrite Hd. exists (printed_line false file). reflexivity.
  Qed.

  Lemma conform_false_settled : forall fs file search k ir f fs' pr,
      conf fs file search k ir f = (fs', Ok false, pr) -> settled fs file search k ir.
  Proof.
    intros fs file search k ir f fs' pr H.
    pose proof (conform_cases _ _ _ _ _ _ _ _ _ H) as HC. inversion HC as [r0 pr0 HK| |].
    apply settled_found.
    inversion HK as [|content t o n Hf Hcmp|content t o n Hf Hcmp Hrw]; exists content, t, o, n.
    - split; [exact Hf|left; exact Hcmp].
    - split; [exact Hf|right; exact Hrw].
  Qed.

  (* LAW (fixpoint): what conform writes is, read back, stable *)
  Definition FIX_law : Prop :=
    forall fs file search k ir fs' pr,
      search <> [] -> conf fs file search k ir NoFault = (fs', Ok true, pr) ->
      stable fs' file search k ir.

  (* LAW: the rewriter replaces whatever the finder finds *)
  Definition REPLACES_law : Prop :=
    forall search n t o, find search t = Some o -> search <> [] -> snd (rewrite search n t) = true.

  Lemma settled_stable : REPLACES_law -> forall fs file search k ir,
      settled fs file search k ir -> stable fs file search k ir.
  Proof.
    intros HR fs file search k ir H. apply stable_found. apply settled_found in H.
    destruct H as [content [t [o [n [Hf [Hc|Hd]]]]]]; exists content, t, o, n; (split; [exact Hf|]); [exact Hc|].
    destruct Hf as [_ [_ [H3 [_ [H5 _]]]]]. rewrite (HR search n t o H3 H5) in Hd. discriminate Hd.
  Qed.

  Definition flags_false (l : list (path * bool)) : Prop := Forall (fun e => snd e = false) l.

  Definition clash_free (truth : path) (l : list path) : Prop :=
    forall t t', In t (proc truth l) -> In t' (proc truth l) -> tmp_of t <> t'.

  Lemma proc_cons_eq : forall truth rest, proc truth (truth :: rest) = proc truth rest.
  Proof. intros truth rest. unfold proc. cbn [filter]. rewrite str_eqb_refl. reflexivity. Qed.

  Lemma proc_cons_ne : forall truth f rest, f <> truth -> proc truth (f :: rest) = f :: proc truth rest.
  Proof.
    intros truth f rest H. unfold proc. cbn [filter]. apply str_eqb_neq in H. rewrite H. reflexivity.
  Qed.

  Fixpoint sync_runs (a : sync_args) (truth : path) (faults : path -> fault) (n : nat) (fs : fsys)
    : option fsys :=
    match n with
    | O => Some fs
    | S m => match gtruth fs a truth faults with
             | (fs', Ok _, _) => sync_runs a truth faults m fs'
             | (_, Err _, _) => None
             end
    end.

  Section Quiesce.
    Variable G : fsys -> path -> list str -> kind -> irT -> Prop.
    Variable Pr : list str -> Prop.
    Hypothesis G_noop : forall fs file s k ir f,
        G fs file s k ir -> exists pr, Pr pr /\ conf fs file s k ir f = (fs, Ok false, pr).
    Hypothesis Pr_nil : Pr [].
    Hypothesis Pr_app : forall x y, Pr x -> Pr y -> Pr (x ++ y).

    Definition all_G (fs : fsys) (a : sync_args) (truth : path) (ks : list kind) (ir : irT) : Prop :=
      forall k, In k ks -> forall files, sa_files a k = Some files ->
        exists nm, name_of a k = Ok nm
                   /\ forall file, In file files -> file <> truth ->
                                   G fs file (strip_split [ch 46] nm) k ir.

    (* the truth converts and every target is in the good state *)
    Definition synced (fs : fsys) (a : sync_args) (truth : path) : Prop :=
      exists ir, truth_ir fs a truth = Ok ir /\ all_G fs a truth kinds_in_order ir.

    Lemma conform_files_noop : forall truth faults files search k ir fs acc printed,
        (forall file, In file files -> file <> truth -> G fs file search k ir) ->
        exists acc' pr',
          conf_files fs truth files search k ir faults acc printed
          = (fs, Ok (acc ++ acc'), printed ++ pr') /\ flags_false acc' /\ Pr pr'.
    Proof.
      intros truth faults. induction files as [|file rest IH]; intros search k ir fs acc printed HG.
      - exists [], []. rewrite !app_nil_r. split; [reflexivity|]. split; [constructor|exact Pr_nil].
      - cbn [conform_files]. destruct (str_eqb file truth) eqn:E.
        + destruct (IH search k ir fs (acc ++ [(truth, false)]) printed
                       (fun f Hf => HG f (or_intror Hf))) as [acc' [pr' [H1 [H2 H3]]]].
          exists ((truth, false) :: acc'), pr'. rewrite H1, <- app_assoc.
          split; [reflexivity|]. split; [constructor; [reflexivity|exact H2]|exact H3].
        + apply str_eqb_neq in E.
          destruct (G_noop _ _ _ _ _ (faults file) (HG file (or_introl eq_refl) E))
            as [pr0 [HP0 HC]].
          rewrite HC.
          destruct (IH search k ir fs (acc ++ [(file, false)]) (printed ++ pr0)
                       (fun f Hf => HG f (or_intror Hf))) as [acc' [pr' [H1 [H2 H3]]]].
          exists ((file, false) :: acc'), (pr0 ++ pr'). rewrite H1, <- !app_assoc.
          split; [reflexivity|].
          split; [constructor; [reflexivity|exact H2]|apply Pr_app; assumption].
    Qed.

    Lemma conform_kinds_noop : forall a truth faults ir ks fs acc printed,
        all_G fs a truth ks ir ->
        exists acc' pr',
          conf_kinds fs a truth ks ir faults acc printed
          = (fs, Ok (acc ++ acc'), printed ++ pr') /\ flags_false acc' /\ Pr pr'.
    Proof.
      intros a truth faults ir. induction ks as [|k rest IH]; intros fs acc printed HG.
      - exists [], []. rewrite !app_nil_r. split; [reflexivity|]. split; [constructor|exact Pr_nil].
      - assert (HGrest : all_G fs a truth rest ir).
        { intros k' Hk'. apply HG. right. exact Hk'. }
        cbn [conform_kinds]. destruct (sa_files a k) as [files|] eqn:EF.
        + destruct (HG k (or_introl eq_refl) files EF) as [nm [Hnm HGf]]. rewrite Hnm.
          destruct (conform_files_noop truth faults files (strip_split [ch 46] nm) k ir fs acc
                                       printed HGf) as [acc1 [pr1 [H1 [H2 H3]]]].
          rewrite H1.
          destruct (IH fs (acc ++ acc1) (printed ++ pr1) HGrest) as [acc2 [pr2 [H4 [H5 H6]]]].
          exists (acc1 ++ acc2), (pr1 ++ pr2). rewrite H4, <- !app_assoc.
          split; [reflexivity|].
          split; [apply Forall_app; split; assumption|apply Pr_app; assumption].
        + apply (IH fs acc printed HGrest).
    Qed.

    (* a synced file system is a fixpoint of ground_truth, under every fault assignment (no write
       is attempted) *)
    Lemma synced_noop : forall fs a truth faults,
        synced fs a truth ->
        exists eff pr, gtruth fs a truth faults = (fs, Ok eff, pr) /\ flags_false eff /\ Pr pr.
    Proof.
      intros fs a truth faults [ir [Hir HG]]. rewrite ground_truth_unfold, Hir.
      destruct (conform_kinds_noop a truth faults ir kinds_in_order fs [] [] HG)
        as [acc' [pr' [H1 [H2 H3]]]].
      exists acc', pr'. rewrite H1. split; [reflexivity|]. split; assumption.
    Qed.

    Lemma synced_runs : forall fs a truth faults n,
        synced fs a truth -> sync_runs a truth faults n fs = Some fs.
    Proof.
      intros fs a truth faults n HS. induction n as [|n IHn]; [reflexivity|].
      cbn [sync_runs]. destruct (synced_noop fs a truth faults HS) as [eff [pr [H _]]].
      rewrite H. exact IHn.
    Qed.

  End Quiesce.

  (* all_G at the one kind k is the statement about the files of k; targets_agree and its like in C09Interface are
     this at their per-file predicates *)
  Lemma all_G_single : forall (G : fsys -> path -> list str -> kind -> irT -> Prop) fs a truth ir k,
      all_G G fs a truth [k] ir <->
      (forall files, sa_files a k = Some files ->
         exists nm, name_of a k = Ok nm
                    /\ forall file, In file files -> file <> truth -> G fs file (strip_split [ch 46] nm) k ir).
  Proof.
    intros G fs a truth ir k. split.
    - intros H. apply (H k (or_introl eq_refl)).
    - intros H k' [<-|[]]. exact H.
  Qed.

  (* from the kinds ks to one of them, weakening G along the way *)
  Lemma all_G_kind : forall (G G' : fsys -> path -> list str -> kind -> irT -> Prop) fs a truth ks ir k,
      all_G G fs a truth ks ir -> In k ks ->
      (forall nm file, name_of a k = Ok nm ->
                       G fs file (strip_split [ch 46] nm) k ir -> G' fs file (strip_split [ch 46] nm) k ir) ->
      all_G G' fs a truth [k] ir.
  Proof.
    intros G G' fs a truth ks ir k HG Hk HQ. apply all_G_single. intros files Hfiles.
    destruct (HG k Hk files Hfiles) as [nm [Hnm Hall]].
    exists nm. split; [exact Hnm|]. intros file Hin Hne. apply (HQ nm file Hnm). apply Hall; assumption.
  Qed.

  Definition NoFaults : path -> fault := fun _ => NoFault.

  (* the premises about the command line: no file listed twice (the truth aside), no temporary
     name of a target is a target or the truth *)
  Definition sync_args_ok (a : sync_args) (truth : path) : Prop :=
    NoDup (proc truth (targets a)) /\ clash_free truth (targets a)
    /\ (forall t, In t (proc truth (targets a)) -> truth <> tmp_of t).

  Definition apart (l : list path) : Prop :=
    NoDup l /\ forall t t', In t l -> In t' l -> tmp_of t <> t'.

  (* the premise of the C20 theorems gives the second half of it; sync_args_ok is it and one clause more *)
  Lemma no_tmp_clash_clash_free : forall fs truth l, no_tmp_clash fs truth l -> clash_free truth l.
  Proof.
    intros fs truth l HC t t' Ht Ht'. apply proc_In in Ht. apply proc_In in Ht'.
    apply (proj2 (HC t (proj1 Ht) (proj2 Ht)) t' (proj1 Ht') (proj2 Ht')).
  Qed.

  Lemma sync_args_ok_apart : forall a truth, sync_args_ok a truth -> apart (proc truth (targets a)).
  Proof. intros a truth [ND [CF _]]. exact (conj ND CF). Qed.

  Lemma apart_app : forall l1 l2,
      apart (l1 ++ l2) ->
      apart l1 /\ apart l2 /\ forall p f, In p l1 -> In f l2 -> clear_of p f /\ clear_of f p.
  Proof.
    intros l1 l2 [ND CF]. destruct (NoDup_app_inv _ _ _ ND) as [ND1 [ND2 Hdisj]].
    assert (In1 : forall x, In x l1 -> In x (l1 ++ l2)) by (intros x Hx; apply in_or_app; left; exact Hx).
    assert (In2 : forall x, In x l2 -> In x (l1 ++ l2)) by (intros x Hx; apply in_or_app; right; exact Hx).
    split; [split; [exact ND1|intros t t' Ht Ht'; apply CF; apply In1; assumption]|].
    split; [split; [exact ND2|intros t t' Ht Ht'; apply CF; apply In2; assumption]|].
    intros p f Hp Hf. split; split.
    - intros E. subst f. apply (Hdisj p Hp Hf).
    - intros E. apply (CF f p (In2 f Hf) (In1 p Hp)). symmetry. exact E.
    - intros E. subst f. apply (Hdisj p Hp Hf).
    - intros E. apply (CF p f (In1 p Hp) (In2 f Hf)). symmetry. exact E.
  Qed.

  (* what a successful run establishes of each target, given what one successful call establishes of its
     file; G c fs' file ...: c is what the file held when its call was made.  Each target is worked on
     once, and no other call touches it or its temporary name. *)
  Section Establish.
    Variable G : option bytes -> fsys -> path -> list str -> kind -> irT -> Prop.
    Hypothesis G_ext : forall c fs1 fs2 file s k ir,
        fs_get file fs1 = fs_get file fs2 -> G c fs1 file s k ir -> G c fs2 file s k ir.
    Variable faults : path -> fault.
    Hypothesis STEP_G : forall fs file s k ir fs' b pr,
        s <> [] -> conf fs file s k ir (faults file) = (fs', Ok b, pr) ->
        G (fs_get file fs) fs' file s k ir.

    (* G with the bytes the file holds in fs as its first argument *)
    Definition since (fs : fsys) (fs' : fsys) (file : path) := G (fs_get file fs) fs' file.

    Lemma conform_files_establish : forall truth files search k ir fs acc printed fs' acc' pr',
        search <> [] ->
        conf_files fs truth files search k ir faults acc printed = (fs', Ok acc', pr') ->
        apart (proc truth files) ->
        forall file, In file (proc truth files) -> since fs fs' file search k ir.
    Proof.
      intros truth. induction files as [|f0 rest IH];
        intros search k ir fs acc printed fs' acc' pr' Hs H HA file Hin.
      - destruct Hin.
      - cbn [conform_files] in H. destruct (str_eqb f0 truth) eqn:E.
        + apply str_eqb_eq in E. subst f0. rewrite proc_cons_eq in HA, Hin.
          apply (IH _ _ _ _ _ _ _ _ _ Hs H HA file Hin).
        + apply str_eqb_neq in E. rewrite (proc_cons_ne _ _ _ E) in HA, Hin.
          destruct (apart_app [f0] _ HA) as [_ [HA' Hcl]].
          destruct (conf fs f0 search k ir (faults f0)) as [[fs2 r2] pr2] eqn:EC.
          destruct r2 as [flag|e]; [|discriminate H].
          destruct Hin as [E0|Hin].
          * subst file. apply (G_ext _ fs2 fs'); [|apply (STEP_G _ _ _ _ _ _ _ _ Hs EC)].
            symmetry. apply (conform_files_frame f0 truth faults fs2 _ _ _ _ _ _ _ _ _) with (2 := H).
            intros f Hf. apply (Hcl f0 f (or_introl eq_refl) Hf).
          * destruct (Hcl f0 file (or_introl eq_refl) Hin) as [_ [Hne Hnt]].
            unfold since. rewrite <- (conform_frame _ _ _ _ _ _ _ _ _ EC file Hne Hnt).
            apply (IH _ _ _ _ _ _ _ _ _ Hs H HA' file Hin).
    Qed.

    Lemma conform_kinds_establish : forall a truth ir ks fs acc printed fs' acc' pr',
        conf_kinds fs a truth ks ir faults acc printed = (fs', Ok acc', pr') ->
        apart (proc truth (targets_of a ks)) ->
        all_G (since fs) fs' a truth ks ir.
    Proof.
      intros a truth ir. induction ks as [|k0 rest IH]; intros fs acc printed fs' acc' pr' H HA.
      - intros k [].
      - cbn [conform_kinds] in H.
        change (targets_of a (k0 :: rest))
          with (match sa_files a k0 with Some l => l | None => [] end ++ targets_of a rest) in HA.
        destruct (sa_files a k0) as [files0|] eqn:EF.
        + rewrite proc_app in HA. destruct (apart_app _ _ HA) as [HA0 [HAr Hcl]].
          destruct (name_of a k0) as [nm|e] eqn:EN; [|discriminate H].
          destruct (conf_files fs truth files0 (strip_split [ch 46] nm) k0 ir faults acc printed)
            as [[fs2 r2] pr2] eqn:EC.
          destruct r2 as [acc2|e]; [|discriminate H].
          pose proof (IH _ _ _ _ _ _ H HAr) as HGr.
          intros k Hk files Hfiles. destruct (kind_eq_dec k k0) as [Ek|Ek].
          * (* the files of k0: established by its own calls, untouched by those of the later kinds *)
            subst k. rewrite EF in Hfiles. injection Hfiles as <-.
            exists nm. split; [exact EN|]. intros file Hin Hne.
            assert (Hfp : In file (proc truth files0)) by (apply proc_In; split; assumption).
            apply (G_ext _ fs2 fs');
              [|apply (conform_files_establish _ _ _ _ _ _ _ _ _ _ _ (strip_split_nonnil _ nm) EC HA0 _ Hfp)].
            symmetry. apply (conform_kinds_frame file truth faults fs2 _ _ _ _ _ _ _ _) with (2 := H).
            intros f Hf. apply (Hcl file f Hfp Hf).
          * (* the files of a later kind: untouched by the calls of k0 *)
            destruct Hk as [Hk|Hk]; [contradiction Ek; symmetry; exact Hk|].
            destruct (HGr k Hk files Hfiles) as [nm' [Hnm' Hall]].
            exists nm'. split; [exact Hnm'|]. intros file Hin Hne.
            assert (Hfr : In file (proc truth (targets_of a rest))).
            { apply proc_In. split; [|exact Hne]. apply targets_of_In. exists k, files.
              split; [exact Hk|]. split; assumption. }
            unfold since. rewrite <- (conform_files_frame file truth faults fs _ _ _ _ _ _ _ _ _) with (2 := EC).
            -- apply Hall; assumption.
            -- intros f Hf. apply (Hcl f file Hf Hfr).
        + pose proof (IH _ _ _ _ _ _ H HA) as HGr.
          intros k [Hk|Hk] files Hfiles.
          * subst k. rewrite EF in Hfiles. discriminate Hfiles.
          * apply (HGr k Hk files Hfiles).
    Qed.

    Lemma ground_truth_establish : forall fs a truth fs1 eff pr,
        sync_args_ok a truth ->
        gtruth fs a truth faults = (fs1, Ok eff, pr) ->
        exists ir, truth_ir fs1 a truth = Ok ir /\ truth_ir fs a truth = Ok ir
                   /\ all_G (since fs) fs1 a truth kinds_in_order ir.
    Proof.
      intros fs a truth fs1 eff pr [ND [CF HT]] H.
      assert (Hsame : fs_get truth fs1 = fs_get truth fs).
      { apply (ground_truth_truth_untouched _ _ _ _ _ _ _ H).
        intros t Hin Hne. apply HT. apply proc_In. split; assumption. }
      rewrite ground_truth_unfold in H.
      destruct (truth_ir fs a truth) as [ir|e] eqn:Eir; [|discriminate H].
      exists ir. split; [rewrite (truth_ir_ext fs1 fs a truth Hsame); exact Eir|].
      split; [reflexivity|]. apply (conform_kinds_establish _ _ _ _ _ _ _ _ _ _ H (conj ND CF)).
    Qed.

  End Establish.

  Lemma step_settled : FIX_law -> forall fs file s k ir fs' b pr,
      s <> [] -> conf fs file s k ir (NoFaults file) = (fs', Ok b, pr) -> settled fs' file s k ir.
  Proof.
    intros HF fs file s k ir fs' b pr Hs H. destruct b.
    - apply stable_settled. apply (HF _ _ _ _ _ _ _ Hs H).
    - rewrite (conform_false_unchanged _ _ _ _ _ _ _ _ H).
      apply (conform_false_settled _ _ _ _ _ _ _ _ H).
  Qed.

  Lemma step_stable : FIX_law -> REPLACES_law -> forall fs file s k ir fs' b pr,
      s <> [] -> conf fs file s k ir (NoFaults file) = (fs', Ok b, pr) -> stable fs' file s k ir.
  Proof.
    intros HF HR fs file s k ir fs' b pr Hs H. apply (settled_stable HR).
    apply (step_settled HF _ _ _ _ _ _ _ _ Hs H).
  Qed.

  Lemma settled_noop_G : forall fs file s k ir f,
      settled fs file s k ir -> exists pr, True /\ conf fs file s k ir f = (fs, Ok false, pr).
  Proof.
    intros fs file s k ir f H. destruct (settled_conform_noop fs file s k ir f H) as [pr Hpr].
    exists pr. split; [exact I|exact Hpr].
  Qed.

  Lemma stable_noop_G : forall fs file s k ir f,
      stable fs file s k ir -> exists pr, pr = [] /\ conf fs file s k ir f = (fs, Ok false, pr).
  Proof.
    intros fs file s k ir f H. exists []. split; [reflexivity|].
    apply stable_conform_noop. exact H.
  Qed.

  (* C09: after a successful fault-free run every target is found at its location and equal to the
     re-emission of the truth *)
  Theorem sync_establishes_agreement : FIX_law -> REPLACES_law ->
      forall fs a truth fs1 eff pr,
        sync_args_ok a truth ->
        gtruth fs a truth NoFaults = (fs1, Ok eff, pr) -> synced stable fs1 a truth.
  Proof.
    intros HF HR fs a truth fs1 eff pr Hok H.
    destruct (ground_truth_establish (fun _ => stable) (fun _ => stable_ext) NoFaults (step_stable HF HR)
                                     _ _ _ _ _ _ Hok H) as [ir [Hir [_ HG]]].
    exists ir. split; [exact Hir|exact HG].
  Qed.

  Theorem sync_establishes_settled : FIX_law ->
      forall fs a truth fs1 eff pr,
        sync_args_ok a truth ->
        gtruth fs a truth NoFaults = (fs1, Ok eff, pr) -> synced settled fs1 a truth.
  Proof.
    intros HF fs a truth fs1 eff pr Hok H.
    destruct (ground_truth_establish (fun _ => settled) (fun _ => settled_ext) NoFaults (step_settled HF)
                                     _ _ _ _ _ _ Hok H) as [ir [Hir [_ HG]]].
    exists ir. split; [exact Hir|exact HG].
  Qed.

  Lemma app_nil_both : forall x y : list str, x = [] -> y = [] -> x ++ y = [].
  Proof. intros x y Hx Hy. subst. reflexivity. Qed.

  (* C10 idempotence: a second run reports every file unchanged, prints nothing and returns the
     same file system -- under every fault assignment, since it attempts no write *)
  Theorem sync_second_run_noop : FIX_law -> REPLACES_law ->
      forall fs a truth fs1 eff pr,
        sync_args_ok a truth ->
        gtruth fs a truth NoFaults = (fs1, Ok eff, pr) ->
        forall faults, exists eff',
            gtruth fs1 a truth faults = (fs1, Ok eff', []) /\ flags_false eff'.
  Proof.
    intros HF HR fs a truth fs1 eff pr Hok H faults.
    pose proof (sync_establishes_agreement HF HR _ _ _ _ _ _ Hok H) as HS.
    destruct (synced_noop stable (fun pr => pr = []) stable_noop_G eq_refl app_nil_both
                          fs1 a truth faults HS) as [eff' [pr' [H1 [H2 H3]]]].
    subst pr'. exists eff'. split; assumption.
  Qed.

  (* from FIX alone: same file system, every flag false (lines saying unchanged may be printed) *)
  Theorem sync_second_run_unchanged : FIX_law ->
      forall fs a truth fs1 eff pr,
        sync_args_ok a truth ->
        gtruth fs a truth NoFaults = (fs1, Ok eff, pr) ->
        forall faults, exists eff' pr',
            gtruth fs1 a truth faults = (fs1, Ok eff', pr') /\ flags_false eff'.
  Proof.
    intros HF fs a truth fs1 eff pr Hok H faults.
    pose proof (sync_establishes_settled HF _ _ _ _ _ _ Hok H) as HS.
    destruct (synced_noop settled (fun _ => True) settled_noop_G I (fun _ _ _ _ => I)
                          fs1 a truth faults HS) as [eff' [pr' [H1 [H2 _]]]].
    exists eff', pr'. split; assumption.
  Qed.

  (* convergence: any number of further runs leaves the file system where the first run put it *)
  Theorem sync_converges : FIX_law ->
      forall fs a truth fs1 eff pr,
        sync_args_ok a truth ->
        gtruth fs a truth NoFaults = (fs1, Ok eff, pr) ->
        forall faults n, sync_runs a truth faults n fs1 = Some fs1.
  Proof.
    intros HF fs a truth fs1 eff pr Hok H faults n.
    pose proof (sync_establishes_settled HF _ _ _ _ _ _ Hok H) as HS.
    apply (synced_runs settled (fun _ => True) settled_noop_G I (fun _ _ _ _ => I)). exact HS.
  Qed.

  (* append branch: the old text is a prefix of the new, up to terminating its last line *)
  Theorem conform_append_keeps_old : forall fs file search k ir f fs' pr old t,
      conf fs file search k ir f = (fs', Ok true, pr) ->
      fs_get file fs = Some old -> parse_file file old = Ok t -> find search t = None ->
      exists sep src, (sep = [] \/ sep = [nl]) /\ fs_get file fs' = Some (old ++ sep ++ src).
  Proof.
    intros fs file search k ir f fs' pr old t H Hold Hparse Hfind.
    destruct (conform_true_at _ _ _ _ _ _ _ _ _ _ H Hold Hparse)
      as [[_ [n [src [_ [_ [E _]]]]]]|[o [n [t' [src [Hf _]]]]]].
    - destruct (intended_append_prefix fs file src old Hold) as [sep [Hsep Hint]].
      exists sep, src. split; [exact Hsep|]. subst fs'. rewrite written_get_file, Hint. reflexivity.
    - rewrite Hfind in Hf. discriminate Hf.
  Qed.

  Section Structure.
    Variable X : Type.
    Variable others : list str -> tree -> list X.   (* everything in the tree but the addressed node *)

    (* LAW: the rewriter changes only the addressed node *)
    Definition REWRITE_FRAME_law : Prop :=
      forall search n t, others search (fst (rewrite search n t)) = others search t.

    (* LAW: what is rendered parses back to the tree rendered *)
    Definition RENDER_PARSE_law : Prop :=
      forall file t src, render_tree t = Ok src -> parse_file file src = Ok t.

    (* replaced branch: the new bytes parse to the rewritten tree, which agrees with the old one on what
       the rewriter keeps.  Here [others] may read the tree before the rewrite as a reference: a rewriter
       that inserts an unlabelled node cannot tell the replaced position from the new tree alone. *)
    Theorem conform_replaced_keeps_others_ref : forall others_ref : tree -> list str -> tree -> list X,
        (forall search n t, others_ref t search (fst (rewrite search n t)) = others_ref t search t) ->
        RENDER_PARSE_law ->
        forall fs file search k ir f fs' pr content t o,
          conf fs file search k ir f = (fs', Ok true, pr) ->
          fs_get file fs = Some content -> parse_file file content = Ok t ->
          find search t = Some o ->
          exists content' t' n,
            fs_get file fs' = Some content' /\ parse_file file content' = Ok t'
            /\ emit_k k ir (opts_of (Some o) search k) = Ok n
            /\ rewrite search n t = (t', true)
            /\ others_ref t search t' = others_ref t search t.
    Proof.
      intros others_ref HRF HRP fs file search k ir f fs' pr content t o H Hc Hp Hf.
      destruct (conform_true_at _ _ _ _ _ _ _ _ _ _ H Hc Hp)
        as [[Hf0 _]|[o0 [n [t' [src [Hf0 [He [_ [_ [_ [HR [Hrd [E _]]]]]]]]]]]]].
      - rewrite Hf in Hf0. discriminate Hf0.
      - rewrite Hf in Hf0. injection Hf0 as <-.
        exists src, t', n. subst fs'. rewrite written_get_file, intended_wt.
        split; [reflexivity|]. split; [apply HRP; exact Hrd|]. split; [exact He|]. split; [exact HR|].
        pose proof (HRF search n t) as HF. rewrite HR in HF. exact HF.
    Qed.

    Theorem conform_replaced_keeps_others : REWRITE_FRAME_law -> RENDER_PARSE_law ->
        forall fs file search k ir f fs' pr content t o,
          conf fs file search k ir f = (fs', Ok true, pr) ->
          fs_get file fs = Some content -> parse_file file content = Ok t ->
          find search t = Some o ->
          exists content' t',
            fs_get file fs' = Some content' /\ parse_file file content' = Ok t'
            /\ others search t' = others search t.
    Proof.
      intros HRF HRP fs file search k ir f fs' pr content t o H Hc Hp Hf.
      destruct (conform_replaced_keeps_others_ref (fun _ => others) HRF HRP _ _ _ _ _ _ _ _ _ _ _ H Hc Hp Hf)
        as [content' [t' [n [H1 [H2 [_ [_ H5]]]]]]].
      exists content', t'. split; [exact H1|]. split; [exact H2|exact H5].
    Qed.

  End Structure.
End SyncFacts.

(* the laws are satisfiable and the theorems not vacuous: a toy instance with node = tree = ir = bytes, where the
   file is the node and emitting returns the truth *)
Module Toy.
  Definition emit_k (k : kind) (ir : bytes) (o : unit) : outcome bytes := Ok ir.
  Definition parse_file (p : path) (c : bytes) : outcome bytes := Ok c.
  Definition find (s : list str) (t : bytes) : option bytes := Some t.
  Definition rewrite (s : list str) (n t : bytes) : bytes * bool := (n, true).
  Definition cmp (a b : bytes) : bool := str_eqb a b.
  Definition render (n : bytes) : outcome bytes := Ok n.
  Definition opts_of (o : option bytes) (s : list str) (k : kind) : unit := tt.
  Definition type_ok (k : kind) (n : bytes) : bool := true.
  Definition parse_truth (k : kind) (o : option bytes) (s : list str) : outcome bytes :=
    match o with Some n => Ok n | None => Err ValueError end.
  Definition others (s : list str) (t : bytes) : list unit := [].

  Definition truth : path := L "t.py".
  Definition args : sync_args :=
    mkSyncArgs KClass (fun _ => Some [L "C"])
               (fun k => match k with
                         | KClass => Some [L "t.py"]
                         | KFunction => Some [L "f.py"; L "g.py"]
                         | KArgparse => None
                         end).
  Definition fs0 : fsys := [(L "t.py", L "truth"); (L "f.py", L "old")].
  Definition run (fs : fsys) (faults : path -> fault) :=
    ground_truth emit_k parse_file find rewrite cmp render render opts_of type_ok parse_truth
                 fs args truth faults.
End Toy.

Lemma toy_FIX :
  FIX_law bytes bytes bytes unit Toy.emit_k Toy.parse_file Toy.find Toy.rewrite Toy.cmp
          Toy.render Toy.render Toy.opts_of Toy.type_ok.
Proof.
  intros fs file search k ir fs' pr Hs H.
  assert (Hst : forall src, src = ir -> fs' = written fs file Wt src ->
                            stable bytes bytes bytes unit Toy.emit_k Toy.parse_file Toy.find
                                   Toy.cmp Toy.opts_of Toy.type_ok fs' file search k ir).
  { intros src Hsrc E. subst src fs'. exists ir, ir, ir, ir.
    split; [rewrite written_get_file; reflexivity|].
    repeat (split; [first [reflexivity|exact Hs]|]). apply str_eqb_refl. }
  destruct (conform_true_wrote _ _ _ _ _ _ _ _ _ _ _ _ _ _ _ _ _ _ _ _ _ H)
    as [[_ [n [src [He [Hr [E _]]]]]]
       |[[content [t [n [src [_ [_ [Hf _]]]]]]]
        |[content [t [o [n [t' [src [_ [_ [_ [He [_ [_ [_ [HR [Hr [E _]]]]]]]]]]]]]]]]]].
  - unfold Toy.emit_k in He. unfold Toy.render in Hr. injection He as He. injection Hr as Hr.
    apply (Hst src); [congruence|exact E].
  - discriminate Hf.
  - unfold Toy.emit_k in He. unfold Toy.render in Hr. unfold Toy.rewrite in HR.
    injection He as He. injection Hr as Hr. injection HR as HR.
    apply (Hst src); [congruence|exact E].
Qed.

Lemma toy_sync_args_ok : sync_args_ok Toy.args Toy.truth.
Proof.
  assert (E : proc Toy.truth (targets Toy.args) = [L "f.py"; L "g.py"]) by (vm_compute; reflexivity).
  unfold sync_args_ok, clash_free. rewrite E. split; [|split].
  - constructor; [intros [H|[]]; discriminate H|]. constructor; [intros []|constructor].
  - intros t t' [Ht|[Ht|[]]] [Ht'|[Ht'|[]]]; subst t t'; discriminate.
  - intros t [Ht|[Ht|[]]]; subst t; discriminate.
Qed.

(* FIX, REPLACES, REWRITE_FRAME and RENDER_PARSE hold together of one instance, whose command line
   meets sync_args_ok and whose first run modifies one file and creates another *)
Example laws_satisfiable :
  FIX_law bytes bytes bytes unit Toy.emit_k Toy.parse_file Toy.find Toy.rewrite Toy.cmp
          Toy.render Toy.render Toy.opts_of Toy.type_ok
  /\ REPLACES_law bytes bytes Toy.find Toy.rewrite
  /\ REWRITE_FRAME_law bytes bytes Toy.rewrite unit Toy.others
  /\ RENDER_PARSE_law bytes Toy.parse_file Toy.render
  /\ sync_args_ok Toy.args Toy.truth
  /\ Toy.run Toy.fs0 NoFaults
     = ([(L "g.py", L "truth"); (L "f.py", L "truth"); (L "t.py", L "truth")],
        Ok [(L "t.py", false); (L "f.py", true); (L "g.py", true)],
        [L "modified" ++ [tabch] ++ L "f.py"]).
Proof.
  split; [exact toy_FIX|]. split; [intros search n t o _ _; reflexivity|].
  split; [intros search n t; reflexivity|].
  split; [intros file t src H; unfold Toy.render in H; injection H as H; subst; reflexivity|].
  split; [exact toy_sync_args_ok|]. vm_compute. reflexivity.
Qed.

(* hence the idempotence theorem applies to it: the second run is a no-op *)
Example toy_second_run_noop : forall faults, exists eff',
    Toy.run [(L "g.py", L "truth"); (L "f.py", L "truth"); (L "t.py", L "truth")] faults
    = ([(L "g.py", L "truth"); (L "f.py", L "truth"); (L "t.py", L "truth")], Ok eff', [])
    /\ flags_false eff'.
Proof.
  destruct laws_satisfiable as [HF [HR [_ [_ [Hok Hrun]]]]].
  exact (sync_second_run_noop _ _ _ _ _ _ _ _ _ _ _ _ _ _ HF HR _ _ _ _ _ _ Hok Hrun).
Qed.
