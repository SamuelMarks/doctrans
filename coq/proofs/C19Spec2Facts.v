(* The refined C19 classifier (model/C19Spec2.v) against C19Spec's: the refinement keeps every old class and only adds the two
   interface classes where the old classifier is silent; each new class has one shape; the witnesses (the inputs of
   findings/C19-entry-documented-attribute-reordered.json, C19-entry-nested-class-init-merged.json) are
   classified, their neighbours are not. *)
From Coq Require Import List Ascii Bool Arith ZArith.
From Coq Require String.
Import String.StringSyntax.
From DT Require Import PyStr PyStrFacts Sexp PyVal Gen C19Spec C19Spec2 RefineFacts.
Import ListNotations.

Lemma new_class_C19_new : forall shapes f c,
    new_class_C19 shapes f = Some c -> c = K19r_nested_init_merged \/ c = K19r_documented_attribute_reordered.
Proof.
  intros shapes f c H. unfold new_class_C19 in H.
  destruct f as [f|]; [|discriminate H].
  destruct (nth_error shapes (if_entry f)) as [s|]; [|discriminate H].
  destruct (nested_init_merged s f); [injection H as H; left; symmetry; exact H|].
  destruct (documented_attribute_reordered s f); [injection H as H; right; symmetry; exact H|discriminate H].
Qed.

Lemma finding_class_C19_r_adds : forall ps x shapes f c,
    finding_class_C19_r ps x shapes f = Some c ->
    (exists k, finding_class_C19 ps x = Some k /\ c = K19r_old k)
    \/ (finding_class_C19 ps x = None
        /\ ((conversion_failed x = false /\ (c = K19r_nested_init_merged \/ c = K19r_documented_attribute_reordered))
            \/ (conversion_failed x = true /\ c = K19r_annotated_documented_class))).
Proof.
  intros ps x shapes f c H0. destruct (refine_adds K19r_old _ _ c H0) as [Hold|[Hnone H]]; [left; exact Hold|].
  right. split; [exact Hnone|]. destruct (conversion_failed x).
  - right. split; [reflexivity|]. unfold conversion_class_C19 in H.
    destruct (first_failed_shape (entries_of (ci_gen x)) (ci_feats x) shapes) as [[ff s]|]; [|discriminate H].
    destruct (annotated_documented_class (gi_type (ci_gen x)) ff s); [|discriminate H].
    injection H as H. symmetry. exact H.
  - left. split; [reflexivity|]. apply (new_class_C19_new shapes f c H).
Qed.

(* the third addition carries the name of the old class it widens: no new KNOWN_FINDINGS line *)
Lemma annotated_documented_class_name :
  c19_class_r_name K19r_annotated_documented_class = class_name K_entry_annotated.
Proof. reflexivity. Qed.

Lemma finding_class_C19_r_old : forall ps x shapes f k,
    finding_class_C19 ps x = Some k -> finding_class_C19_r ps x shapes f = Some (K19r_old k).
Proof. intros ps x shapes f k. apply (refine_old K19r_old). Qed.

Lemma c19_class_r_name_old : forall k, c19_class_r_name (K19r_old k) = class_name k.
Proof. reflexivity. Qed.

Lemma guard_C19_r_inside : forall ps x shapes f, guard_C19_r ps x shapes f = true -> guard_C19 ps x = true.
Proof. intros ps x shapes f H. unfold guard_C19_r in H. apply andb_true_iff in H. destruct H as [H _]. exact H. Qed.

(* inside the old guard (every entry converted, or an existing output) and without a failed interface clause the
   refinement says nothing new *)
Lemma guard_C19_r_no_failure : forall ps x shapes, guard_C19_r ps x shapes None = guard_C19 ps x.
Proof.
  intros ps x shapes. unfold guard_C19_r. destruct (guard_C19 ps x) eqn:G; [|reflexivity].
  cbn [andb]. unfold guard_C19 in G. apply andb_true_iff in G. destruct G as [G Hem].
  apply andb_true_iff in G. destruct G as [_ Hc].
  unfold finding_class_C19_r. destruct (finding_class_C19 ps x) as [k|]; [discriminate Hc|].
  unfold conversion_failed. destruct (ci_existing x) as [old|]; cbn [is_some orb] in Hem.
  - reflexivity.
  - rewrite Hem. reflexivity.
Qed.

Lemma nested_init_class_shape : forall ps x shapes f,
    finding_class_C19_r ps x shapes (Some f) = Some K19r_nested_init_merged ->
    finding_class_C19 ps x = None
    /\ exists s d, nth_error shapes (if_entry f) = Some s
                   /\ es_is_class s = true /\ has_own_init s = false
                   /\ merged_init s = Some d /\ 1 < d_depth d
                   /\ strs_eqb (if_got f) (listed_by_merge s d) = true
                   /\ strs_eqb (if_got f) (listed_by_property s (if_want f)) = false.
Proof.
  intros ps x shapes f H. unfold finding_class_C19_r in H.
  destruct (finding_class_C19 ps x) as [k|]; [discriminate H|]. split; [reflexivity|].
  destruct (conversion_failed x).
  { unfold conversion_class_C19 in H.
    destruct (first_failed_shape (entries_of (ci_gen x)) (ci_feats x) shapes) as [[ff s0]|]; [|discriminate H].
    destruct (annotated_documented_class (gi_type (ci_gen x)) ff s0); discriminate H. }
  unfold new_class_C19 in H. destruct (nth_error shapes (if_entry f)) as [s|]; [|discriminate H].
  destruct (nested_init_merged s f) eqn:E.
  - unfold nested_init_merged in E. apply andb_true_iff in E. destruct E as [E Em].
    apply andb_true_iff in E. destruct E as [Hc Ho]. apply negb_true_iff in Ho.
    destruct (merged_init s) as [d|] eqn:Emi; [|discriminate Em].
    apply andb_true_iff in Em. destruct Em as [Em Hne]. apply andb_true_iff in Em. destruct Em as [Hd Hg].
    apply Nat.ltb_lt in Hd. apply negb_true_iff in Hne.
    exists s, d.
    split; [reflexivity|]. split; [exact Hc|]. split; [exact Ho|]. split; [exact Emi|].
    split; [exact Hd|]. split; [exact Hg|exact Hne].
  - destruct (documented_attribute_reordered s f); discriminate H.
Qed.

Lemma documented_attribute_class_shape : forall ps x shapes f,
    finding_class_C19_r ps x shapes (Some f) = Some K19r_documented_attribute_reordered ->
    finding_class_C19 ps x = None
    /\ exists s d, nth_error shapes (if_entry f) = Some s
                   /\ es_is_class s = true /\ has_own_init s = true
                   /\ merged_init s = Some d /\ d_depth d = 1
                   /\ strs_eqb (params_of_def d) (if_want f) = true
                   /\ existsb (fun n => mem_s n (if_want f)) (es_cvars s) = true
                   /\ strs_eqb (if_got f) (listed_by_merge s d) = true
                   /\ strs_eqb (if_got f) (listed_by_property s (if_want f)) = false.
Proof.
  intros ps x shapes f H. unfold finding_class_C19_r in H.
  destruct (finding_class_C19 ps x) as [k|]; [discriminate H|]. split; [reflexivity|].
  destruct (conversion_failed x).
  { unfold conversion_class_C19 in H.
    destruct (first_failed_shape (entries_of (ci_gen x)) (ci_feats x) shapes) as [[ff s0]|]; [|discriminate H].
    destruct (annotated_documented_class (gi_type (ci_gen x)) ff s0); discriminate H. }
  unfold new_class_C19 in H. destruct (nth_error shapes (if_entry f)) as [s|]; [|discriminate H].
  destruct (nested_init_merged s f); [discriminate H|].
  destruct (documented_attribute_reordered s f) eqn:E; [|discriminate H].
  unfold documented_attribute_reordered in E. apply andb_true_iff in E. destruct E as [E Em].
  apply andb_true_iff in E. destruct E as [Hc Ho].
  destruct (merged_init s) as [d|] eqn:Emi; [|discriminate Em].
  apply andb_true_iff in Em. destruct Em as [Em Hne]. apply andb_true_iff in Em. destruct Em as [Em Hg].
  apply andb_true_iff in Em. destruct Em as [Em Hx]. apply andb_true_iff in Em. destruct Em as [Hd Hw].
  apply Nat.eqb_eq in Hd. apply negb_true_iff in Hne.
  exists s, d.
  split; [reflexivity|]. split; [exact Hc|]. split; [exact Ho|]. split; [exact Emi|].
  split; [exact Hd|]. split; [exact Hw|]. split; [exact Hx|]. split; [exact Hg|exact Hne].
Qed.

(* a class with an __init__ of its own whose docstring names no parameter of it is in neither class *)
Lemma disjoint_cvars_unclassified : forall s f,
    has_own_init s = true -> existsb (fun n => mem_s n (if_want f)) (es_cvars s) = false ->
    nested_init_merged s f = false /\ documented_attribute_reordered s f = false.
Proof.
  intros s f Ho Hx. split.
  - unfold nested_init_merged. rewrite Ho. cbn [negb]. rewrite andb_false_r. reflexivity.
  - unfold documented_attribute_reordered. destruct (merged_init s) as [d|]; [|rewrite andb_false_r; reflexivity].
    rewrite Hx. repeat rewrite andb_false_r. cbn [andb]. repeat rewrite andb_false_r. reflexivity.
Qed.

(* a run on a fresh output in which every entry was converted: the old classifier is silent *)
Definition x_fresh (key : String.string) (text : String.string) : c19_in :=
  mkC19 ViaApi
        (mkGenIn (L "{name}Config") (L "m.M") (GOk [mkEntry (L key) false (Emitted (L text))]) (L "class") None None None
                 (mkOpts false true None))
        None [mkFeat false true 3 1 true false false] None.
Arguments x_fresh (key text)%string_scope.

Lemma all_emitted_fresh_unclassified : forall ps x,
    ci_existing x = None -> forallb is_emitted (entries_of (ci_gen x)) = true -> finding_class_C19 ps x = None.
Proof. intros ps x He Ha. unfold finding_class_C19. rewrite He, Ha. reflexivity. Qed.

(* 4. :cvar registry: :cvar epochs: + __init__(self, dataset, epochs, batch_size) *)
Definition w4_shape : entry_shape :=
  mkShape true [L "registry"; L "epochs"]
          [mkDef 1 init_name [L "self"; L "dataset"; L "epochs"; L "batch_size"]].
Definition w4_want : list str := [L "dataset"; L "epochs"; L "batch_size"].
Definition w4_fail : iface_failure := mkIF 0 [L "registry"; L "epochs"; L "dataset"; L "batch_size"] w4_want.
Definition w4_x : c19_in := x_fresh "Trainer" "class TrainerConfig(object): ...".

Lemma w4_classified : forall ps,
    finding_class_C19 ps w4_x = None
    /\ finding_class_C19_r ps w4_x [w4_shape] (Some w4_fail) = Some K19r_documented_attribute_reordered.
Proof.
  intro ps. assert (H : finding_class_C19 ps w4_x = None) by (apply all_emitted_fresh_unclassified; reflexivity).
  split; [exact H|]. unfold finding_class_C19_r. rewrite H. vm_compute. reflexivity.
Qed.

(* the widened old class: `:cvar k:` + an annotated __init__(self, k: int, x: str = ...), type class: SyntaxError *)
Definition w6_x (ty : str) (annotated : bool) : c19_in :=
  mkC19 ViaApi
        (mkGenIn (L "{name}Config") (L "m.M") (GOk [mkEntry (L "C") false (EmitRaises (L "SyntaxError"))]) ty None None None
                 (mkOpts false true None))
        None [mkFeat false true 2 1 true annotated false] None.
Definition w6_shape : entry_shape := mkShape true [L "k"] [mkDef 1 init_name [L "self"; L "k"; L "x"]].

Lemma w6_classified : forall ps,
    finding_class_C19 ps (w6_x (L "class") true) = None
    /\ finding_class_C19_r ps (w6_x (L "class") true) [w6_shape] None = Some K19r_annotated_documented_class.
Proof. intro ps. vm_compute. split; reflexivity. Qed.

(* neighbours: no annotations; the class docstring documents no parameter of __init__; type argparse *)
Lemma w6_neighbours_unclassified : forall ps,
    finding_class_C19_r ps (w6_x (L "class") false) [w6_shape] None = None
    /\ finding_class_C19_r ps (w6_x (L "class") true) [mkShape true [L "registry"] [mkDef 1 init_name [L "self"; L "k"; L "x"]]] None = None
    /\ finding_class_C19_r ps (w6_x (L "argparse") true) [w6_shape] None = None.
Proof. intro ps. vm_compute. repeat split; reflexivity. Qed.

(* neighbours: another order than the merge gives (what appending the missing parameters in hash order would list);
   the documented name is the first parameter (then the generated order IS the signature's: no failure, no class) *)
Lemma w4_other_order_unclassified :
  new_class_C19 [w4_shape] (Some (mkIF 0 [L "registry"; L "epochs"; L "batch_size"; L "dataset"] w4_want)) = None.
Proof. vm_compute. reflexivity. Qed.

Lemma w4_first_parameter_unclassified :
  new_class_C19 [mkShape true [L "registry"; L "dataset"]
                         [mkDef 1 init_name [L "self"; L "dataset"; L "epochs"; L "batch_size"]]]
                (Some (mkIF 0 [L "registry"; L "dataset"; L "epochs"; L "batch_size"] w4_want)) = None.
Proof. vm_compute. reflexivity. Qed.

(* a nested class with its own __init__ next to the class's own __init__ does not excuse anything: what taking the
   LAST __init__ of the walk would list stays unclassified *)
Lemma w4_nested_besides_own_unclassified :
  new_class_C19 [mkShape true [] [mkDef 2 init_name [L "self"; L "verbose"; L "colour"];
                                   mkDef 1 init_name [L "self"; L "width"; L "name"]]]
                (Some (mkIF 0 [L "width"; L "name"; L "verbose"; L "colour"] [L "width"; L "name"])) = None
  /\ new_class_C19 [mkShape true [] [mkDef 2 init_name [L "self"; L "verbose"; L "colour"];
                                      mkDef 1 init_name [L "self"; L "width"; L "name"]]]
                   (Some (mkIF 0 [L "verbose"; L "colour"] [L "width"; L "name"])) = None.
Proof. vm_compute. split; reflexivity. Qed.

(* 5. class Outer: class Options: def __init__(self, verbose=False, colour=...) and no __init__ of its own *)
Definition w5_shape : entry_shape :=
  mkShape true [] [mkDef 2 init_name [L "self"; L "verbose"; L "colour"]].
Definition w5_fail : iface_failure := mkIF 0 [L "verbose"; L "colour"] [].
Definition w5_x : c19_in := x_fresh "Outer" "class OuterConfig(object): ...".

Lemma w5_classified : forall ps,
    finding_class_C19 ps w5_x = None
    /\ finding_class_C19_r ps w5_x [w5_shape] (Some w5_fail) = Some K19r_nested_init_merged.
Proof.
  intro ps. assert (H : finding_class_C19 ps w5_x = None) by (apply all_emitted_fresh_unclassified; reflexivity).
  split; [exact H|]. unfold finding_class_C19_r. rewrite H. vm_compute. reflexivity.
Qed.

(* breadth first: of two nested __init__ the one of least depth, the earliest of a level *)
Lemma w5_breadth_first :
  merged_init (mkShape true [] [mkDef 3 init_name [L "self"; L "deep"];
                                mkDef 2 init_name [L "self"; L "verbose"; L "colour"];
                                mkDef 2 init_name [L "self"; L "second"];
                                mkDef 2 init_name [L "q"]])
  = Some (mkDef 2 init_name [L "self"; L "verbose"; L "colour"]).
Proof. vm_compute. reflexivity. Qed.

(* neighbours: the parameters of ANOTHER nested __init__ than the walk meets first; a class with nothing nested that is
   called __init__ (nothing is merged: the generated definition lists the documented attributes only) *)
Lemma w5_other_nested_unclassified :
  new_class_C19 [mkShape true [] [mkDef 2 init_name [L "self"; L "verbose"; L "colour"];
                                   mkDef 2 init_name [L "self"; L "second"]]]
                (Some (mkIF 0 [L "second"] [])) = None.
Proof. vm_compute. reflexivity. Qed.

Lemma w5_nothing_nested_unclassified :
  new_class_C19 [mkShape true [L "registry"] [mkDef 1 (L "build") [L "self"]]]
                (Some (mkIF 0 [L "registry"; L "x"] [])) = None.
Proof. vm_compute. reflexivity. Qed.

(* a function entry is in neither class *)
Lemma function_entry_unclassified : forall cv ds f, new_class_C19 [mkShape false cv ds] (Some (mkIF 0 f [])) = None.
Proof. intros cv ds f. unfold new_class_C19. cbn [nth_error if_entry]. unfold nested_init_merged, documented_attribute_reordered. reflexivity. Qed.
