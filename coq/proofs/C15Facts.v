(* C15Facts: sample statements (w_pass, w_args, w_helper, w_C, w_D2), refutation of the full C15 statements by
   witnesses, regressions, non-vacuity, the replacement half tied to resolve, and class-free corollaries. *)
From Coq Require Import List Ascii Bool Arith ZArith Lia.
From Coq Require String.
Import String.StringSyntax.
From DT Require Import PyStr Sexp PyVal PureUtils PyAst Locate C15Spec PyStrFacts LocateFacts RewriteFacts.
Import ListNotations.

Definition w_pass : stmt := SOther (L "Pass") (L "pass") [].
Definition w_args (names : list str) (kw : list str) : arguments :=
  mkArguments (map (fun n => mkArg n None) names) [] (map (fun n => mkArg n None) kw)
              (map (fun _ => Some (EConst (VInt 1))) kw) None None.

(* def helper(a, b): pass *)
Definition w_helper : stmt := SFunc (L "helper") (w_args [L "a"; L "b"] []) [w_pass] [] None.
(* class C:  attr: int = 5 ;  def method(self, a, *, k=1): pass ;  class D:  z = 1 *)
Definition w_C : stmt :=
  SClass (L "C") []
         [SAnnAssign (EName (L "attr")) (EName (L "int")) (Some (EConst (VInt 5)));
          SFunc (L "method") (w_args [L "self"; L "a"] [L "k"]) [w_pass] [] None;
          SClass (L "D") [] [SAssign [EName (L "z")] (EConst (VInt 1))] []] [].

(* paths through a nested class do not exist for find_in_ast: _location is parent + child only *)
Lemma C15_refuted_depth3 :
  find_view [L "C"; L "D"; L "z"] [w_C] = Ok None
  /\ option_map fst (resolve [L "C"; L "D"; L "z"] [w_C]) = Some [0; 2; 0].
Proof. split; vm_compute; reflexivity. Qed.

Lemma C15_refuted_lemma : ~ C15_statement.
Proof.
  intros H. specialize (H [w_C] [L "C"; L "D"; L "z"] eq_refl). unfold C15_find_at in H.
  destruct C15_refuted_depth3 as [Hfind Hres]. rewrite Hfind in H.
  destruct (resolve [L "C"; L "D"; L "z"] [w_C]); discriminate.
Qed.

(* the replacement half: D.z does not exist, yet RewriteAtQuery replaces C.D.z (its _location is [D; z]);
   and the FunctionDef helper, though addressed, is not replaced *)
Definition C15_rewrite_statement : Prop := forall m q, supported m = true -> C15_rewrite_at m q.

Lemma C15_rewrite_refuted_lemma : ~ C15_rewrite_statement.
Proof.
  intros H. specialize (H [w_C] [L "D"; L "z"] eq_refl).
  unfold C15_rewrite_at in H. vm_compute in H. discriminate.
Qed.

Lemma C15_rewrite_refuted_function :
  first_hit_list [L "helper"] (annotate [w_helper; w_C]) = None
  /\ option_map fst (resolve [L "helper"] [w_helper; w_C]) = Some [0].
Proof. split; vm_compute; reflexivity. Qed.

(* same-named members of different scopes collide: with a top-level class D: z = 2 after C, the search D.z hits C.D.z *)
Definition w_D2 : stmt := SClass (L "D") [] [SAssign [EName (L "z")] (EConst (VInt 2))] [].

Lemma opath_eqb_eq : forall a b, opath_eqb a b = true -> a = b.
Proof.
  intros a b H. destruct a as [x|], b as [y|]; simpl in H; try discriminate; [|reflexivity].
  apply path_eqb_eq in H. subst. reflexivity.
Qed.

Lemma rw_guard_at : forall m q, rw_guard_C15 m q = true -> C15_rewrite_at m q.
Proof.
  intros m q H. unfold rw_guard_C15 in H. apply andb_true_iff in H. destruct H as [_ H].
  apply opath_eqb_eq. assumption.
Qed.

(* inside the guard, replacing at q on the freshly annotated module replaces the node at the position of
   resolve q m (by the visitor's final replacement_node) and nothing else; when q does not resolve nothing is
   replaced *)
Theorem C15_rewrite_partial_lemma : forall m q repl m' st,
    q <> [] -> rw_guard_C15 m q = true ->
    rewrite_visit q repl (annotate m) = Ok (NMod m', st) ->
    match resolve q m with
    | Some (p, _) => rw_replaced st = true /\ replaced_first q (rw_node st) p (annotate m) m'
    | None => rw_replaced st = false /\ Forall2 (same_mod_defaults q) (annotate m) m'
    end.
Proof.
  intros m q repl m' st Hq Hg Hv. pose proof (rw_guard_at m q Hg) as Hat. unfold C15_rewrite_at in Hat.
  destruct (C15_rewrite_frame_lemma q repl (annotate m) m' st Hq Hv) as [[H1 [H2 H3]]|[H1 [p [H2 H3]]]].
  - rewrite H2 in Hat. destruct (resolve q m) as [[p n]|]; simpl in Hat; [discriminate|]. split; assumption.
  - rewrite H2 in Hat. destruct (resolve q m) as [[p' n]|]; simpl in Hat; [|discriminate].
    inversion Hat; subst. split; assumption.
Qed.

(* single-target assignments at top level: every name resolves correctly, whatever functions there are *)
Theorem C15_toplevel : forall m x,
    supported m = true -> forallb assign_ok m = true -> C15_find_at m [x].
Proof.
  intros m x Hs Hok. apply C15_partial_lemma. unfold guard_C15. rewrite Hs. simpl.
  unfold leaf_lookup_class. rewrite Hok. reflexivity.
Qed.

(* function.arg: always right (positional or keyword-only, existing or not), whatever precedes the function *)
Theorem C15_function_arg : forall m x y pre args body d r post,
    supported m = true -> split_member x m = Some (pre, SFunc x args body d r, post) ->
    C15_find_at m [x; y].
Proof.
  intros m x y pre args body d r post Hs H1.
  apply C15_partial_lemma. unfold guard_C15. rewrite Hs. simpl. rewrite H1. reflexivity.
Qed.

(* Class.method.arg: always right, whatever precedes the class and the method *)
Theorem C15_class_method_arg : forall m x y z pre bs body d post pre' args body' d' r' post',
    supported m = true ->
    split_member x m = Some (pre, SClass x bs body d, post) ->
    split_member y body = Some (pre', SFunc y args body' d' r', post') ->
    C15_find_at m [x; y; z].
Proof.
  intros m x y z pre bs body d post pre' args body' d' r' post' Hs H1 H2.
  apply C15_partial_lemma. unfold guard_C15. rewrite Hs. simpl. rewrite H1, H2. reflexivity.
Qed.
