(* The refined C03 classifier (model/C03Spec2.v) against C03Spec's: old classes and their names are kept, the classes
   K3r_prose_exotic_blank, K3r_type_text_unsafe and K3r_summary_section are added only where the old classifier is silent,
   the refined guard lies inside the old one; for each new class classified samples (points where the docstring link
   of proofs/C03DocLinkMain.v fails) and unclassified neighbours. *)
From Coq Require Import List Ascii Bool Arith ZArith.
From Coq Require String.
Import String.StringSyntax.
From DT Require Import PyStr PyVal Defaults IR C03Spec C02Spec2 C03Spec2 C03DocLinkDefs C03DocLinkMain.
From DT Require EmitAst C02Spec.
From DT Require Import RefineFacts ListFacts.
Import ListNotations.

Definition is_new3 (c : c03_class_r) : Prop :=
  c = K3r_prose_exotic_blank \/ c = K3r_type_text_unsafe \/ c = K3r_summary_section.

Lemma new_classes_C03_new : forall o i c, In c (new_classes_C03 o i) -> is_new3 c.
Proof.
  intros o i c H. unfold new_classes_C03 in H. apply in_app_or in H. destruct H as [H|H].
  - left. destruct (_ || _); [|destruct H]. destruct H as [H|[]]. symmetry. exact H.
  - right. apply (in_flag2 _ _ _ _ _ H).
Qed.

Lemma finding_class_C03_r_adds : forall o i c,
    finding_class_C03_r o i = Some c ->
    (exists k, finding_class_C03 o i = Some k /\ c = K3r_old k)
    \/ (finding_class_C03 o i = None /\ is_new3 c).
Proof.
  intros o i c H. destruct (refine_adds K3r_old _ _ c H) as [Hold|[Hnone Hnew]]; [left; exact Hold|].
  right. split; [exact Hnone|]. apply (new_classes_C03_new o i). apply hd_error_In. exact Hnew.
Qed.

Lemma finding_class_C03_r_old : forall o i k,
    finding_class_C03 o i = Some k -> finding_class_C03_r o i = Some (K3r_old k).
Proof. intros o i k. apply (refine_old K3r_old). Qed.

(* a kept class keeps its name, so the KNOWN_FINDINGS lines of the old classes stay valid *)
Lemma c03_class_r_name_old : forall k, c03_class_r_name (K3r_old k) = c03_class_name k.
Proof. reflexivity. Qed.

Lemma guard_C03_r_inside : forall o i, guard_C03_r o i = true -> guard_C03 o i = true.
Proof. intros o i. apply (refine_guard K3r_old). Qed.

Lemma nothing_documented_spec : forall i, nothing_documented i = negb (has_documented i).
Proof. intros i. reflexivity. Qed.

(* inside the refined guard the clauses of doc_link_ok that have a failing input hold: prose has no line boundary other
   than the line feed ... *)
Lemma guard_C03_r_no_exotic_prose : forall o i n g,
    guard_C03_r o i = true -> In (n, g) (ir_params i) -> exotic_prose3 g = false.
Proof.
  intros o i n g H Hin. unfold guard_C03_r in H. apply andb_true_iff in H. destruct H as [_ Hc].
  unfold finding_class_C03_r in Hc. destruct (finding_class_C03 o i) as [k|]; [discriminate Hc|].
  unfold new_class_C03, new_classes_C03 in Hc.
  destruct (existsb (fun kv => exotic_prose3 (snd kv)) (ir_params i)) eqn:E.
  - cbn [orb app hd_error] in Hc. discriminate Hc.
  - destruct (exotic_prose3 g) eqn:Eg; [|reflexivity].
    assert (Hex : existsb (fun kv => exotic_prose3 (snd kv)) (ir_params i) = true).
    { apply existsb_exists. exists (n, g). split; [exact Hin|exact Eg]. }
    rewrite Hex in E. discriminate E.
Qed.

(* one sample per new class: unnamed by the old classifier, named by the refined one, inside the domain, and the
   docstring link fails on it in the model *)

(* prose with a form feed: the first witness of C03DocLinkMain.link_witnesses *)
Definition w3_formfeed : ir := lw_ir (mkG (Has (L "a" ++ [ch 12] ++ L "b")) (Has (L "str")) (Some (DV (VStr (L "x"))))).

Lemma exotic_blank_classified :
  finding_class_C03 lw_inline w3_formfeed = None
  /\ finding_class_C03_r lw_inline w3_formfeed = Some K3r_prose_exotic_blank
  /\ C03_domain lw_inline w3_formfeed = true
  /\ doc_link_b 100 lw_inline w3_formfeed = false.
Proof.
  split; [|split; [|split]]; [vm_compute; reflexivity..|].
  apply (witness_link_fails (lw_inline, w3_formfeed)). left. reflexivity.
Qed.

(* a ReST field token inside a type written into the docstring: the second witness of link_witnesses *)
Definition w3_typ_token : ir := lw_ir (mkG (Has (L "the a.")) (Has (L "Literal[':type']")) (Some (DV VNone))).

Lemma typ_token_classified :
  finding_class_C03 lw_doctyp w3_typ_token = None
  /\ finding_class_C03_r lw_doctyp w3_typ_token = Some K3r_type_text_unsafe
  /\ C03_domain lw_doctyp w3_typ_token = true
  /\ doc_link_b 100 lw_doctyp w3_typ_token = false
  (* with the type in the signature the text is never written into the docstring: not in the class *)
  /\ finding_class_C03_r lw_inline w3_typ_token = None.
Proof.
  split; [|split; [|split; [|split]]]; [vm_compute; reflexivity..| |vm_compute; reflexivity].
  apply (witness_link_fails (lw_doctyp, w3_typ_token)). right. left. reflexivity.
Qed.

(* a line break inside such a type text; a leading ** *)
Definition w3_typ_newline : ir :=
  lw_ir (mkG (Has (L "the a.")) (Has (L "List[" ++ [nl] ++ L "int]")) (Some (DV (VStr (L "```[1]```"))))).
Definition w3_typ_kwargs : ir := lw_ir (mkG (Has (L "the a.")) (Has (L "**int")) (Some (DV VNone))).

Lemma typ_newline_classified :
  finding_class_C03 lw_doctyp w3_typ_newline = None
  /\ finding_class_C03_r lw_doctyp w3_typ_newline = Some K3r_type_text_unsafe
  /\ C03_domain lw_doctyp w3_typ_newline = true.
Proof. vm_compute. repeat split; reflexivity. Qed.

Lemma typ_kwargs_classified :
  finding_class_C03 lw_doctyp w3_typ_kwargs = None
  /\ finding_class_C03_r lw_doctyp w3_typ_kwargs = Some K3r_type_text_unsafe
  /\ C03_domain lw_doctyp w3_typ_kwargs = true.
Proof. vm_compute. repeat split; reflexivity. Qed.

(* no documented entry and a summary that is a Google section *)
Definition w3_summary_section : ir :=
  mkIR FNone (Has (L "static")) (Has (L "Returns:" ++ [nl] ++ L "  int"))
       [(L "a", mkG Missing (Has (L "int")) (Some (DV (VInt 5))))] FNone None.

Lemma summary_section_classified :
  finding_class_C03 lw_inline w3_summary_section = None
  /\ finding_class_C03_r lw_inline w3_summary_section = Some K3r_summary_section
  /\ C03_domain lw_inline w3_summary_section = true.
Proof. vm_compute. repeat split; reflexivity. Qed.

(* the same summary above a documented parameter is read as ReST: not in the class; and no documented entry under a
   plain summary (the third witness of link_witnesses: the link fails, the round trip does not) is not in it either *)
Lemma summary_section_needs_both :
  finding_class_C03_r lw_inline
    (mkIR FNone (Has (L "static")) (Has (L "Returns:" ++ [nl] ++ L "  int"))
          [(L "a", mkG (Has (L "the a.")) (Has (L "int")) (Some (DV (VInt 5))))] FNone None) = None
  /\ finding_class_C03_r lw_inline (lw_ir (mkG Missing (Has (L "int")) (Some (DV (VInt 5))))) = None.
Proof. vm_compute. repeat split; reflexivity. Qed.
