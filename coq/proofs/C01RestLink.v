(* C01RestLink: the specification printer DocParse.rest_text_of agrees with the model of the emitter
   (DocEmit.emit_docstring, style rest, word_wrap off, default sentences on), so the ReST part of C01
   holds of the text DocEmit produces. *)
From Coq Require Import List Ascii Bool Arith ZArith Lia.
From Coq Require String.
Import String.StringSyntax.
From DT Require Import PyStr Sexp PyVal TyExpr PureUtils Defaults PyAst IR Extracted C17Spec.
From DT Require Import DocEmit DocParse C01Spec.
From DT Require Import PyStrFacts DefaultsFacts DocEmitFacts DocParseFacts.
Import ListNotations.

Lemma link_param : forall w name g p t,
    param_of_gparam g = Some p -> rest_param_text name g = Ok t ->
    exists p', emit_param_str w name p DocEmit.Rest true true false true = Ok (t, p').
Proof.
  intros w name g p t Hp Ht.
  assert (Hfields : p_doc p = g_doc g /\ p_typ p = g_typ g).
  { unfold param_of_gparam in Hp. destruct (g_default g) as [[v|e|r]|]; try discriminate;
      injection Hp as Hp; subst p; split; reflexivity. }
  destruct Hfields as [Edoc Etyp].
  unfold rest_param_text, rest_param_lines in Ht. cbv zeta in Ht.
  unfold emit_param_str, rest_raw_lines.
  assert (Etl : forall q, p_typ q = g_typ g ->
             match DocEmit.truthy_fld (p_typ q) with
             | Some t0 => Some (rest_typ_line name t0)
             | None => None
             end
             = match g_typ g with
               | Has (c :: t0) =>
                 Some (L ":" ++ (if str_eqb name (L "return_type") then L "rtype" else L "type " ++ name)
                         ++ L ": ```" ++ (c :: t0) ++ L "```")
               | _ => None
               end).
  { intros q Eq. rewrite Eq. destruct (g_typ g) as [| |[|c t0]]; reflexivity. }
  assert (Htr : DocParse.truthy_fld (g_doc g) = false -> DocEmit.truthy_fld (g_doc g) = None)
    by (destruct (g_doc g) as [| |[|c r]]; [reflexivity|reflexivity|reflexivity|discriminate]).
  destruct (DocParse.truthy_fld (g_doc g)) eqn:Etr.
  2:{ (* no prose (absent, None or empty): only the type line is written *)
      rewrite Edoc, (Htr eq_refl). cbn [bind fst snd] in *. rewrite (Etl p Etyp), mapM_id. cbn [bind fst snd].
      eexists. f_equal. f_equal.
      destruct (g_typ g) as [| |[|ct t0]]; cbn [bind app cat_options] in *; injection Ht as Ht; subst t; reflexivity. }
  destruct (g_doc g) as [| |[|c r]] eqn:Egd; try discriminate Etr.
  - (* prose present: set_default_doc writes the sentence *)
    rewrite Edoc. cbn [DocParse.truthy_fld DocEmit.truthy_fld] in *. rewrite Hp in Ht.
    unfold sdd_doc.
    destruct (set_default_doc name p true) as [p'|e] eqn:Es; [|discriminate]. cbn [bind] in *.
    destruct (p_doc p') as [| |d] eqn:Ed; try discriminate. cbn [bind fst snd] in *.
    pose proof (set_default_doc_typ name p true p' Es) as Etp.
    rewrite (Etl p' (eq_trans Etp Etyp)). rewrite mapM_id. cbn [bind fst snd].
    eexists. f_equal. f_equal.
    destruct (g_typ g) as [| |[|ct t0]]; cbn [bind app cat_options] in *; injection Ht as Ht; subst t; reflexivity.
Qed.

Lemma link_items : forall w gps ps txts,
    params_of gps = Some ps ->
    map_outcome (fun kv => rest_param_text (fst kv) (snd kv)) gps = Ok txts ->
    exists ps', emit_items (fun k p => emit_param_str w k p DocEmit.Rest true true false true) ps = Ok (txts, ps').
Proof.
  intros w gps. induction gps as [|[k g] gps IH]; intros ps txts Hps Ht.
  - injection Hps as Hps. subst ps. injection Ht as Ht. subst txts. eexists. reflexivity.
  - cbn [params_of] in Hps. destruct (param_of_gparam g) as [p|] eqn:Ep; [|discriminate].
    destruct (params_of gps) as [ps0|] eqn:Eps; [|discriminate]. injection Hps as Hps. subst ps.
    cbn [map_outcome fst snd] in Ht.
    destruct (rest_param_text k g) as [t|e] eqn:Et; [|discriminate]. cbn [bind] in Ht.
    destruct (map_outcome (fun kv => rest_param_text (fst kv) (snd kv)) gps) as [ts|e] eqn:Ets; [|discriminate].
    cbn [bind] in Ht. injection Ht as Ht. subst txts.
    destruct (link_param w k g p t Ep Et) as [p' Hp'].
    destruct (IH ps0 ts eq_refl eq_refl) as [ps' Hps'].
    cbn [emit_items]. rewrite Hp'. cbn [bind]. rewrite Hps'. cbn [bind fst snd]. eexists. reflexivity.
Qed.

(* all defaults are scalars (None, bool, int, float, str): what both models of the emitter cover *)
Definition scalar_defaults (i : ir) : Prop :=
  params_of (ir_params i) <> None
  /\ match ir_returns i with Has g => param_of_gparam g <> None | _ => True end.

(* the printer the parser-side theorems are stated against is the emitter model *)
Theorem rest_text_of_emit_docstring : forall w i text,
    scalar_defaults i -> rest_text_of i = Ok text ->
    exists i', emit_docstring w DocEmit.Rest false true i = Ok (text, i').
Proof.
  intros w i text [Hps Hret] Ht. unfold rest_text_of in Ht. unfold emit_docstring.
  destruct (params_of (ir_params i)) as [ps|] eqn:Eps; [|contradiction]. clear Hps.
  assert (Hdoc : exists doc, (match ir_doc i with
                              | Has d => Ok d | FNone => Ok (L "None") | Missing => Err KeyError end) = Ok doc
                             /\ (match ir_doc i with
                                 | Missing => Err KeyError
                                 | FNone => Ok (L "None")
                                 | Has d => fill_or_id false w d end) = Ok doc).
  { revert Ht. destruct (ir_doc i) as [| |d]; intros Ht.
    - discriminate Ht.
    - eexists. split; reflexivity.
    - eexists. split; reflexivity. }
  destruct Hdoc as [doc [Hd1 Hd2]]. rewrite Hd1 in Ht. cbn [bind] in Ht.
  change (if false then Err AttributeError else Ok (L "None")) with (Ok (L "None") : outcome str).
  rewrite Hd2. cbn [bind].
  destruct (map_outcome (fun kv => rest_param_text (fst kv) (snd kv)) (ir_params i)) as [txts|e] eqn:Etx;
    [|discriminate]. cbn [bind] in Ht.
  destruct (link_items w (ir_params i) ps txts Eps Etx) as [ps' Hps']. rewrite Hps'. cbn [bind fst snd].
  (* emit_docstring tests the list of entry texts for emptiness and takes it either way *)
  assert (Epl : match txts with [] => txts | _ :: _ => txts end = txts) by (destruct txts; reflexivity).
  rewrite Epl.
  destruct (ir_returns i) as [| |g] eqn:Er.
  (* no return entry *)
  1, 2: cbn [bind] in *; injection Ht as Ht; subst text; eexists; apply f_equal; apply (f_equal2 pair); [|reflexivity].
  1, 2: cbn [app]; rewrite ?app_nil_r; reflexivity.
  destruct (param_of_gparam g) as [p|] eqn:Ep; [|contradiction].
  destruct (rest_param_text (L "return_type") g) as [t|e] eqn:Et; [|discriminate]. cbn [bind] in Ht.
  destruct (link_param w (L "return_type") g p t Ep Et) as [p' Hp']. rewrite Hp'. cbn [bind fst snd].
  injection Ht as Ht. subst text. eexists. apply f_equal. apply (f_equal2 pair); [|reflexivity].
  cbn [app]. rewrite ?app_nil_r. reflexivity.
Qed.

Lemma in_domain_scalar_defaults : forall i, in_domain_C01 i = true -> scalar_defaults i.
Proof.
  intros i H. unfold in_domain_C01 in H.
  apply andb_true_iff in H. destruct H as [H Hret].
  apply andb_true_iff in H. destruct H as [H _].
  apply andb_true_iff in H. destruct H as [_ Hps].
  assert (Hentry : forall g, entry_in_domain g = true -> param_of_gparam g <> None).
  { intros g Hg. unfold entry_in_domain in Hg. apply andb_true_iff in Hg. destruct Hg as [_ Hg].
    unfold param_of_gparam. destruct (g_default g) as [[v|e|r]|]; try discriminate. }
  split.
  - induction (ir_params i) as [|[k g] l IH]; [discriminate|].
    cbn [forallb fst snd] in Hps. apply andb_true_iff in Hps. destruct Hps as [Hk Hl].
    apply andb_true_iff in Hk. destruct Hk as [_ Hg].
    cbn [params_of]. destruct (param_of_gparam g) eqn:Ep; [|exfalso; exact (Hentry g Hg Ep)].
    destruct (params_of l) eqn:El; [discriminate|]. exfalso. apply (IH Hl). reflexivity.
  - destruct (ir_returns i) as [| |g]; [exact I|exact I|]. apply Hentry. exact Hret.
Qed.

(* under the guard the text of the emitter model is the printer's text ... *)
Theorem guard_emit_docstring_text : forall w edd i,
    guard_C01_rest edd i = true ->
    exists text i0, rest_text_of i = Ok text
                    /\ emit_docstring w DocEmit.Rest false true i = Ok (text, i0).
Proof.
  intros w edd i Hg. destruct (C01_rest_partial_lemma edd i Hg) as [text [i' [H1 _]]].
  unfold guard_C01_rest in Hg. apply andb_true_iff in Hg. destruct Hg as [Hdom _].
  destruct (rest_text_of_emit_docstring w i text (in_domain_scalar_defaults i Hdom) H1) as [i0 Hi0].
  exists text, i0. split; assumption.
Qed.

(* ... so: emit with DocEmit (rest, word_wrap off, default sentences on), recognise the style, parse with
   parse.docstring(text, emit_default_doc=edd): the same interface comes back.  Unbounded in the number of
   parameters; any wrapping width w (it is not used when word_wrap is off). *)
Theorem C01_rest_partial_emit_lemma : forall w edd i,
    guard_C01_rest edd i = true ->
    exists text i0 i',
      emit_docstring w DocEmit.Rest false true i = Ok (text, i0)
      /\ detect_style (Some text) = DocParse.Rest
      /\ parse_dot_docstring ng_unmodelled text false true edd = Ok i'
      /\ same_interface edd i i' = true.
Proof.
  intros w edd i Hg. destruct (C01_rest_partial_lemma edd i Hg) as [text [i' [H1 [H2 [H3 H4]]]]].
  destruct (guard_emit_docstring_text w edd i Hg) as [text' [i0 [H1' Hi0]]].
  rewrite H1 in H1'. injection H1' as E. subst text'.
  exists text, i0, i'. repeat split; assumption.
Qed.
