(* Facts about the reader-aware C18 classifier (model/C18Spec2.v). *)
From Coq Require Import List Ascii Bool Arith.
From Coq Require String.
Import String.StringSyntax.
From DT Require Import PyStr PyVal IR DocEmit C18Spec C18Spec2 C01Spec C18ParseSpec C18Parse.
Import ListNotations.

(* when the reader keeps the sentence the refinement is the old classifier *)
Lemma finding_class_C18_r_keep : forall w e i, finding_class_C18_r true w e i = finding_class_C18 w e i.
Proof.
  intros w e i. unfold finding_class_C18_r. destruct (finding_class_C18 w e i); reflexivity.
Qed.

(* the refined guard is inside the old one: every theorem stated under guard_C18 holds under guard_C18_r *)
Lemma guard_C18_r_inside : forall k w e i, guard_C18_r k w e i = true -> guard_C18 w e i = true.
Proof.
  intros k w e i H. unfold guard_C18_r in H. unfold guard_C18.
  apply andb_true_iff in H. destruct H as [Hw Hc]. rewrite Hw. cbn [andb].
  unfold finding_class_C18_r in Hc. destruct (finding_class_C18 w e i) as [c|]; [discriminate Hc|reflexivity].
Qed.

(* the refinement only ever adds the class default-sentence-wrapped *)
Lemma finding_class_C18_r_adds : forall k w e i c,
    finding_class_C18_r k w e i = Some c -> finding_class_C18 w e i = Some c \/ (k = false /\ c = K18_default_wrapped).
Proof.
  intros k w e i c H. unfold finding_class_C18_r in H.
  destruct (finding_class_C18 w e i) as [c0|]; [left; exact H|].
  destruct (negb k && _) eqn:E; [|discriminate H].
  right. apply andb_true_iff in E. destruct E as [Ek _]. apply negb_true_iff in Ek.
  injection H as H. split; [exact Ek|symmetry; exact H].
Qed.

(* the split default of a typed parameter read with emit_default_doc = False (the real code returns the default with the
   line break inside): outside the old classifier, inside the refined one, and only for the reader that drops the
   sentence *)
Lemma split_typed_default_classified :
  finding_class_C18 30 (E_docstring Rest) c18_w_default_split = None
  /\ finding_class_C18_r false 30 (E_docstring Rest) c18_w_default_split = Some K18_default_wrapped
  /\ finding_class_C18_r true 30 (E_docstring Rest) c18_w_default_split = None
  /\ C18_rest_parse_at_b 30 false c18_w_default_split = false
  /\ C18_rest_parse_at_b 30 true c18_w_default_split = true.
Proof.
  destruct c18_default_split_facts as [_ [Hcls [Hr [B0 B1]]]].
  split; [exact Hcls|]. split; [exact Hr|]. split; [|exact (conj B0 B1)].
  rewrite finding_class_C18_r_keep. exact Hcls.
Qed.
