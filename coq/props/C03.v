(* C03 - function / method round trip:
     emit.function -> ast.unparse -> ast.parse -> parse.function.
   Definitions in model/C03Spec.v and, for the vocabulary of the codec statements
   (layout, param_facts, guard_facts, rdflt, back, ...), in proofs/C03Compose.v, where the lemmas are.
   Models composed: EmitAst.emit_function, C03Spec.reparse_stmt (the unparse / re-parse step), ParseSig.parse_function
   (+ Merge.ir_merge).  The docstring layer is decoupled exactly as those models are: every theorem quantifies over the
   text [text] that to_docstring returned and over the docstring-derived IR [d]; what the ReST round trip of that text
   must provide is the named hypothesis doc_agrees; props/C03Ext.v (C03_doc_link, C03_partial_closed) proves it for
   the text to_docstring produces, inside doc_link_ok.  All statements are unbounded in the number of parameters. *)
From Coq Require Import List Bool.
From Coq Require String.
Import String.StringSyntax.
From DT Require Import PyStr PyVal PureUtils Defaults PyAst IR Merge ParseSig C12Spec C07Spec.
From DT Require EmitAst C02Spec C07Facts.
From DT Require Import C03Spec C03Compose.
Import ListNotations.

(* the full statement is FALSE of the faithful model: a parameter without default comes back with default None
   (emit.function gives every parameter a default node) *)
Theorem C03_refuted : ~ C03_statement.
Proof. exact C03_refuted_lemma. Qed.
Print Assumptions C03_refuted.

Theorem C03_refutation_witness_class : finding_class_C03 w3_opts w3_ir = Some K3_no_default_becomes_none.
Proof. vm_compute. reflexivity. Qed.
Print Assumptions C03_refutation_witness_class.

(* every finding class is inhabited inside the domain (the same descriptions fail on the real code) *)
Theorem C03_class_witnesses :
  forallb (fun w => match w with
                    | (o, i, k) => C03_domain o i
                                   && match finding_class_C03 o i with Some k' => class_eqb k k' | None => false end
                    end) class_witnesses = true.
Proof. vm_compute. reflexivity. Qed.
Print Assumptions C03_class_witnesses.

(* inside the guard (complement = the named finding classes of C03Spec), for every docstring text and every
   docstring-derived IR that documents the described entries: nothing raises, and names, order, types, prose, defaults
   (value and Python type), the ** parameter, the return entry with its returned default expression and the kind
   come back; static / self / cls x inline or docstring types x positional or keyword-only x every indent / tab /
   wrap option *)
Theorem C03_partial : forall o i text d,
  guard_C03 o i = true -> doc_agrees o i d = true -> C03_at o i text d.
Proof. exact C03_partial_lemma. Qed.
Print Assumptions C03_partial.

Theorem C03_nonvacuous :
  guard_C03 nv3_opts nv3_ir = true /\ doc_agrees nv3_opts nv3_ir nv3_doc = true
  /\ List.length (ir_params nv3_ir) = 7 /\ C03_at_b nv3_opts nv3_ir (L "text") nv3_doc = true.
Proof. exact C03_nonvacuous_lemma. Qed.
Print Assumptions C03_nonvacuous.

(* ---- signature-level codec, OUTSIDE the guard: every description the emitter accepts ---- *)

(* kind: static / self / cls is read back by every round trip that succeeds *)
Theorem C03_kind : forall o i tds d r,
  kind_in_domain (fo_kind o) = true -> forallb not_self_cls (nk_names i) = true ->
  round_trip_fn o i tds d = Ok r -> kind_preserved (fo_kind o) r = true.
Proof. exact C03_kind_lemma. Qed.
Print Assumptions C03_kind.

(* names and order, from C06 (emitted argument names) and C07 (parse.function's order): the positional / keyword-only
   parameters in the IR's order, then the ** parameter exactly when the docstring documents it *)
Theorem C03_names_order : forall o i tds d s s' r,
  kind_in_domain (fo_kind o) = true -> forallb not_self_cls (nk_names i) = true ->
  emit_fn o i tds = Ok s -> reparse_stmt s = Ok s' -> C07_domain (Some d) s' = true -> parse_fn (Some d) s' = Ok r ->
  od_keys (ir_params r)
  = nk_names i ++ (match kwarg_of i with
                   | Some k => if mem_str (a_name k) (od_keys (ir_params d)) then [a_name k] else []
                   | None => []
                   end).
Proof. exact C03_names_order_lemma. Qed.
Print Assumptions C03_names_order.

(* positional vs keyword-only: in both layouts the k-th parameter is paired with the k-th default node *)
Theorem C03_default_alignment : forall kw k afp dfp kwarg,
  kind_in_domain k = true -> forallb not_self_cls (map a_name afp) = true -> List.length dfp = List.length afp ->
  sig_pairs (layout kw k afp dfp kwarg) (pos_args (layout kw k afp dfp kwarg))
  = map2 func_arg2param afp (map Some dfp).
Proof. exact C03_default_alignment_lemma. Qed.
Print Assumptions C03_default_alignment.

(* the unparse / re-parse step keeps layout, names, lengths *)
Theorem C03_reparse_layout : forall kw k afp dfp kwarg a',
  reparse_arguments (layout kw k afp dfp kwarg) = Ok a' ->
  exists afp' dfp' kwarg', a' = layout kw k afp' dfp' kwarg'
    /\ map a_name afp' = map a_name afp /\ List.length dfp' = List.length dfp
    /\ option_map a_name kwarg' = option_map a_name kwarg.
Proof. exact reparse_layout. Qed.
Print Assumptions C03_reparse_layout.

(* ---- per-parameter codec ---- *)

(* inline annotation: for a canonical type string the annotation is a fixed point of unparse / re-parse and prints
   back as the very string *)
Theorem C03_annotation_codec : forall o n g t dflt,
  fo_inline o = true -> g_typ g = Has t -> typ_inline_ok t = true ->
  exists e, EmitAst.arg_of_param (fo_pt o) true (n, g) = Ok (mkArg n (Some e))
            /\ reparse_expr e = Ok e
            /\ g_typ (snd (func_arg2param (mkArg n (Some e)) dflt)) = Has t.
Proof. exact C03_annotation_codec_lemma. Qed.
Print Assumptions C03_annotation_codec.

(* defaults per value class (None / bool / int >= 0 / int < 0 / float / str): value and Python type come back *)
Theorem C03_default_codec : forall q g v nq,
  g_default g = Some (DV v) -> value_ok v = true -> str_ok v = true ->
  needs_quoting (fget (g_typ q)) = Ok nq ->
  (forall t, g_typ q = Has t -> code_val v = true -> contains [ch 91] t = true) ->
  (fld_is_none (g_typ q) = true -> in_none_types v || code_val v = true) ->
  infer_default q (DE (rdflt g)) false = Ok (mkG (g_doc q) (rtyp (g_typ q) v) (Some (back v)))
  /\ C02Spec.same_default (DV v) (back v) = true.
Proof. exact C03_default_codec_lemma. Qed.
Print Assumptions C03_default_codec.

(* one positional / keyword-only parameter from the IR through signature and docstring entry back to the IR *)
Theorem C03_param_codec : forall o n g v dpo,
  param_facts o g v -> entry_in_domain g = true -> name_in_domain n = true -> kwargs_name n = false ->
  (if has_prose g then exists dp, dpo = Some dp /\ doc_entry_agrees (negb (fo_inline o)) n g dp = true
   else dpo = None) ->
  exists q rp,
    (match dpo with
     | Some t => merge_param t (C07Facts.sig_gparam (mkArg n (ann_of o g)) (Some (rdflt g))) = Ok q
     | None => q = C07Facts.sig_gparam (mkArg n (ann_of o g)) (Some (rdflt g))
     end)
    /\ snt_param n q false true = Ok rp /\ same_param_fn g rp = true.
Proof. exact param_entry_codec. Qed.
Print Assumptions C03_param_codec.

(* the ** parameter: documented, conventional type and default: kept with its prose *)
Theorem C03_kwargs : forall et kn kg dp,
  kwargs_name kn = true -> kwargs_class kg = None -> doc_entry_agrees et kn kg dp = true ->
  fld_present (g_typ dp) = true
  /\ exists rp, snt_param kn (mkG (g_doc dp) (g_typ dp) (Some (DV (VStr NoneStr)))) false true = Ok rp
                /\ same_param_fn kg rp = true.
Proof. exact kwargs_entry_codec. Qed.
Print Assumptions C03_kwargs.

(* the return entry: `-> annotation`, generated `return <code>`, _interpolate_return, _set_name_and_type *)
Theorem C03_return_codec : forall o i d,
  guard_facts o i -> doc_returns_agree (negb (fo_inline o)) (ir_returns i) (ir_returns d) = true ->
  exists rv rv' ann ann',
    EmitAst.function_return_val (fo_pt o) i = Ok rv
    /\ ret_ann_o o i = Ok ann
    /\ mapM reparse_body_stmt (opt_list rv) = Ok (opt_list rv')
    /\ reparse_opt ann = Ok ann'
    /\ exists rets rets',
         interpolate_return (opt_list rv') ann' (doc_returns_in d) = Ok rets
         /\ finish_returns rets = Ok rets'
         /\ same_returns_fn (ir_returns i) rets' = true.
Proof. exact returns_round_trip. Qed.
Print Assumptions C03_return_codec.

(* ---- class-free corollaries ---- *)

(* every documented, scalar-typed, defaulted description is inside the guard ... *)
Theorem C03_scalar_in_guard : forall o i, scalar_ir o i = true -> guard_C03 o i = true.
Proof. exact C03_scalar_guard. Qed.
Print Assumptions C03_scalar_in_guard.

(* ... hence round-trips: any number of parameters, static / self / cls, inline or docstring types, positional or
   keyword-only *)
Theorem C03_scalar : forall o i text d,
  scalar_ir o i = true -> doc_agrees o i d = true -> C03_at o i text d.
Proof. intros o i text d H DA. apply C03_partial_lemma; [apply C03_scalar_guard; exact H|exact DA]. Qed.
Print Assumptions C03_scalar.

(* a function that documents only its return value: nothing raises, the entry comes back *)
Theorem C03_return_only : forall o i text d,
  return_only_ir o i = true -> doc_agrees o i d = true -> C03_at o i text d.
Proof. intros o i text d H DA. apply C03_partial_lemma; [apply C03_return_only_guard; exact H|exact DA]. Qed.
Print Assumptions C03_return_only.
