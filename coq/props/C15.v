(* C15: dotted locations.  The lemmas live in proofs/LocateFacts.v, RewriteFacts.v, C15Facts.v. *)
From Coq Require Import List.
From Coq Require String.
Import String.StringSyntax.
From DT Require Import PyStr PyVal PyAst Locate C15Spec LocateFacts RewriteFacts C15Facts.
Import ListNotations.

(* the full lookup statement is false of the faithful model: a path through a nested class (C.D.z) is not found *)
Theorem C15_refuted : ~ C15_statement.
Proof. exact C15_refuted_lemma. Qed.
Print Assumptions C15_refuted.

(* completeness of the finding classes: outside every class find_in_ast on the annotated module returns exactly
   the node (same tree position, same content) that the independent resolver names, or None when there is none;
   modules of any size and nesting *)
Theorem C15_partial : forall m q, guard_C15 m q = true -> C15_find_at m q.
Proof. exact C15_partial_lemma. Qed.
Print Assumptions C15_partial.

(* RewriteAtQuery, any annotated tree, any search, any replacement node: a visit that returns replaces nothing
   (then nothing addressed was there, and the tree is the same up to same_mod_defaults) or exactly one position,
   the first in visit order whose _location matches, every other position unchanged *)
Theorem C15_rewrite_frame_thm : C15_rewrite_frame.
Proof. exact C15_rewrite_frame_lemma. Qed.
Print Assumptions C15_rewrite_frame_thm.

(* "replaces the node at the location": false in general ... *)
Theorem C15_rewrite_refuted : ~ C15_rewrite_statement.
Proof. exact C15_rewrite_refuted_lemma. Qed.
Print Assumptions C15_rewrite_refuted.

(* ... true inside rw_guard_C15: the replaced position is the position of resolve q m *)
Theorem C15_rewrite_partial : forall m q repl m' st,
    q <> [] -> rw_guard_C15 m q = true ->
    rewrite_visit q repl (annotate m) = Ok (NMod m', st) ->
    match resolve q m with
    | Some (p, _) => rw_replaced st = true /\ replaced_first q (rw_node st) p (annotate m) m'
    | None => rw_replaced st = false /\ Forall2 (same_mod_defaults q) (annotate m) m'
    end.
Proof. exact C15_rewrite_partial_lemma. Qed.
Print Assumptions C15_rewrite_partial.

(* further refutation witnesses, one per defect *)
Theorem C15_depth3_not_found :
  find_view [L "C"; L "D"; L "z"] [w_C] = Ok None
  /\ option_map fst (resolve [L "C"; L "D"; L "z"] [w_C]) = Some [0; 2; 0].
Proof. exact C15_refuted_depth3. Qed.
Print Assumptions C15_depth3_not_found.

Theorem C15_annotated_assignment_prefix :
  find_view [L "attr"; L "y"] [SAnnAssign (EName (L "attr")) (EName (L "int")) None]
  = Ok (Some ([0], PStmt (SAnnAssign (EName (L "attr")) (EName (L "int")) None)))
  /\ resolve [L "attr"; L "y"] [SAnnAssign (EName (L "attr")) (EName (L "int")) None] = None.
Proof. split; vm_compute; reflexivity. Qed.
Print Assumptions C15_annotated_assignment_prefix.

(* regressions for /repo 6d00342 *)
Theorem C15_function_before_class_resolves :
  find_view [L "C"; L "method"] [w_helper; w_C] = Ok (resolve [L "C"; L "method"] [w_helper; w_C])
  /\ find_view [L "C"; L "method"; L "a"] [w_helper; w_C] = Ok (resolve [L "C"; L "method"; L "a"] [w_helper; w_C])
  /\ option_map fst (resolve [L "C"; L "method"; L "a"] [w_helper; w_C]) = Some [1; 1; 0; 1].
Proof. repeat apply conj; vm_compute; reflexivity. Qed.
Print Assumptions C15_function_before_class_resolves.

Theorem C15_keyword_only_found :
  find_view [L "C"; L "method"; L "k"] [w_C] = Ok (resolve [L "C"; L "method"; L "k"] [w_C])
  /\ option_map fst (resolve [L "C"; L "method"; L "k"] [w_C]) = Some [0; 1; 1; 0].
Proof. split; vm_compute; reflexivity. Qed.
Print Assumptions C15_keyword_only_found.

Theorem C15_same_name_collision :
  first_hit_list [L "D"; L "z"] (annotate [w_C; w_D2]) = Some [0; 2; 0]
  /\ option_map fst (resolve [L "D"; L "z"] [w_C; w_D2]) = Some [1; 0].
Proof. split; vm_compute; reflexivity. Qed.
Print Assumptions C15_same_name_collision.

Theorem C15_toplevel_names : forall m x,
    supported m = true -> forallb assign_ok m = true -> C15_find_at m [x].
Proof. exact C15_toplevel. Qed.
Print Assumptions C15_toplevel_names.

Theorem C15_function_argument : forall m x y pre args body d r post,
    supported m = true -> split_member x m = Some (pre, SFunc x args body d r, post) ->
    C15_find_at m [x; y].
Proof. exact C15_function_arg. Qed.
Print Assumptions C15_function_argument.

Theorem C15_class_method_argument : forall m x y z pre bs body d post pre' args body' d' r' post',
    supported m = true ->
    split_member x m = Some (pre, SClass x bs body d, post) ->
    split_member y body = Some (pre', SFunc y args body' d' r', post') ->
    C15_find_at m [x; y; z].
Proof. exact C15_class_method_arg. Qed.
Print Assumptions C15_class_method_argument.

Example C15_nonvacuous :
  guard_C15 [w_helper; w_C] [L "C"; L "method"; L "a"] = true
  /\ guard_C15 [w_helper; w_C] [L "C"; L "method"; L "k"] = true
  /\ guard_C15 [w_helper; w_C] [L "helper"; L "nope"] = true
  /\ guard_C15 [w_C; w_helper] [L "C"; L "method"; L "a"] = true
  /\ guard_C15 [w_C; w_helper] [L "C"; L "attr"] = true
  /\ guard_C15 [w_C; w_helper] [L "C"] = true
  /\ guard_C15 [w_C; w_helper] [L "C"; L "nope"] = true
  /\ rw_guard_C15 [w_C; w_helper] [L "C"; L "method"; L "k"] = true
  /\ resolve [L "C"; L "method"; L "a"] [w_C; w_helper] = Some ([0; 1; 0; 1], PArg (mkArg (L "a") None)).
Proof. repeat apply conj; vm_compute; reflexivity. Qed.
Print Assumptions C15_nonvacuous.
