(* C08 — conversion is a normalisation that stabilises after one pass.
   Lemmas live in proofs/C08Facts.v, proofs/PureUtilsFacts.v and
   proofs/DefaultsFacts.v. *)
From Coq Require Import List Bool.
From DT Require Import PyStr PyVal PureUtils Defaults IR.
From DT Require DocEmit C01Spec C05Spec C08Spec PureUtilsFacts DefaultsFacts C05Facts C08Facts.
Import ListNotations.

Theorem C08_quote_idempotent : forall s, quote (quote s) = quote s.
Proof. exact PureUtilsFacts.quote_idem. Qed.
Print Assumptions C08_quote_idempotent.

Theorem C08_unquote_unquoted : forall s,
    (startswith [dq] s && endswith [dq] s) || (startswith [sq] s && endswith [sq] s) = false ->
    unquote s = s.
Proof. exact PureUtilsFacts.unquote_id. Qed.
Print Assumptions C08_unquote_unquoted.

Theorem C08_unquote_after_quote : forall s, unquote s = s -> unquote (quote s) = s.
Proof. exact PureUtilsFacts.unquote_quote. Qed.
Print Assumptions C08_unquote_after_quote.

Theorem C08_set_default_doc_idempotent : forall name p p',
    set_default_doc name p true = Ok p' -> set_default_doc name p' true = Ok p'.
Proof. exact DefaultsFacts.set_default_doc_idem. Qed.
Print Assumptions C08_set_default_doc_idempotent.

(* the text (indentation included) that to_docstring writes is a function of the summary, the parameters, the return
   entry, the options and indent_level: nothing of a previous artefact (name, kind, carried body) enters *)
Theorem C08_to_docstring_text : forall w i i' edd st il et est ww,
    ir_doc i = ir_doc i' -> ir_params i = ir_params i' -> ir_returns i = ir_returns i' ->
    C08Facts.text_of (DocEmit.to_docstring w i edd st il et est ww)
    = C08Facts.text_of (DocEmit.to_docstring w i' edd st il et est ww).
Proof. exact C08Facts.to_docstring_text_lemma. Qed.
Print Assumptions C08_to_docstring_text.

(* equational form: parse (emit o i) = N i on a domain closed under N, N idempotent *)
Theorem C08_emit_after_two_passes : forall (T Txt O : Type) (emit : O -> T -> outcome Txt) (N : T -> T) (D : T -> bool),
    (forall i, D i = true -> N (N i) = N i) ->
    forall o i, D i = true -> emit o (N (N i)) = emit o (N i).
Proof. exact C08Facts.emit_after_two_passes. Qed.
Print Assumptions C08_emit_after_two_passes.

Theorem C08_fixpoint_from_laws :
  forall (T Txt O : Type) (emit : O -> T -> outcome Txt) (parse : Txt -> outcome T) (N : T -> T) (D : T -> bool),
    (forall o i t, D i = true -> emit o i = Ok t -> parse t = Ok (N i)) ->
    (forall i, D i = true -> D (N i) = true) ->
    (forall i, D i = true -> N (N i) = N i) ->
    forall o i t1 t2, D i = true -> emit o i = Ok t1 -> emit o (N i) = Ok t2 ->
    exists i1 i2, parse t1 = Ok i1 /\ emit o i1 = Ok t2 /\ parse t2 = Ok i2 /\ emit o i2 = Ok t2.
Proof. exact C08Facts.second_third_equal. Qed.
Print Assumptions C08_fixpoint_from_laws.

(* relational form: parse (emit i) ~ i for a relation R that the emitter respects *)
Theorem C08_fixpoint_relational :
  forall (T Txt : Type) (emit : T -> outcome Txt) (parse : Txt -> outcome T) (R : T -> T -> bool) (D : T -> bool),
    (forall i, D i = true -> exists t i', emit i = Ok t /\ parse t = Ok i' /\ R i i' = true) ->
    (forall i i', D i = true -> R i i' = true -> emit i' = emit i) ->
    forall i, D i = true ->
    exists t1 i1 t2 i2 t3,
      emit i = Ok t1 /\ parse t1 = Ok i1 /\ emit i1 = Ok t2 /\ parse t2 = Ok i2 /\ emit i2 = Ok t3
      /\ t2 = t3 /\ t1 = t2.
Proof. exact C08Facts.emissions_equal_rel. Qed.
Print Assumptions C08_fixpoint_relational.

Theorem C08_rest_from_C01 : forall D : ir -> bool,
    (forall i, D i = true -> C01Spec.guard_C01_rest false i = true) ->
    (forall i i', D i = true -> C05Spec.preserved i i' = true -> C08Spec.emit_rest i' = C08Spec.emit_rest i) ->
    forall i, D i = true -> C08Spec.C08_rest_at i.
Proof. exact C08Facts.C08_rest_from_C01_lemma. Qed.
Print Assumptions C08_rest_from_C01.

(* the executable form of the three emissions decides the statement *)
Theorem C08_rest_at_decided : forall i, C08Spec.C08_rest_at_b i = true -> C08Spec.C08_rest_at i.
Proof. exact C08Facts.C08_rest_at_b_sound. Qed.
Print Assumptions C08_rest_at_decided.

Theorem C08_refuted : ~ C08Facts.C08_statement.
Proof. exact C08Facts.C08_refuted_lemma. Qed.
Print Assumptions C08_refuted.

Theorem C08_refuted_witness_class :
  C08Spec.finding_class_C08 C05Spec.KRest C08Facts.w_code = Some C05Spec.K05_code_default.
Proof. exact C08Facts.w_code_class. Qed.
Print Assumptions C08_refuted_witness_class.

Example C08_nonvacuous :
  forallb (fun k => C08Spec.guard_C08 k C05Facts.w_safe) C05Spec.all_kinds = true
  /\ C08Spec.C08_rest_at C05Facts.w_safe.
Proof. exact C08Facts.C08_nonvacuous_lemma. Qed.
Print Assumptions C08_nonvacuous.
