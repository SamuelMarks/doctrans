(* NGScanLink: the scan link of C01 for the numpydoc and google styles.
   For every IR inside guard_C01_ng, the indent-driven scanner of DocParseNG (scan_ng), run on the text that the
   specification printer text_of_o writes, returns exactly the blocks scanned_of; the text is over the alphabet.
   Unbounded in the number of parameters and in the length of every text field. *)
From Coq Require Import List Ascii Bool Arith ZArith Lia.
From Coq Require String.
Import String.StringSyntax.
From DT Require Import PyStrFacts SplitFacts DefaultsFacts DocParseFacts.
From DT Require Import PyStr Sexp PyVal TyExpr PureUtils Defaults PyAst IR Extracted Run C17Spec
     DocParseNG C01SpecNG DocParseNGFacts.
Import ListNotations.

Lemma find_cons_skip : forall p c s,
    startswith p (c :: s) = false -> find p (c :: s) = option_map S (find p s).
Proof. intros p c s H. rewrite find_cons, H. reflexivity. Qed.

Lemma startswith_head_neq : forall p c s,
    startswith [c] p = false -> p <> [] -> startswith p (c :: s) = false.
Proof.
  intros [|y p] c s H Hne; [contradiction|]. cbn [startswith] in *. rewrite andb_true_r in H.
  rewrite ascii_eqb_sym, H. reflexivity.
Qed.

(* a doubled separator character: a pattern that neither starts nor ends with it and does not contain the pair
   cannot lie across it *)
Lemma find_sep2 : forall p d c x,
    find p d = None -> p <> [] -> startswith [c] p = false -> endswith [c] p = false ->
    contains [c; c] p = false ->
    find p (d ++ c :: c :: x) = option_map (fun i => List.length d + 2 + i) (find p x).
Proof.
  intros p d c x. induction d as [|a d IH]; intros Hnone Hne Hs He Hcc.
  - cbn [app List.length].
    rewrite find_cons_skip by (apply startswith_head_neq; assumption).
    rewrite find_cons_skip by (apply startswith_head_neq; assumption).
    destruct (find p x); reflexivity.
  - rewrite find_cons in Hnone. destruct (startswith p (a :: d)) eqn:Hsw; [discriminate|].
    destruct (find p d) as [k|] eqn:Hk; [discriminate|].
    change ((a :: d) ++ c :: c :: x) with (a :: (d ++ c :: c :: x)). rewrite find_cons.
    change (a :: (d ++ c :: c :: x)) with ((a :: d) ++ c :: c :: x).
    destruct (startswith p ((a :: d) ++ c :: c :: x)) eqn:E.
    + exfalso. apply startswith_app_cases in E. destruct E as [E|[q [Hq1 [Hq2 Hq3]]]]; [congruence|].
      destruct q as [|z q]; [contradiction|].
      cbn [startswith] in Hq3. apply andb_true_iff in Hq3. destruct Hq3 as [Hz Hq3].
      apply ascii_eqb_eq in Hz. subst z.
      destruct q as [|z q].
      * assert (Hend : endswith [c] p = true) by (apply endswith_iff; exists (a :: d); exact Hq1).
        congruence.
      * cbn [startswith] in Hq3. apply andb_true_iff in Hq3. destruct Hq3 as [Hz _].
        apply ascii_eqb_eq in Hz. subst z.
        assert (Hin : contains [c; c] p = true).
        { rewrite Hq1. change (c :: c :: q) with ([c; c] ++ q). apply contains_app_mid. }
        congruence.
    + rewrite (IH eq_refl Hne Hs He Hcc).
      destruct (find p x) as [i|]; cbn [option_map List.length]; [f_equal; lia|reflexivity].
Qed.

Lemma find_skip_nohead : forall p d x,
    p <> [] -> (forall c, head_c p = Some c -> mem_c c d = false) ->
    find p (d ++ x) = option_map (fun i => List.length d + i) (find p x).
Proof.
  intros p d x Hne. induction d as [|a d IH]; intros Hh.
  - cbn [app List.length]. destruct (find p x); reflexivity.
  - destruct p as [|y p]; [contradiction|].
    pose proof (Hh y eq_refl) as Hy. rewrite mem_c_cons in Hy. apply orb_false_iff in Hy.
    destruct Hy as [Hya Hyd].
    change ((a :: d) ++ x) with (a :: (d ++ x)). rewrite find_cons_skip.
    + rewrite IH.
      * destruct (find (y :: p) x) as [i|]; cbn [option_map List.length]; reflexivity.
      * intros c Hc. injection Hc as Hc. subst c. exact Hyd.
    + cbn [startswith]. rewrite Hya. reflexivity.
Qed.

Lemma split_at_unique : forall c (P D a b : str),
    mem_c c P = false -> mem_c c D = false -> P ++ c :: D = a ++ c :: b -> a = P /\ b = D.
Proof.
  intros c P. induction P as [|x P IH]; intros D a b HP HD E.
  - destruct a as [|y a].
    + cbn [app] in E. injection E as E. split; [reflexivity|symmetry; exact E].
    + cbn [app] in E. injection E as Ey E. subst y. exfalso.
      rewrite E in HD. rewrite mem_c_app, mem_c_cons, ascii_eqb_refl in HD.
      rewrite orb_true_l, orb_true_r in HD. discriminate.
  - rewrite mem_c_cons in HP. apply orb_false_iff in HP. destruct HP as [Hcx HP].
    destruct a as [|y a].
    + cbn [app] in E. injection E as Ex _. subst x. rewrite ascii_eqb_refl in Hcx. discriminate.
    + cbn [app] in E. injection E as Ex E. subst y.
      destruct (IH D a b HP HD E) as [Ea Eb]. subst. split; reflexivity.
Qed.

Lemma startswith_two_line : forall P D t z,
    mem_c nl P = false -> mem_c nl D = false -> mem_c nl t = false -> startswith D z = false ->
    startswith (P ++ nl :: D) (t ++ nl :: z) = false.
Proof.
  intros P D t z HP HD Ht Hz.
  destruct (startswith (P ++ nl :: D) (t ++ nl :: z)) eqn:E; [|reflexivity].
  exfalso. apply startswith_app_cases in E. destruct E as [E|[q [Hq1 [Hq2 Hq3]]]].
  - apply startswith_iff in E. destruct E as [r Hr]. rewrite Hr in Ht.
    rewrite !mem_c_app, mem_c_cons, ascii_eqb_refl in Ht.
    rewrite orb_true_l, orb_true_r, orb_true_l in Ht. discriminate.
  - destruct q as [|y q]; [contradiction|].
    cbn [startswith] in Hq3. apply andb_true_iff in Hq3. destruct Hq3 as [Hy Hq3].
    apply ascii_eqb_eq in Hy. subst y.
    destruct (split_at_unique nl P D t q HP HD Hq1) as [_ Eq]. subst q. congruence.
Qed.

Lemma mem_c_skip_false : forall c (t : str) a, mem_c c (a :: t) = false -> mem_c c t = false.
Proof. intros c t a H. rewrite mem_c_cons in H. apply orb_false_iff in H. apply H. Qed.

Lemma find_line_sep : forall P D t z,
    mem_c nl P = false -> mem_c nl D = false -> mem_c nl t = false -> startswith D z = false ->
    find (P ++ nl :: D) (t ++ nl :: z)
    = option_map (fun i => List.length t + 1 + i) (find (P ++ nl :: D) z).
Proof.
  intros P D t z HP HD Ht Hz. induction t as [|a t IH].
  - cbn [app List.length]. rewrite find_cons_skip.
    + destruct (find (P ++ nl :: D) z); reflexivity.
    + apply (startswith_two_line P D [] z HP HD eq_refl Hz).
  - change ((a :: t) ++ nl :: z) with (a :: (t ++ nl :: z)). rewrite find_cons_skip.
    + rewrite (IH (mem_c_skip_false _ _ _ Ht)).
      destruct (find (P ++ nl :: D) z) as [i|]; cbn [option_map List.length]; [f_equal; lia|reflexivity].
    + apply (startswith_two_line P D (a :: t) z HP HD Ht Hz).
Qed.

Lemma location_within_found : forall c e i,
    find e c = Some i -> location_within (fun x => x) c [e] = Some (i, i + List.length e, e).
Proof.
  intros c e i H. cbn [location_within]. pose proof (find_Some_bound _ _ _ H) as Hb.
  destruct (Nat.ltb_spec (List.length c) (List.length e)) as [Hlt|_]; [lia|]. rewrite H. reflexivity.
Qed.

Lemma location_within_none : forall c e,
    find e c = None -> location_within (fun x => x) c [e] = None.
Proof.
  intros c e H. cbn [location_within]. rewrite H.
  destruct (Nat.ltb (List.length c) (List.length e)); reflexivity.
Qed.

Lemma dropwhile_all : forall (p : ascii -> bool) (a : str), forallb p a = true -> dropwhile p a = [].
Proof.
  intros p a H. rewrite <- (app_nil_r a). rewrite dropwhile_app_all; [reflexivity|exact H].
Qed.

Lemma strip_around : forall doc a b,
    forallb isspace a = true -> forallb isspace b = true -> clean_ends doc = true ->
    strip (a ++ doc ++ b) = doc.
Proof.
  intros doc a b Ha Hb Hce. destruct doc as [|c doc].
  - cbn [app]. unfold strip, strip_by, lstrip_by. rewrite dropwhile_app_all by exact Ha.
    rewrite (dropwhile_all isspace b Hb). reflexivity.
  - apply strip_pad; [exact Ha|exact Hb|]. apply edge_ok_of_clean; [exact Hce|discriminate].
Qed.

Definition nonl (l : str) : Prop := mem_c nl l = false.

Lemma nonl_notin : forall l, nonl l -> ~ In nl l.
Proof. intros l H Hin. apply mem_c_In in Hin. unfold nonl in H. congruence. Qed.

Lemma join_app_nl : forall a b, a <> [] -> b <> [] ->
    join [nl] (a ++ b) = join [nl] a ++ nl :: join [nl] b.
Proof.
  intros a b Ha Hb. induction a as [|x a IH]; [contradiction|].
  destruct a as [|y a].
  - cbn [app]. rewrite join_cons_nonnil; [|exact Hb]. reflexivity.
  - change ((x :: y :: a) ++ b) with (x :: ((y :: a) ++ b)).
    rewrite join_cons_nonnil; [|discriminate]. rewrite IH; [|discriminate].
    rewrite join_cons_cons. cbn [app]. rewrite <- !app_assoc. reflexivity.
Qed.

Lemma join_snoc_blank : forall a, a <> [] -> join [nl] (a ++ [[]]) = join [nl] a ++ [nl].
Proof. intros a Ha. rewrite join_app_nl; [reflexivity|exact Ha|discriminate]. Qed.

Lemma concat_nonnil : forall (us : list (list str)), us <> [] -> Forall (fun u => u <> []) us -> concat us <> [].
Proof.
  intros [|u us] Hne H; [contradiction|]. inversion H as [|u' us' Hu Hus]; subst.
  cbn [concat]. destruct u; [contradiction|discriminate].
Qed.

Lemma join_join_concat : forall (us : list (list str)),
    Forall (fun u => u <> []) us -> join [nl] (map (join [nl]) us) = join [nl] (concat us).
Proof.
  induction us as [|u us IH]; intros H; [reflexivity|].
  inversion H as [|u' us' Hu Hus]; subst.
  destruct us as [|v us].
  - cbn [map concat join]. rewrite app_nil_r. reflexivity.
  - cbn [map]. rewrite join_cons_cons. change (map (join [nl]) (v :: us)) with (map (join [nl]) (v :: us)) in IH.
    cbn [map] in IH. rewrite (IH Hus).
    change (concat (u :: v :: us)) with (u ++ concat (v :: us)).
    rewrite join_app_nl; [reflexivity|exact Hu|]. apply concat_nonnil; [discriminate|exact Hus].
Qed.

Lemma splitlines_join_trailing : forall ls,
    Forall nonl ls -> ls <> [] -> splitlines (join [nl] ls ++ [nl]) = ls.
Proof.
  intros ls Hall Hne.
  assert (E : split_c nl (join [nl] ls ++ [nl]) = ls ++ [[]]).
  { rewrite <- (join_snoc_blank ls Hne). apply split_c_join.
    - destruct ls; discriminate.
    - apply Forall_app. split.
      + eapply Forall_impl; [|exact Hall]. intros l Hl. apply nonl_notin. exact Hl.
      + constructor; [intros []|constructor]. }
  remember (join [nl] ls ++ [nl]) as s eqn:Es. clear Es.
  unfold splitlines. destruct s as [|c s].
  - cbn [split_c] in E. exfalso. destruct ls as [|l ls]; [contradiction|].
    destruct ls; discriminate E.
  - cbv zeta. rewrite split_nl_eq, E. rewrite rev_app_distr. cbn [rev app]. apply rev_involutive.
Qed.

Definition atok (style : ngstyle) : str := nth 0 (arg_tokens_of style) [].
Definition rtok (style : ngstyle) : str := nth 0 (return_tokens_of style) [].

Lemma arg_tokens_one : forall style, arg_tokens_of style = [atok style].
Proof. intros []; reflexivity. Qed.
Lemma return_tokens_one : forall style, return_tokens_of style = [rtok style].
Proof. intros []; reflexivity. Qed.

(* what _scan_phase_numpydoc_and_google does after its for-loop (transcribed from scan_ng) *)
Definition post (style : ngstyle) (ns_is_arg : bool) (doc : str) (stacker : list (list str))
           (brk : option (list (list str) * (option (list str) * option (list str)))) : outcome scanned :=
  let '(args0, ret0, aft0) :=
      match brk with
      | None => ([], RUnits [], None)
      | Some (copied, (la_ret, la_aft)) =>
        let args1 := if ns_is_arg then copied else [] in
        let ret1 := if ns_is_arg then RUnits [] else RUnits copied in
        let ret2 := match la_ret with Some l => RLines l | None => ret1 end in
        let aft := match la_aft with
                   | Some (x :: r) => Some (x :: r)
                   | _ => None
                   end in
        (args1, ret2, aft)
      end in
  let '(stacker1, ret1) :=
      if negb (retv_truthy ret0) then
        let '(st, set_ret) := return_parse_phase style [rtok style] stacker in
        (st, match set_ret with Some u => RUnits u | None => ret0 end)
      else (stacker, ret0) in
  let '(args2, ret2) :=
      match stacker1 with
      | [] => (args0, ret1)
      | _ => if ns_is_arg then (stacker1, ret1) else (args0, RUnits stacker1)
      end in
  Ok (mkScanned doc args2 ret2 aft0).

Lemma skipn_past_token : forall (pre tok rest : str) c,
    skipn (List.length pre + List.length tok + 1) (pre ++ tok ++ c :: rest) = rest.
Proof.
  intros pre tok rest c. rewrite <- Nat.add_assoc. rewrite <- skipn_add.
  rewrite skipn_app_exact. apply skipn_app_succ.
Qed.

Lemma scan_ng_arg : forall style text pre rest lines stacker brk,
    text = pre ++ atok style ++ nl :: rest ->
    find (atok style) text = Some (List.length pre) ->
    splitlines rest = lines -> lines <> [] ->
    stack_lines [rtok style] (indent_of (nth 0 lines [])) lines [] = Ok (stacker, brk) ->
    scan_ng style text = post style true (strip pre) stacker brk.
Proof.
  intros style text pre rest lines stacker brk Et Hf Hs Hne Hst.
  destruct lines as [|l0 ls]; [contradiction|]. cbn [nth] in Hst.
  unfold scan_ng. cbv zeta. rewrite arg_tokens_one, return_tokens_one.
  rewrite (location_within_found _ _ _ Hf). cbv beta iota.
  subst text. rewrite skipn_past_token. rewrite Hs. cbv beta iota.
  rewrite Hst. cbn [bind]. rewrite firstn_app_exact. reflexivity.
Qed.

Lemma scan_ng_ret : forall style text pre rest l0 ls stacker brk,
    text = pre ++ rtok style ++ nl :: rest ->
    find (atok style) text = None ->
    find (rtok style) text = Some (List.length pre) ->
    splitlines rest = l0 :: ls ->
    stack_lines [rtok style] (indent_of l0) (l0 :: ls) [] = Ok (stacker, brk) ->
    scan_ng style text = post style false (strip pre) stacker brk.
Proof.
  intros style text pre rest l0 ls stacker brk Et Hfa Hf Hs Hst.
  unfold scan_ng. cbv zeta. rewrite arg_tokens_one, return_tokens_one.
  rewrite (location_within_none _ _ Hfa). rewrite (location_within_found _ _ _ Hf). cbv beta iota.
  subst text. rewrite skipn_past_token. rewrite Hs. cbv beta iota.
  rewrite Hst. cbn [bind]. rewrite firstn_app_exact. reflexivity.
Qed.

Lemma scan_ng_none : forall style text,
    find (atok style) text = None -> find (rtok style) text = None ->
    scan_ng style text = Ok (mkScanned (strip text) [] (RUnits []) None).
Proof.
  intros style text Ha Hr. unfold scan_ng. cbv zeta. rewrite arg_tokens_one, return_tokens_one.
  rewrite (location_within_none _ _ Ha), (location_within_none _ _ Hr). reflexivity.
Qed.

Lemma indent_of_nonspace : forall s, head_nonspace s -> indent_of s = 0.
Proof.
  intros [|c s] H; [reflexivity|]. unfold indent_of. cbn [takewhile]. rewrite (H c eq_refl). reflexivity.
Qed.

Lemma indent_of_pad : forall k s, head_nonspace s -> indent_of (repeat sp k ++ s) = k.
Proof.
  intros k s H. induction k as [|k IH]; [apply indent_of_nonspace; exact H|].
  cbn [repeat app]. change (indent_of (sp :: repeat sp k ++ s)) with (S (indent_of (repeat sp k ++ s))).
  rewrite IH. reflexivity.
Qed.

Lemma indent_2 : forall s, head_nonspace s -> indent_of (L "  " ++ s) = 2.
Proof. intros s H. apply (indent_of_pad 2 s H). Qed.

Lemma indent_3 : forall s, head_nonspace s -> indent_of (L "   " ++ s) = 3.
Proof. intros s H. apply (indent_of_pad 3 s H). Qed.

Lemma indent_tab : forall s, head_nonspace s -> indent_of (tab ++ s) = 4.
Proof. intros s H. apply (indent_of_pad 4 s H). Qed.

(* google: the look-ahead after the blank line that ends the parameter section *)
Lemma lookahead_nil : forall rt, lookahead rt [] = (None, Some []).
Proof. intros rt. reflexivity. Qed.

Lemma lookahead_google_ret : forall l1 d',
    head_nonspace d' ->
    lookahead [rtok SGoogle] [rtok SGoogle; l1; L "   " ++ d'] = (Some [l1; L "   " ++ d'], Some []).
Proof.
  intros l1 d' Hd. unfold lookahead.
  assert (E : Nat.ltb 2 (List.length [rtok SGoogle; l1; L "   " ++ d'])
              && existsb (fun t => str_eqb t (nth 0 [rtok SGoogle; l1; L "   " ++ d'] []) && negb (is_empty t))
                         [rtok SGoogle] = true) by reflexivity.
  rewrite E. cbv zeta. cbn [nth skipn]. rewrite (indent_3 d' Hd).
  unfold count_at_least. cbn [takewhile]. rewrite (indent_3 d' Hd). reflexivity.
Qed.

(* numpydoc: the search for the return section in the stack *)
Definition nodash (u : list str) : Prop :=
  match u with
  | [] => False
  | h :: _ => forall c, head_c h = Some c -> ascii_eqb c (ch 45) = false
  end.

Definition rev_rtok_np : list str := rev (splitlines (rtok SNumpydoc)).

Lemma rev_rtok_np_eq : rev_rtok_np = [L "-------"; L "Returns"].
Proof. vm_compute. reflexivity. Qed.

Lemma nth_nodash : forall (st : list (list str)) i, Forall nodash st -> i < List.length st -> nodash (nth i st []).
Proof.
  intros st. induction st as [|u st IH]; intros i H Hi; [cbn in Hi; lia|].
  inversion H as [|u' st' Hu Hst]; subst. destruct i as [|i]; [exact Hu|].
  cbn [nth]. apply IH; [exact Hst|cbn in Hi; lia].
Qed.

Lemma ret_split_idx_none : forall st i,
    Forall nodash st -> i < List.length st -> ret_split_idx rev_rtok_np st i = None.
Proof.
  intros st i Hall. induction i as [|i IH]; intros Hi.
  - reflexivity.
  - cbn [ret_split_idx].
    pose proof (nth_nodash st (S i) Hall Hi) as Hn.
    destruct (nth (S i) st []) as [|h r] eqn:En; [contradiction|].
    rewrite rev_rtok_np_eq. cbn [app strs_eqb].
    assert (Eh : str_eqb h (L "-------") = false).
    { apply str_eqb_neq. intros E. subst h. specialize (Hn (ch 45) eq_refl). discriminate Hn. }
    rewrite Eh. cbn [andb]. rewrite andb_false_r. rewrite <- rev_rtok_np_eq. apply IH. lia.
Qed.

Lemma return_parse_none : forall st,
    Forall nodash st -> return_parse_phase SNumpydoc [rtok SNumpydoc] st = (st, None).
Proof.
  intros st H. unfold return_parse_phase. destruct st as [|u st]; [reflexivity|].
  cbn [nth]. fold rev_rtok_np. rewrite ret_split_idx_none; [reflexivity|exact H|cbn [List.length]; lia].
Qed.

Lemma nth_app_plus : forall {A} k (a b : list A) d, nth (k + List.length a) (a ++ b) d = nth k b d.
Proof. intros A k a b d. rewrite Nat.add_comm. apply app_nth2_plus. Qed.

Lemma skipn_app_plus : forall {A} k (a b : list A), skipn (List.length a + k) (a ++ b) = skipn k b.
Proof. intros A k a b. induction a as [|x a IH]; [reflexivity|exact IH]. Qed.

(* the stack of a numpydoc text with parameters and a return entry: searching downward, the two units after the
   header are too long to be it, then the header is found *)
Lemma return_parse_found : forall (U : list (list str)) t dl,
    U <> [] ->
    return_parse_phase SNumpydoc [rtok SNumpydoc]
                       (U ++ [[[]]; [L "Returns"]; [L "-------"]; [t; dl]; [[]]])
    = (U ++ [[[]]], Some [[t; dl]; [[]]]).
Proof.
  intros U t dl HU. unfold return_parse_phase.
  set (tl := [[[]]; [L "Returns"]; [L "-------"]; [t; dl]; [[]]]).
  destruct (U ++ tl) as [|u0 r0] eqn:Est; [destruct U; discriminate|]. rewrite <- Est. clear u0 r0 Est.
  cbn [nth]. fold rev_rtok_np. rewrite rev_rtok_np_eq.
  assert (Elen : List.length (U ++ tl) - 1 = 4 + List.length U) by (rewrite app_length; cbn [List.length tl]; lia).
  rewrite Elen. cbn [Nat.add ret_split_idx Nat.sub].
  rewrite (nth_app_plus 4 U tl), (nth_app_plus 3 U tl), (nth_app_plus 2 U tl), (nth_app_plus 1 U tl).
  cbn [nth tl app strs_eqb]. rewrite !andb_false_r. cbn [andb Nat.ltb Nat.leb].
  rewrite !str_eqb_refl. cbn [andb].
  replace (S (S (List.length U)) - 1) with (List.length U + 1) by lia.
  replace (S (S (List.length U)) + 1) with (List.length U + 3) by lia.
  rewrite firstn_app_2, skipn_app_plus. reflexivity.
Qed.

Lemma post_np_arg : forall doc st st' sr,
    return_parse_phase SNumpydoc [rtok SNumpydoc] st = (st', sr) -> st' <> [] ->
    post SNumpydoc true doc st None
    = Ok (mkScanned doc st' (match sr with Some u => RUnits u | None => RUnits [] end) None).
Proof.
  intros doc st st' sr H Hne. unfold post. cbn [retv_truthy is_empty negb]. rewrite H.
  destruct st' as [|u r]; [contradiction|]. reflexivity.
Qed.

Lemma strs_eqb_refl : forall a, strs_eqb a a = true.
Proof. induction a as [|x a IH]; [reflexivity|]. cbn [strs_eqb]. rewrite str_eqb_refl, IH. reflexivity. Qed.

Lemma units_eqb_refl : forall a, units_eqb a a = true.
Proof. induction a as [|x a IH]; [reflexivity|]. cbn [units_eqb]. rewrite strs_eqb_refl, IH. reflexivity. Qed.

Lemma scanned_eqb_refl : forall a, scanned_eqb a a = true.
Proof.
  intros [d a r f]. unfold scanned_eqb. cbn [sc_doc sc_args sc_ret sc_afterward].
  rewrite str_eqb_refl, units_eqb_refl.
  assert (Er : retv_eqb r r = true) by (destruct r; cbn [retv_eqb]; [apply strs_eqb_refl|apply units_eqb_refl]).
  rewrite Er. destruct f as [x|]; [rewrite strs_eqb_refl|]; reflexivity.
Qed.

Definition alpha (s : str) : Prop := forallb in_alphabet s = true.

Lemma alpha_app : forall a b, alpha a -> alpha b -> alpha (a ++ b).
Proof. intros a b Ha Hb. unfold alpha in *. rewrite forallb_app, Ha, Hb. reflexivity. Qed.

Lemma alpha_cons : forall c s, in_alphabet c = true -> alpha s -> alpha (c :: s).
Proof. intros c s Hc Hs. unfold alpha in *. cbn [forallb]. rewrite Hc, Hs. reflexivity. Qed.

Lemma alpha_nil : alpha [].
Proof. reflexivity. Qed.

Lemma in_alphabet_printable : forall c, 32 <= code c <= 126 -> in_alphabet c = true.
Proof.
  intros c [Hlo Hhi]. unfold in_alphabet. cbv zeta.
  apply orb_true_iff. left. apply orb_true_iff. left. apply andb_true_iff. split; apply Nat.leb_le; assumption.
Qed.

Lemma id_char_alphabet : forall c, is_id_char c = true -> in_alphabet c = true.
Proof. intros c H. apply in_alphabet_printable. pose proof (is_id_char_code c H). lia. Qed.

Lemma intchar_alphabet : forall c, intchar c = true -> in_alphabet c = true.
Proof.
  intros c H. apply in_alphabet_printable. unfold intchar in H. apply orb_true_iff in H. destruct H as [H|H].
  - unfold isdigit in H. apply andb_true_iff in H. destruct H as [H1 H2].
    apply Nat.leb_le in H1. apply Nat.leb_le in H2. lia.
  - apply ascii_eqb_eq in H. subst c. change (code (ch 45)) with 45. lia.
Qed.

Lemma ident_alpha : forall s, is_ident s = true -> alpha s.
Proof.
  intros s H. unfold is_ident in H. destruct s as [|c s]; [discriminate|].
  apply andb_true_iff in H. destruct H as [_ H]. unfold alpha.
  eapply forallb_impl; [|exact H]. exact id_char_alphabet.
Qed.

Lemma py_str_alpha : forall v, pyval_in_alphabet v = true -> alpha (py_str v).
Proof.
  intros [|[|]|z|r|s] H; cbn [py_str]; try reflexivity; try exact H.
  unfold alpha. eapply forallb_impl; [|apply dec_of_Z_intchars]. exact intchar_alphabet.
Qed.

Lemma quote_alpha : forall s, alpha s -> alpha (quote s).
Proof.
  intros s H. unfold quote. destruct s as [|c s]; [exact H|].
  destruct (last_c (c :: s)) as [d|]; [|exact H].
  destruct (ascii_eqb c d && (ascii_eqb c sq || ascii_eqb c dq)); [exact H|].
  apply alpha_cons; [reflexivity|]. apply alpha_app; [exact H|reflexivity].
Qed.

Lemma shown_default_alpha : forall v typ w,
    pyval_in_alphabet v = true -> shown_default v typ = Ok w -> alpha (py_str w).
Proof.
  intros v typ w Hv H. unfold shown_default in H.
  destruct v as [|b|z|r|s].
  - apply bind_Ok_inv in H. destruct H as [nq [_ H]]. destruct nq; injection H as H; subst w; reflexivity.
  - injection H as H. subst w. apply py_str_alpha. exact Hv.
  - injection H as H. subst w. apply py_str_alpha. exact Hv.
  - injection H as H. subst w. apply py_str_alpha. exact Hv.
  - apply bind_Ok_inv in H. destruct H as [nq [_ H]]. destruct nq.
    + cbn [quote_val] in H. injection H as H. subst w. cbn [py_str]. apply quote_alpha. exact Hv.
    + injection H as H. subst w. exact Hv.
Qed.

Lemma doc_with_default_alpha : forall name p d d',
    doc_with_default name p = Ok d' -> p_doc p = Has d -> alpha d ->
    (forall v, p_default p = Some v -> pyval_in_alphabet v = true) -> alpha d'.
Proof.
  intros name p d d' H Hd Ha Hv. unfold doc_with_default in H.
  apply bind_Ok_inv in H. destruct H as [p' [Hp' H]].
  unfold set_default_doc in Hp'. rewrite Hd in Hp'. cbv zeta in Hp'. rewrite andb_false_r in Hp'.
  assert (Hsame : Ok p = Ok p' -> alpha d').
  { intros E. injection E as E. subst p'. rewrite Hd in H. injection H as H. subst d'. exact Ha. }
  destruct (p_default p) as [dflt|] eqn:Edf; [|apply Hsame; exact Hp'].
  destruct (negb (contains (L "Defaults") d || contains (L "defaults") d) && true); [|apply Hsame; exact Hp'].
  set (dflt' := if pyval_eqb dflt (VStr NoneStr) then VNone else dflt) in *.
  assert (Hd' : pyval_in_alphabet dflt' = true).
  { unfold dflt'. destruct (pyval_eqb dflt (VStr NoneStr)); [reflexivity|]. apply Hv. reflexivity. }
  destruct (negb (pyval_eqb dflt' VNone) || negb (endswith (L "kwargs") name)).
  - destruct (last_c d) as [c|]; [|discriminate].
    apply bind_Ok_inv in Hp'. destruct Hp' as [shown [Hsh Hp']]. injection Hp' as Hp'. subst p'.
    cbn [p_doc] in H. injection H as H. subst d'.
    pose proof (shown_default_alpha _ _ _ Hd' Hsh) as Hs.
    apply alpha_app.
    + destruct (ascii_eqb c (ch 46) || ascii_eqb c (ch 44)); [exact Ha|].
      apply alpha_app; [exact Ha|reflexivity].
    + cbn [L String.list_ascii_of_string app]. repeat (apply alpha_cons; [reflexivity|]). exact Hs.
  - injection Hp' as Hp'. subst p'. cbn [p_doc] in H. try rewrite Hd in H. injection H as H. subst d'. exact Ha.
Qed.

Definition fi_of (style : ngstyle) : nat := match style with SGoogle => 2 | SNumpydoc => 0 end.

Definition unit_ok (style : ngstyle) (u : list str) : Prop :=
  is_unit (fi_of style) u /\ Forall nonl u /\ Forall alpha u /\ nodash u.

Lemma id_start_not_dash : forall c, is_id_start c = true -> ascii_eqb c (ch 45) = false.
Proof.
  intros c H. destruct (ascii_eqb c (ch 45)) eqn:E; [|reflexivity].
  apply ascii_eqb_eq in E. subst c. discriminate H.
Qed.

Lemma type_shape_nonl : forall style t, type_shape_ok style t = true -> nonl t.
Proof.
  intros style t H. unfold type_shape_ok in H.
  apply andb_true_iff in H. destruct H as [H _].
  apply andb_true_iff in H. destruct H as [H _].
  apply andb_true_iff in H. destruct H as [_ H]. apply negb_true_iff in H. exact H.
Qed.

Lemma gparam_domain_alpha : forall g p,
    gparam_in_domain g = true -> param_of_gparam g = Some p ->
    (forall t, p_typ p = Has t -> alpha t) /\ (forall d, p_doc p = Has d -> alpha d)
    /\ (forall v, p_default p = Some v -> pyval_in_alphabet v = true).
Proof.
  intros g p H Hp. destruct (param_of_gparam_fields g p Hp) as [Hpd [Hpt Hpdef]].
  unfold gparam_in_domain in H. apply andb_true_iff in H. destruct H as [H Hdef].
  apply andb_true_iff in H. destruct H as [Had Hat].
  split; [|split].
  - intros t Ht. rewrite Hpt in Ht. rewrite Ht in Hat. cbn [fld_in_alphabet] in Hat.
    apply andb_true_iff in Hat. apply Hat.
  - intros d Hd. rewrite Hpd in Hd. rewrite Hd in Had. cbn [fld_in_alphabet] in Had.
    apply andb_true_iff in Had. apply Had.
  - intros v Hv. rewrite Hpdef in Hv. unfold sdefault in Hv.
    destruct (g_default g) as [[w|e|r]|]; try discriminate. injection Hv as Hv. subst w. exact Hdef.
Qed.

Lemma ident_nonl : forall name, is_ident name = true -> nonl name.
Proof. intros name H. apply is_ident_no_char; [exact H|reflexivity]. Qed.

Lemma nonl_tab_app : forall d, nonl d -> nonl (tab ++ d).
Proof. intros d H. unfold nonl in *. rewrite mem_c_app, H. reflexivity. Qed.

Lemma alpha_tab_app : forall d, alpha d -> alpha (tab ++ d).
Proof. intros d H. apply alpha_app; [reflexivity|exact H]. Qed.

Lemma unit_ok_one : forall style h,
    indent_of h = fi_of style -> nonl h -> alpha h -> nodash [h] -> unit_ok style [h].
Proof.
  intros style h Hi Hn Ha Hd. split; [split; [exact Hi|constructor]|].
  split; [constructor; [exact Hn|constructor]|]. split; [constructor; [exact Ha|constructor]|exact Hd].
Qed.

Lemma unit_ok_two : forall style h l2,
    indent_of h = fi_of style -> fi_of style < indent_of l2 -> nonl h -> nonl l2 -> alpha h -> alpha l2 ->
    nodash [h] -> unit_ok style [h; l2].
Proof.
  intros style h l2 Hi Hi2 Hn Hn2 Ha Ha2 Hd. split; [split; [exact Hi|constructor; [exact Hi2|constructor]]|].
  split; [constructor; [exact Hn|constructor; [exact Hn2|constructor]]|].
  split; [constructor; [exact Ha|constructor; [exact Ha2|constructor]]|exact Hd].
Qed.

Lemma entry_unit_ok : forall style name g p t,
    is_ident name = true -> gparam_in_domain g = true -> entry_facts style name g p t ->
    unit_ok style (unit_of_entry style name g).
Proof.
  intros style name g p t Hid Hgd [Hp [Ht [Hgt [Htne [Httf [Hts [Hpdef Hdoc]]]]]]].
  destruct (ident_facts name Hid) as [Hne [Hh _]].
  pose proof (ident_nonl name Hid) as Hnnl. pose proof (ident_alpha name Hid) as Hna.
  pose proof (type_shape_nonl style t Hts) as Htnl.
  destruct (gparam_domain_alpha g p Hgd Hp) as [Hat [Had Hav]].
  pose proof (Hat t Ht) as Hta.
  (* the google line, whatever follows the colon *)
  assert (Hgl : forall x, nonl x -> alpha x -> unit_ok SGoogle [L "  " ++ name ++ L " (" ++ t ++ L "): " ++ x]).
  { intros x Hx Hxa. apply unit_ok_one.
    - apply indent_2. apply head_nonspace_app; assumption.
    - unfold nonl in *. rewrite !mem_c_app, Hnnl, Htnl, Hx. reflexivity.
    - repeat apply alpha_app; try assumption; reflexivity.
    - cbn [nodash]. intros c Hc. injection Hc as Hc. subst c. reflexivity. }
  (* the numpydoc head line *)
  assert (Hnp : indent_of (name ++ L " : " ++ t) = 0 /\ nonl (name ++ L " : " ++ t)
                /\ alpha (name ++ L " : " ++ t) /\ nodash [name ++ L " : " ++ t]).
  { split; [apply indent_of_nonspace; apply head_nonspace_app; assumption|]. split; [|split].
    - unfold nonl in *. rewrite !mem_c_app, Hnnl, Htnl. reflexivity.
    - repeat apply alpha_app; try assumption; reflexivity.
    - cbn [nodash]. intros c Hc. apply id_start_not_dash.
      unfold is_ident in Hid. destruct name as [|x name]; [discriminate|].
      cbn [app head_c] in Hc. injection Hc as Hc. subst c. apply andb_true_iff in Hid. apply Hid. }
  destruct Hnp as [Hni [Hnn [Hnal Hnd]]].
  unfold unit_of_entry. rewrite Hgt. cbn [fget].
  destruct Hdoc as [[_ [_ [_ Hwd]]] | [d [d' Hpr]]].
  - rewrite Hwd. destruct style.
    + replace (L "  " ++ name ++ L " (" ++ t ++ L "): ") with (L "  " ++ name ++ L " (" ++ t ++ L "): " ++ [])
        by (rewrite app_nil_r; reflexivity).
      apply Hgl; reflexivity.
    + apply unit_ok_one; assumption.
  - rewrite (wp_written Hpr).
    pose proof (doc_with_default_alpha name p d d' (wp_line Hpr) (wp_doc Hpr) (Had d (wp_doc Hpr)) Hav) as Hd'a.
    destruct style.
    + apply Hgl; [exact (wp_nl' Hpr)|exact Hd'a].
    + apply unit_ok_two; try assumption.
      * rewrite (indent_tab d' (wp_head' Hpr)). cbn [fi_of]. lia.
      * apply nonl_tab_app. exact (wp_nl' Hpr).
Qed.

Definition ret_unit (style : ngstyle) (t d' : str) : list str :=
  match style with
  | SGoogle => [L "  " ++ t ++ L ":"; L "   " ++ d']
  | SNumpydoc => [t; tab ++ d']
  end.

Definition ret_props (t d' : str) : Prop :=
  t <> [] /\ head_nonspace t /\ head_nonspace d' /\ nonl t /\ nonl d' /\ alpha t /\ alpha d'.

Lemma return_unit : forall style g p t d0,
    gparam_in_domain g = true -> entry_facts style return_type_name g p t -> fget (g_doc g) = Some d0 ->
    exists d', return_lines g = Some (t, d')
               /\ emit_param style return_type_name p = Ok (join [nl] (ret_unit style t d'))
               /\ ret_props t d'.
Proof.
  intros style g p t d0 Hgd [Hp [Ht [Hgt [Htne [Httf [Hts [Hpdef Hdoc]]]]]]] Hd0.
  pose proof (type_shape_nonl style t Hts) as Htnl.
  destruct (type_shape_inv style t Hts) as [Htce _].
  destruct (clean_ends_inv t Htce) as [Hth _].
  destruct (gparam_domain_alpha g p Hgd Hp) as [Hat [Had Hav]].
  destruct Hdoc as [[_ [Hgd0 _]] | [d [d' Hpr]]]; [rewrite Hgd0 in Hd0; discriminate|].
  destruct (clean_ends_inv d (wp_clean Hpr)) as [Hdh _].
  pose proof (doc_with_default_alpha _ p d d' (wp_line Hpr) (wp_doc Hpr) (Had d (wp_doc Hpr)) Hav) as Hd'a.
  exists d'. split; [|split].
  - unfold return_lines. rewrite Hgt, (wp_written Hpr). reflexivity.
  - rewrite (emit_param_return style p t d d' Ht Htne (wp_doc Hpr) (wp_ne Hpr) (wp_line Hpr) Hdh (wp_nl' Hpr)).
    destruct style; reflexivity.
  - split; [exact Htne|]. split; [exact Hth|]. split; [exact (wp_head' Hpr)|]. split; [exact Htnl|].
    split; [exact (wp_nl' Hpr)|]. split; [apply Hat; exact Ht|exact Hd'a].
Qed.

Lemma params_units : forall style ps,
    Forall (entry_guard style) ps ->
    map_o (fun np => do p <- scalar_param (snd np); emit_param style (fst np) p) ps
    = Ok (map (join [nl]) (units_of_params style ps))
    /\ Forall (unit_ok style) (units_of_params style ps).
Proof.
  intros style ps H. induction H as [|[name g] ps [Hid [Hnr [Hgd [Hec _]]]] Hps [IH1 IH2]].
  - split; [reflexivity|constructor].
  - cbn [fst snd] in *.
    destruct (entry_facts_of_guard style name g Hgd Hec) as [p [t Hef]].
    pose proof (entry_emit style name g p t Hnr Hef) as Hemit.
    pose proof (entry_unit_ok style name g p t Hid Hgd Hef) as Hok.
    split.
    + cbn [map_o fst snd]. rewrite (entry_scalar _ _ _ _ _ Hef). cbn [bind]. rewrite Hemit. cbn [bind]. rewrite IH1. reflexivity.
    + cbn [units_of_params map fst snd]. constructor; [exact Hok|exact IH2].
Qed.

Definition tailnl (style : ngstyle) : str := match style with SNumpydoc => [nl] | SGoogle => [] end.

Lemma text_form : forall style i,
    guard_C01_ng style i = true ->
    exists doc ret,
      ir_doc i = Has doc /\ clean_ends doc = true /\ token_free doc = true /\ alpha doc
      /\ Forall (unit_ok style) (units_of_params style (ir_params i))
      /\ (style = SGoogle -> ir_params i <> [])
      /\ text_of_o style i
         = Ok (nl :: doc ++ [nl; nl; nl]
                  ++ join [nl] (match map (join [nl]) (units_of_params style (ir_params i)) with
                                | [] => []
                                | _ => atok style :: map (join [nl]) (units_of_params style (ir_params i))
                                end)
                  ++ [nl] ++ ret ++ [nl] ++ tailnl style)
      /\ ((ret = [] /\ match ir_returns i with Has g => return_lines g | _ => None end = None)
          \/ exists t d', match ir_returns i with Has g => return_lines g | _ => None end = Some (t, d')
                          /\ ret = nl :: rtok style ++ nl :: join [nl] (ret_unit style t d')
                          /\ ret_props t d').
Proof.
  intros style i Hg.
  destruct (guard_C01_ng_inv style i Hg) as [doc [Hdoc [Hdtf [Hdce [Hda [Hgne [Hall [_ [_ [Hret Hrd]]]]]]]]]].
  destruct (params_units style (ir_params i) Hall) as [Hmap Hunits].
  assert (Hr : exists ret,
             match ir_returns i with
             | Has g => do p <- scalar_param g;
                        do l <- emit_param style return_type_name p;
                        Ok (nl :: nth 0 (return_tokens_of style) [] ++ nl :: l)
             | _ => Ok []
             end = Ok ret
             /\ ((ret = [] /\ match ir_returns i with Has g => return_lines g | _ => None end = None)
                 \/ exists t d', match ir_returns i with Has g => return_lines g | _ => None end = Some (t, d')
                                 /\ ret = nl :: rtok style ++ nl :: join [nl] (ret_unit style t d')
                                 /\ ret_props t d')).
  { destruct (ir_returns i) as [| |g] eqn:Er.
    - exists []. split; [reflexivity|]. left. split; reflexivity.
    - exists []. split; [reflexivity|]. left. split; reflexivity.
    - cbn [returns_ok] in Hret. destruct Hret as [_ [[t0 [d0 [Ht0 Hd0]]] [Hec _]]].
      pose proof (Hrd g eq_refl) as Hgd.
      destruct (entry_facts_of_guard style return_type_name g Hgd Hec) as [p [t Hef]].
      destruct (return_unit style g p t d0 Hgd Hef Hd0) as [d' [Hrl [Hemit Hprops]]].
      rewrite (entry_scalar _ _ _ _ _ Hef). cbn [bind]. rewrite Hemit. cbn [bind]. eexists. split; [reflexivity|].
      right. exists t, d'. split; [exact Hrl|]. split; [reflexivity|exact Hprops]. }
  destruct Hr as [ret [Hret' Hcases]].
  exists doc, ret. split; [exact Hdoc|]. split; [exact Hdce|]. split; [exact Hdtf|]. split; [exact Hda|].
  split; [exact Hunits|]. split; [exact Hgne|]. split; [|exact Hcases].
  unfold text_of_o. rewrite Hdoc. cbn [bind]. rewrite Hmap. cbn [bind]. rewrite Hret'. cbn [bind].
  reflexivity.
Qed.

Definition tokp (tok : str) : Prop :=
  tok <> [] /\ startswith [nl] tok = false /\ endswith [nl] tok = false /\ contains [nl; nl] tok = false
  /\ In tok all_tokens /\ alpha tok.

Lemma In_all_tokens : forall tok, existsb (str_eqb tok) all_tokens = true -> In tok all_tokens.
Proof.
  intros tok H. apply existsb_exists in H. destruct H as [x [Hin Hx]]. apply str_eqb_eq in Hx. subst x. exact Hin.
Qed.

Lemma atok_props : forall style, tokp (atok style).
Proof.
  intros []; (split; [discriminate|]); (split; [reflexivity|]); (split; [reflexivity|]); (split; [reflexivity|]);
    (split; [apply In_all_tokens; reflexivity|reflexivity]).
Qed.

Lemma rtok_props : forall style, tokp (rtok style).
Proof.
  intros []; (split; [discriminate|]); (split; [reflexivity|]); (split; [reflexivity|]); (split; [reflexivity|]);
    (split; [apply In_all_tokens; reflexivity|reflexivity]).
Qed.

Lemma find_in_nl_doc : forall tok doc, tokp tok -> token_free doc = true -> find tok (nl :: doc) = None.
Proof.
  intros tok doc [Hne [Hs [_ [_ [Hin _]]]]] Htf.
  rewrite find_cons_skip by (apply startswith_head_neq; assumption).
  pose proof (token_free_In doc tok Htf Hin) as Hf. unfold free in Hf. apply contains_false_iff in Hf.
  rewrite Hf. reflexivity.
Qed.

Lemma nls_nohead : forall tok nls, tokp tok -> forallb (ascii_eqb nl) nls = true ->
    forall c, head_c tok = Some c -> mem_c c nls = false.
Proof.
  intros tok nls [Hne [Hs _]] Hn c Hc.
  assert (Hcn : ascii_eqb nl c = false).
  { destruct tok as [|y tok]; [discriminate|]. injection Hc as Hc. subst y.
    cbn [startswith] in Hs. rewrite andb_true_r in Hs. exact Hs. }
  induction nls as [|x nls IH]; [reflexivity|].
  cbn [forallb] in Hn. apply andb_true_iff in Hn. destruct Hn as [Hx Hn].
  apply ascii_eqb_eq in Hx. subst x. rewrite mem_c_cons. rewrite ascii_eqb_sym, Hcn. cbn [orb]. apply IH. exact Hn.
Qed.

Lemma find_after_doc : forall tok doc nls rest,
    tokp tok -> token_free doc = true -> forallb (ascii_eqb nl) nls = true ->
    find tok (((nl :: doc) ++ nl :: nl :: nls) ++ tok ++ rest)
    = Some (List.length ((nl :: doc) ++ nl :: nl :: nls)).
Proof.
  intros tok doc nls rest Hp Htf Hn. pose proof Hp as [Hne [Hs [He [Hcc _]]]].
  rewrite <- app_assoc. cbn [app]. change (nl :: doc ++ nl :: nl :: nls ++ tok ++ rest)
    with ((nl :: doc) ++ nl :: nl :: (nls ++ tok ++ rest)).
  rewrite find_sep2; try assumption; [|apply find_in_nl_doc; assumption].
  rewrite find_skip_nohead; [|exact Hne|apply nls_nohead; assumption].
  rewrite find_app_here. cbn [option_map]. f_equal.
  change (nl :: doc ++ nl :: nl :: nls) with ((nl :: doc) ++ nl :: nl :: nls).
  rewrite !app_length. cbn [List.length]. lia.
Qed.

Lemma find_none_after_doc : forall tok doc x,
    tokp tok -> token_free doc = true -> find tok x = None ->
    find tok ((nl :: doc) ++ nl :: nl :: x) = None.
Proof.
  intros tok doc x Hp Htf Hx. pose proof Hp as [Hne [Hs [He [Hcc _]]]].
  rewrite find_sep2; try assumption; [|apply find_in_nl_doc; assumption]. rewrite Hx. reflexivity.
Qed.

Lemma strip_pre : forall doc nls,
    clean_ends doc = true -> forallb (ascii_eqb nl) nls = true ->
    strip ((nl :: doc) ++ nl :: nl :: nls) = doc.
Proof.
  intros doc nls Hce Hn.
  change ((nl :: doc) ++ nl :: nl :: nls) with ([nl] ++ doc ++ (nl :: nl :: nls)).
  apply strip_around; [reflexivity| |exact Hce].
  cbn [forallb]. change (isspace nl) with true. cbn [andb].
  eapply forallb_impl; [|exact Hn]. intros c Hc. apply ascii_eqb_eq in Hc. subst c. reflexivity.
Qed.

Lemma alpha_join : forall ls, Forall alpha ls -> alpha (join [nl] ls).
Proof.
  intros ls H. induction H as [|x r Hx Hr IH]; [reflexivity|].
  destruct r as [|y r]; [exact Hx|].
  rewrite join_cons_cons. apply alpha_app; [exact Hx|]. apply alpha_app; [reflexivity|exact IH].
Qed.

Definition plines (style : ngstyle) (us : list (list str)) : list str :=
  match map (join [nl]) us with
  | [] => []
  | _ => atok style :: map (join [nl]) us
  end.

Definition whole (style : ngstyle) (doc : str) (us : list (list str)) (ret : str) : str :=
  nl :: doc ++ [nl; nl; nl] ++ join [nl] (plines style us) ++ [nl] ++ ret ++ [nl] ++ tailnl style.

Lemma unit_ok_nonnil : forall style us, Forall (unit_ok style) us -> Forall (fun u => u <> []) us.
Proof.
  intros style us H. eapply Forall_impl; [|exact H]. intros u [Hu _]. destruct u; [contradiction|discriminate].
Qed.

Lemma whole_args_shape : forall style doc us ret,
    us <> [] -> Forall (fun u => u <> []) us ->
    whole style doc us ret
    = ((nl :: doc) ++ nl :: nl :: [nl]) ++ atok style ++ nl
         :: (join [nl] (concat us) ++ [nl] ++ ret ++ [nl] ++ tailnl style).
Proof.
  intros style doc us ret Hne Hall. unfold whole, plines.
  rewrite <- (join_join_concat us Hall).
  destruct us as [|u us]; [contradiction|]. cbn [map].
  rewrite join_cons_nonnil; [|discriminate].
  cbn [app]. rewrite <- !app_assoc. cbn [app]. reflexivity.
Qed.

Lemma rest_lines : forall (LLu tailL : list str), LLu <> [] -> tailL <> [] ->
    join [nl] LLu ++ nl :: join [nl] tailL ++ [nl] = join [nl] (LLu ++ tailL) ++ [nl].
Proof.
  intros LLu tailL H1 H2. rewrite join_app_nl; [|exact H1|exact H2]. rewrite <- app_assoc. reflexivity.
Qed.

Lemma first_line_indent : forall style us (tailL : list str),
    Forall (unit_ok style) us -> us <> [] ->
    indent_of (nth 0 (concat us ++ tailL) []) = fi_of style.
Proof.
  intros style us tailL H Hne. destruct us as [|u us]; [contradiction|].
  inversion H as [|u' us' [Hu _] _]; subst. destruct u as [|h cs]; [contradiction|].
  destruct Hu as [Hh _]. exact Hh.
Qed.

Lemma scan_args_general : forall style doc us ret tailL stacker brk,
    clean_ends doc = true -> token_free doc = true -> us <> [] -> Forall (unit_ok style) us ->
    [nl] ++ ret ++ [nl] ++ tailnl style = nl :: join [nl] tailL ++ [nl] ->
    tailL <> [] -> Forall nonl tailL ->
    stack_lines [rtok style] (fi_of style) (concat us ++ tailL) [] = Ok (stacker, brk) ->
    scan_ng style (whole style doc us ret) = post style true doc stacker brk.
Proof.
  intros style doc us ret tailL stacker brk Hce Htf Hne Hok Htail HtailL Hnonl Hst.
  pose proof (unit_ok_nonnil style us Hok) as Hnn.
  pose proof (concat_nonnil us Hne Hnn) as Hcne.
  rewrite (whole_args_shape style doc us ret Hne Hnn).
  replace (post style true doc stacker brk)
    with (post style true (strip ((nl :: doc) ++ nl :: nl :: [nl])) stacker brk)
    by (rewrite (strip_pre doc [nl] Hce eq_refl); reflexivity).
  eapply (scan_ng_arg style _ ((nl :: doc) ++ nl :: nl :: [nl]) _ (concat us ++ tailL)).
  - reflexivity.
  - apply find_after_doc; [apply atok_props|exact Htf|reflexivity].
  - rewrite Htail. rewrite rest_lines; [|exact Hcne|exact HtailL].
    apply splitlines_join_trailing.
    + apply Forall_app. split; [|exact Hnonl]. apply Forall_concat.
      eapply Forall_impl; [|exact Hok]. intros u [_ [Hu _]]. exact Hu.
    + intros E. apply app_eq_nil in E. destruct E as [E _]. contradiction.
  - intros E. apply app_eq_nil in E. destruct E as [E _]. contradiction.
  - rewrite (first_line_indent style us tailL Hok Hne). exact Hst.
Qed.

Lemma units_is_unit : forall style us, Forall (unit_ok style) us -> Forall (is_unit (fi_of style)) us.
Proof. intros style us H. eapply Forall_impl; [|exact H]. intros u [Hu _]. exact Hu. Qed.

Lemma units_nodash : forall style us, Forall (unit_ok style) us -> Forall nodash us.
Proof. intros style us H. eapply Forall_impl; [|exact H]. intros u [_ [_ [_ Hu]]]. exact Hu. Qed.

Lemma scan_google_noret : forall doc us,
    clean_ends doc = true -> token_free doc = true -> us <> [] -> Forall (unit_ok SGoogle) us ->
    scan_ng SGoogle (whole SGoogle doc us []) = Ok (mkScanned doc us (RUnits []) None).
Proof.
  intros doc us Hce Htf Hne Hok.
  rewrite (scan_args_general SGoogle doc us [] [[]] [] (Some (us, (None, Some []))) Hce Htf Hne Hok).
  - reflexivity.
  - reflexivity.
  - discriminate.
  - constructor; [reflexivity|constructor].
  - rewrite stack_lines_units_break; [reflexivity|apply (units_is_unit SGoogle us Hok)|].
    cbn [fi_of]. change (indent_of []) with 0. lia.
Qed.

Lemma scan_google_ret : forall doc us t d',
    clean_ends doc = true -> token_free doc = true -> us <> [] -> Forall (unit_ok SGoogle) us ->
    ret_props t d' ->
    scan_ng SGoogle (whole SGoogle doc us (nl :: rtok SGoogle ++ nl :: join [nl] (ret_unit SGoogle t d')))
    = Ok (mkScanned doc us (RLines [L "  " ++ t ++ L ":"; L "   " ++ d']) None).
Proof.
  intros doc us t d' Hce Htf Hne Hok [Htne [Hth [Hdh [Htnl [Hdnl [Hta Hda]]]]]].
  rewrite (scan_args_general SGoogle doc us _ [[]; rtok SGoogle; L "  " ++ t ++ L ":"; L "   " ++ d'] []
             (Some (us, (Some [L "  " ++ t ++ L ":"; L "   " ++ d'], Some []))) Hce Htf Hne Hok).
  - reflexivity.
  - cbn [ret_unit join tailnl].
    repeat (first [rewrite <- app_assoc | progress cbn [app]]). reflexivity.
  - discriminate.
  - constructor; [reflexivity|]. constructor; [reflexivity|]. constructor.
    + unfold nonl in *. rewrite !mem_c_app, Htnl. reflexivity.
    + constructor; [|constructor]. unfold nonl in *. rewrite !mem_c_app, Hdnl. reflexivity.
  - rewrite stack_lines_units_break; [|apply (units_is_unit SGoogle us Hok)|cbn [fi_of]; change (indent_of []) with 0; lia].
    rewrite (lookahead_google_ret _ d' Hdh). reflexivity.
Qed.

Lemma scan_np_noret : forall doc us,
    clean_ends doc = true -> token_free doc = true -> us <> [] -> Forall (unit_ok SNumpydoc) us ->
    scan_ng SNumpydoc (whole SNumpydoc doc us []) = Ok (mkScanned doc (us ++ [[[]]; [[]]]) (RUnits []) None).
Proof.
  intros doc us Hce Htf Hne Hok.
  rewrite (scan_args_general SNumpydoc doc us [] [[]; []] (us ++ [[[]]; [[]]]) None Hce Htf Hne Hok).
  - rewrite (post_np_arg doc _ (us ++ [[[]]; [[]]]) None); [reflexivity| |].
    + apply return_parse_none. apply Forall_app. split; [apply (units_nodash _ _ Hok)|].
      constructor; [intros c Hc; discriminate|]. constructor; [intros c Hc; discriminate|constructor].
    + intros E. apply app_eq_nil in E. destruct E as [E _]. contradiction.
  - reflexivity.
  - discriminate.
  - constructor; [reflexivity|]. constructor; [reflexivity|constructor].
  - change [[]; []] with (concat [[([] : str)]; [[]]]). rewrite <- concat_app.
    apply stack_lines_units_end. apply Forall_app. split; [apply (units_is_unit SNumpydoc us Hok)|].
    constructor; [split; [reflexivity|constructor]|]. constructor; [split; [reflexivity|constructor]|constructor].
Qed.

Lemma scan_np_ret : forall doc us t d',
    clean_ends doc = true -> token_free doc = true -> us <> [] -> Forall (unit_ok SNumpydoc) us ->
    ret_props t d' ->
    scan_ng SNumpydoc (whole SNumpydoc doc us (nl :: rtok SNumpydoc ++ nl :: join [nl] (ret_unit SNumpydoc t d')))
    = Ok (mkScanned doc (us ++ [[[]]]) (RUnits [[t; tab ++ d']; [[]]]) None).
Proof.
  intros doc us t d' Hce Htf Hne Hok [Htne [Hth [Hdh [Htnl [Hdnl [Hta Hda]]]]]].
  rewrite (scan_args_general SNumpydoc doc us _ [[]; L "Returns"; L "-------"; t; tab ++ d'; []]
             (us ++ [[[]]; [L "Returns"]; [L "-------"]; [t; tab ++ d']; [[]]]) None Hce Htf Hne Hok).
  - rewrite (post_np_arg doc _ (us ++ [[[]]]) (Some [[t; tab ++ d']; [[]]])); [reflexivity| |].
    + apply return_parse_found. exact Hne.
    + intros E. apply app_eq_nil in E. destruct E as [E _]. contradiction.
  - change (rtok SNumpydoc) with (L "Returns" ++ nl :: L "-------"). cbn [ret_unit join tailnl].
    repeat (first [rewrite <- app_assoc | progress cbn [app]]). reflexivity.
  - discriminate.
  - constructor; [reflexivity|]. constructor; [reflexivity|]. constructor; [reflexivity|].
    constructor; [exact Htnl|]. constructor; [apply nonl_tab_app; exact Hdnl|]. constructor; [reflexivity|constructor].
  - change [[]; L "Returns"; L "-------"; t; tab ++ d'; []]
      with (concat [[([] : str)]; [L "Returns"]; [L "-------"]; [t; tab ++ d']; [[]]]).
    rewrite <- concat_app.
    apply stack_lines_units_end. apply Forall_app. split; [apply (units_is_unit SNumpydoc us Hok)|].
    constructor; [split; [reflexivity|constructor]|].
    constructor; [split; [reflexivity|constructor]|].
    constructor; [split; [reflexivity|constructor]|].
    constructor.
    { split; [apply indent_of_nonspace; exact Hth|]. constructor; [|constructor].
      rewrite (indent_tab d' Hdh). cbn [fi_of]. lia. }
    constructor; [split; [reflexivity|constructor]|constructor].
Qed.

Lemma scan_np_empty : forall doc,
    clean_ends doc = true -> token_free doc = true ->
    scan_ng SNumpydoc (whole SNumpydoc doc [] []) = Ok (mkScanned doc [] (RUnits []) None).
Proof.
  intros doc Hce Htf.
  change (whole SNumpydoc doc [] []) with ((nl :: doc) ++ nl :: nl :: [nl; nl; nl; nl]).
  rewrite scan_ng_none.
  - rewrite (strip_pre doc [nl; nl; nl; nl] Hce eq_refl). reflexivity.
  - apply find_none_after_doc; [apply atok_props|exact Htf|reflexivity].
  - apply find_none_after_doc; [apply rtok_props|exact Htf|reflexivity].
Qed.

Lemma scan_np_ret_only : forall doc t d',
    clean_ends doc = true -> token_free doc = true -> ret_props t d' ->
    scan_ng SNumpydoc (whole SNumpydoc doc [] (nl :: rtok SNumpydoc ++ nl :: join [nl] (ret_unit SNumpydoc t d')))
    = Ok (mkScanned doc [] (RUnits [[t; tab ++ d']; [[]]]) None).
Proof.
  intros doc t d' Hce Htf [Htne [Hth [Hdh [Htnl [Hdnl [Hta Hda]]]]]].
  set (rest := t ++ nl :: (tab ++ d') ++ nl :: [nl]).
  assert (Ew : whole SNumpydoc doc [] (nl :: rtok SNumpydoc ++ nl :: join [nl] (ret_unit SNumpydoc t d'))
               = ((nl :: doc) ++ nl :: nl :: [nl; nl; nl]) ++ rtok SNumpydoc ++ nl :: rest).
  { unfold whole, plines, rest. cbn [map join ret_unit tailnl].
    repeat (first [rewrite <- app_assoc | progress cbn [app]]). reflexivity. }
  rewrite Ew.
  assert (Er : rest = join [nl] [t; tab ++ d'; []] ++ [nl]).
  { unfold rest. cbn [join]. repeat (first [rewrite <- app_assoc | progress cbn [app]]). reflexivity. }
  rewrite (scan_ng_ret SNumpydoc _ ((nl :: doc) ++ nl :: nl :: [nl; nl; nl]) rest t [tab ++ d'; []]
                       [[t; tab ++ d']; [[]]] None).
  - rewrite (strip_pre doc [nl; nl; nl] Hce eq_refl). reflexivity.
  - reflexivity.
  - rewrite <- app_assoc. cbn [app].
    change (nl :: doc ++ nl :: nl :: nl :: nl :: nl :: rtok SNumpydoc ++ nl :: rest)
      with ((nl :: doc) ++ nl :: nl :: (([nl; nl; nl] ++ rtok SNumpydoc ++ [nl]) ++ rest)).
    apply find_none_after_doc; [apply atok_props|exact Htf|].
    rewrite find_skip_nohead; [|discriminate|intros c Hc; injection Hc as Hc; subst c; reflexivity].
    change (atok SNumpydoc) with (L "Parameters" ++ nl :: L "----------"). unfold rest.
    rewrite find_line_sep; [|reflexivity|reflexivity|exact Htnl|reflexivity].
    rewrite find_line_sep; [|reflexivity|reflexivity|apply nonl_tab_app; exact Hdnl|reflexivity].
    reflexivity.
  - apply find_after_doc; [apply rtok_props|exact Htf|reflexivity].
  - rewrite Er. apply splitlines_join_trailing; [|discriminate].
    constructor; [exact Htnl|]. constructor; [apply nonl_tab_app; exact Hdnl|]. constructor; [reflexivity|constructor].
  - rewrite (indent_of_nonspace t Hth).
    change [t; tab ++ d'; []] with (concat [[t; tab ++ d']; [[]]]).
    apply stack_lines_units_end.
    constructor.
    { split; [apply indent_of_nonspace; exact Hth|]. constructor; [|constructor].
      rewrite (indent_tab d' Hdh). lia. }
    constructor; [split; [reflexivity|constructor]|constructor].
Qed.

Lemma alpha_ret_unit : forall style t d', ret_props t d' -> Forall alpha (ret_unit style t d').
Proof.
  intros style t d' [_ [_ [_ [_ [_ [Hta Hda]]]]]]. destruct style; cbn [ret_unit].
  - constructor; [|constructor; [|constructor]].
    + repeat apply alpha_app; try assumption; reflexivity.
    + apply alpha_app; [reflexivity|exact Hda].
  - constructor; [exact Hta|]. constructor; [apply alpha_tab_app; exact Hda|constructor].
Qed.

Lemma alpha_whole : forall style doc us ret,
    alpha doc -> Forall (unit_ok style) us -> alpha ret -> alpha (whole style doc us ret).
Proof.
  intros style doc us ret Hd Hok Hr. unfold whole.
  apply alpha_cons; [reflexivity|]. apply alpha_app; [exact Hd|]. apply alpha_app; [reflexivity|].
  apply alpha_app.
  - apply alpha_join. unfold plines.
    assert (Hm : Forall alpha (map (join [nl]) us)).
    { apply Forall_map. eapply Forall_impl; [|exact Hok]. intros u [_ [_ [Hu _]]]. apply alpha_join. exact Hu. }
    destruct (map (join [nl]) us) as [|x r] eqn:Em; [constructor|].
    constructor; [|exact Hm]. destruct (atok_props style) as [_ [_ [_ [_ [_ Ha]]]]]. exact Ha.
  - apply alpha_app; [reflexivity|]. apply alpha_app; [exact Hr|]. apply alpha_app; [reflexivity|].
    destruct style; reflexivity.
Qed.

(* the scan link: for every IR inside the guard, the scanner run on the emitted text returns the blocks scanned_of,
   and the text is over the alphabet.  Any number of parameters, any length of text. *)
Theorem scan_link_holds : forall style i,
    guard_C01_ng style i = true -> scan_link_b style i = true.
Proof.
  intros style i Hg.
  destruct (text_form style i Hg) as [doc [ret [Hdoc [Hce [Htf [Hda [Hok [Hgne [Htext Hcases]]]]]]]]].
  change (text_of_o style i = Ok (whole style doc (units_of_params style (ir_params i)) ret)) in Htext.
  assert (Hra : alpha ret).
  { destruct Hcases as [[Hret _] | [t [d' [_ [Hret Hprops]]]]]; subst ret; [reflexivity|].
    apply alpha_cons; [reflexivity|]. apply alpha_app.
    - destruct (rtok_props style) as [_ [_ [_ [_ [_ Ha]]]]]. exact Ha.
    - apply alpha_cons; [reflexivity|]. apply alpha_join. apply alpha_ret_unit. exact Hprops. }
  pose proof (alpha_whole style doc _ ret Hda Hok Hra) as Halpha.
  assert (Hscan : scan_ng style (whole style doc (units_of_params style (ir_params i)) ret)
                  = Ok (scanned_of style i)).
  { unfold scanned_of. rewrite Hdoc. cbv zeta.
    destruct Hcases as [[Hret Hrl] | [t [d' [Hrl [Hret Hprops]]]]]; rewrite Hrl; subst ret.
    - destruct style.
      + apply scan_google_noret; try assumption.
        specialize (Hgne eq_refl). destruct (ir_params i); [contradiction|discriminate].
      + destruct (ir_params i) as [|np ps] eqn:Eps.
        * apply scan_np_empty; assumption.
        * apply scan_np_noret; try assumption. discriminate.
    - destruct style.
      + apply scan_google_ret; try assumption.
        specialize (Hgne eq_refl). destruct (ir_params i); [contradiction|discriminate].
      + destruct (ir_params i) as [|np ps] eqn:Eps.
        * apply scan_np_ret_only; assumption.
        * apply scan_np_ret; try assumption. discriminate. }
  unfold scan_link_b. rewrite Htext. unfold alpha in Halpha. rewrite Halpha. cbn [andb].
  rewrite Hscan. apply scanned_eqb_refl.
Qed.

(* C01 for numpydoc and google with no scan-link hypothesis *)
Theorem C01_ng_partial : forall style i,
    guard_C01_ng style i = true -> C01_ng_at style i.
Proof.
  intros style i Hg. apply C01_ng_partial_modulo_scan; [exact Hg|apply scan_link_holds; exact Hg].
Qed.

Corollary scan_ng_guard : forall style i,
    guard_C01_ng style i = true ->
    exists text, text_of_o style i = Ok text /\ forallb in_alphabet text = true
                 /\ scan_ng style text = Ok (scanned_of style i).
Proof.
  intros style i Hg. pose proof (scan_link_holds style i Hg) as H. unfold scan_link_b in H.
  destruct (text_of_o style i) as [text|e]; [|discriminate]. exists text. split; [reflexivity|].
  apply andb_true_iff in H. destruct H as [Ha Hs]. split; [exact Ha|].
  destruct (scan_ng style text) as [sc|e]; [|discriminate]. apply scanned_eqb_eq in Hs. subst sc. reflexivity.
Qed.

(* not vacuous: several parameters, defaults, a parameter without prose, a return entry with a default *)
Definition w_ng : ir :=
  mkIR FNone (Has (L "static")) (Has (L "Acquire from the official model zoo."))
       [(L "dataset_name", mkG (Has (L "name of dataset.")) (Has (L "str")) (Some (DV (VStr (L "mnist")))));
        (L "K", mkG (Has (L "backend engine, e.g., `np` or `tf`.")) (Has (L "Literal['np', 'tf']"))
                    (Some (DV (VStr (L "np")))));
        (L "n", mkG (Has (L "how many.")) (Has (L "int")) (Some (DV (VInt 5))))]
       (Has (mkG (Has (L "Train and tests dataset splits.")) (Has (L "Tuple[int, int]"))
                 (Some (DV (VStr (L "(1, 2)")))))) None.

Definition w_ng_plain : ir :=
  mkIR FNone (Has (L "static")) (Has (L "Sum."))
       [(L "a", mkG (Has (L "first.")) (Has (L "int")) None); (L "b", mkG Missing (Has (L "int")) None)]
       (Has (mkG (Has (L "the result.")) (Has (L "int")) None)) None.

Example C01_ng_partial_nonvacuous :
  guard_C01_ng SGoogle w_ng = true /\ guard_C01_ng SNumpydoc w_ng = true
  /\ guard_C01_ng SGoogle w_ng_plain = true /\ guard_C01_ng SNumpydoc w_ng_plain = true.
Proof. vm_compute. repeat split. Qed.

