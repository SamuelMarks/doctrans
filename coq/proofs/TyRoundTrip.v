(* TyRoundTrip: ast.unparse (ast.parse t) = t for a type text t of TyExpr's canonical fragment.  The tree ty2expr
   builds for a well-formed ty prints (ParseAst.show_prec) as show_ty prints the ty (ty_roundtrip); hence for a text
   typ_ast accepts, the model parses it without consulting the table (typ_ast_parse) and unparses the node to the
   text (typ_ast_code). *)
From Coq Require Import List Ascii Bool Arith ZArith Lia.
From Coq Require String.
Import String.StringSyntax.
From DT Require Import PyStr Sexp PyVal TyExpr Extracted PureUtils Defaults PyAst IR EmitAst ParseAst C02Spec C02Codec.
From DT Require Import PyStrFacts PureUtilsFacts ParseAstFacts.
Import ListNotations.

Section TyInd.
  Variable P : ty -> Prop.
  Hypothesis Hname : forall parts, P (TName parts).
  Hypothesis Hsub : forall head args, Forall P args -> P (TSub head args).
  Hypothesis Hstr : forall s, P (TStrLit s).
  Hypothesis Hint : forall z, P (TIntLit z).
  Hypothesis Hconst : forall v, P (TConst v).
  Hypothesis Hlist : forall elts, Forall P elts -> P (TList elts).

  Fixpoint ty_ind' (t : ty) : P t :=
    let go := (fix go (l : list ty) : Forall P l :=
                 match l with
                 | [] => Forall_nil P
                 | x :: r => Forall_cons x (ty_ind' x) (go r)
                 end) in
    match t with
    | TName parts => Hname parts
    | TSub head args => Hsub head args (go args)
    | TStrLit s => Hstr s
    | TIntLit z => Hint z
    | TConst v => Hconst v
    | TList elts => Hlist elts (go elts)
    end.
End TyInd.

Fixpoint commas_ty (l : list ty) : str :=
  match l with
  | [] => []
  | [x] => show_ty x
  | x :: r => show_ty x ++ L ", " ++ commas_ty r
  end.

Lemma commas_ty_join : forall l, commas_ty l = join (L ", ") (map show_ty l).
Proof.
  induction l as [|x [|y r] IH]; [reflexivity|reflexivity|].
  change (commas_ty (x :: y :: r)) with (show_ty x ++ L ", " ++ commas_ty (y :: r)).
  rewrite IH. reflexivity.
Qed.

Lemma commas_go_eq : forall l,
    (fix go (l : list ty) : str :=
       match l with
       | [] => []
       | [x] => show_ty x
       | x :: r => show_ty x ++ L ", " ++ go r
       end) l = commas_ty l.
Proof.
  induction l as [|x [|y r] IH]; [reflexivity|reflexivity|].
  change (commas_ty (x :: y :: r)) with (show_ty x ++ L ", " ++ commas_ty (y :: r)).
  rewrite <- IH. reflexivity.
Qed.

Lemma show_ty_sub : forall head args,
    show_ty (TSub head args) = join [ch 46] head ++ ch 91 :: commas_ty args ++ [ch 93].
Proof. intros head args. cbn [show_ty]. rewrite commas_go_eq. reflexivity. Qed.

Lemma show_ty_list : forall elts, show_ty (TList elts) = ch 91 :: commas_ty elts ++ [ch 93].
Proof. intros elts. cbn [show_ty]. rewrite commas_go_eq. reflexivity. Qed.

Lemma tys_go_eq : forall l,
    (fix go (l : list ty) : option (list expr) :=
       match l with
       | [] => Some []
       | x :: r => match ty2expr x, go r with
                   | Some a, Some b => Some (a :: b)
                   | _, _ => None
                   end
       end) l = tys2exprs l.
Proof. induction l as [|x l IH]; [reflexivity|]. cbn [tys2exprs]. rewrite <- IH. reflexivity. Qed.

Lemma ty2expr_sub : forall head args,
    ty2expr (TSub head args)
    = match chain_expr head, tys2exprs args with
      | Some h, Some [a] => Some (ESub h a)
      | Some h, Some (a :: b :: r) => Some (ESub h (ETuple (a :: b :: r)))
      | _, _ => None
      end.
Proof. intros head args. cbn [ty2expr]. rewrite tys_go_eq. reflexivity. Qed.

Lemma ty2expr_list : forall elts, ty2expr (TList elts) = option_map EList (tys2exprs elts).
Proof. intros elts. cbn [ty2expr]. rewrite tys_go_eq. reflexivity. Qed.

Definition dots (r : list str) : str := concat (map (fun a => ch 46 :: a) r).

Lemma join_dots : forall h r, join [ch 46] (h :: r) = h ++ dots r.
Proof.
  intros h r. revert h. induction r as [|a r IH]; intros h.
  - cbn [join dots map concat]. rewrite app_nil_r. reflexivity.
  - change (join [ch 46] (h :: a :: r)) with (h ++ [ch 46] ++ join [ch 46] (a :: r)).
    rewrite IH. unfold dots. cbn [map concat app]. reflexivity.
Qed.

Definition name_like (e : expr) : Prop :=
  pa_is_int_const e = false /\ pa_is_opaque e = false /\ expr_ok e = true
  /\ (forall es, e <> ETuple es) /\ forall p q, show_prec p e = show_prec q e.

Lemma chain_fold : forall r e,
    name_like e ->
    name_like (fold_left (fun e a => EAttr e a) r e)
    /\ forall p, show_prec p (fold_left (fun e a => EAttr e a) r e) = show_prec p e ++ dots r.
Proof.
  induction r as [|a r IH]; intros e He.
  - cbn [fold_left dots map concat]. split; [exact He|]. intros p. rewrite app_nil_r. reflexivity.
  - cbn [fold_left]. destruct He as [Hi [Ho [Hok [Ht Hp]]]].
    assert (He' : name_like (EAttr e a)).
    { unfold name_like. cbn [pa_is_int_const pa_is_opaque expr_ok]. rewrite Ho, Hok.
      repeat split; try reflexivity. intros es; discriminate. }
    destruct (IH (EAttr e a) He') as [H1 H2]. split; [exact H1|].
    intros p. rewrite H2. cbn [show_prec]. rewrite Hi. cbn [app]. rewrite (Hp PR_ATOM p).
    unfold dots. cbn [map concat]. rewrite <- !app_assoc. reflexivity.
Qed.

Lemma chain_expr_ok : forall parts e,
    chain_expr parts = Some e ->
    name_like e /\ forall p, show_prec p e = join [ch 46] parts.
Proof.
  intros [|h r] e H; cbn [chain_expr] in H; [discriminate H|].
  destruct (existsb is_const_word (h :: r)); [discriminate H|]. inversion H; subst e.
  assert (Hn : name_like (EName h)).
  { unfold name_like. cbn [pa_is_int_const pa_is_opaque expr_ok show_prec]. repeat split; try reflexivity. intros es; discriminate. }
  destruct (chain_fold r (EName h) Hn) as [H1 H2]. split; [exact H1|].
  intros p. rewrite H2, join_dots. reflexivity.
Qed.

Lemma chain_expr_some : forall parts,
    existsb is_const_word parts = false -> parts <> [] -> exists e, chain_expr parts = Some e.
Proof.
  intros [|h r] Hc Hn; [contradiction|]. unfold chain_expr. rewrite Hc. eexists. reflexivity.
Qed.

Lemma printable_code : forall c, printable c = true -> 32 <= code c /\ code c <= 126.
Proof.
  intros c H. unfold printable in H. apply andb_true_iff in H. destruct H as [H1 H2].
  apply Nat.leb_le in H1. apply Nat.leb_le in H2. split; assumption.
Qed.

Lemma pa_repr_char_plain : forall q c,
    printable c = true -> ascii_eqb c (ch 92) = false -> ascii_eqb c q = false -> pa_repr_char q c = [c].
Proof.
  intros q c Hp Hb Hq. destruct (printable_code c Hp) as [H1 H2]. unfold pa_repr_char. rewrite Hb, Hq.
  replace (Nat.eqb (code c) 9) with false by (symmetry; apply Nat.eqb_neq; lia).
  replace (Nat.eqb (code c) 10) with false by (symmetry; apply Nat.eqb_neq; lia).
  replace (Nat.eqb (code c) 13) with false by (symmetry; apply Nat.eqb_neq; lia).
  replace (Nat.ltb (code c) 32) with false by (symmetry; apply Nat.ltb_ge; lia).
  replace (Nat.leb 127 (code c)) with false by (symmetry; apply Nat.leb_gt; lia).
  reflexivity.
Qed.

Lemma flat_map_id : forall (f : ascii -> str) s, (forall c, In c s -> f c = [c]) -> flat_map f s = s.
Proof.
  intros f s. induction s as [|c s IH]; intros H; [reflexivity|]. cbn [flat_map].
  rewrite (H c (or_introl eq_refl)). cbn [app]. f_equal. apply IH. intros x Hx. apply H. right. exact Hx.
Qed.

Lemma mem_c_false_neq : forall q s c, mem_c q s = false -> In c s -> ascii_eqb c q = false.
Proof.
  intros q s c Hm Hin. destruct (ascii_eqb c q) eqn:E; [|reflexivity].
  apply ascii_eqb_eq in E. subst c. apply mem_c_In in Hin. rewrite Hin in Hm. discriminate Hm.
Qed.

Lemma pa_repr_str_simple : forall s, simple_text s = true -> pa_repr_str s = py_repr_str s.
Proof.
  intros s H. unfold simple_text in H. apply andb_true_iff in H. destruct H as [H Hboth].
  apply andb_true_iff in H. destruct H as [Hp Hb]. apply negb_true_iff in Hb. apply negb_true_iff in Hboth.
  rewrite forallb_forall in Hp.
  unfold pa_repr_str, py_repr_str. fold sq. fold dq.
  (* whichever quote mark is chosen, it does not occur in s *)
  destruct (mem_c sq s) eqn:Es; destruct (mem_c dq s) eqn:Ed; cbn [andb negb] in *; try discriminate Hboth.
  all: rewrite flat_map_id; [reflexivity|]; intros c Hc; apply pa_repr_char_plain;
    [apply Hp; exact Hc|apply (mem_c_false_neq _ s); assumption|apply (mem_c_false_neq _ s); assumption].
Qed.

Lemma printable_ascii_only : forall s, forallb printable s = true -> pa_ascii_only s = true.
Proof.
  intros s H. unfold pa_ascii_only. rewrite forallb_forall in *. intros c Hc.
  destruct (printable_code c (H c Hc)) as [_ H2]. apply Nat.ltb_lt. lia.
Qed.

Definition ty_good (t : ty) : Prop :=
  exists e, ty2expr t = Some e /\ expr_ok e = true /\ show_prec PR_TEST e = show_ty t /\ forall es, e <> ETuple es.

Lemma tys_good : forall l,
    Forall (fun t => ty_ok t = true -> ty_good t) l -> forallb ty_ok l = true ->
    exists es, tys2exprs l = Some es /\ forallb expr_ok es = true
               /\ map (show_prec PR_TEST) es = map show_ty l
               /\ (forall a, es = [a] -> forall xs, a <> ETuple xs).
Proof.
  induction l as [|t l IH]; intros HF Hok.
  - exists []. repeat split; try reflexivity. intros a Ha; discriminate Ha.
  - inversion HF as [|t' l' Ht Hl]; subst t' l'. cbn [forallb] in Hok. apply andb_true_iff in Hok. destruct Hok as [Hokt Hokl].
    destruct (Ht Hokt) as [e [He [Heok [Hshow Hnt]]]]. destruct (IH Hl Hokl) as [es [Hes [Hesok [Hmap _]]]].
    exists (e :: es). cbn [tys2exprs]. rewrite He, Hes. split; [reflexivity|].
    cbn [forallb map]. rewrite Heok, Hesok, Hshow, Hmap. repeat split; try reflexivity.
    intros a Ha. inversion Ha; subst a. exact Hnt.
Qed.

Lemma items_view_two : forall x y r, pa_items_view (x :: y :: r) = join (L ", ") (x :: y :: r).
Proof. reflexivity. Qed.

Theorem ty_roundtrip : forall t, ty_ok t = true -> ty_good t.
Proof.
  induction t as [parts|head args IH|s|z|v|elts IH] using ty_ind'; intros Hok; cbn [ty_ok] in Hok.
  - apply andb_true_iff in Hok. destruct Hok as [Hc Hn]. apply negb_true_iff in Hc.
    assert (Hne : parts <> []) by (destruct parts; [discriminate Hn|discriminate]).
    destruct (chain_expr_some parts Hc Hne) as [e He]. destruct (chain_expr_ok parts e He) as [[_ [_ [Hk [Ht _]]]] Hs].
    exists e. cbn [ty2expr show_ty]. split; [exact He|]. split; [exact Hk|]. split; [apply Hs|exact Ht].
  - apply andb_true_iff in Hok. destruct Hok as [Hok Hargs]. apply andb_true_iff in Hok. destruct Hok as [Hok Hna].
    apply andb_true_iff in Hok. destruct Hok as [Hc Hn]. apply negb_true_iff in Hc.
    assert (Hne : head <> []) by (destruct head; [discriminate Hn|discriminate]).
    destruct (chain_expr_some head Hc Hne) as [h Hh]. destruct (chain_expr_ok head h Hh) as [[_ [Hop [Hk _]]] Hs].
    destruct (tys_good args IH Hargs) as [es [Hes [Hesok [Hmap Hsingle]]]].
    unfold ty_good. rewrite ty2expr_sub, Hh, Hes, show_ty_sub, commas_ty_join, <- Hmap.
    destruct es as [|a [|b r]].
    + destruct args; [discriminate Hna|discriminate Hmap].
    + exists (ESub h a). split; [reflexivity|]. cbn [expr_ok forallb] in *. rewrite Hop, Hk.
      apply andb_true_iff in Hesok. destruct Hesok as [Hak _]. rewrite Hak.
      split; [reflexivity|]. split; [|intros xs; discriminate].
      cbn [show_prec]. rewrite Hs. cbn [map join].
      pose proof (Hsingle a eq_refl) as Hnt.
      destruct a; try reflexivity. exfalso. apply (Hnt es). reflexivity.
    + exists (ESub h (ETuple (a :: b :: r))). split; [reflexivity|]. cbn [expr_ok]. rewrite Hop, Hk, Hesok.
      split; [reflexivity|]. split; [|intros xs; discriminate].
      cbn [show_prec]. rewrite Hs. cbn [map]. rewrite items_view_two. reflexivity.
  - exists (EConst (VStr s)). split; [reflexivity|]. pose proof Hok as Hst. unfold simple_text in Hok.
    apply andb_true_iff in Hok. destruct Hok as [Hok _]. apply andb_true_iff in Hok. destruct Hok as [Hp _].
    split; [cbn [expr_ok]; apply printable_ascii_only; exact Hp|]. split; [|intros es; discriminate].
    cbn [show_prec pa_show_const pa_repr show_ty]. apply pa_repr_str_simple. exact Hst.
  - destruct z as [|p|p].
    + exists (EConst (VInt 0)). repeat split; try reflexivity. intros es; discriminate.
    + exists (EConst (VInt (Zpos p))). repeat split; try reflexivity. intros es; discriminate.
    + exists (EUnary (L "USub") (EConst (VInt (Zpos p)))). repeat split; try reflexivity. intros es; discriminate.
  - exists (EConst v). split; [reflexivity|]. split; [destruct v; try discriminate Hok; reflexivity|].
    split; [|intros es; discriminate]. destruct v as [|[|]| | |]; try discriminate Hok; reflexivity.
  - destruct (tys_good elts IH Hok) as [es [Hes [Hesok [Hmap _]]]].
    unfold ty_good. exists (EList es). rewrite ty2expr_list, Hes. split; [reflexivity|]. split; [exact Hesok|].
    split; [|intros xs; discriminate]. rewrite show_ty_list, commas_ty_join, <- Hmap. reflexivity.
Qed.

Lemma typ_ast_inv : forall t e,
    typ_ast t = Some e ->
    forallb printable t = true
    /\ exists ty, parse_ty t = Some ty /\ ty_ok ty = true /\ show_ty ty = t /\ ty2expr ty = Some e.
Proof.
  intros t e H. unfold typ_ast in H.
  destruct (strip t); [discriminate H|].
  destruct (mem_c bt t && negb (mem_c sq t) && negb (mem_c dq t)); [discriminate H|].
  destruct t as [|c t']; [discriminate H|].
  destruct (ascii_eqb c sp || ascii_eqb c tabch); [discriminate H|].
  destruct (forallb printable (c :: t') && negb (comma_before_rb (c :: t') false)) eqn:Ep; [|discriminate H].
  apply andb_true_iff in Ep. destruct Ep as [Ep _].
  destruct (parse_ty (c :: t')) as [ty|]; [|discriminate H].
  destruct (ty_ok ty && str_eqb (show_ty ty) (c :: t')) eqn:Eo; [|discriminate H].
  apply andb_true_iff in Eo. destruct Eo as [Eo Es]. apply str_eqb_eq in Es.
  split; [exact Ep|]. exists ty. repeat split; assumption.
Qed.

(* the model parses the text without consulting the table *)
Lemma typ_ast_parse : forall pt t e, typ_ast t = Some e -> parse_expr_src pt t = Ok e.
Proof.
  intros pt t e H. unfold typ_ast in H. unfold parse_expr_src.
  destruct (strip t); [discriminate H|].
  destruct (mem_c bt t && negb (mem_c sq t) && negb (mem_c dq t)); [discriminate H|].
  destruct t as [|c t']; [discriminate H|].
  destruct (ascii_eqb c sp || ascii_eqb c tabch); [discriminate H|].
  destruct (forallb printable (c :: t') && negb (comma_before_rb (c :: t') false)); [|discriminate H].
  destruct (parse_ty (c :: t')) as [ty|]; [|discriminate H].
  destruct (ty_ok ty && str_eqb (show_ty ty) (c :: t')); [|discriminate H].
  rewrite H. reflexivity.
Qed.

Lemma rstrip_nl_printable : forall t, forallb printable t = true -> rstrip_chars [nl] t = t.
Proof.
  intros t H. unfold rstrip_chars. apply rstrip_by_id. intros c Hc. apply last_c_In in Hc.
  rewrite forallb_forall in H. destruct (printable_code c (H c Hc)) as [H1 _].
  cbn [mem_c existsb]. unfold mem_c. cbn [existsb]. rewrite orb_false_r.
  apply ascii_eqb_neq. intros He. subst c. vm_compute in H1. lia.
Qed.

(* and ast.unparse prints the node as the text *)
Theorem typ_ast_code : forall t e, typ_ast t = Some e -> code_of e = Ok t.
Proof.
  intros t e H. destruct (typ_ast_inv t e H) as [Hp [ty [_ [Hok [Hshow He]]]]].
  destruct (ty_roundtrip ty Hok) as [e' [He' [Heok [Hs _]]]]. rewrite He in He'. inversion He'; subst e'.
  unfold code_of. rewrite Heok. unfold show_expr. rewrite Hs, Hshow, (rstrip_nl_printable t Hp). reflexivity.
Qed.
