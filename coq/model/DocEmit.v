(* DocEmit: doctrans/docstring_utils.py:emit_param_str (rest / numpydoc / google),
   doctrans/emit.py:docstring and doctrans/emitter_utils.py:to_docstring (with its inner _fill,
   _param2docstring_param, _joiner), transcribed as they are.
   The wrapping width (pure_utils.line_length, read from the environment at import) is the explicit
   parameter [w] everywhere.  The second component of each result is the caller's param / IR after the
   call; since the three functions now work on copies of the param dicts it is the input itself
   (proofs/DocEmitFacts.v: emit_param_str_pure, emit_docstring_pure, to_docstring_pure).  Definitions only. *)
From Coq Require Import List Ascii Bool Arith ZArith.
From Coq Require String.
Import String.StringSyntax.
From DT Require Import PyStr Sexp PyVal TyExpr Extracted PureUtils Defaults PyAst IR Fill.
Import ListNotations.

Inductive style : Type := Rest | Numpydoc | Google.

Definition style_eqb (a b : style) : bool :=
  match a, b with
  | Rest, Rest | Numpydoc, Numpydoc | Google, Google => true
  | _, _ => false
  end.

(* d.get(k) is truthy: key present with a non-empty str *)
Definition truthy_fld (f : fld str) : option str :=
  match f with Has (c :: r) => Some (c :: r) | _ => None end.

(* _fill = fill if word_wrap else identity   (docstring_utils.py:emit_param_str, emit.py:docstring) *)
Definition fill_or_id (word_wrap : bool) (w : nat) (s : str) : outcome str :=
  if word_wrap then fill w s else Ok s.

Definition is_return (name : str) : bool := str_eqb name (L "return_type").

(* set_default_doc((name, _param), emit_default_doc=...)[1]["doc"], together with the mutated param.
   set_default_doc returns a param whose doc is a str whenever the input doc was one; the other branch
   is unreachable from the callers below (they test _param.get("doc") first). *)
Definition sdd_doc (name : str) (p : param) (emit_default_doc : bool) : outcome (str * param) :=
  do p' <- set_default_doc name p emit_default_doc;
  match p_doc p' with
  | Has d => Ok (d, p')
  | _ => Err KeyError
  end.

Fixpoint mapM {A B} (f : A -> outcome B) (l : list A) : outcome (list B) :=
  match l with
  | [] => Ok []
  | x :: r => do y <- f x; do ys <- mapM f r; Ok (y :: ys)
  end.

Fixpoint cat_options {A} (l : list (option A)) : list A :=
  match l with
  | [] => []
  | Some a :: r => a :: cat_options r
  | None :: r => cat_options r
  end.

Definition nonempty (s : str) : bool := match s with [] => false | _ => true end.

(* ---- docstring_utils.py:emit_param_str, style == "rest" ----
   the two candidate lines before filling, and the param after set_default_doc *)
Definition rest_key (name : str) : str := if is_return name then L "returns" else L "param " ++ name.
Definition rest_key_typ (name : str) : str := if is_return name then L "rtype" else L "type " ++ name.

Definition rest_doc_line (name doc : str) : str := L ":" ++ rest_key name ++ L ": " ++ doc.
Definition rest_typ_line (name typ : str) : str := L ":" ++ rest_key_typ name ++ L ": ```" ++ typ ++ L "```".

Definition rest_raw_lines (name : str) (p : param) (emit_doc emit_type emit_default_doc : bool)
  : outcome (list str * param) :=
  do r1 <- (match (if emit_doc then truthy_fld (p_doc p) else None) with
            | Some _ => do dp <- sdd_doc name p emit_default_doc;
                        Ok (Some (rest_doc_line name (fst dp)), snd dp)
            | None => Ok (None, p)
            end);
  let p' := snd r1 in
  let l2 := match (if emit_type then truthy_fld (p_typ p') else None) with
            | Some t => Some (rest_typ_line name t)
            | None => None
            end in
  Ok (cat_options [fst r1; l2], p').

(* emit_param_str((name, _param), style, emit_doc, emit_type, word_wrap, emit_default_doc).
   The function starts with  _param = dict(_param) : set_default_doc mutates that private copy (the param
   threaded through the branches below); the caller's param is returned, unchanged, as second component *)
Definition emit_param_str (w : nat) (name : str) (p : param) (st : style)
           (emit_doc emit_type word_wrap emit_default_doc : bool) : outcome (str * param) :=
  match st with
  | Rest =>
    do lp <- rest_raw_lines name p emit_doc emit_type emit_default_doc;
    do filled <- mapM (fill_or_id word_wrap w) (fst lp);
    Ok (join [nl] (map (fun s => indent_all_but_first s 1 false) filled), p)
  | Numpydoc =>
    do l1 <- (match (if emit_type then truthy_fld (p_typ p) else None) with
              | Some t => do s <- fill_or_id word_wrap w (if is_return name then t else name ++ L " : " ++ t);
                          Ok (Some s)
              | None => Ok None
              end);
    do l2 <- (match (if emit_doc then truthy_fld (p_doc p) else None) with
              | Some _ => do dp <- sdd_doc name p emit_default_doc;
                          do s <- fill_or_id word_wrap w (indent tab (fst dp));
                          Ok (Some s, snd dp)
              | None => Ok (None, p)
              end);
    Ok (join [nl] (filter nonempty (cat_options [l1; fst l2])), p)
  | Google =>
    let l1 := match truthy_fld (p_typ p) with
              | Some t => Some (if is_return name then L "  " ++ t ++ L ":"
                                else L "  " ++ name ++ L " (" ++ t ++ L "): ")
              | None => None
              end in
    do l2 <- (match (if emit_doc then truthy_fld (p_doc p) else None) with
              | Some _ => do dp <- sdd_doc name p emit_default_doc;
                          Ok (Some ((if is_return name then nl :: L "   " else []) ++ fst dp), snd dp)
              | None => Ok (None, p)
              end);
    Ok (concat (cat_options [l1; fst l2]), p)
  end.

(* ---- params of an IR as scalar-default params; None when some default is an AST node / other object ---- *)
Fixpoint params_of (l : list (str * gparam)) : option (list (str * param)) :=
  match l with
  | [] => Some []
  | (k, g) :: r =>
    match param_of_gparam g, params_of r with
    | Some p, Some r' => Some ((k, p) :: r')
    | _, _ => None
    end
  end.

Definition gparams_of (l : list (str * param)) : list (str * gparam) :=
  map (fun kp => (fst kp, gparam_of_param (snd kp))) l.

(* map an emitter over the items of the params OrderedDict, in order, collecting text and mutated params *)
Fixpoint emit_items {A} (f : str -> param -> outcome (A * param)) (l : list (str * param))
  : outcome (list A * list (str * param)) :=
  match l with
  | [] => Ok ([], [])
  | (k, p) :: r =>
    do sp <- f k p;
    do rest <- emit_items f r;
    Ok (fst sp :: fst rest, (k, snd sp) :: snd rest)
  end.

Definition arg_token (st : style) : str :=
  match st with
  | Rest => hd [] Extracted.arg_tokens_rest
  | Numpydoc => hd [] Extracted.arg_tokens_numpydoc
  | Google => hd [] Extracted.arg_tokens_google
  end.
Definition return_token (st : style) : str :=
  match st with
  | Rest => hd [] Extracted.return_tokens_rest
  | Numpydoc => hd [] Extracted.return_tokens_numpydoc
  | Google => hd [] Extracted.return_tokens_google
  end.

(* ---- emit.py:docstring(intermediate_repr, docstring_format, word_wrap, emit_default_doc) ---- *)
Definition emit_docstring (w : nat) (st : style) (word_wrap emit_default_doc : bool) (i : ir)
  : outcome (str * ir) :=
  match params_of (ir_params i) with
  | None => Err Unmodelled
  | Some ps =>
    do doc <- (match ir_doc i with
               | Missing => Err KeyError
               | FNone => if word_wrap then Err AttributeError else Ok (L "None")
               | Has d => fill_or_id word_wrap w d
               end);
    let nl0 := match st with Rest => [] | _ => [nl] end in
    let nl1 := match st with Numpydoc => [nl] | _ => [] end in
    do pl <- emit_items (fun k p => emit_param_str w k p st true true word_wrap emit_default_doc) ps;
    let param_lines := fst pl in
    let param_lines' := match param_lines, st with
                        | [], _ => param_lines
                        | _, Rest => param_lines
                        | _, _ => arg_token st :: param_lines
                        end in
    let params := join (nl :: match st with Rest => [nl] | _ => [] end) param_lines' in
    do ret <- (match ir_returns i with
               | Has g =>
                 match param_of_gparam g with
                 | None => Err Unmodelled
                 | Some p =>
                   do sp <- emit_param_str w (L "return_type") p st true true word_wrap emit_default_doc;
                   Ok ((match st with Rest => [] | _ => nl :: return_token st end) ++ [nl] ++ fst sp,
                       Has (gparam_of_param (snd sp)))
                 end
               | other => Ok ([], other)
               end);
    (* nothing is written into the caller's IR: emit_param_str works on copies of the param dicts *)
    Ok ([nl] ++ doc ++ [nl; nl] ++ nl0 ++ params ++ [nl] ++ fst ret ++ [nl] ++ nl1, i)
  end.


(* ---- the shape of emit.docstring(ir, "rest", word_wrap=False): blocks and their text ----
   (stated here so that the parser-side layers can state scan/print lemmas against [text_of_blocks];
   proofs/DocEmitFacts.v proves  emit_docstring w Rest false edd i = text_of_blocks (rest_blocks_of_ir edd i)) *)
Record rest_block : Type := mkBlock {
  rb_name : str;
  rb_doc : option str;      (* the prose as written: after set_default_doc *)
  rb_typ : option str
}.

Definition block_lines (b : rest_block) : list str :=
  cat_options [option_map (rest_doc_line (rb_name b)) (rb_doc b);
               option_map (rest_typ_line (rb_name b)) (rb_typ b)].

(* word_wrap off still passes every line through indent_all_but_first (it indents the continuation
   lines of a multi-line prose); on a single line starting with ":" it is the identity *)
Definition rest_entry_text (b : rest_block) : str :=
  join [nl] (map (fun s => indent_all_but_first s 1 false) (block_lines b)).

Definition text_of_blocks (summary : str) (params : list rest_block) (ret : option rest_block) : str :=
  [nl] ++ summary ++ [nl; nl] ++ join [nl; nl] (map rest_entry_text params) ++ [nl]
  ++ match ret with Some b => [nl] ++ rest_entry_text b | None => [] end ++ [nl].

(* the block of one entry, and the entry as set_default_doc leaves it *)
Definition rest_block_of (emit_default_doc : bool) (name : str) (p : param) : outcome (rest_block * param) :=
  do r1 <- (match truthy_fld (p_doc p) with
            | Some _ => do dp <- sdd_doc name p emit_default_doc; Ok (Some (fst dp), snd dp)
            | None => Ok (None, p)
            end);
  Ok (mkBlock name (fst r1) (truthy_fld (p_typ (snd r1))), snd r1).

Definition rest_blocks_of_ir (emit_default_doc : bool) (i : ir)
  : outcome (str * list rest_block * option rest_block * ir) :=
  match params_of (ir_params i) with
  | None => Err Unmodelled
  | Some ps =>
    do doc <- (match ir_doc i with
               | Missing => Err KeyError
               | FNone => Ok (L "None")
               | Has d => Ok d
               end);
    do pl <- emit_items (rest_block_of emit_default_doc) ps;
    do ret <- (match ir_returns i with
               | Has g =>
                 match param_of_gparam g with
                 | None => Err Unmodelled
                 | Some p => do bp <- rest_block_of emit_default_doc (L "return_type") p;
                             Ok (Some (fst bp), Has (gparam_of_param (snd bp)))
                 end
               | other => Ok (None, other)
               end);
    Ok (doc, fst pl, fst ret, i)
  end.

(* ---- emitter_utils.py:to_docstring ---- *)

(* abs(indent_level - 1) for indent_level >= 0 *)
Definition abs_pred (n : nat) : nat := match n with O => 1 | S k => k end.

(* the inner _fill(s) *)
Definition td_fill (w : nat) (word_wrap : bool) (indent_level : nat) (s : str) : outcome str :=
  if word_wrap && existsb (fun line => Nat.ltb w (List.length line)) (splitlines s)
  then do f <- fill w s; Ok (indent_all_but_first f (indent_level + 1) true)
  else Ok s.

(* the inner _joiner(__param, param_type) *)
Definition td_joiner (w : nat) (word_wrap : bool) (indent_level : nat) (a b : option str) : outcome (option str) :=
  let sep := repeat_str tab indent_level in
  match a, b with
  | Some a', None => do f <- td_fill w word_wrap indent_level a'; Ok (Some (f ++ [nl] ++ sep))
  | None, _ => Ok None
  | Some a', Some b' =>
    do fa <- td_fill w word_wrap indent_level (replace [nl] (nl :: sep) a');
    do fb <- td_fill w word_wrap indent_level (replace [nl] (nl :: sep) b');
    Ok (Some (fa ++ [nl] ++ sep ++ fb ++ [nl] ++ sep))
  end.

(* the inner _param2docstring_param((name, _param), "rest", emit_default_doc, indent_level, emit_types);
   the second component is the private copy  dict(_param)  as the function leaves it *)
Definition td_param (w : nat) (word_wrap emit_default_doc emit_types : bool) (indent_level : nat)
           (name : str) (p : param) : outcome (option str * param) :=
  do p1 <- (match p_doc p with
            | Missing => Ok p
            | d => do r <- extract_default_fld d true default_announces None emit_default_doc;
                   Ok (match snd r with
                       | Some v => mkParam (p_doc p) (p_typ p) (Some v)
                       | None => p
                       end)
            end);
  do a <- (match truthy_fld (p_doc p1) with
           | Some _ =>
             do dp <- sdd_doc name p1 emit_default_doc;
             let doc' := multiline_noquote (indent_all_but_first (fst dp) (abs_pred indent_level) false) in
             let p3 := mkParam (Has doc') (p_typ (snd dp)) (p_default (snd dp)) in
             do sp <- emit_param_str w name p3 Rest true false word_wrap emit_default_doc;
             Ok (Some (fst sp), snd sp)
           | None => Ok (None, p1)
           end);
  let p4 := snd a in
  do b <- (match p_typ p4 with
           | Has _ =>
             if emit_types then
               do sp <- emit_param_str w name p4 Rest false true word_wrap emit_default_doc;
               Ok (Some (fst sp), snd sp)
             else Ok (None, p4)
           | _ => Ok (None, p4)
           end);
  do j <- td_joiner w word_wrap indent_level (fst a) (fst b);
  Ok (j, snd b).

Definition gparam_is_empty (g : gparam) : bool :=
  match g_doc g, g_typ g, g_default g with
  | Missing, Missing, None => true
  | _, _, _ => false
  end.

(* to_docstring(intermediate_repr, emit_default_doc, docstring_format, indent_level, emit_types,
                emit_separating_tab, word_wrap);  indent_level >= 0 *)
Definition to_docstring (w : nat) (i : ir) (emit_default_doc : bool) (st : style) (indent_level : nat)
           (emit_types emit_separating_tab word_wrap : bool) : outcome (str * ir) :=
  match st with
  | Rest =>
    match params_of (ir_params i),
          (match ir_returns i with Has g => option_map Some (param_of_gparam g) | _ => Some None end) with
    | Some ps, Some ret =>
      let sep := if emit_separating_tab then repeat_str tab indent_level else [] in
      let p2dp := td_param w word_wrap emit_default_doc emit_types indent_level in
      do header <- (match truthy_fld (ir_doc i) with
                    | Some d =>
                      do f <- td_fill w word_wrap indent_level d;
                      Ok ([nl] ++ indent sep f
                          ++ (if endswith [nl] (rstrip_chars (L " " ++ [tabch]) d) then [] else [nl])
                          ++ sep)
                    | None => Ok []
                    end);
      do pl <- (match ps with
                | [] => Ok ([], ps)
                | _ =>
                  do r <- emit_items (fun k p => do op <- p2dp k p;
                                                 Ok (match fst op with Some s => s | None => [] end, snd op)) ps;
                  Ok ([nl] ++ sep ++ join (nl :: sep) (filter nonempty (fst r)) ++ [nl] ++ sep, snd r)
                end);
      do rt <- (match ret with
                | Some p =>
                  if gparam_is_empty (gparam_of_param p) then Ok ([], ir_returns i)
                  else
                    do op <- p2dp (L "return_type") p;
                    match fst op with
                    | None => Ok ([], ir_returns i)      (* no prose: renders to None, nothing is emitted *)
                    | Some s => if nonempty s then Ok (rstrip s ++ [nl] ++ sep, Has (gparam_of_param (snd op)))
                                else Ok ([], ir_returns i)
                    end
                | None => Ok ([], ir_returns i)
                end);
      (* _param2docstring_param works on  _param = dict(_param) : whatever td_param wrote (extracted default,
         default sentence, re-laid prose) stays in the copy; the caller's IR is returned as it was *)
      Ok (header ++ fst pl ++ fst rt, i)
    | _, _ => Err Unmodelled
    end
  | _ => Err NotImplementedError
  end.

(* ---- wire ---- *)
Definition dec_style (e : sexp) : option style :=
  if is_sym "rest" e then Some Rest
  else if is_sym "numpydoc" e then Some Numpydoc
  else if is_sym "google" e then Some Google
  else None.

Definition opt_bind' {A B} (x : option A) (f : A -> option B) : option B :=
  match x with Some a => f a | None => None end.
Notation "'let?' x := e1 'in' e2" := (opt_bind' e1 (fun x => e2)) (at level 200, x pattern, e1 at level 100, e2 at level 200).

(* FAMILY: run_docemit *)
Definition run_docemit (fn : sexp) (args : list sexp) : option sexp :=
  if is_sym "emit_param_str" fn then
    match args with
    | [w; name; p; st; ed; et; ww; edd] =>
      let? w := dec_nat w in
      let? name := dec_str name in
      let? p := dec_param p in
      let? st := dec_style st in
      let? ed := dec_bool ed in
      let? et := dec_bool et in
      let? ww := dec_bool ww in
      let? edd := dec_bool edd in
      Some (enc_outcome (enc_pair enc_str enc_param) (emit_param_str w name p st ed et ww edd))
    | _ => None
    end
  else if is_sym "emit_docstring" fn then
    match args with
    | [w; st; ww; edd; i] =>
      let? w := dec_nat w in
      let? st := dec_style st in
      let? ww := dec_bool ww in
      let? edd := dec_bool edd in
      let? i := dec_ir i in
      Some (enc_outcome (enc_pair enc_str enc_ir) (emit_docstring w st ww edd i))
    | _ => None
    end
  else if is_sym "fill_at" fn then
    (* textwrap.fill(s, width=w), asked at an explicit width *)
    match args with
    | [w; t] =>
      let? w := dec_nat w in
      let? t := dec_str t in
      Some (enc_outcome enc_str (fill w t))
    | _ => None
    end
  else if is_sym "to_docstring" fn then
    match args with
    | [w; i; edd; st; il; et; est; ww] =>
      let? w := dec_nat w in
      let? i := dec_ir i in
      let? edd := dec_bool edd in
      let? st := dec_style st in
      let? il := dec_nat il in
      let? et := dec_bool et in
      let? est := dec_bool est in
      let? ww := dec_bool ww in
      Some (enc_outcome (enc_pair enc_str enc_ir) (to_docstring w i edd st il et est ww))
    | _ => None
    end
  else None.
