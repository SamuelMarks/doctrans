(* C12: output is a deterministic function of the input.  The lemmas live in
   proofs/MergeFacts.v and proofs/C12Facts.v.
   Proved in full for the modelled layer (docstring/signature merge of parse.function, ir_merge,
   _join_non_none, _merge_inner_function): for every admissible iteration order of every set the code
   iterates the result is the same, and the conversions take no process state.
   Two finding classes remain below the model (C12Spec.finding_class_C12_ir): an IR that holds a raw ast
   node as a default (after fix 14f8a19 only a non-** parameter named *kwargs) is printed by the emitters
   with the node's memory address; the argparse emitter expands a quoted one-element list default into a
   raw node. *)
From Coq Require String.
Import String.StringSyntax.
From DT Require Import PyStr PyVal PyAst IR Merge ParseSig C12Spec MergeFacts C12Facts.

Theorem C12 : C12_statement.
Proof. exact C12_lemma. Qed.
Print Assumptions C12.

Theorem C12_join_non_none : C12_join_statement.
Proof. exact join_non_none_perm. Qed.
Print Assumptions C12_join_non_none.

Theorem C12_ir_merge : C12_merge_statement.
Proof. exact ir_merge_perm. Qed.
Print Assumptions C12_ir_merge.

Theorem C12_parse_function : C12_function_statement.
Proof. exact parse_function_perm. Qed.
Print Assumptions C12_parse_function.

Theorem C12_merge_inner_function : C12_inner_statement.
Proof. exact merge_inner_function_perm. Qed.
Print Assumptions C12_merge_inner_function.

(* independence of earlier calls / call order: the modelled conversions are functions of their arguments *)
Theorem C12_state : C12_state_statement.
Proof. exact state_independent. Qed.
Print Assumptions C12_state.

(* outside the finding class, every default in the parsed IR is a value (no raw node whose text would be an address) *)
Theorem C12_printable : forall pi pj d fd r, perm_ok pi -> perm_ok pj ->
  finding_class_C12 d fd = None ->
  parse_function pi pj d fd false true None None = Ok r -> ir_printable r.
Proof. exact C12_printable_lemma. Qed.
Print Assumptions C12_printable.

(* the loop that fix 5000c02 replaced did depend on the set order *)
Theorem C12_old_code_refuted :
  exists pd pd' op tp, perm_ok pd /\ perm_ok pd' /\ append_missing_old pd op tp <> append_missing_old pd' op tp.
Proof. exact C12Facts.C12_old_code_refuted. Qed.
Print Assumptions C12_old_code_refuted.

Example C12_nonvacuous :
  exists t o r, ir_merge id_perm id_perm t o = Ok r /\ ir_merge rev_perm rev_perm t o = Ok r
                /\ List.length (inter_keys (ir_params o) (ir_params t)) = 2.
Proof. exact C12_nonvacuous_lemma. Qed.
Print Assumptions C12_nonvacuous.
