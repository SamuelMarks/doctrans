(* C02Compose: the AST-level composition of the config-class round trip,
     parse_class d (emit_class pt i ...)            (models EmitAst / ParseAst, docstring layer decoupled)
   unbounded in the number of parameters.  The body loop of parse.class_ on the statements emit.class_ produces is
   put in closed form: documented attributes update the docstring's entries in place, undocumented ones are appended,
   the attribute return_type goes to "returns" (class_loop_emitted).  For every IR of C02_domain whose undocumented
   parameters do not precede documented ones the names come back in order whatever the types and defaults are
   (C02_names_order_lemma).  Inside guard_C02_ast every attribute is read back as its declared type and canonical
   default (attr_codec_guard, over Param2AstFacts and TyRoundTrip), and the parser returns exactly norm_params_C02 /
   norm_returns_C02 of the input (C02_ast_full), which is same_interface_strict to zero_default_norm of the input.
   The docstring hypothesis doc_agrees is satisfiable for every IR; the statement at full strength is refuted; one
   computed witness per AST-visible finding class, and a failure the classifier does not name (float default -0.0). *)
From Coq Require Import List Ascii Bool Arith ZArith Lia.
From Coq Require String.
Import String.StringSyntax.
From DT Require Import PyStr Sexp PyVal TyExpr Extracted PureUtils Defaults PyAst IR EmitAst ParseAst C02Spec C02Codec.
From DT Require Import PyStrFacts PureUtilsFacts ParseAstFacts TyRoundTrip Param2AstFacts C06Facts.
From DT Require EmitAstFacts SplitFacts C06Values ListFacts DefaultsFacts.
Import ListNotations.

Definition upd1 (x : attr) (kv : str * gparam) : str * gparam :=
  (fst kv, mkG (g_doc (snd kv)) (Has (at_typ x)) (Some (at_def x))).

Fixpoint zipupd (xs : list attr) (todo : list (str * gparam)) : list (str * gparam) :=
  match xs, todo with
  | x :: xs', kv :: todo' => upd1 x kv :: zipupd xs' todo'
  | _, _ => todo
  end.

Definition fresh (x : attr) : str * gparam := (at_name x, mkG Missing (Has (at_typ x)) (Some (at_def x))).

Definition ret_upd (xsR : list attr) (r : fld gparam) : fld gparam :=
  match xsR with
  | x :: _ => Has (mkG (match r with Has old => g_doc old | _ => Missing end) (Has (at_typ x)) (Some (at_def x)))
  | [] => r
  end.

Lemma zipupd_keys : forall xs todo, keys (zipupd xs todo) = keys todo.
Proof.
  induction xs as [|x xs IH]; intros [|kv todo]; cbn [zipupd keys map]; try reflexivity.
  cbn [upd1 fst]. f_equal. apply IH.
Qed.

Lemma keys_app : forall {A} (a b : list (str * A)), keys (a ++ b) = keys a ++ keys b.
Proof. intros A a b. unfold keys. apply map_app. Qed.

Lemma od_get_app_notin : forall {A} k (a b : list (str * A)), ~ In k (keys a) -> od_get k (a ++ b) = od_get k b.
Proof.
  intros A k a b. induction a as [|[k' v'] a IH]; cbn [app od_get keys map fst In]; intros Hn; [reflexivity|].
  destruct (str_eqb k k') eqn:E.
  - apply str_eqb_eq in E. subst k'. exfalso. apply Hn. left. reflexivity.
  - apply IH. intros H. apply Hn. right. exact H.
Qed.

Lemma od_set_app_notin : forall {A} k (v : A) (a b : list (str * A)),
    ~ In k (keys a) -> od_set k v (a ++ b) = a ++ od_set k v b.
Proof.
  intros A k v a b. induction a as [|[k' v'] a IH]; cbn [app od_set keys map fst In]; intros Hn; [reflexivity|].
  destruct (str_eqb k k') eqn:E.
  - apply str_eqb_eq in E. subst k'. exfalso. apply Hn. left. reflexivity.
  - f_equal. apply IH. intros H. apply Hn. right. exact H.
Qed.

Lemma od_pop_app_notin : forall {A} k (a b : list (str * A)),
    ~ In k (keys a) -> od_pop k (a ++ b) = a ++ od_pop k b.
Proof.
  intros A k a b. induction a as [|[k' v'] a IH]; cbn [app od_pop keys map fst In]; intros Hn; [reflexivity|].
  destruct (str_eqb k k') eqn:E.
  - apply str_eqb_eq in E. subst k'. exfalso. apply Hn. left. reflexivity.
  - f_equal. apply IH. intros H. apply Hn. right. exact H.
Qed.

Lemma NoDup_app_notin : forall (a b : list str) x, NoDup (a ++ x :: b) -> ~ In x a.
Proof.
  intros a b x H Hin. apply NoDup_remove_2 in H. apply H. apply in_or_app. left. exact Hin.
Qed.

Lemma class_annassign_documented : forall x done k g todo returns,
    attr_ok x -> at_name x = k -> ~ In k (keys done) ->
    class_annassign (done ++ (k, g) :: todo) returns (EName (at_name x)) (at_ann x) (at_val x)
    = Ok (done ++ upd1 x (k, g) :: todo, returns).
Proof.
  intros x done k g todo returns [Hc Hd] Hk Hn. unfold class_annassign. rewrite Hc, Hd. cbn [bind target_id].
  rewrite Hk. rewrite (od_get_app_notin k done _ Hn). cbn [od_get]. rewrite str_eqb_refl.
  rewrite (od_set_app_notin k _ done _ Hn). cbn [od_set]. rewrite str_eqb_refl. reflexivity.
Qed.

Lemma loop_documented : forall xs done todo returns rest,
    map at_name xs = keys todo -> NoDup (keys done ++ keys todo) -> Forall attr_ok xs ->
    class_body_loop (done ++ todo) returns (map attr_stmt xs ++ rest)
    = class_body_loop (done ++ zipupd xs todo) returns rest.
Proof.
  induction xs as [|x xs IH]; intros done todo returns rest Hk Hnd Hok.
  - destruct todo; [|discriminate Hk]. reflexivity.
  - destruct todo as [|[k g] todo]; [discriminate Hk|].
    cbn [map keys fst] in Hk. injection Hk as Hk1 Hk2.
    inversion Hok as [|x' xs' Hx Hxs]; subst x' xs'.
    cbn [map app]. unfold attr_stmt at 1. cbn [class_body_loop].
    assert (Hn : ~ In k (keys done)) by (eapply NoDup_app_notin; exact Hnd).
    rewrite (class_annassign_documented x done k g todo returns Hx Hk1 Hn). cbn [bind fst snd zipupd].
    change (done ++ upd1 x (k, g) :: zipupd xs todo) with (done ++ [upd1 x (k, g)] ++ zipupd xs todo).
    change (done ++ upd1 x (k, g) :: todo) with (done ++ [upd1 x (k, g)] ++ todo).
    rewrite !app_assoc. apply IH.
    + exact Hk2.
    + rewrite keys_app. cbn [keys map upd1 fst app]. rewrite <- app_assoc. exact Hnd.
    + exact Hxs.
Qed.

Lemma class_annassign_fresh : forall x acc returns,
    attr_ok x -> ~ In (at_name x) (keys acc) -> at_name x <> return_type_key -> returns <> Missing ->
    class_annassign acc returns (EName (at_name x)) (at_ann x) (at_val x) = Ok (acc ++ [fresh x], returns).
Proof.
  intros x acc returns [Hc Hd] Hn Hr Hm. unfold class_annassign. rewrite Hc, Hd. cbn [bind target_id].
  assert (Hg : od_get (at_name x) acc = None) by (apply od_get_None_iff; exact Hn).
  rewrite Hg. apply str_eqb_neq in Hr.
  destruct returns as [| |old]; [contradiction|rewrite Hr|rewrite Hr];
    rewrite (od_set_keys_notin _ _ _ Hn); reflexivity.
Qed.

Lemma loop_undocumented : forall xs acc returns rest,
    NoDup (keys acc ++ map at_name xs) -> ~ In return_type_key (map at_name xs) -> returns <> Missing ->
    Forall attr_ok xs ->
    class_body_loop acc returns (map attr_stmt xs ++ rest)
    = class_body_loop (acc ++ map fresh xs) returns rest.
Proof.
  induction xs as [|x xs IH]; intros acc returns rest Hnd Hr Hm Hok.
  - cbn [map app]. rewrite app_nil_r. reflexivity.
  - inversion Hok as [|x' xs' Hx Hxs]; subst x' xs'. cbn [map app]. unfold attr_stmt at 1. cbn [class_body_loop].
    assert (Hn : ~ In (at_name x) (keys acc)) by (eapply NoDup_app_notin; exact Hnd).
    assert (Hne : at_name x <> return_type_key).
    { intros He. apply Hr. left. exact He. }
    rewrite (class_annassign_fresh x acc returns Hx Hn Hne Hm). cbn [bind fst snd].
    rewrite IH.
    + rewrite <- app_assoc. reflexivity.
    + rewrite keys_app. cbn [keys map fresh fst]. rewrite <- app_assoc. exact Hnd.
    + intros H. apply Hr. right. exact H.
    + exact Hm.
    + exact Hxs.
Qed.

Lemma class_annassign_return : forall x acc returns,
    attr_ok x -> at_name x = return_type_key -> ~ In return_type_key (keys acc) -> returns <> Missing ->
    class_annassign acc returns (EName (at_name x)) (at_ann x) (at_val x) = Ok (acc, ret_upd [x] returns).
Proof.
  intros x acc returns [Hc Hd] Hk Hn Hm. unfold class_annassign. rewrite Hc, Hd. cbn [bind target_id].
  rewrite Hk. assert (Hg : od_get return_type_key acc = None) by (apply od_get_None_iff; exact Hn).
  rewrite Hg. destruct returns as [| |old]; [contradiction| |]; rewrite str_eqb_refl; reflexivity.
Qed.

Lemma loop_skip : forall meth acc returns,
    forallb not_assign meth = true -> class_body_loop acc returns meth = Ok (acc, returns).
Proof.
  induction meth as [|s meth IH]; intros acc returns H; [reflexivity|].
  cbn [forallb] in H. apply andb_true_iff in H. destruct H as [Hs Hm].
  destruct s; cbn [not_assign is_assignment negb] in Hs; try discriminate Hs; cbn [class_body_loop]; apply IH; exact Hm.
Qed.

Definition xsR_ok (xsR : list attr) : Prop :=
  xsR = [] \/ exists x, xsR = [x] /\ at_name x = return_type_key.

Theorem class_loop_emitted : forall xsP xsU xsR D0 returns0 meth,
    map at_name xsP = keys D0 ->
    NoDup (keys D0 ++ map at_name xsU) ->
    ~ In return_type_key (keys D0 ++ map at_name xsU) ->
    returns0 <> Missing ->
    xsR_ok xsR ->
    Forall attr_ok (xsP ++ xsU ++ xsR) ->
    forallb not_assign meth = true ->
    class_body_loop D0 returns0 (map attr_stmt (xsP ++ xsU ++ xsR) ++ meth)
    = Ok (zipupd xsP D0 ++ map fresh xsU, ret_upd xsR returns0).
Proof.
  intros xsP xsU xsR D0 returns0 meth HkP Hnd Hrt Hm HR Hok Hmeth.
  apply Forall_app in Hok. destruct Hok as [HokP Hok]. apply Forall_app in Hok. destruct Hok as [HokU HokR].
  rewrite !map_app, <- !app_assoc.
  change D0 with ([] ++ D0) at 1.
  rewrite (loop_documented xsP [] D0 returns0 _ HkP); [|cbn [keys map app]; exact (proj1 (ListFacts.NoDup_app_inv _ _ _ Hnd))|exact HokP].
  cbn [app].
  rewrite (loop_undocumented xsU (zipupd xsP D0) returns0 _); [|rewrite zipupd_keys; exact Hnd| |exact Hm|exact HokU].
  2:{ intros H. apply Hrt. apply in_or_app. right. exact H. }
  destruct HR as [HR|[x [HR Hx]]]; subst xsR.
  - cbn [map app ret_upd]. apply loop_skip. exact Hmeth.
  - cbn [map app]. unfold attr_stmt at 1. cbn [class_body_loop].
    inversion HokR as [|x' l' Hxok _]; subst x' l'.
    rewrite (class_annassign_return x _ returns0 Hxok Hx); [| |exact Hm].
    + cbn [bind fst snd]. apply loop_skip. exact Hmeth.
    + rewrite keys_app, zipupd_keys. unfold keys at 2. rewrite map_map. cbn [fresh fst].
      exact Hrt.
Qed.

Definition split_return (d : ir) : list (str * gparam) * fld gparam :=
  match od_get return_type_key (ir_params d) with
  | Some g => (od_pop return_type_key (ir_params d), Has g)
  | None => (ir_params d, ir_returns d)
  end.

Lemma parse_class_on_emitted : forall d cn bases decos ds body it ww,
    parse_class (Some (Ok d)) (CStmt (SClass cn bases (SExpr (EConst (VStr ds)) :: body) decos)) None it ww
    = (do r <- class_body_loop (fst (split_return d)) (snd (split_return d)) body;
       do params2 <- set_names_and_types (fst r) it ww;
       Ok (mkIR (ir_name d) (ir_type d) (ir_doc d) params2 (snd r)
                (Some (mkInternal (filter (fun s => negb (is_assignment s)) body) (Has cn) (Has (L "cls")))))).
Proof.
  intros d cn bases decos ds body it ww. unfold parse_class, split_return.
  cbn [find_class is_class_other bind docstring_of tl].
  destruct (od_get return_type_key (ir_params d)) as [g|]; cbn [fst snd];
    destruct (class_body_loop _ _ body) as [[p1 r1]|e]; reflexivity.
Qed.

Lemma loop_success_attrs : forall (kvs : list (str * gparam)) stmts rest p r res,
    Forall2 (fun kv s => exists a v, s = SAnnAssign (EName (fst kv)) a (Some v)) kvs stmts ->
    class_body_loop p r (stmts ++ rest) = Ok res ->
    exists xs, stmts = map attr_stmt xs /\ map at_name xs = map fst kvs /\ Forall attr_ok xs.
Proof.
  intros kvs stmts rest p r res HF. revert p r. induction HF as [|kv s kvs stmts [a [v Hs]] HF IH]; intros p r H.
  - exists []. split; [reflexivity|]. split; [reflexivity|constructor].
  - subst s. cbn [app class_body_loop] in H. binv H. destruct a0 as [p1 r1]. cbn [fst snd] in H.
    destruct (IH _ _ H) as [xs [Hxs [Hn Hok]]].
    unfold class_annassign in Ha. binv Ha. rename a0 into typ. binv Ha. rename a0 into dv.
    exists (mkAttr (fst kv) a (Some v) typ dv :: xs). split; [|split].
    + cbn [map]. unfold attr_stmt at 1. cbn [at_name at_ann at_val]. rewrite Hxs. reflexivity.
    + cbn [map at_name]. rewrite Hn. reflexivity.
    + constructor; [|exact Hok]. split; assumption.
Qed.

Lemma undoc_true_all : forall ps, undocumented_precedes true ps = false -> forallb (fun kv => negb (documented kv)) ps = true.
Proof.
  induction ps as [|[n g] ps IH]; intros H; [reflexivity|]. cbn [undocumented_precedes] in H.
  cbn [forallb]. unfold documented at 1. cbn [snd]. destruct (prose_of g) as [doc|]; [discriminate H|].
  cbn [negb andb]. apply IH. exact H.
Qed.

Lemma undoc_split : forall ps,
    undocumented_precedes false ps = false ->
    exists P U, ps = P ++ U /\ forallb documented P = true /\ forallb (fun kv => negb (documented kv)) U = true.
Proof.
  induction ps as [|[n g] ps IH]; intros H.
  - exists [], []. repeat split; reflexivity.
  - cbn [undocumented_precedes] in H. destruct (prose_of g) as [doc|] eqn:Ep.
    + cbn [orb] in H. destruct (IH H) as [P [U [Hps [HP HU]]]].
      exists ((n, g) :: P), U. split; [rewrite Hps; reflexivity|]. split; [|exact HU].
      cbn [forallb]. unfold documented at 1. cbn [snd]. rewrite Ep. exact HP.
    + exists [], ((n, g) :: ps). split; [reflexivity|]. split; [reflexivity|].
      cbn [forallb]. unfold documented at 1. cbn [snd]. rewrite Ep. cbn [negb andb]. apply undoc_true_all. exact H.
Qed.

Lemma same_params_app_inv : forall cmp a1 a2 b,
    same_params cmp (a1 ++ a2) b = true ->
    exists b1 b2, b = b1 ++ b2 /\ same_params cmp a1 b1 = true /\ same_params cmp a2 b2 = true.
Proof.
  intros cmp a1. induction a1 as [|[n1 p1] a1 IH]; intros a2 b H.
  - exists [], b. split; [reflexivity|]. split; [reflexivity|exact H].
  - cbn [app same_params] in H. destruct b as [|[n2 p2] b]; [discriminate H|].
    apply andb_true_iff in H. destruct H as [H Hr]. destruct (IH _ _ Hr) as [b1 [b2 [Hb [H1 H2]]]].
    exists ((n2, p2) :: b1), b2. split; [rewrite Hb; reflexivity|]. split; [|exact H2].
    cbn [same_params]. rewrite H, H1. reflexivity.
Qed.

Lemma same_params_keys : forall cmp a b, same_params cmp a b = true -> keys b = keys a.
Proof.
  intros cmp a. induction a as [|[n1 p1] a IH]; intros [|[n2 p2] b] H; cbn [same_params] in H; try discriminate H.
  - reflexivity.
  - apply andb_true_iff in H. destruct H as [H Hr]. apply andb_true_iff in H. destruct H as [Hn _].
    apply str_eqb_eq in Hn. subst n2. cbn [keys map fst]. f_equal. apply IH. exact Hr.
Qed.

Lemma same_params_nil_r : forall cmp b, same_params cmp [] b = true -> b = [].
Proof. intros cmp [|[n p] b] H; [reflexivity|discriminate H]. Qed.

Lemma same_params_single : forall cmp n p b,
    same_params cmp [(n, p)] b = true -> exists g, b = [(n, g)] /\ cmp p g = true.
Proof.
  intros cmp n p [|[n2 g] b] H; cbn [same_params] in H; [discriminate H|].
  apply andb_true_iff in H. destruct H as [H Hr]. apply andb_true_iff in H. destruct H as [Hn Hc].
  apply str_eqb_eq in Hn. subst n2. destruct b as [|[n3 p3] b]; [|discriminate Hr]. exists g. split; [reflexivity|exact Hc].
Qed.

Lemma is_bare_word_no_star : forall n, is_bare_word n = true -> startswith [ch 42] n = false.
Proof.
  intros [|c n] H; [reflexivity|]. unfold is_bare_word in H.
  apply andb_true_iff in H. destruct H as [H _]. apply andb_true_iff in H. destruct H as [Hc _].
  cbn [startswith]. destruct (ascii_eqb (ch 42) c) eqn:E; [|reflexivity].
  apply ascii_eqb_eq in E. subst c. vm_compute in Hc. discriminate Hc.
Qed.

Definition name_ok_C02 (n : str) : bool :=
  ident_ok n || (kwargs_name n && ident_ok (lstrip_chars [ch 42] n) && negb (startswith [ch 42] n)).

Lemma name_ok_no_star : forall n, name_ok_C02 n = true -> startswith [ch 42] n = false.
Proof.
  intros n H. unfold name_ok_C02 in H. apply orb_true_iff in H. destruct H as [H|H].
  - unfold ident_ok in H. repeat (apply andb_true_iff in H; destruct H as [H _]). apply is_bare_word_no_star. exact H.
  - apply andb_true_iff in H. destruct H as [_ H]. apply negb_true_iff in H. exact H.
Qed.

Lemma name_ok_not_return : forall n, name_ok_C02 n = true -> n <> return_type_key.
Proof.
  intros n H He. subst n. vm_compute in H. discriminate H.
Qed.

Lemma C02_domain_facts : forall i,
    C02_domain i = true ->
    NoDup (map fst (ir_params i))
    /\ ~ In return_type_key (map fst (ir_params i))
    /\ forallb (fun n => negb (startswith [ch 42] n)) (map fst (ir_params i)) = true.
Proof.
  intros i H. unfold C02_domain in H. apply andb_true_iff in H. destruct H as [Hd Hn].
  split; [apply names_distinct_NoDup; exact Hd|].
  rewrite forallb_forall in Hn. split.
  - intros Hin. apply (name_ok_not_return return_type_key); [|reflexivity]. apply (Hn _ Hin).
  - apply forallb_forall. intros n Hin. apply negb_true_iff. apply name_ok_no_star. apply (Hn _ Hin).
Qed.

Definition ret_entry (i : ir) : list (str * gparam) :=
  match ir_returns i with Has r => [(return_type_key, r)] | _ => [] end.

Lemma fold_returns_params : forall i,
    ~ In return_type_key (map fst (ir_params i)) ->
    ir_params (class_fold_returns i) = ir_params i ++ ret_entry i.
Proof.
  intros i Hn. unfold class_fold_returns, ret_entry. destruct (ir_returns i) as [| |r]; cbn [ir_params];
    try (rewrite app_nil_r; reflexivity).
  apply od_set_keys_notin. exact Hn.
Qed.

Lemma doc_agrees_split : forall i d P U,
    doc_agrees i d = true ->
    ~ In return_type_key (map fst (ir_params i)) ->
    ir_params i = P ++ U -> forallb documented P = true -> forallb (fun kv => negb (documented kv)) U = true ->
    exists D0 Dr,
      ir_params d = D0 ++ Dr /\ ir_returns d = FNone
      /\ same_params same_prose P D0 = true
      /\ same_params same_prose (filter documented (ret_entry i)) Dr = true.
Proof.
  intros i d P U H Hn Hps HP HU. unfold doc_agrees in H. apply andb_true_iff in H. destruct H as [H Hr].
  rewrite forallb_forall in HP, HU.
  rewrite (fold_returns_params i Hn), Hps, !filter_app, (ListFacts.filter_all _ _ HP) in H.
  rewrite (ListFacts.filter_none documented U) in H by (intros x Hx; apply negb_true_iff; exact (HU x Hx)).
  rewrite app_nil_r in H. apply same_params_app_inv in H. destruct H as [D0 [Dr [Hd [H0 H1]]]].
  exists D0, Dr. split; [exact Hd|]. split; [|split; assumption].
  destruct (ir_returns d); try discriminate Hr. reflexivity.
Qed.

Lemma split_return_of : forall d D0 Dr,
    ir_params d = D0 ++ Dr -> ir_returns d = FNone -> ~ In return_type_key (keys D0) ->
    (Dr = [] \/ exists g, Dr = [(return_type_key, g)]) ->
    split_return d = (D0, match Dr with (_, g) :: _ => Has g | [] => FNone end).
Proof.
  intros d D0 Dr Hd Hr Hn HDr. unfold split_return. rewrite Hd, Hr.
  rewrite (od_get_app_notin _ D0 Dr Hn). destruct HDr as [HDr|[g HDr]]; subst Dr.
  - cbn [od_get]. rewrite app_nil_r. reflexivity.
  - cbn [od_get]. rewrite str_eqb_refl. rewrite (od_pop_app_notin _ D0 _ Hn). cbn [od_pop]. rewrite str_eqb_refl.
    rewrite app_nil_r. reflexivity.
Qed.

Lemma parse_emitted_params : forall i d P U xsP xsU xsR meth,
    NoDup (map fst (ir_params i)) ->
    ~ In return_type_key (map fst (ir_params i)) ->
    ir_params i = P ++ U -> forallb documented P = true -> forallb (fun kv => negb (documented kv)) U = true ->
    doc_agrees i d = true ->
    map at_name xsP = map fst P -> map at_name xsU = map fst U -> map at_name xsR = map fst (ret_entry i) ->
    Forall attr_ok (xsP ++ xsU ++ xsR) ->
    forallb not_assign meth = true ->
    exists D0 Dr,
      same_params same_prose P D0 = true
      /\ same_params same_prose (filter documented (ret_entry i)) Dr = true
      /\ class_body_loop (fst (split_return d)) (snd (split_return d)) (map attr_stmt (xsP ++ xsU ++ xsR) ++ meth)
         = Ok (zipupd xsP D0 ++ map fresh xsU,
               ret_upd xsR (match Dr with (_, g) :: _ => Has g | [] => FNone end)).
Proof.
  intros i d P U xsP xsU xsR meth Hnd Hrt Hps HP HU Hda HnP HnU HnR Hok Hmeth.
  destruct (doc_agrees_split i d P U Hda Hrt Hps HP HU) as [D0 [Dr [Hd [Hr [H0 H1]]]]].
  exists D0, Dr. split; [exact H0|]. split; [exact H1|].
  assert (HkD0 : keys D0 = map fst P) by (apply (same_params_keys _ _ _ H0)).
  assert (Hnd' : NoDup (keys D0 ++ map at_name xsU)).
  { rewrite HkD0, HnU, <- map_app, <- Hps. exact Hnd. }
  assert (Hrt' : ~ In return_type_key (keys D0 ++ map at_name xsU)).
  { rewrite HkD0, HnU, <- map_app, <- Hps. exact Hrt. }
  assert (HDr : Dr = [] \/ exists g, Dr = [(return_type_key, g)]).
  { unfold ret_entry in H1. destruct (ir_returns i) as [| |r]; cbn [filter] in H1;
      try (left; apply (same_params_nil_r _ _ H1)).
    destruct (documented (return_type_key, r)).
    - right. apply same_params_single in H1. destruct H1 as [g [Hg _]]. exists g. exact Hg.
    - left. apply (same_params_nil_r _ _ H1). }
  rewrite (split_return_of d D0 Dr Hd Hr); [|intros Hin; apply Hrt'; apply in_or_app; left; exact Hin|exact HDr].
  cbn [fst snd].
  apply class_loop_emitted; try assumption.
  - rewrite HnP, HkD0. reflexivity.
  - destruct Dr as [|[k g] Dr]; discriminate.
  - unfold xsR_ok. unfold ret_entry in HnR. destruct (ir_returns i) as [| |r]; cbn [map] in HnR.
    + left. destruct xsR; [reflexivity|discriminate HnR].
    + left. destruct xsR; [reflexivity|discriminate HnR].
    + right. destruct xsR as [|x [|y xsR]]; try discriminate HnR. exists x. split; [reflexivity|].
      cbn [map fst] in HnR. inversion HnR. reflexivity.
Qed.

(* names and order, and presence of the return entry: whatever the types and defaults *)
Theorem C02_names_order_lemma : forall pt i ec cn bs ds ww tds d it ww' s i0 i',
    C02_domain i = true ->
    undocumented_precedes false (ir_params i) = false ->
    doc_agrees i d = true ->
    emit_class pt i ec cn bs ds ww tds = Ok (s, i0) ->
    parse_class (Some (Ok d)) (CStmt s) None it ww' = Ok i' ->
    map fst (ir_params i') = map fst (ir_params i)
    /\ match ir_returns i with
       | Has _ => exists r', ir_returns i' = Has r'
       | _ => ir_returns i' = FNone
       end.
Proof.
  intros pt i ec cn bs ds ww tds d it ww' s i0 i' Hdom Hup Hda Hemit Hparse.
  destruct (C02_domain_facts i Hdom) as [Hnd [Hrt Hstar]].
  destruct (undoc_split _ Hup) as [P [U [Hps [HP HU]]]].
  destruct (EmitAstFacts.emit_class_inv _ _ _ _ _ _ _ _ _ _ Hemit) as (ib & text & meth & attrs & _ & _ & Hm & Hattrs & _ & ->).
  pose proof (class_meth_not_assign _ _ _ _ _ _ _ Hm) as Hmeth.
  change (set_value (VStr (class_docstring text))) with (EConst (VStr (set_value_str (class_docstring text)))) in Hparse.
  rewrite parse_class_on_emitted in Hparse.
  binv Hparse. destruct a as [p1 r1]. cbn [fst snd] in Hparse. binv Hparse. inversion Hparse; subst i'. cbn [ir_params ir_returns].
  pose proof (class_attr_shapes _ _ _ Hattrs) as Hshapes.
  destruct (loop_success_attrs _ _ _ _ _ _ Hshapes Ha) as [xs [Hxs [Hnames Hok]]].
  rewrite (fold_returns_params i Hrt), Hps, !map_app in Hnames.
  apply map_eq_app in Hnames. destruct Hnames as [xsPU [xsR [Hsplit [HnPU HnR]]]].
  apply map_eq_app in HnPU. destruct HnPU as [xsP [xsU [HsplitPU [HnP HnU]]]].
  subst xs xsPU. rewrite <- app_assoc in *.
  destruct (parse_emitted_params i d P U xsP xsU xsR meth Hnd Hrt Hps HP HU Hda HnP HnU HnR Hok Hmeth)
    as [D0 [Dr [H0 [H1 Hloop]]]].
  rewrite Hxs, Hloop in Ha. inversion Ha; subst p1 r1.
  assert (Hkeys : map fst (zipupd xsP D0 ++ map fresh xsU) = map fst (ir_params i)).
  { rewrite map_app. fold (keys (zipupd xsP D0)). rewrite zipupd_keys, (same_params_keys _ _ _ H0).
    rewrite map_map. change (map (fun x => fst (fresh x)) xsU) with (map at_name xsU).
    rewrite HnU, Hps, map_app. reflexivity. }
  split.
  - rewrite <- Hkeys. eapply set_names_and_types_names; [| |exact Ha0]; rewrite Hkeys; [exact Hnd|].
    intros n Hin. apply final_name_nostar. rewrite forallb_forall in Hstar. apply negb_true_iff. exact (Hstar n Hin).
  - unfold ret_entry in HnR, H1. destruct (ir_returns i) as [| |r]; cbn [map filter] in HnR, H1.
    + destruct xsR; [|discriminate HnR]. apply same_params_nil_r in H1. subst Dr. reflexivity.
    + destruct xsR; [|discriminate HnR]. apply same_params_nil_r in H1. subst Dr. reflexivity.
    + destruct xsR as [|x xsR]; [discriminate HnR|]. cbn [ret_upd]. eexists. reflexivity.
Qed.

Lemma in_none_None : in_none_types VNone = true. Proof. exact in_none_types_VNone. Qed.

Lemma both_ends_spec : forall q c r d, last_c (c :: r) = Some d -> both_ends q (c :: r) = ascii_eqb c q && ascii_eqb d q.
Proof. intros q c r d H. unfold both_ends. rewrite H. reflexivity. Qed.

Lemma quote_plain : forall s,
    s <> [] -> both_ends dq s = false -> both_ends sq s = false -> quote s = dq :: s ++ [dq].
Proof.
  intros [|c r] Hn Hd Hs; [contradiction|].
  destruct (last_c (c :: r)) as [d|] eqn:Hl; [|apply last_c_nil_iff in Hl; discriminate Hl].
  rewrite (quote_eq c r d Hl). rewrite (both_ends_spec dq c r d Hl) in Hd. rewrite (both_ends_spec sq c r d Hl) in Hs.
  destruct (ascii_eqb c d) eqn:Ecd; [|reflexivity].
  apply ascii_eqb_eq in Ecd. subst d. cbn [andb].
  destruct (ascii_eqb c sq) eqn:E1; [discriminate Hs|].
  destruct (ascii_eqb c dq) eqn:E2; [discriminate Hd|]. reflexivity.
Qed.

Lemma set_value_str_quoted : forall s, s <> [] -> set_value_str (dq :: s ++ [dq]) = s.
Proof.
  intros s Hn. unfold set_value_str.
  assert (Hlen : List.length (dq :: s ++ [dq]) = S (S (List.length s))).
  { cbn [List.length]. rewrite app_length. cbn [List.length]. lia. }
  assert (Hb : both_ends dq (dq :: s ++ [dq]) = true).
  { unfold both_ends. pose proof (last_c_app_single (dq :: s) dq) as Hl. cbn [app] in Hl. rewrite Hl.
    rewrite ascii_eqb_refl. reflexivity. }
  rewrite Hb, Hlen.
  assert (Hlt : Nat.ltb 2 (S (S (List.length s))) = true).
  { apply Nat.ltb_lt. destruct s; [contradiction|cbn [List.length]; lia]. }
  rewrite Hlt. cbn [andb orb]. unfold slice. cbn [skipn].
  replace (S (S (List.length s)) - 1 - 1) with (List.length s) by lia. apply firstn_app_exact.
Qed.

Lemma unquote_plain : forall s, both_ends dq s = false -> both_ends sq s = false -> unquote s = s.
Proof.
  intros s Hd Hs. apply unquote_id_marks. intros q Hq [Hh Hl].
  destruct s as [|c r]; [discriminate Hh|]. cbn [head_c] in Hh. inversion Hh; subst c.
  destruct Hq as [Hq|Hq]; subst q.
  - rewrite (both_ends_spec _ _ _ _ Hl), ascii_eqb_refl in Hd. discriminate Hd.
  - rewrite (both_ends_spec _ _ _ _ Hl), ascii_eqb_refl in Hs. discriminate Hs.
Qed.

Lemma str_default_ok_inv : forall s,
    str_default_ok s = true ->
    both_ends dq s = false /\ both_ends sq s = false /\ code_quoted s = false /\ in_none_types (VStr s) = false.
Proof.
  intros s H. unfold str_default_ok in H.
  repeat (apply andb_true_iff in H; let H' := fresh "H" in destruct H as [H H']).
  repeat split; apply negb_true_iff; assumption.
Qed.

Definition attr_codec (pt : ptable) (n : str) (g : gparam) : Prop :=
  exists x g2, param2ast pt n g = Ok (attr_stmt x, g2)
               /\ at_name x = n /\ attr_ok x /\ g_typ g = Has (at_typ x) /\ at_def x = canon_default g.

Lemma typ_ok_C02_inv : forall t,
    typ_ok_C02 t = true ->
    exists e nq, typ_ast t = Some e /\ needs_quoting (Some t) = Ok nq /\ bracket_fix t = t
                 /\ endswith google_opt t = false /\ str_eqb t (L "dict") = false
                 /\ startswith [ch 42] t = false /\ str_eqb t (L "complex") = false.
Proof.
  intros t H. unfold typ_ok_C02 in H.
  apply andb_true_iff in H. destruct H as [H Hcx]. apply andb_true_iff in H. destruct H as [H Hstar].
  apply andb_true_iff in H. destruct H as [H Hdict]. apply andb_true_iff in H. destruct H as [H Hgo].
  apply andb_true_iff in H. destruct H as [H Hbf]. apply andb_true_iff in H. destruct H as [Hta Hq].
  destruct (typ_ast t) as [e|]; [|discriminate Hta]. destruct (needs_quoting (Some t)) as [nq|er]; [|discriminate Hq].
  exists e, nq. apply str_eqb_eq in Hbf. apply negb_true_iff in Hgo, Hdict, Hstar, Hcx.
  split; [reflexivity|]. split; [reflexivity|]. split; [exact Hbf|]. split; [exact Hgo|]. split; [exact Hdict|]. split; [exact Hstar|exact Hcx].
Qed.

Lemma canon_default_some : forall gd gt v,
    canon_default (mkG gd gt (Some (DV v))) = if in_none_types v then DV (VStr NoneStr) else DV v.
Proof. reflexivity. Qed.

Lemma canon_default_none_generic : forall gd t,
    in_simple_types t = false -> canon_default (mkG gd (Has t) None) = DV (VStr NoneStr).
Proof.
  intros gd t H. unfold canon_default, zero_default_norm_param. cbn [g_default g_typ fget zero_of_typ].
  unfold simple_type_zero. fold (in_simple_types t). rewrite H. reflexivity.
Qed.

Lemma canon_default_none_simple : forall gd t z,
    simple_type_zero t = Some z -> in_none_types z = false -> canon_default (mkG gd (Has t) None) = DV z.
Proof.
  intros gd t z Hz Hn. unfold canon_default, zero_default_norm_param. cbn [g_default g_typ fget zero_of_typ].
  rewrite Hz. cbn [option_map g_default]. rewrite Hn. reflexivity.
Qed.

Lemma typ_ok_class : forall t, typ_ok_C02 t = true -> C06Values.class_typ_ok t = true.
Proof.
  intros t H. destruct (typ_ok_C02_inv t H) as [e [nq [_ [Hnq [Hbf [_ [Hdict [Hstar Hcx]]]]]]]].
  unfold C06Values.class_typ_ok. rewrite Hnq, Hbf, str_eqb_refl, Hdict, Hstar, Hcx. reflexivity.
Qed.

Lemma str_default_plain : forall s, s <> [] -> str_default_ok s = true -> C06Values.plain_str s = true.
Proof.
  intros s Hne H. destruct (str_default_ok_inv s H) as [Hd [Hs [Hcq Hnn]]].
  unfold C06Values.plain_str. rewrite Hcq, Hnn, (quote_plain s Hne Hd Hs), (set_value_str_quoted s Hne).
  unfold set_value_str. rewrite Hd, Hs, andb_false_r, !str_eqb_refl. reflexivity.
Qed.

Lemma default_ok_class : forall t d,
    typ_ok_C02 t = true -> default_ok_C02 t d = true -> C06Values.class_default_ok t d = true.
Proof.
  intros t d Ht Hd. destruct (typ_ok_C02_inv t Ht) as [e [nq [_ [Hnq [_ [_ [_ [_ Hcx]]]]]]]].
  unfold default_ok_C02 in Hd. unfold C06Values.class_default_ok. rewrite Hnq in *. cbn [Ok_true] in *.
  destruct d as [[v|ex|o]|]; try discriminate Hd; [|reflexivity].
  destruct (in_simple_types t) eqn:Es.
  - (* a scalar type: the default has the type's own Python type; a falsy one is the zero, -0.0 being excluded *)
    pose proof (simple_type_facts t Es Hcx) as F. pose proof (sf_quoting _ F) as Hq. destruct (sf_zero _ F) as [z [Hz _]].
    rewrite Hnq in Hq.
    rewrite (neutral_value_zero t z Hz). clear Hnq.
    destruct (simple_cases t Es Hcx) as [E|[E|[E|E]]]; subst t; vm_compute in Hz, Hq; inversion Hz; inversion Hq; subst z nq;
      cbv iota in Hd; destruct v as [|b|i|r|s]; try discriminate Hd.
    + destruct i; reflexivity.
    + apply andb_true_iff in Hd. destruct Hd as [_ Hneg]. apply negb_true_iff in Hneg. cbn [pyval_eqb] in Hneg.
      cbn [is_none_default in_none_types truthy pyval_eqb]. rewrite Hneg, orb_false_r.
      destruct (str_eqb r (L "0.0")) eqn:E0; [exact E0|reflexivity].
    + destruct (str_default_ok_inv s Hd) as [_ [_ [_ Hnn]]]. cbn [is_none_default]. rewrite (in_none_types_not_NoneStr s Hnn), Hnn.
      destruct s as [|c s]; [reflexivity|]. cbn [truthy orb andb]. apply str_default_plain; [discriminate|exact Hd].
    + destruct b; reflexivity.
  - destruct (is_none_default v) eqn:En; [reflexivity|]. destruct nq.
    + destruct v as [| | | |[|c s]]; try discriminate Hd. destruct (str_default_ok_inv _ Hd) as [_ [_ [_ Hnn]]].
      rewrite Hnn. cbn [truthy orb andb]. apply str_default_plain; [discriminate|exact Hd].
    + destruct v as [|b|i|r|s]; try discriminate Hd; cbn [in_none_types orb negb]; destruct (truthy _); reflexivity.
Qed.

Lemma plain_value_canon : forall gd t d,
    str_eqb t (L "complex") = false -> match d with Some (DE _) | Some (DO _) => False | _ => True end ->
    exists val, C06Values.class_plain_value t d = EConst val /\ DV (none_to_NoneStr val) = canon_default (mkG gd (Has t) d).
Proof.
  intros gd t d Hcx Hd. destruct d as [[v|ex|o]|]; try contradiction.
  - exists (C06Values.ir_value v). split; [reflexivity|]. rewrite canon_default_some. unfold C06Values.ir_value.
    destruct (in_none_types v) eqn:En; [reflexivity|]. destruct v; try reflexivity. discriminate En.
  - exists (C06Values.neutral_value t). split; [reflexivity|]. destruct (in_simple_types t) eqn:Es.
    + destruct (sf_zero _ (simple_type_facts t Es Hcx)) as [z [Hz [Hsz [_ [_ [_ Hnz]]]]]].
      rewrite (neutral_value_zero t z Hz), (canon_default_none_simple gd t z Hsz Hnz).
      destruct z; try reflexivity. discriminate Hnz.
    + rewrite (neutral_value_generic t Es), (canon_default_none_generic gd t Es). reflexivity.
Qed.

Theorem attr_codec_guard : forall pt n g, gparam_ok_C02 g = true -> attr_codec pt n g.
Proof.
  intros pt n [gd gt d] H. unfold gparam_ok_C02 in H. cbn [g_typ g_default] in H.
  destruct gt as [| |t]; try discriminate H.
  apply andb_true_iff in H. destruct H as [H Hd]. apply andb_true_iff in H. destruct H as [Ht _].
  destruct (typ_ok_C02_inv t Ht) as [e [nq [Hta [_ [_ [_ [_ [_ Hcx]]]]]]]].
  pose proof (default_ok_class t d Ht Hd) as Hdc.
  destruct (plain_value_canon gd t d Hcx) as [val [Hval Hcanon]].
  { destruct d as [[v|ex|o]|]; try exact I; discriminate Hd. }
  pose proof (param2ast_typed pt n gd t d (typ_ok_class t Ht) Hdc) as He.
  rewrite (typ_ast_parse pt t e Hta), Hval in He. cbn [bind] in He. unfold attr_codec.
  destruct (param2ast pt n (mkG gd (Has t) d)) as [[s g2]|er]; [|discriminate He]. cbn [bind fst] in He.
  injection He as ->.
  exists (mkAttr n e (Some (EConst val)) t (DV (none_to_NoneStr val))), g2.
  split; [reflexivity|]. split; [reflexivity|]. split; [|split; [reflexivity|exact Hcanon]].
  split; [apply typ_ast_code; exact Hta|]. cbn [at_val at_def]. apply annassign_default_const.
Qed.

Definition cd_ok_b (cd : dval) : bool :=
  match cd with
  | DV VNone => false
  | DV (VStr s) => str_eqb s NoneStr
                   || (negb (in_none_types (VStr s)) && negb (both_ends dq s) && negb (both_ends sq s)
                       && negb (code_quoted s))
  | DV _ => true
  | _ => false
  end.

Lemma default_ok_str : forall t s,
    default_ok_C02 t (Some (DV (VStr s))) = true -> in_none_types (VStr s) = false -> str_default_ok s = true.
Proof.
  intros t s H Hnn. unfold default_ok_C02 in H.
  destruct (in_simple_types t) eqn:Es.
  - destruct (Ok_true (needs_quoting (Some t))) eqn:En; [exact H|].
    apply andb_true_iff in H. destruct H as [H _]. cbn [type_name] in H. apply str_eqb_eq in H. subst t.
    vm_compute in En. discriminate En.
  - cbn [is_none_default] in H. rewrite (in_none_types_not_NoneStr s Hnn) in H.
    destruct (Ok_true (needs_quoting (Some t))); [|discriminate H].
    destruct s as [|c s]; [discriminate H|exact H].
Qed.

Lemma canon_default_ok : forall g, gparam_ok_C02 g = true -> cd_ok_b (canon_default g) = true.
Proof.
  intros [gd gt d] H. unfold gparam_ok_C02 in H. cbn [g_typ g_default] in H.
  destruct gt as [| |t]; try discriminate H.
  apply andb_true_iff in H. destruct H as [H Hd]. apply andb_true_iff in H. destruct H as [Ht _].
  destruct d as [[v|ex|o]|].
  - rewrite canon_default_some. destruct (in_none_types v) eqn:En; [reflexivity|].
    destruct v as [|b|z|r|s]; try reflexivity; [discriminate En|].
    pose proof (default_ok_str t s Hd En) as Hs. destruct (str_default_ok_inv s Hs) as [H1 [H2 [H3 H4]]].
    cbn [cd_ok_b]. rewrite H1, H2, H3, H4. apply orb_true_r.
  - unfold default_ok_C02 in Hd. discriminate Hd.
  - unfold default_ok_C02 in Hd. discriminate Hd.
  - destruct (in_simple_types t) eqn:Es.
    + destruct (typ_ok_C02_inv t Ht) as [e [nq [_ [_ [_ [_ [_ [_ Hcx]]]]]]]].
      destruct (simple_cases t Es Hcx) as [E|[E|[E|E]]]; subst t; reflexivity.
    + rewrite (canon_default_none_generic gd t Es). reflexivity.
Qed.

Definition docf_ok (docf : fld str) (t : str) : Prop :=
  docf = Missing
  \/ exists c r, docf = Has (c :: r) /\ strip (c :: r) = c :: r /\ mem_c nl (c :: r) = false
                 /\ (prose_starts_optional (c :: r) = false \/ startswith (L "Optional[") t = true).

Lemma strip_rstrip_id : forall s, strip s = s -> rstrip s = s.
Proof.
  intros s H. unfold strip, strip_by in H. unfold rstrip.
  (* rstrip (lstrip s) = s: rstrip only removes at the end, so lstrip s = s too *)
  assert (Hl : lstrip_by isspace s = s).
  { unfold lstrip_by in *. destruct s as [|c s']; [reflexivity|]. cbn [dropwhile] in *.
    destruct (isspace c) eqn:Ec; [|reflexivity].
    exfalso.
    assert (Hlen : List.length (rstrip_by isspace (dropwhile isspace s')) <= List.length s').
    { unfold rstrip_by. rewrite rev_length.
      assert (Hdw : forall (p : ascii -> bool) l, List.length (dropwhile p l) <= List.length l).
      { intros p l. induction l as [|x l IHl]; cbn [dropwhile]; [lia|]. destruct (p x); cbn [List.length]; lia. }
      etransitivity; [apply Hdw|]. rewrite rev_length. apply Hdw. }
    rewrite H in Hlen. cbn [List.length] in Hlen. lia. }
  rewrite Hl in H. exact H.
Qed.

Lemma infer_default_canon : forall docf t cd it,
    is_Ok_bool (needs_quoting (Some t)) = true -> cd_ok_b cd = true ->
    infer_default (mkG docf (Has t) (Some cd)) cd it = Ok (mkG docf (Has t) (Some cd)).
Proof.
  intros docf t cd it Hnq Hcd. destruct (needs_quoting (Some t)) as [nq|er] eqn:En; [|discriminate Hnq].
  unfold infer_default. cbn [g_typ g_doc fld_is_none].
  destruct cd as [v|ex|o]; try discriminate Hcd.
  destruct v as [|b|z|r|s]; try discriminate Hcd.
  (* a bool, an int, a float: not a spelling of None, not a str *)
  1-3: cbn [bind dval_in_none_types in_none_types]; rewrite !andb_false_r; cbn [andb negb bind fget]; rewrite En; reflexivity.
  cbn [cd_ok_b] in Hcd. destruct (str_eqb s NoneStr) eqn:Es.
    + apply str_eqb_eq in Es. subst s. cbn [bind dval_in_none_types]. rewrite in_none_types_NoneStr.
      rewrite !andb_false_r. cbn [andb negb bind fget]. rewrite En. reflexivity.
    + cbn [orb] in Hcd. apply andb_true_iff in Hcd. destruct Hcd as [Hcd Hcq]. apply andb_true_iff in Hcd. destruct Hcd as [Hcd Hsq].
      apply andb_true_iff in Hcd. destruct Hcd as [Hnn Hdq]. apply negb_true_iff in Hnn, Hdq, Hsq, Hcq.
      cbn [bind dval_in_none_types]. rewrite Hnn. rewrite !andb_false_r. cbn [andb negb bind fget]. rewrite En. cbn [bind].
      rewrite (unquote_plain s Hdq Hsq).
      cbn [fld_is_none andb bind dval_is_NoneStr code_quoted_dval]. rewrite Es, Hcq. reflexivity.
Qed.

Lemma set_name_and_type_guard : forall n docf t cd it ww,
    startswith [ch 42] n = false -> str_eqb t (L "dict") = false ->
    is_Ok_bool (needs_quoting (Some t)) = true -> endswith google_opt t = false ->
    cd_ok_b cd = true -> docf_ok docf t ->
    set_name_and_type n (mkG docf (Has t) (Some cd)) it ww = Ok (n, mkG docf (Has t) (Some cd)).
Proof.
  intros n docf t cd it ww Hn Hdict Hnq Hg Hcd Hdoc. unfold set_name_and_type. cbn [g_typ g_default g_doc].
  (* the first stage returns the entry as it is, on either branch *)
  match goal with |- (do r1 <- ?x; _) = _ => assert (Hr1 : x = Ok (n, mkG docf (Has t) (Some cd))) end.
  { destruct (endswith (L "kwargs") n || startswith (L "**") n).
    - rewrite Hdict, (lstrip_star_id n Hn). reflexivity.
    - rewrite (infer_default_canon docf t cd it Hnq Hcd). reflexivity. }
  rewrite Hr1. cbn [bind g_typ g_doc g_default]. rewrite Hg.
  destruct Hdoc as [->|[c [r [-> [Hstrip [Hnl Hopt]]]]]]; [reflexivity|].
  (* the prose is one stripped line: re-flowing it changes nothing *)
  assert (Hdoc' : rstrip (if ww then join [sp] (map strip (split [nl] (c :: r))) else c :: r) = c :: r).
  { destruct ww; [|apply strip_rstrip_id; exact Hstrip].
    change (split [nl] (c :: r)) with (split_nl (c :: r)). rewrite (SplitFacts.split_nl_one _ Hnl).
    cbn [map join]. rewrite Hstrip. apply strip_rstrip_id. exact Hstrip. }
  rewrite Hdoc'. unfold prose_starts_optional in Hopt. destruct Hopt as [Ho|Ho]; [rewrite Ho; reflexivity|].
  destruct (startswith (L "(Optional)") (c :: r) || startswith (L "Optional") (c :: r)); [|reflexivity].
  rewrite Ho. reflexivity.
Qed.

Definition attr_for (kv : str * gparam) (x : attr) : Prop :=
  at_name x = fst kv /\ attr_ok x /\ g_typ (snd kv) = Has (at_typ x) /\ at_def x = canon_default (snd kv).

Lemma map_outcome_attrs : forall pt (l : list (str * gparam)),
    Forall (fun kv => gparam_ok_C02 (snd kv) = true) l ->
    exists xs, map_outcome (fun kv => do r <- param2ast pt (fst kv) (snd kv); Ok (fst r)) l = Ok (map attr_stmt xs)
               /\ Forall2 attr_for l xs.
Proof.
  intros pt l. induction l as [|[n g] l IH]; intros H.
  - exists []. split; [reflexivity|constructor].
  - inversion H as [|kv l' Hg Hl]; subst kv l'. cbn [snd] in Hg.
    destruct (attr_codec_guard pt n g Hg) as [x [g2 [He [Hn [Hok [Ht Hd]]]]]].
    destruct (IH Hl) as [xs [Hxs HF]].
    exists (x :: xs). split.
    + cbn [map_outcome fst snd]. rewrite He. cbn [bind fst]. rewrite Hxs. reflexivity.
    + constructor; [|exact HF]. split; [exact Hn|]. split; [exact Hok|]. split; [exact Ht|exact Hd].
Qed.

Lemma Forall2_attr_names : forall l xs, Forall2 attr_for l xs -> map at_name xs = map fst l.
Proof.
  intros l xs H. induction H as [|kv x l xs [Hn _] _ IH]; [reflexivity|]. cbn [map]. rewrite Hn, IH. reflexivity.
Qed.

Lemma Forall2_attr_ok : forall l xs, Forall2 attr_for l xs -> Forall attr_ok xs.
Proof.
  intros l xs H. induction H as [|kv x l xs [_ [Hok _]] _ IH]; constructor; assumption.
Qed.

Lemma pa_mapM_app : forall {A B} (f : A -> outcome B) a b,
    pa_mapM f (a ++ b) = (do x <- pa_mapM f a; do y <- pa_mapM f b; Ok (x ++ y)).
Proof.
  intros A B f a b. induction a as [|x a IH]; cbn [app pa_mapM bind].
  - destruct (pa_mapM f b); reflexivity.
  - destruct (f x) as [y|e]; cbn [bind]; [|reflexivity]. rewrite IH.
    destruct (pa_mapM f a) as [ya|e]; cbn [bind]; [|reflexivity].
    destruct (pa_mapM f b) as [yb|e]; reflexivity.
Qed.

Lemma param_ok_inv : forall n g,
    param_ok_C02 (n, g) = true ->
    exists t, g_typ g = Has t /\ typ_ok_C02 t = true /\ prose_ok_C02 t g = true
              /\ gparam_ok_C02 g = true.
Proof.
  intros n g H. unfold param_ok_C02 in H. cbn [fst snd] in H. rename H into Hg.
  pose proof Hg as Hg0. unfold gparam_ok_C02 in Hg. destruct (g_typ g) as [| |t]; try discriminate Hg.
  apply andb_true_iff in Hg. destruct Hg as [Hg _]. apply andb_true_iff in Hg. destruct Hg as [Ht Hp].
  exists t. repeat split; assumption.
Qed.

Lemma docf_ok_of_prose : forall t g dg,
    prose_ok_C02 t g = true -> same_prose g dg = true -> documented (L "", g) = true ->
    docf_ok (g_doc dg) t /\ g_doc dg = prose_fld g.
Proof.
  intros t g dg Hp Hs Hd. unfold documented in Hd. cbn [snd] in Hd. unfold prose_ok_C02 in Hp.
  unfold same_prose in Hs. unfold prose_fld, prose_fld_of.
  destruct (prose_of g) as [doc|] eqn:Eg; [|discriminate Hd].
  destruct (prose_of dg) as [doc'|] eqn:Ed; cbn [C02Spec.opt_str_eqb] in Hs; [|discriminate Hs].
  apply str_eqb_eq in Hs. subst doc'.
  unfold prose_of in Ed. destruct (g_doc dg) as [| |[|c r]] eqn:Edoc; try discriminate Ed. inversion Ed; subst doc.
  split; [|reflexivity]. right. exists c, r.
  apply andb_true_iff in Hp. destruct Hp as [Hp Ho]. apply andb_true_iff in Hp. destruct Hp as [H1 H2].
  apply str_eqb_eq in H1. apply negb_true_iff in H2. split; [reflexivity|]. split; [exact H1|]. split; [exact H2|].
  apply orb_true_iff in Ho. destruct Ho as [Ho|Ho]; [left; apply negb_true_iff; exact Ho|right; exact Ho].
Qed.

Lemma typ_ok_nq : forall t, typ_ok_C02 t = true ->
    is_Ok_bool (needs_quoting (Some t)) = true /\ endswith google_opt t = false /\ str_eqb t (L "dict") = false.
Proof.
  intros t H. destruct (typ_ok_C02_inv t H) as [e [nq [_ [Hnq [_ [Hg [Hd _]]]]]]]. rewrite Hnq.
  split; [reflexivity|]. split; [exact Hg|exact Hd].
Qed.

Lemma set_name_and_type_entry : forall it ww n g x docf,
    attr_for (n, g) x -> param_ok_C02 (n, g) = true -> startswith [ch 42] n = false ->
    (forall t, g_typ g = Has t -> docf_ok docf t) -> docf = prose_fld g ->
    set_name_and_type n (mkG docf (Has (at_typ x)) (Some (at_def x))) it ww = Ok (n, norm_param_C02 g).
Proof.
  intros it ww n g x docf [_ [_ [Hxt Hxd]]] Hok Hplain Hdocf Hdoceq. cbn [fst snd] in Hxt, Hxd.
  destruct (param_ok_inv n g Hok) as [t [Ht [Htok [_ Hgok]]]].
  rewrite Ht in Hxt. inversion Hxt as [Htx]. rewrite <- Htx, Hxd.
  destruct (typ_ok_nq t Htok) as [Hnq [Hgo Hdict]].
  rewrite (set_name_and_type_guard n docf t (canon_default g) it ww Hplain Hdict Hnq Hgo (canon_default_ok g Hgok) (Hdocf t Ht)).
  unfold norm_param_C02. rewrite Hdoceq, Ht. reflexivity.
Qed.

Lemma pa_mapM_documented : forall it ww P D0 xsP,
    same_params same_prose P D0 = true -> Forall2 attr_for P xsP ->
    forallb param_ok_C02 P = true -> forallb documented P = true ->
    forallb (fun n => negb (startswith [ch 42] n)) (map fst P) = true ->
    pa_mapM (fun kv => set_name_and_type (fst kv) (snd kv) it ww) (zipupd xsP D0) = Ok (norm_params_C02 P).
Proof.
  intros it ww P. induction P as [|[n g] P IH]; intros D0 xsP Hs HF Hok Hdoc Hstar.
  - inversion HF; subst. apply same_params_nil_r in Hs. subst D0. reflexivity.
  - destruct D0 as [|[n' dg] D0]; [discriminate Hs|]. cbn [same_params] in Hs.
    apply andb_true_iff in Hs. destruct Hs as [Hs Hsr]. apply andb_true_iff in Hs. destruct Hs as [Hnn Hsp].
    apply str_eqb_eq in Hnn. subst n'.
    inversion HF as [|kv x l xs Hx HF']; subst kv l xsP.
    cbn [forallb] in Hok, Hdoc. apply andb_true_iff in Hok. destruct Hok as [Hokg Hok].
    apply andb_true_iff in Hdoc. destruct Hdoc as [Hdg Hdoc].
    cbn [map fst forallb] in Hstar. apply andb_true_iff in Hstar. destruct Hstar as [Hplain Hstar]. apply negb_true_iff in Hplain.
    cbn [zipupd pa_mapM upd1 fst snd].
    rewrite (set_name_and_type_entry it ww n g x (g_doc dg) Hx Hokg Hplain).
    + cbn [bind]. rewrite (IH D0 xs Hsr HF' Hok Hdoc Hstar). reflexivity.
    + intros t Ht. destruct (param_ok_inv n g Hokg) as [t' [Ht' [_ [Hprose _]]]]. rewrite Ht in Ht'. inversion Ht'; subst t'.
      apply (docf_ok_of_prose t g dg Hprose Hsp Hdg).
    + destruct (param_ok_inv n g Hokg) as [t [_ [_ [Hprose _]]]]. apply (docf_ok_of_prose t g dg Hprose Hsp Hdg).
Qed.

Lemma pa_mapM_undocumented : forall it ww U xsU,
    Forall2 attr_for U xsU ->
    forallb param_ok_C02 U = true -> forallb (fun kv => negb (documented kv)) U = true ->
    forallb (fun n => negb (startswith [ch 42] n)) (map fst U) = true ->
    pa_mapM (fun kv => set_name_and_type (fst kv) (snd kv) it ww) (map fresh xsU) = Ok (norm_params_C02 U).
Proof.
  intros it ww U. induction U as [|[n g] U IH]; intros xsU HF Hok Hdoc Hstar.
  - inversion HF; subst. reflexivity.
  - inversion HF as [|kv x l xs Hx HF']; subst kv l xsU.
    cbn [forallb] in Hok, Hdoc. apply andb_true_iff in Hok. destruct Hok as [Hokg Hok].
    apply andb_true_iff in Hdoc. destruct Hdoc as [Hdg Hdoc]. apply negb_true_iff in Hdg.
    cbn [map fst forallb] in Hstar. apply andb_true_iff in Hstar. destruct Hstar as [Hplain Hstar]. apply negb_true_iff in Hplain.
    cbn [map pa_mapM fresh fst snd]. rewrite (proj1 Hx). cbn [fst].
    rewrite (set_name_and_type_entry it ww n g x Missing Hx Hokg Hplain).
    + cbn [bind]. rewrite (IH xs HF' Hok Hdoc Hstar). reflexivity.
    + intros t _. left. reflexivity.
    + unfold prose_fld, prose_fld_of. unfold documented in Hdg. cbn [snd] in Hdg.
      destruct (prose_of g); [discriminate Hdg|reflexivity].
Qed.

Lemma norm_params_keys : forall ps, map fst (norm_params_C02 ps) = map fst ps.
Proof. intros ps. unfold norm_params_C02. rewrite map_map. reflexivity. Qed.

Lemma norm_params_app : forall a b, norm_params_C02 (a ++ b) = norm_params_C02 a ++ norm_params_C02 b.
Proof. intros a b. unfold norm_params_C02. apply map_app. Qed.

Lemma prose_of_prose_fld : forall g gt gd, prose_of (mkG (prose_fld g) gt gd) = prose_of g.
Proof.
  intros g gt gd. unfold prose_fld, prose_fld_of. destruct (prose_of g) as [p|] eqn:E; [|reflexivity].
  unfold prose_of in *. cbn [g_doc]. destruct (g_doc g) as [| |[|c r]]; try discriminate E. inversion E; subst p. reflexivity.
Qed.

Definition scalar_default (g : gparam) : Prop :=
  match g_default g with Some (DE _) | Some (DO _) => False | _ => True end.

Lemma same_param_strict_norm : forall g,
    scalar_default g -> same_param_strict (zero_default_norm_param g) (norm_param_C02 g) = true.
Proof.
  intros g Hs. unfold same_param_strict. apply andb_true_iff. split; [apply andb_true_iff; split|].
  - unfold same_typ, zero_default_norm_param, norm_param_C02. destruct (g_default g); cbn [g_typ]; apply opt_str_eqb_refl.
  - unfold same_prose, norm_param_C02. rewrite prose_of_prose_fld.
    assert (Hp : prose_of (zero_default_norm_param g) = prose_of g).
    { unfold zero_default_norm_param. destruct (g_default g); reflexivity. }
    rewrite Hp. apply opt_str_eqb_refl.
  - unfold default_same, norm_param_C02, canon_default. cbn [g_default].
    assert (Hz : exists v, g_default (zero_default_norm_param g) = Some (DV v)).
    { unfold zero_default_norm_param, scalar_default in *. destruct (g_default g) as [[v|ex|o]|] eqn:E; try contradiction.
      - exists v. exact E.
      - cbn [g_default]. unfold zero_of_typ. destruct (fget (g_typ g)) as [t|]; [|eexists; reflexivity].
        destruct (simple_type_zero t) as [z|]; cbn [option_map]; eexists; reflexivity. }
    destruct Hz as [v Hv]. rewrite Hv. unfold same_default.
    destruct (in_none_types v) eqn:En.
    + cbn [d_none_like]. rewrite En, in_none_types_NoneStr. reflexivity.
    + cbn [dval_eqb]. rewrite DefaultsFacts.pyval_eqb_refl. apply orb_true_r.
Qed.

Lemma same_params_strict_norm : forall ps,
    Forall (fun kv => scalar_default (snd kv)) ps ->
    same_params same_param_strict (map (fun kv => (fst kv, zero_default_norm_param (snd kv))) ps) (norm_params_C02 ps) = true.
Proof.
  induction ps as [|[n g] ps IH]; intros H; [reflexivity|]. inversion H as [|kv l Hg Hl]; subst kv l.
  cbn [map norm_params_C02 same_params fst snd]. rewrite str_eqb_refl, (same_param_strict_norm g Hg). cbn [andb].
  apply IH. exact Hl.
Qed.

Lemma gparam_ok_scalar_default : forall g, gparam_ok_C02 g = true -> scalar_default g.
Proof.
  intros g H. unfold gparam_ok_C02 in H. destruct (g_typ g) as [| |t]; try discriminate H.
  apply andb_true_iff in H. destruct H as [_ Hd]. unfold scalar_default. unfold default_ok_C02 in Hd.
  destruct (g_default g) as [[v|ex|o]|]; try discriminate Hd; exact I.
Qed.

Lemma guard_C02_ast_inv : forall i,
    guard_C02_ast i = true ->
    C02_domain i = true /\ undocumented_precedes false (ir_params i) = false
    /\ forallb param_ok_C02 (ir_params i) = true /\ return_ok_C02 (ir_returns i) = true /\ no_carried_body i = true.
Proof.
  intros i H. unfold guard_C02_ast in H.
  apply andb_true_iff in H. destruct H as [H Hb]. apply andb_true_iff in H. destruct H as [H Hr].
  apply andb_true_iff in H. destruct H as [H Hp]. apply andb_true_iff in H. destruct H as [Hd Hu].
  apply negb_true_iff in Hu. repeat split; assumption.
Qed.

Lemma emit_class_ok : forall pt i cn bs ds ww text attrs,
    no_carried_body i = true ->
    map_outcome (fun kv => do r <- param2ast pt (fst kv) (snd kv); Ok (fst r)) (ir_params (class_fold_returns i)) = Ok attrs ->
    emit_class pt i false cn bs ds ww (Ok text)
    = Ok (SClass cn (map EName bs) (SExpr (EConst (VStr (set_value_str (class_docstring text)))) :: attrs ++ [])
                 (map EName ds), i).
Proof.
  intros pt i cn bs ds ww text attrs Hb Ha. unfold emit_class.
  assert (Hbody : match ir_internal i with Some it => in_body it | None => [] end = []).
  { unfold no_carried_body in Hb. destruct (ir_internal i) as [it|]; [|reflexivity].
    destruct (in_body it); [reflexivity|discriminate Hb]. }
  rewrite Hbody. destruct (od_keys (ir_params i)); cbn [bind]; rewrite Ha; reflexivity.
Qed.

Lemma forall_folded_ok : forall i,
    forallb param_ok_C02 (ir_params i) = true -> return_ok_C02 (ir_returns i) = true ->
    Forall (fun kv => gparam_ok_C02 (snd kv) = true) (ir_params i ++ ret_entry i).
Proof.
  intros i Hp Hr. apply Forall_app. split.
  - apply Forall_forall. intros [n g] Hin. rewrite forallb_forall in Hp. specialize (Hp _ Hin).
    unfold param_ok_C02 in Hp. exact Hp.
  - unfold ret_entry, return_ok_C02 in *. destruct (ir_returns i) as [| |r]; try constructor; [|constructor].
    apply andb_true_iff in Hr. destruct Hr as [Hr _]. exact Hr.
Qed.

Lemma filter_attr_stmts : forall xs, filter (fun s => negb (is_assignment s)) (map attr_stmt xs ++ []) = [].
Proof. induction xs as [|x xs IH]; [reflexivity|exact IH]. Qed.

(* inside guard_C02_ast: the emitter succeeds, the parser succeeds on what it emitted and returns this description:
   name, type and summary of the docstring's, the parameters and the return entry in the closed form norm_params_C02 /
   norm_returns_C02 of the input, no carried body *)
Theorem C02_ast_full : forall pt i cn bs ds ww text d it ww',
    guard_C02_ast i = true -> doc_agrees i d = true ->
    exists s,
      emit_class pt i false cn bs ds ww (Ok text) = Ok (s, i)
      /\ parse_class (Some (Ok d)) (CStmt s) None it ww'
         = Ok (mkIR (ir_name d) (ir_type d) (ir_doc d) (norm_params_C02 (ir_params i)) (norm_returns_C02 (ir_returns i))
                    (Some (mkInternal [] (Has cn) (Has (L "cls"))))).
Proof.
  intros pt i cn bs ds ww text d it ww' Hg Hda.
  destruct (guard_C02_ast_inv i Hg) as [Hdom [Hup [Hpok [Hrok Hbody]]]].
  destruct (C02_domain_facts i Hdom) as [Hnd [Hrt Hstar]].
  destruct (undoc_split _ Hup) as [P [U [Hps [HP HU]]]].
  pose proof (forall_folded_ok i Hpok Hrok) as Hall.
  destruct (map_outcome_attrs pt _ Hall) as [xs [Hxs HF]].
  rewrite <- (fold_returns_params i Hrt) in Hxs.
  pose proof (emit_class_ok pt i cn bs ds ww text _ Hbody Hxs) as Hemit.
  pose proof (Forall2_attr_ok _ _ HF) as Hok.
  (* the attribute records, split as the parameters are *)
  rewrite Hps in HF. apply Forall2_app_inv_l in HF. destruct HF as [xsPU [xsR [HFPU [HFR Hsplit]]]].
  apply Forall2_app_inv_l in HFPU. destruct HFPU as [xsP [xsU [HFP [HFU HsplitPU]]]].
  subst xs xsPU. rewrite <- app_assoc in *.
  destruct (parse_emitted_params i d P U xsP xsU xsR [] Hnd Hrt Hps HP HU Hda
              (Forall2_attr_names _ _ HFP) (Forall2_attr_names _ _ HFU) (Forall2_attr_names _ _ HFR) Hok eq_refl)
    as [D0 [Dr [H0 [H1 Hloop]]]].
  (* the final map *)
  rewrite Hps, forallb_app in Hpok. apply andb_true_iff in Hpok. destruct Hpok as [HpokP HpokU].
  assert (Hset : set_names_and_types (zipupd xsP D0 ++ map fresh xsU) it ww' = Ok (norm_params_C02 (ir_params i))).
  { unfold set_names_and_types. rewrite pa_mapM_app.
    rewrite Hps, map_app, forallb_app in Hstar. apply andb_true_iff in Hstar. destruct Hstar as [HstarP HstarU].
    rewrite (pa_mapM_documented it ww' P D0 xsP H0 HFP HpokP HP HstarP). cbn [bind].
    rewrite (pa_mapM_undocumented it ww' U xsU HFU HpokU HU HstarU). cbn [bind].
    rewrite <- norm_params_app, <- Hps. rewrite od_of_pairs_id; [reflexivity|].
    unfold keys. rewrite norm_params_keys. exact Hnd. }
  (* the return entry *)
  assert (Hret : ret_upd xsR (match Dr with (_, g) :: _ => Has g | [] => FNone end) = norm_returns_C02 (ir_returns i)).
  { unfold ret_entry in HFR, H1. unfold norm_returns_C02, return_ok_C02 in *.
    destruct (ir_returns i) as [| |r]; cbn [filter] in H1.
    - inversion HFR; subst. apply same_params_nil_r in H1. subst Dr. reflexivity.
    - inversion HFR; subst. apply same_params_nil_r in H1. subst Dr. reflexivity.
    - inversion HFR as [|kv x l xs' [_ [_ [Hxt Hxd]]] HFR']; subst. inversion HFR'; subst. cbn [snd] in Hxt, Hxd.
      apply andb_true_iff in Hrok. destruct Hrok as [Hrg _].
      destruct (param_ok_inv return_type_key r Hrg) as [t [Et [_ [Hprose _]]]].
      rewrite Et in Hxt. inversion Hxt as [Htx]. cbn [ret_upd]. unfold norm_param_C02. rewrite Et, <- Htx, Hxd.
      destruct (documented (return_type_key, r)) eqn:Edoc.
      + apply same_params_single in H1. destruct H1 as [g' [HDr Hsp]]. subst Dr.
        destruct (docf_ok_of_prose t r g' Hprose Hsp Edoc) as [_ Hdoceq]. rewrite Hdoceq. reflexivity.
      + apply same_params_nil_r in H1. subst Dr. unfold prose_fld, prose_fld_of. unfold documented in Edoc. cbn [snd] in Edoc.
        destruct (prose_of r); [discriminate Edoc|]. reflexivity. }
  eexists. split; [exact Hemit|].
  rewrite parse_class_on_emitted, Hloop. cbn [bind fst snd]. rewrite Hset. cbn [bind].
  rewrite Hret, filter_attr_stmts. reflexivity.
Qed.

Lemma norm_C02_strict : forall i i',
    forallb param_ok_C02 (ir_params i) = true -> return_ok_C02 (ir_returns i) = true ->
    ir_params i' = norm_params_C02 (ir_params i) -> ir_returns i' = norm_returns_C02 (ir_returns i) ->
    same_interface_strict (zero_default_norm i) i' = true.
Proof.
  intros i i' Hpok Hrok Hp Hr. unfold same_interface_strict, zero_default_norm. cbn [ir_params ir_returns]. rewrite Hp, Hr.
  apply andb_true_iff. split.
  - apply same_params_strict_norm. apply Forall_forall. intros [n g] Hin. cbn [snd].
    rewrite forallb_forall in Hpok. apply gparam_ok_scalar_default. exact (Hpok _ Hin).
  - unfold same_returns, norm_returns_C02, return_ok_C02 in *. destruct (ir_returns i) as [| |r]; try reflexivity.
    cbn [fget]. apply same_param_strict_norm. apply andb_true_iff in Hrok. destruct Hrok as [Hrg _].
    apply gparam_ok_scalar_default. exact Hrg.
Qed.

Theorem C02_ast_partial_lemma : forall pt i cn bs ds ww text d it ww',
    guard_C02_ast i = true -> doc_agrees i d = true ->
    exists s i',
      emit_class pt i false cn bs ds ww (Ok text) = Ok (s, i)
      /\ parse_class (Some (Ok d)) (CStmt s) None it ww' = Ok i'
      /\ ir_params i' = norm_params_C02 (ir_params i)
      /\ ir_returns i' = norm_returns_C02 (ir_returns i)
      /\ same_interface_strict (zero_default_norm i) i' = true.
Proof.
  intros pt i cn bs ds ww text d it ww' Hg Hda.
  destruct (C02_ast_full pt i cn bs ds ww text d it ww' Hg Hda) as [s [Hemit Hparse]].
  destruct (guard_C02_ast_inv i Hg) as [_ [_ [Hpok [Hrok _]]]].
  exists s. eexists. split; [exact Hemit|]. split; [exact Hparse|]. split; [reflexivity|]. split; [reflexivity|].
  apply norm_C02_strict; try assumption; reflexivity.
Qed.

Definition w2 (n : str) (g : gparam) : ir := mkIR FNone (Has (L "static")) (Has (L "Doc.")) [(n, g)] FNone None.
Definition PG (doc t : str) (d : option dval) : gparam := mkG (Has doc) (Has t) d.

Definition w2_untyped := w2 (L "x") (mkG (Has (L "the x")) Missing (Some (DV (VInt 5)))).
Definition w2_none_scalar := w2 (L "x") (PG (L "the x") (L "int") (Some (DV VNone))).
Definition w2_quoted := w2 (L "x") (PG (L "the x") (L "str") (Some (DV (VStr (L "'a'"))))).
Definition w2_empty := w2 (L "x") (PG (L "the x") (L "Optional[str]") (Some (DV (VStr [])))).
Definition w2_nonstr := w2 (L "x") (PG (L "the x") (L "Optional[str]") (Some (DV (VInt 5)))).
Definition w2_reordered :=
  mkIR FNone (Has (L "static")) (Has (L "Doc."))
       [(L "a", mkG Missing (Has (L "int")) None); (L "b", PG (L "the b") (L "int") None)] FNone None.
Definition w2_ret_untyped :=
  mkIR FNone (Has (L "static")) (Has (L "Doc.")) [(L "x", PG (L "the x") (L "int") None)]
       (Has (mkG (Has (L "the result")) Missing None)) None.
Definition w2_optional := w2 (L "x") (PG (L "Optional thing") (L "int") None).
Definition w2_noncanon := w2 (L "x") (PG (L "the x") (L "Optional[ int]") None).
Definition w2_mismatch := w2 (L "x") (PG (L "the x") (L "float") (Some (DV (VInt 0)))).
Definition w2_negzero := w2 (L "x") (PG (L "the x") (L "float") (Some (DV (VFloat (L "-0.0"))))).

Definition o2 := mkO02 false false.
Definition fails2 (w : ir) : bool := negb (C02_ast_holds_b [] w (doc_ir_of w) (L "Doc.") false false false).

Lemma same_params_prose_self : forall l,
    forallb documented l = true ->
    same_params same_prose l (map (fun kv => (fst kv, mkG (prose_fld_of (snd kv)) Missing None)) l) = true.
Proof.
  induction l as [|[n g] l IH]; intros H; [reflexivity|]. cbn [forallb] in H. apply andb_true_iff in H. destruct H as [_ Hl].
  cbn [map same_params fst snd]. rewrite str_eqb_refl, (IH Hl). cbn [andb]. rewrite andb_true_r.
  unfold same_prose. change (prose_fld_of g) with (prose_fld g). rewrite prose_of_prose_fld. apply opt_str_eqb_refl.
Qed.

Lemma forallb_filter_self : forall {A} (f : A -> bool) l, forallb f (filter f l) = true.
Proof.
  intros A f l. induction l as [|x l IH]; [reflexivity|]. cbn [filter]. destruct (f x) eqn:E; [|exact IH].
  cbn [forallb]. rewrite E, IH. reflexivity.
Qed.

Theorem doc_agrees_doc_ir_of : forall i, doc_agrees i (doc_ir_of i) = true.
Proof.
  intros i. unfold doc_agrees, doc_ir_of. cbn [ir_params ir_returns]. rewrite andb_true_r.
  apply same_params_prose_self. apply forallb_filter_self.
Qed.

(* one witness per finding class of finding_class_C02 that is visible at the AST level: the classifier names the
   class, the IR is in the domain, and the composition fails on it *)
Definition c02_witnesses : list (c02_class * ir) :=
  [(K2_untyped, w2_untyped); (K2_none_under_scalar, w2_none_scalar); (K2_str_default_quoted, w2_quoted);
   (K2_empty_str_default, w2_empty); (K2_nonstr_default_under_str_type, w2_nonstr);
   (K2_undocumented_reordered, w2_reordered); (K2_return_untyped, w2_ret_untyped);
   (K2_prose_starts_optional, w2_optional); (K2_type_not_canonical, w2_noncanon);
   (K2_default_type_mismatch, w2_mismatch)].

Definition c02_witness_ok (kw : c02_class * ir) : bool :=
  match finding_class_C02 o2 (snd kw) with
  | Some k => str_eqb (c02_class_name k) (c02_class_name (fst kw))
  | None => false
  end && C02_domain (snd kw) && negb (guard_C02_ast (snd kw)) && fails2 (snd kw).

Theorem C02_witnesses_lemma : forallb c02_witness_ok c02_witnesses = true.
Proof. vm_compute. reflexivity. Qed.

Lemma C02_statement_holds_b : forall pt i text ww it ww',
    C02_ast_statement -> C02_domain i = true -> C02_ast_holds_b pt i (doc_ir_of i) text ww it ww' = true.
Proof.
  intros pt i text ww it ww' H Hd.
  destruct (H pt i (L "ConfigClass") [L "object"] [] ww text (doc_ir_of i) it ww' Hd (doc_agrees_doc_ir_of i))
    as [s [i0 [i' [He [Hp Hs]]]]].
  unfold C02_ast_holds_b, emit_class_default. rewrite He, Hp. exact Hs.
Qed.

(* the statement at full strength is false of the faithful model: x: int = None comes back as 0 (the second witness) *)
Theorem C02_refuted_lemma : ~ C02_ast_statement.
Proof.
  intros H. pose proof (C02_statement_holds_b [] w2_none_scalar (L "Doc.") false false false H eq_refl) as Hb.
  pose proof C02_witnesses_lemma as W. rewrite forallb_forall in W.
  specialize (W (K2_none_under_scalar, w2_none_scalar) (or_intror (or_introl eq_refl))).
  unfold c02_witness_ok in W. apply andb_true_iff in W. destruct W as [_ W].
  unfold fails2 in W. cbn [snd] in W. rewrite Hb in W. discriminate W.
Qed.

(* a float default of -0.0 is replaced by 0.0 (a falsy default gives way to the zero value of
   the type), and finding_class_C02 does not name it *)
Theorem C02_negative_zero_unclassified :
  finding_class_C02 o2 w2_negzero = None /\ C02_domain w2_negzero = true
  /\ guard_C02_ast w2_negzero = false /\ fails2 w2_negzero = true.
Proof. vm_compute. repeat split; reflexivity. Qed.

(* non-vacuity: an IR with every shape of parameter the theorem covers *)
Definition w2_ok : ir :=
  mkIR FNone (Has (L "static")) (Has (L "Doc."))
    [(L "a", PG (L "first.") (L "int") None);
     (L "b", PG (L "second") (L "Optional[str]") (Some (DV (VStr (L "mnist")))));
     (L "c", PG (L "third") (L "str") (Some (DV (VStr []))));
     (L "d", PG (L "4") (L "float") (Some (DV (VFloat (L "0.0")))));
     (L "e", PG (L "5") (L "List[int]") (Some (DV (VInt 0))));
     (L "f", PG (L "6") (L "Literal['a', 'b']") (Some (DV (VStr (L "a")))));
     (L "g", PG (L "7") (L "Optional[int]") (Some (DV (VStr NoneStr))));
     (L "h", PG (L "8") (L "Union[int, float]") (Some (DV VNone)));
     (L "k", PG (L "9") (L "bool") (Some (DV (VBool false))));
     (L "l", PG (L "10") (L "np.ndarray") None);
     (L "m", PG (L "Optional thing") (L "Optional[int]") (Some (DV (VInt (-5)))));
     (L "kwargs", PG (L "more") (L "Optional[dict]") (Some (DV (VStr NoneStr))));
     (L "u", mkG Missing (Has (L "str")) None);
     (L "v", mkG Missing (Has (L "Tuple[int, str]")) None)]
    (Has (PG (L "the result") (L "Optional[float]") None)) None.

Lemma same_param_strict_weaken : forall a b, same_param_strict a b = true -> same_param a b = true.
Proof.
  intros a b H. unfold same_param_strict in H. unfold same_param.
  apply andb_true_iff in H. destruct H as [H Hd]. rewrite H. cbn [andb].
  unfold default_same in Hd. unfold default_ok.
  destruct (g_default a) as [v|], (g_default b) as [w|]; try discriminate Hd; [exact Hd|reflexivity].
Qed.

Lemma same_params_strict_weaken : forall a b,
    same_params same_param_strict a b = true -> same_params same_param a b = true.
Proof.
  induction a as [|[n1 p1] a IH]; intros [|[n2 p2] b] H; cbn [same_params] in *; try reflexivity; try discriminate H.
  apply andb_true_iff in H. destruct H as [H Hr]. apply andb_true_iff in H. destruct H as [Hn Hp].
  rewrite Hn, (same_param_strict_weaken _ _ Hp), (IH _ Hr). reflexivity.
Qed.

Lemma same_interface_strict_weaken : forall a b, same_interface_strict a b = true -> same_interface a b = true.
Proof.
  intros a b H. unfold same_interface_strict in H. unfold same_interface.
  apply andb_true_iff in H. destruct H as [Hp Hr]. rewrite (same_params_strict_weaken _ _ Hp). cbn [andb].
  unfold same_returns in *. destruct (fget (ir_returns a)) as [x|], (fget (ir_returns b)) as [y|]; try exact Hr.
  apply same_param_strict_weaken. exact Hr.
Qed.

(* the guarded codec in the words of the property: same interface as the zero-normalised input (strictly, hence
   also in the sense of the oracles' relation), with the closed form *)
Theorem C02_partial_lemma : forall pt i cn bs ds ww text d it ww',
    guard_C02_ast i = true -> doc_agrees i d = true ->
    exists s i',
      emit_class pt i false cn bs ds ww (Ok text) = Ok (s, i)
      /\ parse_class (Some (Ok d)) (CStmt s) None it ww' = Ok i'
      /\ ir_params i' = norm_params_C02 (ir_params i)
      /\ ir_returns i' = norm_returns_C02 (ir_returns i)
      /\ same_interface_strict (zero_default_norm i) i' = true
      /\ same_interface (zero_default_norm i) i' = true
      /\ same_interface i i' = true.
Proof.
  intros pt i cn bs ds ww text d it ww' Hg Hda.
  destruct (C02_ast_partial_lemma pt i cn bs ds ww text d it ww' Hg Hda) as [s [i' [He [Hp [H1 [H2 H3]]]]]].
  exists s, i'. repeat split; try assumption.
  - apply same_interface_strict_weaken. exact H3.
  - apply same_interface_norm_strict. exact H3.
Qed.

Lemma C02_guard_holds_b : forall pt i text ww it ww',
    guard_C02_ast i = true -> C02_ast_holds_b pt i (doc_ir_of i) text ww it ww' = true.
Proof.
  intros pt i text ww it ww' Hg.
  destruct (C02_partial_lemma pt i (L "ConfigClass") [L "object"] [] ww text (doc_ir_of i) it ww' Hg (doc_agrees_doc_ir_of i))
    as [s [i' [He [Hp [_ [_ [_ [Hs _]]]]]]]].
  unfold C02_ast_holds_b, emit_class_default. rewrite He, Hp. exact Hs.
Qed.

Lemma guard_C02_word_wrap : forall e w w' i, guard_C02 (mkO02 e w) i = guard_C02 (mkO02 e w') i.
Proof. reflexivity. Qed.

Theorem C02_nonvacuous_lemma :
  guard_C02_ast w2_ok = true
  /\ guard_C02 (mkO02 false false) w2_ok = true /\ guard_C02 (mkO02 false true) w2_ok = true
  /\ C02_ast_holds_b [] w2_ok (doc_ir_of w2_ok) (L "Doc.") true false true = true.
Proof.
  assert (Ga : guard_C02_ast w2_ok = true) by (vm_compute; reflexivity).
  assert (G : guard_C02 (mkO02 false false) w2_ok = true) by (vm_compute; reflexivity).
  split; [exact Ga|]. split; [exact G|]. split; [rewrite (guard_C02_word_wrap false true false w2_ok); exact G|].
  exact (C02_guard_holds_b [] w2_ok (L "Doc.") true false true Ga).
Qed.
