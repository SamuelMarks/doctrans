(* C03DocLink: the docstring link of property C03 - discharges the hypothesis doc_agrees of the C03 theorems from the
   docstring models (DocEmit.to_docstring, C03DocLinkDefs.cleandoc = inspect.cleandoc, DocParse ReST parser).

   The parser side: a text that consists of leading blanks, an optional one-line summary and
   then the heads  :param n: d  [ :type n: ```t``` ]  ...  [ :returns: d  [ :rtype: ```t``` ] ], every head followed by
   ARBITRARY blanks (line breaks, indentation), is read back by parse.docstring as exactly those entries.  Built on the
   line lemmas of DocParseFacts (C01, ReST), which already quantify over the blanks after a value, and on
   DocParseFacts.parse_blocks.  Then doc_agrees of the IR read back, from guard_C03. *)
From Coq Require Import List Ascii Bool Arith ZArith Lia.
From Coq Require String.
Import String.StringSyntax.
From DT Require Import PyStr Sexp PyVal TyExpr PureUtils Defaults PyAst IR Extracted C17Spec DocParse C01Spec.
From DT Require Import PyStrFacts ListFacts PureUtilsFacts DefaultsFacts DocParseFacts.
From DT Require DocEmit C02Spec C06Spec C03Spec C07Facts ParseSigFacts C03Compose C03DocLinkEmit.
From DT Require Import C03DocLinkDefs.
Import ListNotations.

Definition cvar : str := L ":cvar".

Lemma contains_cons_false : forall t c r, contains t (c :: r) = false -> contains t r = false.
Proof.
  intros t c r H. destruct (contains t r) eqn:E; [|reflexivity].
  pose proof (contains_app_r t r [c] E) as H'. cbn [app] in H'. congruence.
Qed.

Lemma contains_junction : forall t a b,
    tok_lower t = true -> contains t a = false -> contains t b = false ->
    (forall c, head_c b = Some c -> islower_c c = false) -> contains t (a ++ b) = false.
Proof.
  intros t a b Hl Ha Hb Hhead. destruct (contains t (a ++ b)) eqn:E; [|reflexivity]. exfalso.
  destruct (contains_straddle t a b Ha Hb E) as [m [m' [Hm [Hm' [Et [_ Hsw]]]]]].
  destruct m as [|x m]; [contradiction|]. destruct m' as [|y m']; [contradiction|].
  rewrite Et in Hl. cbn [app tok_lower] in Hl. apply andb_true_iff in Hl. destruct Hl as [_ Hl].
  rewrite forallb_app in Hl. apply andb_true_iff in Hl. destruct Hl as [_ Hl].
  cbn [forallb] in Hl. apply andb_true_iff in Hl. destruct Hl as [Hy _].
  destruct b as [|c b]; [discriminate|]. cbn [startswith] in Hsw.
  apply andb_true_iff in Hsw. destruct Hsw as [Hyc _]. apply ascii_eqb_eq in Hyc. subst c.
  rewrite (Hhead y eq_refl) in Hy. discriminate.
Qed.

Definition cvar_ok (b : str * str) : Prop := contains cvar (blk b) = false /\ head_c (blk b) = Some colon.

Lemma cvar_in_tokens : In cvar Extracted.rest_tokens.
Proof. right. left. reflexivity. Qed.

Lemma cvar_ok_generic : forall tok body,
    contains cvar tok = false -> head_c tok = Some colon -> no_rest_token body = true ->
    (forall c, head_c body = Some c -> islower_c c = false) -> cvar_ok (tok, body).
Proof.
  intros tok body Ht Hh Hb Hhead. split.
  - unfold blk. cbn [fst snd]. apply contains_junction; [reflexivity|exact Ht| |exact Hhead].
    apply (proj1 (no_rest_token_spec body) Hb cvar cvar_in_tokens).
  - unfold blk. cbn [fst snd]. destruct tok; [discriminate|exact Hh].
Qed.

Lemma cvar_ok_head : forall tok c0 body,
    contains cvar tok = false -> head_c tok = Some colon -> islower_c c0 = false ->
    block_good (tok, c0 :: body) -> cvar_ok (tok, c0 :: body).
Proof.
  intros tok c0 body Ht Hh Hc0 [_ H]. apply cvar_ok_generic; [exact Ht|exact Hh|exact H|].
  intros c Hc. injection Hc as Hc. subst c. exact Hc0.
Qed.

Lemma cvar_ok_rblock : forall d ws, block_good (rblock d ws) -> cvar_ok (rblock d ws).
Proof.
  intros d ws [_ H]. cbn [rblock snd] in H. split.
  - unfold blk, rblock. cbn [fst snd].
    change (L ":return" ++ L "s" ++ colon :: sp :: d ++ ws) with (L ":returns" ++ colon :: sp :: d ++ ws).
    apply contains_junction; [reflexivity|reflexivity| |].
    + apply (contains_cons_false cvar (ch 115)).
      apply (proj1 (no_rest_token_spec _) H cvar cvar_in_tokens).
    + intros c Hc. cbn [head_c] in Hc. injection Hc as Hc. subst c. reflexivity.
  - reflexivity.
Qed.

Lemma cvar_free_text : forall blocks doc,
    contains cvar doc = false -> (forall b, In b blocks -> cvar_ok b) ->
    contains cvar (doc ++ concat (map blk blocks)) = false.
Proof.
  induction blocks as [|b bs IH]; intros doc Hdoc Hok.
  - cbn [map concat]. rewrite app_nil_r. exact Hdoc.
  - cbn [map concat]. rewrite app_assoc. apply IH.
    + destruct (Hok b (or_introl eq_refl)) as [Hc Hh].
      apply contains_junction; [reflexivity|exact Hdoc|exact Hc|].
      intros c Hc'. rewrite Hh in Hc'. injection Hc' as Hc'. subst c. reflexivity.
    + intros b' Hb'. apply Hok. right. exact Hb'.
Qed.


Definition opt_dict : str := L "Optional[dict]".

Lemma run_doc_line_kwargs : forall ww edd n d ws sdoc done rets cur,
    mem_c colon n = false -> endswith (L "kwargs") n = true -> (exists c r, n = c :: r /\ c <> ch 42) ->
    cur_ok cur n -> prose_facts d -> forallb isspace ws = true ->
    step ww edd (mkRS sdoc done rets cur) (dline n d ws)
    = Ok (mkRS sdoc (flushed done cur) rets (Some n, mkParam (Has d) (Has opt_dict) (Some (VStr NoneStr)))).
Proof.
  intros ww edd n d ws sdoc done rets cur Hc Hk Hstar Hcur Hd Hw. unfold step, dline.
  rewrite step_param_line; [|exact Hc|apply doc_fine_edge; apply Hd|exact Hw].
  rewrite (flush_for_other n sdoc done rets cur Hcur). cbn [bind fst snd empty_param p_typ p_default].
  rewrite (I_noannounce d _ _ edd (proj2 Hd)). cbn [bind].
  rewrite (S_kwargs n d Missing None ww Hk Hstar); [reflexivity|reflexivity|apply Hd].
Qed.

Lemma entry_kwargs_doc_ws : forall ww edd n d ws,
    mem_c colon n = false -> endswith (L "kwargs") n = true -> (exists c r, n = c :: r /\ c <> ch 42) ->
    prose_facts d -> forallb isspace ws = true ->
    entry_spec ww edd n [dline n d ws]
               (mkParam (Has d) (Has opt_dict) (Some (VStr NoneStr))) (mkParam (Has d) (Has opt_dict) (Some (VStr NoneStr))).
Proof.
  intros ww edd n d ws Hc Hk Hstar Hd Hw.
  pose proof (I_noannounce d (Has opt_dict) (Some (VStr NoneStr)) edd (proj2 Hd)) as HI.
  split; [|split; [|exact HI]].
  - intros sdoc done rets cur Hcur. cbn [fold_outcome].
    rewrite (run_doc_line_kwargs ww edd n d ws sdoc done rets cur Hc Hk Hstar Hcur Hd Hw). reflexivity.
  - eexists. split; [exact HI|].
    rewrite (S_kwargs n d (Has opt_dict) (Some (VStr NoneStr)) ww Hk Hstar); [reflexivity|reflexivity|apply Hd].
Qed.

Lemma entry_kwargs_ws : forall ww edd n d t ws1 ws2,
    mem_c colon n = false -> endswith (L "kwargs") n = true -> (exists c r, n = c :: r /\ c <> ch 42) ->
    prose_facts d -> typ_facts t -> str_eqb t (L "dict") = false ->
    forallb isspace ws1 = true -> forallb isspace ws2 = true ->
    entry_spec ww edd n [dline n d ws1; tline n t ws2]
               (mkParam (Has d) (Has t) (Some (VStr NoneStr))) (mkParam (Has d) (Has t) (Some (VStr NoneStr))).
Proof.
  intros ww edd n d t ws1 ws2 Hc Hk Hstar Hd Ht Hnd Hw1 Hw2.
  pose proof Ht as [Hbt [Hne [Hstar' Hopt]]].
  pose proof (I_noannounce d (Has t) (Some (VStr NoneStr)) edd (proj2 Hd)) as HI.
  assert (HS2 : set_name_and_type (Some n) (mkParam (Has d) (Has t) (Some (VStr NoneStr))) false ww
                = Ok (n, mkParam (Has d) (Has t) (Some (VStr NoneStr)))).
  { rewrite (S_kwargs n d (Has t) _ ww Hk Hstar).
    - cbn [kwargs_typ]. rewrite Hnd. reflexivity.
    - cbn [kwargs_typ]. rewrite Hnd. exact Hopt.
    - apply Hd. }
  split; [|split; [|exact HI]].
  - intros sdoc done rets cur Hcur. cbn [fold_outcome].
    rewrite (run_doc_line_kwargs ww edd n d ws1 sdoc done rets cur Hc Hk Hstar Hcur Hd Hw1). cbn [bind].
    unfold step, tline. rewrite step_type_line; [|exact Hc|exact Hbt|exact Hne|exact Hstar'|exact Hw2].
    rewrite flush_for_same. cbn [bind fst snd p_doc p_default]. rewrite HI. cbn [bind]. rewrite HS2. reflexivity.
  - eexists. split; [exact HI|exact HS2].
Qed.

(* what the parser makes of it *)
Definition dent_fin (e : dent) : param :=
  if endswith (L "kwargs") (dn e)
  then mkParam (Has (dd e)) (match dt e with Some t => Has t | None => Has opt_dict end) (Some (VStr NoneStr))
  else mkParam (Has (dd e)) (fld_of_opt (dt e)) None.

Definition dent_ok (e : dent) : Prop :=
  mem_c colon (dn e) = false /\ (exists c r, dn e = c :: r /\ c <> ch 42) /\ startswith (L "**") (dn e) = false
  /\ DocEmit.is_return (dn e) = false
  /\ prose_facts (dd e) /\ no_rest_token (dd e) = true
  /\ (forall t, dt e = Some t ->
        typ_facts t /\ no_rest_token t = true
        /\ (endswith (L "kwargs") (dn e) = true -> str_eqb t (L "dict") = false)).

Definition hw_text (hws : list (str * str)) : str := concat (map (fun hw => fst hw ++ snd hw) hws).

Definition ws_all (hws : list (str * str)) : Prop := forall hw, In hw hws -> forallb isspace (snd hw) = true.

Lemma rest_doc_line_param : forall n d ws, DocEmit.is_return n = false ->
    DocEmit.rest_doc_line n d ++ ws = blk (dblock n d ws).
Proof.
  intros n d ws H. unfold DocEmit.rest_doc_line, DocEmit.rest_key. rewrite H. apply doc_line_text.
Qed.

Lemma rest_typ_line_param : forall n t ws, DocEmit.is_return n = false ->
    DocEmit.rest_typ_line n t ++ ws = blk (tblock n t ws).
Proof.
  intros n t ws H. unfold DocEmit.rest_typ_line, DocEmit.rest_key_typ. rewrite H. apply typ_line_text.
Qed.

Definition dent_blocks (e : dent) (w1 w2 : str) : list (str * str) :=
  dblock (dn e) (dd e) w1 :: match dt e with Some t => [tblock (dn e) t w2] | None => [] end.

Lemma dent_spec : forall e w1 w2,
    dent_ok e -> forallb isspace w1 = true -> forallb isspace w2 = true ->
    entry_spec true true (dn e) (map as_line (dent_blocks e w1 w2)) (dent_fin e) (dent_fin e).
Proof.
  intros [[n d] ot] w1 w2 [Hcolon [Hstar [Hss [Hret [Hd [_ Ht]]]]]] Hw1 Hw2.
  unfold dent_blocks, dent_fin, dn, dd, dt in *. cbn [fst snd] in *.
  assert (Hgn : endswith (L "kwargs") n = false -> good_name n).
  { intros Hk. split; [exact Hcolon|split; [split; assumption|exact Hstar]]. }
  destruct (endswith (L "kwargs") n) eqn:Hk.
  - destruct ot as [t|]; [destruct (Ht t eq_refl) as [Htf [_ Hdict]]|].
    + apply entry_kwargs_ws; try assumption. apply Hdict. reflexivity.
    + apply entry_kwargs_doc_ws; assumption.
  - assert (Hd' : forall d', Some d = Some d' -> prose_facts d') by (intros d' E; injection E as E; subst d'; exact Hd).
    assert (Hs : Some d <> None \/ ot <> None) by (left; discriminate).
    destruct ot as [t|].
    + exact (entry_plain_lines true true n (Some d) (Some t) w1 w2 (Hgn eq_refl) Hd' (fun t E => proj1 (Ht t E)) Hs Hw1 Hw2).
    + exact (entry_plain_lines true true n (Some d) None w1 w2 (Hgn eq_refl) Hd' (fun t E => proj1 (Ht t E)) Hs Hw1 Hw2).
Qed.

Lemma dent_blocks_good : forall e w1 w2 b,
    dent_ok e -> forallb isspace w1 = true -> forallb isspace w2 = true -> In b (dent_blocks e w1 w2) ->
    block_good b /\ cvar_ok b.
Proof.
  intros e w1 w2 b [Hcolon [_ [_ [_ [_ [Hdtok Ht]]]]]] Hw1 Hw2 Hin.
  assert (Hg : block_good b).
  { destruct Hin as [E|Hin]; [subst b; apply dblock_good; assumption|].
    destruct (dt e) as [t|]; [|destruct Hin]. destruct Hin as [E|[]]. subst b.
    apply tblock_good; try assumption. apply (Ht t eq_refl). }
  split; [exact Hg|]. revert Hg.
  destruct Hin as [E|Hin]; [subst b; apply cvar_ok_head; reflexivity|].
  destruct (dt e) as [t|]; [|destruct Hin]. destruct Hin as [E|[]]. subst b. apply cvar_ok_head; reflexivity.
Qed.

Lemma dent_entry : forall e hws,
    dent_ok e -> map fst hws = dent_heads e -> ws_all hws ->
    exists en, e_name en = dn e /\ entry_ok true true en /\ e_fin en = dent_fin e
               /\ hw_text hws = concat (map blk (e_blocks en))
               /\ (forall b, In b (e_blocks en) -> cvar_ok b).
Proof.
  intros e hws Hok Hh Hws.
  assert (Hshape : exists w1 w2, forallb isspace w1 = true /\ forallb isspace w2 = true
                                 /\ hw_text hws = concat (map blk (dent_blocks e w1 w2))).
  { pose proof Hok as [_ [_ [_ [Hret _]]]].
    unfold dent_heads in Hh. unfold dent_blocks, hw_text. destruct (dt e) as [t|].
    - destruct hws as [|[h1 w1] [|[h2 w2] [|x hws]]]; try discriminate Hh. injection Hh as E1 E2. subst h1 h2.
      exists w1, w2. split; [apply (Hws _ (or_introl eq_refl))|].
      split; [apply (Hws _ (or_intror (or_introl eq_refl)))|].
      cbn [map concat fst snd]. rewrite !app_nil_r, (rest_doc_line_param _ _ w1 Hret), (rest_typ_line_param _ _ w2 Hret).
      reflexivity.
    - destruct hws as [|[h1 w1] [|x hws]]; try discriminate Hh. injection Hh as E1. subst h1.
      exists w1, []. split; [apply (Hws _ (or_introl eq_refl))|]. split; [reflexivity|].
      cbn [map concat fst snd]. rewrite !app_nil_r, (rest_doc_line_param _ _ w1 Hret). reflexivity. }
  destruct Hshape as [w1 [w2 [Hw1 [Hw2 Etxt]]]].
  exists (mkE (dn e) (dent_blocks e w1 w2) (dent_fin e) (dent_fin e)).
  split; [reflexivity|]. split; [|split; [reflexivity|split; [exact Etxt|]]].
  - split; [split; apply Hok|]. split; [apply dent_spec; assumption|]. split; [|discriminate].
    intros b Hb. apply (dent_blocks_good e w1 w2 b Hok Hw1 Hw2 Hb).
  - intros b Hb. apply (dent_blocks_good e w1 w2 b Hok Hw1 Hw2 Hb).
Qed.

Lemma hw_text_app : forall a b, hw_text (a ++ b) = hw_text a ++ hw_text b.
Proof. intros a b. unfold hw_text. rewrite map_app, concat_app. reflexivity. Qed.

Lemma dents_entries : forall docs hws rest_heads,
    Forall dent_ok docs -> map fst hws = concat (map dent_heads docs) ++ rest_heads -> ws_all hws ->
    exists es hws2,
      hw_text hws = concat (map blk (all_blocks es)) ++ hw_text hws2
      /\ map fst hws2 = rest_heads /\ ws_all hws2
      /\ map e_name es = map dn docs
      /\ (forall e, In e es -> entry_ok true true e)
      /\ map (fun e => (e_name e, e_fin e)) es = map (fun e => (dn e, dent_fin e)) docs
      /\ (forall b, In b (all_blocks es) -> cvar_ok b).
Proof.
  induction docs as [|e docs IH]; intros hws rest_heads Hok Hh Hws.
  - exists [], hws. cbn [map concat app] in *.
    split; [reflexivity|]. split; [exact Hh|]. split; [exact Hws|]. split; [reflexivity|].
    split; [intros e0 []|]. split; [reflexivity|]. intros b [].
  - inversion Hok as [|e' docs' He Hdocs]; subst.
    cbn [map concat] in Hh. rewrite <- app_assoc in Hh.
    destruct (map_eq_app _ _ _ _ Hh) as [h1 [h2 [E [E1 E2]]]]. subst hws.
    assert (Hws1 : ws_all h1) by (intros hw Hin; apply Hws; apply in_or_app; left; exact Hin).
    assert (Hws2 : ws_all h2) by (intros hw Hin; apply Hws; apply in_or_app; right; exact Hin).
    destruct (dent_entry e h1 He E1 Hws1) as [en [En [Hen [Efin [Etxt Hcv]]]]].
    destruct (IH h2 rest_heads Hdocs E2 Hws2) as [es [hws2 [H1 [H2 [H3 [H4 [H5 [H6 H8]]]]]]]].
    exists (en :: es), hws2.
    split; [|split; [exact H2|split; [exact H3|split; [|split; [|split]]]]].
    + rewrite hw_text_app, Etxt, H1. unfold all_blocks. cbn [map concat]. rewrite map_app, concat_app, <- app_assoc. reflexivity.
    + cbn [map]. rewrite En, H4. reflexivity.
    + intros e0 [E0|Hin]; [subst e0; exact Hen|apply H5; exact Hin].
    + cbn [map]. rewrite En, Efin, H6. reflexivity.
    + intros b Hb. unfold all_blocks in Hb. cbn [map concat] in Hb. apply in_app_or in Hb.
      destruct Hb as [Hb|Hb]; [apply Hcv; exact Hb|apply H8; exact Hb].
Qed.

Definition rent_fin (r : option rent) : option param :=
  match r with
  | None => None
  | Some (d, ot) => Some (mkParam (Has d) (fld_of_opt ot) None)
  end.

Definition rent_ok (r : option rent) : Prop :=
  match r with
  | None => True
  | Some (d, ot) =>
    edge_ok d /\ no_announce d = true /\ no_rest_token d = true
    /\ (forall t, ot = Some t -> mem_c bt t = false /\ startswith (L "**") t = false /\ no_rest_token t = true)
  end.

Lemma ret_doc_head : forall d, DocEmit.rest_doc_line (L "return_type") d = L ":" ++ L "returns" ++ L ": " ++ d.
Proof. reflexivity. Qed.

Lemma ret_typ_head : forall t, DocEmit.rest_typ_line (L "return_type") t = L ":" ++ L "rtype" ++ L ": ```" ++ t ++ L "```".
Proof. reflexivity. Qed.

Lemma rent_blocks : forall r hws,
    rent_ok r -> map fst hws = rent_heads r -> ws_all hws ->
    exists rblocks,
      hw_text hws = concat (map blk rblocks)
      /\ (forall ww st, rs_returns st = None ->
            fold_outcome (step ww true) (map as_line rblocks) st
            = Ok (mkRS (rs_doc st) (rs_params st) (rent_fin r) (rs_cur st)))
      /\ map_returns (fun p => interpolate_defaults p default_announces false true) (rent_fin r) = Ok (rent_fin r)
      /\ (forall b, In b rblocks -> block_good b)
      /\ (forall b, In b rblocks -> cvar_ok b)
      /\ (r <> None -> rblocks <> []).
Proof.
  intros [[d ot]|] hws Hok Hh Hws; cbn [rent_heads rent_fin] in *.
  - destruct Hok as [He [Hna [Hdtok Ht]]].
    assert (HI : interpolate_defaults (mkParam (Has d) (fld_of_opt ot) None) default_announces false true
                 = Ok (mkParam (Has d) (fld_of_opt ot) None)) by (apply I_noannounce; exact Hna).
    destruct ot as [t|].
    + destruct (Ht t eq_refl) as [Hbt [Hstar Httok]].
      destruct hws as [|[h1 w1] [|[h2 w2] [|x hws]]]; try discriminate.
      cbn [map fst] in Hh. injection Hh as E1 E2. subst h1 h2.
      pose proof (Hws _ (or_introl eq_refl)) as Hw1. cbn [snd] in Hw1.
      pose proof (Hws _ (or_intror (or_introl eq_refl))) as Hw2. cbn [snd] in Hw2.
      exists [rblock d w1; rtblock t w2].
      split; [|split; [|split; [|split; [|split]]]].
      * unfold hw_text. cbn [map concat fst snd]. rewrite !app_nil_r.
        rewrite ret_doc_head, ret_typ_head, ret_doc_line_text, ret_typ_line_text. reflexivity.
      * intros ww st Hst. destruct st as [sdoc ps rets cur]. cbn [rs_returns rs_doc rs_params rs_cur] in *. subst rets.
        cbn [map fold_outcome]. rewrite rblock_line. unfold step.
        rewrite step_returns_line; [|exact He|exact Hna|exact Hw1]. cbn [bind].
        rewrite rtblock_line. rewrite step_rtype_line; [|exact Hbt|exact Hstar|exact Hw2]. reflexivity.
      * cbn [map_returns]. rewrite HI. reflexivity.
      * intros b [Hb|[Hb|[]]]; subst b; [apply rblock_good|apply rtblock_good]; assumption.
      * intros b [Hb|[Hb|[]]]; subst b; [apply cvar_ok_rblock; apply rblock_good|apply cvar_ok_head; try reflexivity; apply rtblock_good]; assumption.
      * intros _. discriminate.
    + destruct hws as [|[h1 w1] [|x hws]]; try discriminate.
      cbn [map fst] in Hh. injection Hh as E1. subst h1.
      pose proof (Hws _ (or_introl eq_refl)) as Hw1. cbn [snd] in Hw1.
      exists [rblock d w1].
      split; [|split; [|split; [|split; [|split]]]].
      * unfold hw_text. cbn [map concat fst snd]. rewrite !app_nil_r.
        rewrite ret_doc_head, ret_doc_line_text. reflexivity.
      * intros ww st Hst. destruct st as [sdoc ps rets cur]. cbn [rs_returns rs_doc rs_params rs_cur] in *. subst rets.
        cbn [map fold_outcome]. rewrite rblock_line. unfold step.
        rewrite step_returns_line; [|exact He|exact Hna|exact Hw1]. reflexivity.
      * cbn [map_returns]. rewrite HI. reflexivity.
      * intros b [Hb|[]]; subst b; apply rblock_good; assumption.
      * intros b [Hb|[]]; subst b; apply cvar_ok_rblock; apply rblock_good; assumption.
      * intros _. discriminate.
  - destruct hws; [|discriminate]. exists [].
    split; [reflexivity|]. split; [intros ww st Hst; destruct st; cbn in *; subst; reflexivity|].
    split; [reflexivity|]. split; [intros b []|]. split; [intros b []|]. intros H. exfalso. apply H. reflexivity.
Qed.

(* parse.function: docstring(doc_str.replace(":cvar", ":param"), infer_type=False) *)
Definition parse_cleaned (c : str) : outcome ir :=
  parse_dot_docstring ng_unmodelled (replace cvar (L ":param") c) false true true.

Lemma isspace_no_token : forall ws, forallb isspace ws = true -> no_rest_token ws = true.
Proof. intros ws H. apply (no_rest_token_ws [] ws eq_refl H). Qed.

Lemma ws_lead_token_free : forall ws x, forallb isspace ws = true -> no_rest_token x = true ->
    no_rest_token (ws ++ x) = true.
Proof.
  intros ws x Hws Hx. apply no_rest_token_app_l; [apply isspace_no_token; exact Hws|exact Hx|].
  intros c Hc. apply isspace_not_lower. apply last_c_In in Hc.
  rewrite forallb_forall in Hws. apply Hws. exact Hc.
Qed.

(* the summary read back is the text before the first head, stripped *)
Theorem parse_heads_sum : forall sd docs r ws0 hws,
    (forall d0, sd = Some d0 -> no_rest_token d0 = true) ->
    Forall dent_ok docs -> NoDup (map dn docs) -> rent_ok r -> (docs <> [] \/ r <> None) ->
    map fst hws = heads sd docs r -> forallb isspace ws0 = true -> ws_all hws ->
    exists sdoc,
      parse_cleaned (text_of_heads ws0 hws)
      = Ok (ir_of_parts sdoc (map (fun e => (dn e, dent_fin e)) docs) (rent_fin r))
      /\ (forall d0, sd = Some d0 -> exists w0, sdoc = strip (ws0 ++ d0 ++ w0) /\ forallb isspace w0 = true).
Proof.
  intros sd docs r ws0 hws Hsd Hdocs Hnd Hr Hsome Hh Hws0 Hws.
  (* the summary part *)
  assert (Hsplit : exists docpart hwsB,
             text_of_heads ws0 hws = docpart ++ hw_text hwsB /\ no_rest_token docpart = true
             /\ map fst hwsB = concat (map dent_heads docs) ++ rent_heads r /\ ws_all hwsB
             /\ (forall d0, sd = Some d0 -> exists w0, docpart = ws0 ++ d0 ++ w0 /\ forallb isspace w0 = true)).
  { unfold heads in Hh. destruct sd as [d0|].
    - destruct hws as [|[h0 w0] hwsB]; [discriminate|]. cbn [map fst app] in Hh. injection Hh as E0 EB. subst h0.
      pose proof (Hws (d0, w0) (or_introl eq_refl)) as Hw0. cbn [snd] in Hw0.
      exists (ws0 ++ d0 ++ w0), hwsB. split; [|split; [|split; [|split]]].
      + unfold text_of_heads, hw_text. cbn [map concat fst snd]. rewrite <- !app_assoc. reflexivity.
      + apply ws_lead_token_free; [exact Hws0|]. apply no_rest_token_ws; [apply Hsd; reflexivity|exact Hw0].
      + exact EB.
      + intros hw Hin. apply Hws. right. exact Hin.
      + intros d0' E. injection E as E. subst d0'. exists w0. split; [reflexivity|exact Hw0].
    - exists ws0, hws. split; [reflexivity|]. split; [apply isspace_no_token; exact Hws0|]. split; [exact Hh|].
      split; [exact Hws|]. intros d0 E. discriminate E. }
  destruct Hsplit as [docpart [hwsB [Etext [Hdoctok [HhB [HwsB Hdocform]]]]]].
  destruct (dents_entries docs hwsB (rent_heads r) Hdocs HhB HwsB)
    as [es [hws2 [Etxt [Hh2 [Hws2 [Hnames [Hoks [Hfin Hescv]]]]]]]].
  destruct (rent_blocks r hws2 Hr Hh2 Hws2) as [rblocks [Ertxt [Hrrun [Hrpost [Hrgood [Hrcv Hrne]]]]]].
  exists (strip docpart). split.
  2:{ intros d0 E. destruct (Hdocform d0 E) as [w0 [Ed Hw0]]. exists w0. rewrite Ed. split; [reflexivity|exact Hw0]. }
  unfold parse_cleaned.
  rewrite Etext, Etxt, Ertxt, <- concat_app, <- map_app.
  (* the replace is the identity *)
  rewrite C03DocLinkEmit.replace_absent.
  2:{ apply cvar_free_text.
      - apply (proj1 (no_rest_token_spec docpart) Hdoctok cvar cvar_in_tokens).
      - intros b Hb. apply in_app_or in Hb. destruct Hb as [Hb|Hb]; [apply Hescv|apply Hrcv]; exact Hb. }
  rewrite <- Hfin. apply parse_blocks; try assumption.
  (* left: the names are distinct, the return blocks are read, there is some block *)
  - rewrite Hnames. exact Hnd.
  - apply Hrrun.
  - intros E. apply app_eq_nil in E. destruct E as [Ees Er].
    destruct Hsome as [H|H]; [|exact (Hrne H Er)].
    destruct es as [|e1 es1].
    + apply H. destruct docs; [reflexivity|discriminate].
    + destruct (Hoks e1 (or_introl eq_refl)) as [_ [_ [_ Hne1]]].
      unfold all_blocks in Ees. cbn [map concat] in Ees. apply app_eq_nil in Ees. apply Hne1. apply Ees.
Qed.

Theorem parse_heads : forall sd docs r ws0 hws,
    (forall d0, sd = Some d0 -> no_rest_token d0 = true) ->
    Forall dent_ok docs -> NoDup (map dn docs) -> rent_ok r -> (docs <> [] \/ r <> None) ->
    map fst hws = heads sd docs r -> forallb isspace ws0 = true -> ws_all hws ->
    exists sdoc,
      parse_cleaned (text_of_heads ws0 hws)
      = Ok (ir_of_parts sdoc (map (fun e => (dn e, dent_fin e)) docs) (rent_fin r)).
Proof.
  intros sd docs r ws0 hws Hsd Hdocs Hnd Hr Hsome Hh Hws0 Hws.
  destruct (parse_heads_sum sd docs r ws0 hws Hsd Hdocs Hnd Hr Hsome Hh Hws0 Hws) as [sdoc [H _]].
  exists sdoc. exact H.
Qed.

Definition dummy_g : gparam := mkG Missing Missing None.

Definition Gof (et : bool) (kv : str * gparam) : gparam :=
  match dent_of et kv with Some e => gparam_of_param (dent_fin e) | None => dummy_g end.

Lemma docs_of_cons : forall et kv ps,
    docs_of et (kv :: ps) = match dent_of et kv with Some e => e :: docs_of et ps | None => docs_of et ps end.
Proof. intros et kv ps. unfold docs_of. cbn [map DocEmit.cat_options]. destruct (dent_of et kv); reflexivity. Qed.

Lemma dent_of_prose : forall et kv, dent_of et kv = None <-> C03Spec.has_prose (snd kv) = false.
Proof.
  intros et kv. unfold dent_of, C03Spec.has_prose. destruct (C03Spec.prose_of (snd kv)); split; intros H; try discriminate; reflexivity.
Qed.

Lemma dps_eq : forall et ps,
    map (fun e => (dn e, gparam_of_param (dent_fin e))) (docs_of et ps)
    = map (fun kv => (fst kv, Gof et kv)) (C03Spec.documented ps).
Proof.
  intros et ps. induction ps as [|kv ps IH]; [reflexivity|].
  rewrite docs_of_cons. unfold C03Spec.documented in *. cbn [filter].
  assert (HG : Gof et kv = match dent_of et kv with Some e => gparam_of_param (dent_fin e) | None => dummy_g end)
    by reflexivity.
  unfold C03Spec.has_prose. unfold dent_of in *.
  destruct (C03Spec.prose_of (snd kv)) as [d|] eqn:Ep.
  - cbn [map]. rewrite IH, HG. reflexivity.
  - exact IH.
Qed.

Lemma docs_names : forall et ps, map dn (docs_of et ps) = map fst (C03Spec.documented ps).
Proof.
  intros et ps. pose proof (f_equal (map fst) (dps_eq et ps)) as H. rewrite !map_map in H. cbn [fst] in H. exact H.
Qed.

Lemma od_get_map : forall (F : str * gparam -> gparam) l kv,
    NoDup (map fst l) -> In kv l -> od_get (fst kv) (map (fun kv => (fst kv, F kv)) l) = Some (F kv).
Proof.
  intros F l. induction l as [|x l IH]; intros kv Hnd Hin; [destruct Hin|].
  cbn [map od_get fst]. inversion Hnd as [|y l' Hnotin Hnd']; subst.
  destruct Hin as [E|Hin].
  - subst x. rewrite str_eqb_refl. reflexivity.
  - assert (Hne : str_eqb (fst kv) (fst x) = false).
    { apply str_eqb_neq. intros E. apply Hnotin. rewrite <- E. apply in_map. exact Hin. }
    rewrite Hne. apply IH; assumption.
Qed.

(* what doc_entry_agrees needs of a documented entry *)
Definition agree_facts (n : str) (g : gparam) : Prop :=
  forall d, C03Spec.prose_of g = Some d ->
    mem_c nl d = false /\ edge_ok d /\ g_typ g <> FNone
    /\ (endswith (L "kwargs") n = true -> g_typ g = Has opt_dict).

Lemma reflow_id : forall d, mem_c nl d = false -> edge_ok d -> C03Spec.reflow d = d.
Proof. intros d Hnl He. unfold C03Spec.reflow. apply (doc_norm_id true d Hnl He). Qed.

Lemma entry_agrees : forall et n g,
    agree_facts n g -> C03Spec.has_prose g = true ->
    C03Spec.doc_entry_agrees et n g (Gof et (n, g)) = true.
Proof.
  intros et n g Hf Hp. unfold C03Spec.has_prose in Hp.
  destruct (C03Spec.prose_of g) as [d|] eqn:Ep; [|discriminate].
  destruct (Hf d Ep) as [Hnl [He [Hty Hkw]]].
  unfold Gof, dent_of. cbn [fst snd]. rewrite Ep.
  unfold C03Spec.doc_entry_agrees, dent_fin, dn, dd, dt. cbn [fst snd]. rewrite Ep.
  unfold C03Spec.kwargs_name.
  destruct (endswith (L "kwargs") n) eqn:Hk.
  - cbn [gparam_of_param g_doc g_typ g_default p_doc p_typ p_default option_map].
    rewrite (reflow_id d Hnl He), str_eqb_refl. cbn [andb].
    rewrite (Hkw eq_refl). unfold emitted_typ. rewrite (Hkw eq_refl).
    destruct et; reflexivity.
  - cbn [gparam_of_param g_doc g_typ g_default p_doc p_typ p_default option_map].
    rewrite (reflow_id d Hnl He), str_eqb_refl. cbn [andb].
    unfold emitted_typ. destruct et.
    + destruct (g_typ g) as [| |t]; [reflexivity|contradiction|]. cbn [fld_of_opt C03Spec.fld_eqb].
      rewrite str_eqb_refl. reflexivity.
    + reflexivity.
Qed.

Lemma params_agree : forall et ps,
    NoDup (map fst ps) -> (forall kv, In kv ps -> agree_facts (fst kv) (snd kv)) ->
    C03Spec.doc_params_agree et ps (map (fun e => (dn e, gparam_of_param (dent_fin e))) (docs_of et ps)) = true.
Proof.
  intros et ps Hnd Hf. rewrite dps_eq. unfold C03Spec.doc_params_agree.
  assert (Hkeys : od_keys (map (fun kv => (fst kv, Gof et kv)) (C03Spec.documented ps)) = od_keys (C03Spec.documented ps)).
  { unfold od_keys. rewrite map_map. reflexivity. }
  rewrite Hkeys. rewrite C07Facts.list_eqb_str_refl. cbn [andb].
  assert (Hnd' : NoDup (map fst (C03Spec.documented ps))) by (apply NoDup_map_filter; exact Hnd).
  apply forallb_forall. intros kv Hin.
  rewrite (od_get_map (Gof et) _ kv Hnd' Hin).
  unfold C03Spec.documented in Hin. apply filter_In in Hin. destruct Hin as [Hin Hp].
  destruct kv as [n g]. cbn [fst snd] in *. apply entry_agrees; [apply (Hf (n, g) Hin)|exact Hp].
Qed.

Lemma returns_agree : forall et rets,
    (forall g, rets = Has g -> agree_facts (L "return_type") g) ->
    C03Spec.doc_returns_agree et rets
      (match rent_fin (rent_of et rets) with None => FNone | Some rp => Has (gparam_of_param rp) end) = true.
Proof.
  intros et rets Hf. unfold C03Spec.doc_returns_agree, rent_of.
  destruct rets as [| |g]; cbn [fget rent_fin]; try reflexivity.
  unfold C03Spec.has_prose.
  destruct (C03Spec.prose_of g) as [d|] eqn:Ep; cbn [rent_fin]; [|reflexivity].
  destruct (Hf g eq_refl d Ep) as [Hnl [He [Hty _]]].
  unfold C03Spec.doc_entry_agrees. rewrite Ep.
  cbn [gparam_of_param g_doc g_typ g_default p_doc p_typ p_default option_map].
  rewrite (reflow_id d Hnl He), str_eqb_refl. cbn [andb].
  change (C03Spec.kwargs_name (L "return_type")) with false. cbv iota.
  unfold emitted_typ. destruct et.
  - destruct (g_typ g) as [| |t]; [reflexivity|contradiction|]. cbn [fld_of_opt C03Spec.fld_eqb].
    rewrite str_eqb_refl. reflexivity.
  - reflexivity.
Qed.

Lemma guard_C03_inv : forall o i, C03Spec.guard_C03 o i = true ->
    NoDup (map fst (ir_params i))
    /\ forallb C03Spec.name_in_domain (map fst (ir_params i)) = true
    /\ (forall kv, In kv (ir_params i) ->
          C03Spec.entry_in_domain (snd kv) = true /\ C03Spec.param_class o (fst kv) (snd kv) = None)
    /\ (match ir_returns i with
        | Has g => C03Spec.entry_in_domain g = true /\ C03Spec.return_class o g = None
        | FNone => True
        | Missing => False
        end)
    /\ (C03Spec.fo_edd o = true ->
          existsb (fun kv => C03Spec.sentence_written (fst kv) (snd kv)) (ir_params i) = false
          /\ match ir_returns i with Has g => C03Spec.sentence_written (L "return_type") g = false | _ => True end)
    /\ (forall d, ir_doc i = Has d -> C02Spec.prose_has_token d = false).
Proof.
  intros o i H. unfold C03Spec.guard_C03, C03Spec.C03_domain in H. rewrite !andb_true_iff in H.
  destruct H as [[[[[[[[_ _] Hdist] Hnames] _] Hents] Hret] _] Hfc].
  destruct (C03Spec.finding_class_C03 o i) as [k|] eqn:E; [discriminate Hfc|]. clear Hfc.
  unfold C03Spec.finding_class_C03 in E.
  destruct (C03Spec.fo_edd o && _) eqn:Esw; [discriminate E|].
  destruct (match ir_doc i with Has d => C02Spec.prose_has_token d | _ => false end) eqn:Etok; [discriminate E|].
  destruct (C03Spec.first_class (C03Spec.param_class o) (ir_params i)) as [k|] eqn:Efirst; [discriminate E|].
  split; [apply ParseSigFacts.strs_distinct_NoDup; exact Hdist|]. split; [exact Hnames|]. split; [|split; [|split]].
  - intros [n g] Hin. rewrite forallb_forall in Hents. split; [apply (Hents _ Hin)|apply (C03Compose.first_class_None _ _ Efirst n g Hin)].
  - destruct (ir_returns i) as [| |g]; [discriminate Hret|exact I|]. split; [exact Hret|exact E].
  - intros Hedd. rewrite Hedd in Esw. cbn [andb] in Esw. apply orb_false_iff in Esw.
    destruct (ir_returns i); [split; [apply Esw|exact I]|split; [apply Esw|exact I]|exact Esw].
  - intros d Ed. rewrite Ed in Etok. exact Etok.
Qed.

Lemma prose_class_clean : forall g d, C03Spec.prose_class g = None -> C03Spec.prose_of g = Some d ->
    mem_c nl d = false /\ edge_ok d.
Proof.
  intros g d Hc Ep. unfold C03Spec.prose_class in Hc. rewrite Ep in Hc.
  destruct (C03Spec.prose_safe d) eqn:Es; cbn [negb] in Hc; [|discriminate].
  unfold C03Spec.prose_safe, C02Spec.prose_unclean in Es.
  rewrite !andb_true_iff, !negb_true_iff, !orb_false_iff, negb_false_iff in Es.
  destruct Es as [[[[[Es Hnl] _] _] _] _]. apply str_eqb_eq in Es.
  split; [exact Hnl|]. apply strip_fix_edge_ok; [|exact Es].
  unfold C03Spec.prose_of, C02Spec.prose_of in Ep. destruct (g_doc g) as [| |[|c r]]; try discriminate.
  injection Ep as Ep. subst d. discriminate.
Qed.

Lemma entry_domain_typ : forall g, C03Spec.entry_in_domain g = true -> g_typ g <> FNone.
Proof.
  intros g H E. unfold C03Spec.entry_in_domain in H. rewrite E in H.
  rewrite andb_false_r in H. cbn [andb] in H. discriminate.
Qed.

Lemma agree_of_prose_class : forall n g,
    C03Spec.entry_in_domain g = true -> C03Spec.prose_class g = None ->
    (endswith (L "kwargs") n = true -> g_typ g = Has opt_dict) -> agree_facts n g.
Proof.
  intros n g Hdom Epc Hkw d Ep. destruct (prose_class_clean g d Epc Ep) as [Hnl He].
  split; [exact Hnl|]. split; [exact He|]. split; [apply entry_domain_typ; exact Hdom|exact Hkw].
Qed.

Lemma param_class_agree : forall o n g, C03Spec.entry_in_domain g = true -> C03Spec.param_class o n g = None ->
    agree_facts n g.
Proof.
  intros o n g Hdom Hc. unfold C03Spec.param_class, C03Spec.kwargs_name in Hc.
  destruct (endswith (L "kwargs") n) eqn:Hk.
  - unfold C03Spec.kwargs_class in Hc.
    destruct (negb (C03Spec.has_prose g)); [discriminate|].
    destruct (C03Spec.prose_class g) as [k|] eqn:Epc; [discriminate|].
    apply (agree_of_prose_class n g Hdom Epc). intros _.
    destruct (C03Spec.fld_eqb (g_typ g) (Has (L "Optional[dict]"))) eqn:Et; [|discriminate].
    destruct (g_typ g) as [| |t]; try discriminate. cbn [C03Spec.fld_eqb] in Et. apply str_eqb_eq in Et. subst t. reflexivity.
  - destruct (C03Spec.prose_class g) as [k|] eqn:Epc; [discriminate|].
    apply (agree_of_prose_class n g Hdom Epc). rewrite Hk. discriminate.
Qed.

Lemma return_class_agree : forall o g, C03Spec.entry_in_domain g = true -> C03Spec.return_class o g = None ->
    agree_facts (L "return_type") g.
Proof.
  intros o g Hdom Hc. unfold C03Spec.return_class in Hc.
  destruct (C03Spec.prose_class g) as [k|] eqn:Epc; [discriminate|].
  apply (agree_of_prose_class _ g Hdom Epc). discriminate.
Qed.

Lemma guard_agree_facts : forall o i, C03Spec.guard_C03 o i = true ->
    NoDup (map fst (ir_params i))
    /\ (forall kv, In kv (ir_params i) -> agree_facts (fst kv) (snd kv))
    /\ (forall g, ir_returns i = Has g -> agree_facts (L "return_type") g).
Proof.
  intros o i Hg. destruct (guard_C03_inv o i Hg) as [Hnd [_ [Hps [Hr _]]]].
  split; [exact Hnd|]. split.
  - intros kv Hin. destruct (Hps kv Hin) as [Hdom Hc]. apply (param_class_agree o _ _ Hdom Hc).
  - intros g Eg. rewrite Eg in Hr. destruct Hr as [Hdom Hc]. apply (return_class_agree o g Hdom Hc).
Qed.
