(* DocParseNGFacts: lemmas about the numpydoc / google docstring path (model/DocParseNG.v) and the
   specification of C01 for these two styles (model/C01SpecNG.v).  What this path shares with the ReST one
   (_set_name_and_type in two steps, string and dict facts) comes from DocParseFacts. *)
From Coq Require Import List Ascii Bool Arith ZArith Lia.
From Coq Require String.
Import String.StringSyntax.
From DT Require Import PyStrFacts SplitFacts PureUtilsFacts DefaultsFacts DocParseFacts.
From DT Require Import PyStr Sexp PyVal TyExpr PureUtils Defaults PyAst IR Extracted Run C17Spec
     DocParseNG C01SpecNG.
Import ListNotations.

Lemma contains_nil_l : forall s, contains [] s = true.
Proof. intros s. unfold contains. rewrite find_startswith; [reflexivity|apply startswith_nil]. Qed.

(* a character that does not occur in the pattern separates occurrences *)
Lemma contains_sep : forall tok a x b,
    mem_c x tok = false -> contains tok a = false -> contains tok b = false ->
    contains tok (a ++ x :: b) = false.
Proof.
  intros tok a x b Hx Ha Hb.
  destruct tok as [|y tok]; [rewrite contains_nil_l in Ha; discriminate|].
  apply contains_false_iff. apply contains_false_iff in Hb.
  induction a as [|c a IHa].
  - cbn [app]. rewrite find_cons. cbn [startswith].
    rewrite mem_c_cons in Hx. apply orb_false_iff in Hx. destruct Hx as [Hxy _].
    rewrite ascii_eqb_sym, Hxy. cbn [andb]. rewrite Hb. reflexivity.
  - apply contains_false_iff in Ha. rewrite find_cons in Ha.
    destruct (startswith (y :: tok) (c :: a)) eqn:Hsw; [discriminate|].
    destruct (find (y :: tok) a) as [k|] eqn:Hk; [discriminate|].
    change ((c :: a) ++ x :: b) with (c :: (a ++ x :: b)). rewrite find_cons.
    change (c :: (a ++ x :: b)) with ((c :: a) ++ x :: b).
    destruct (startswith (y :: tok) ((c :: a) ++ x :: b)) eqn:E.
    + exfalso. apply startswith_app_cases in E.
      destruct E as [E | [q [Hq1 [Hq2 Hq3]]]]; [congruence|].
      destruct q as [|z q]; [contradiction|].
      cbn [startswith] in Hq3. apply andb_true_iff in Hq3. destruct Hq3 as [Hz _].
      apply ascii_eqb_eq in Hz. subst z.
      assert (Hin : mem_c x (y :: tok) = true).
      { rewrite Hq1. rewrite mem_c_app. rewrite (mem_c_cons x x q), ascii_eqb_refl.
        cbn [orb]. apply orb_true_r. }
      congruence.
    + rewrite IHa; [reflexivity|]. apply contains_false_iff. exact Hk.
Qed.

Lemma contains_cons_notin : forall tok x b,
    mem_c x tok = false -> contains tok b = false -> contains tok (x :: b) = false.
Proof.
  intros tok x b Hx Hb.
  destruct tok as [|y tok]; [rewrite contains_nil_l in Hb; discriminate|].
  change (x :: b) with ([] ++ x :: b). apply contains_sep; [exact Hx| |exact Hb].
  reflexivity.
Qed.

Lemma contains_app_notin_l : forall tok a b,
    forallb (fun c => negb (mem_c c tok)) a = true -> contains tok b = false ->
    contains tok (a ++ b) = false.
Proof.
  intros tok a b Ha Hb. induction a as [|c a IHa]; [exact Hb|].
  cbn [forallb] in Ha. apply andb_true_iff in Ha. destruct Ha as [Hc Ha].
  apply negb_true_iff in Hc. cbn [app]. apply contains_cons_notin; [exact Hc|]. apply IHa. exact Ha.
Qed.

(* the flag is set by the first parameter that comes out of interpolation with a default *)
Lemma interpolate_force_sets : forall p req emit p' req',
    interpolate_force p req emit = Ok (p', req') ->
    req' = req || match p_default p' with None | Some VNone => false | Some _ => true end.
Proof.
  intros p req emit p' req' H. unfold interpolate_force in H.
  apply bind_Ok_inv in H. destruct H as [p1 [_ H]]. cbv zeta in H.
  injection H as H1 H2. subst p' req'. reflexivity.
Qed.

Lemma interpolate_force_monotone : forall p req emit p' req',
    interpolate_force p req emit = Ok (p', req') -> req = true -> req' = true.
Proof. intros p req emit p' req' H Hreq. rewrite (interpolate_force_sets _ _ _ _ _ H), Hreq. reflexivity. Qed.

(* once a default has been seen, the flag stays set through the rest of the parameter list *)
Lemma params_loop_monotone : forall style fl units req acc acc' req',
    params_loop style fl units req acc = Ok (acc', req') -> req = true -> req' = true.
Proof.
  intros style fl units. induction units as [|u r IH]; intros req acc acc' req' H Hreq.
  - cbn [params_loop] in H. injection H as _ H. congruence.
  - cbn [params_loop] in H. destruct (parse_unit style u) as [name p| | |e].
    + apply bind_Ok_inv in H. destruct H as [[p1 req1] [H1 H]].
      apply bind_Ok_inv in H. destruct H as [np [_ H]].
      apply (IH _ _ _ _ H). apply (interpolate_force_monotone _ _ _ _ _ H1 Hreq).
    + apply (IH _ _ _ _ H Hreq).
    + injection H as _ H. congruence.
    + discriminate.
Qed.

Lemma append_last_snoc : forall st u line, append_last (st ++ [u]) line = Some (st ++ [u ++ [line]]).
Proof.
  induction st as [|v st IH]; intros u line; [reflexivity|].
  cbn [app append_last]. destruct (st ++ [u]) as [|w r] eqn:E.
  - destruct st; discriminate.
  - rewrite <- E, IH. reflexivity.
Qed.

Lemma stack_lines_start : forall rt fi line tail st,
    indent_of line = fi ->
    stack_lines rt fi (line :: tail) st = stack_lines rt fi tail (st ++ [[line]]).
Proof. intros rt fi line tail st H. cbn [stack_lines]. rewrite H, Nat.eqb_refl. reflexivity. Qed.

Lemma stack_lines_cont : forall rt fi line tail st u,
    fi < indent_of line ->
    stack_lines rt fi (line :: tail) (st ++ [u]) = stack_lines rt fi tail (st ++ [u ++ [line]]).
Proof.
  intros rt fi line tail st u H. cbn [stack_lines].
  destruct (Nat.eqb_spec (indent_of line) fi) as [E|_]; [lia|].
  destruct (Nat.ltb_spec (indent_of line) fi) as [E|_]; [lia|].
  rewrite append_last_snoc. reflexivity.
Qed.

(* a deeper line with nothing on the stack: IndexError *)
Lemma stack_lines_cont_empty : forall rt fi line tail,
    fi < indent_of line -> stack_lines rt fi (line :: tail) [] = Err IndexError.
Proof.
  intros rt fi line tail H. cbn [stack_lines].
  destruct (Nat.eqb_spec (indent_of line) fi) as [E|_]; [lia|].
  destruct (Nat.ltb_spec (indent_of line) fi) as [E|_]; [lia|]. reflexivity.
Qed.

(* a shallower line ends the scan: the stack goes to scanned[namespace], the rest to the look-aheads *)
Lemma stack_lines_break : forall rt fi line tail st,
    indent_of line < fi ->
    stack_lines rt fi (line :: tail) st = Ok ([], Some (st, lookahead rt tail)).
Proof.
  intros rt fi line tail st H. cbn [stack_lines].
  destruct (Nat.eqb_spec (indent_of line) fi) as [E|_]; [lia|].
  destruct (Nat.ltb_spec (indent_of line) fi) as [_|E]; [reflexivity|lia].
Qed.

Lemma stack_lines_conts : forall rt fi cs tail st u,
    Forall (fun l => fi < indent_of l) cs ->
    stack_lines rt fi (cs ++ tail) (st ++ [u]) = stack_lines rt fi tail (st ++ [u ++ cs]).
Proof.
  intros rt fi cs. induction cs as [|c cs IH]; intros tail st u H.
  - rewrite app_nil_r. reflexivity.
  - inversion H as [|c' cs' Hc Hcs]; subst. cbn [app].
    rewrite stack_lines_cont; [|exact Hc]. rewrite IH; [|exact Hcs].
    rewrite <- app_assoc. reflexivity.
Qed.

(* a unit: a head line at first_indent followed by deeper lines *)
Definition is_unit (fi : nat) (u : list str) : Prop :=
  match u with
  | [] => False
  | h :: cs => indent_of h = fi /\ Forall (fun l => fi < indent_of l) cs
  end.

(* text that is a sequence of units is stacked into exactly those units, for any
   number of units, whatever follows *)
Lemma stack_lines_units : forall rt fi us tail st,
    Forall (is_unit fi) us ->
    stack_lines rt fi (concat us ++ tail) st = stack_lines rt fi tail (st ++ us).
Proof.
  intros rt fi us. induction us as [|u us IH]; intros tail st H.
  - rewrite app_nil_r. reflexivity.
  - inversion H as [|u' us' Hu Hus]; subst.
    destruct u as [|h cs]; [contradiction|]. destruct Hu as [Hh Hcs].
    cbn [concat]. rewrite <- !app_assoc. cbn [app].
    rewrite stack_lines_start; [|exact Hh].
    rewrite stack_lines_conts; [|exact Hcs]. cbn [app].
    rewrite IH; [|exact Hus]. rewrite <- app_assoc. reflexivity.
Qed.

Corollary stack_lines_units_end : forall rt fi us,
    Forall (is_unit fi) us -> stack_lines rt fi (concat us) [] = Ok (us, None).
Proof.
  intros rt fi us H. rewrite <- (app_nil_r (concat us)). rewrite stack_lines_units; [|exact H].
  reflexivity.
Qed.

Corollary stack_lines_units_break : forall rt fi us line tail,
    Forall (is_unit fi) us -> indent_of line < fi ->
    stack_lines rt fi (concat us ++ line :: tail) [] = Ok ([], Some (us, lookahead rt tail)).
Proof.
  intros rt fi us line tail H Hl. rewrite stack_lines_units; [|exact H].
  apply stack_lines_break. exact Hl.
Qed.

Lemma skipn_app_succ : forall (a : str) c b, skipn (List.length a + 1) (a ++ c :: b) = b.
Proof.
  intros a c b. rewrite <- skipn_add. rewrite skipn_app_exact. reflexivity.
Qed.

Lemma partition_char : forall c a b, mem_c c a = false -> partition [c] (a ++ c :: b) = (a, [c], b).
Proof.
  intros c a b H. unfold partition. rewrite (find_char_first c a b H).
  rewrite firstn_app_exact. cbn [List.length]. rewrite skipn_app_succ. reflexivity.
Qed.

Lemma rstrip_snoc_space : forall s, rstrip (s ++ [sp]) = rstrip s.
Proof.
  intros s. unfold rstrip, rstrip_by. rewrite rev_app_distr. cbn [rev app dropwhile].
  change (isspace sp) with true. cbn iota. reflexivity.
Qed.

Lemma lstrip_cons_space : forall s, lstrip (sp :: s) = lstrip s.
Proof. intros s. unfold lstrip, lstrip_by. cbn [dropwhile]. change (isspace sp) with true. reflexivity. Qed.

Lemma rstrip_snoc_nonspace : forall s c, isspace c = false -> rstrip (s ++ [c]) = s ++ [c].
Proof.
  intros s c H. unfold rstrip, rstrip_by. rewrite rev_app_distr. cbn [rev app dropwhile].
  rewrite H. cbn [rev]. rewrite rev_involutive. reflexivity.
Qed.

Lemma is_empty_app_r : forall {A} (a b : list A), b <> [] -> is_empty (a ++ b) = false.
Proof. intros A a [|x b] H; [contradiction|]. destruct a; reflexivity. Qed.

Lemma lstrip_tab_app : forall d, lstrip (tab ++ d) = lstrip d.
Proof. intros d. reflexivity. Qed.

Lemma parse_numpydoc_param : forall name typ doc,
    name <> [] -> mem_c (ch 58) name = false -> rstrip name = name ->
    typ <> [] -> lstrip typ = typ -> lstrip doc = doc ->
    parse_numpydoc [name ++ L " : " ++ typ; tab ++ doc]
    = PSome name (mkParam (Has doc) (Has typ) None).
Proof.
  intros name typ doc Hne Hcolon Hrs Htne Hls Hld.
  unfold parse_numpydoc.
  change (name ++ L " : " ++ typ) with (name ++ [sp] ++ ch 58 :: sp :: typ).
  rewrite app_assoc. rewrite partition_char.
  2:{ rewrite mem_c_app, Hcolon. reflexivity. }
  rewrite is_empty_app_r; [|discriminate]. cbn [is_empty].
  rewrite rstrip_snoc_space, Hrs. rewrite lstrip_cons_space, Hls.
  cbn [map join]. rewrite lstrip_tab_app, Hld. reflexivity.
Qed.

Lemma parse_numpydoc_param_nodoc : forall name typ,
    name <> [] -> mem_c (ch 58) name = false -> rstrip name = name ->
    typ <> [] -> lstrip typ = typ ->
    parse_numpydoc [name ++ L " : " ++ typ] = PSome name (mkParam (Has []) (Has typ) None).
Proof.
  intros name typ Hne Hcolon Hrs Htne Hls.
  unfold parse_numpydoc.
  change (name ++ L " : " ++ typ) with (name ++ [sp] ++ ch 58 :: sp :: typ).
  rewrite app_assoc. rewrite partition_char.
  2:{ rewrite mem_c_app, Hcolon. reflexivity. }
  rewrite is_empty_app_r; [|discriminate]. cbn [is_empty].
  rewrite rstrip_snoc_space, Hrs. rewrite lstrip_cons_space, Hls. reflexivity.
Qed.

(* numpydoc: the blank units that the emitter's trailing newlines produce are dropped *)
Lemma parse_numpydoc_blank : parse_numpydoc [[]] = PNone.
Proof. reflexivity. Qed.

Definition head_nonspace (s : str) : Prop := forall c, head_c s = Some c -> isspace c = false.
Definition last_nonspace (s : str) : Prop := forall c, last_c s = Some c -> isspace c = false.

Lemma lstrip_app_head : forall a b, a <> [] -> head_nonspace a -> lstrip (a ++ b) = a ++ b.
Proof.
  intros a b Hne Hh. unfold lstrip. apply lstrip_by_id. intros c Hc. apply Hh.
  destruct a as [|x a]; [contradiction|exact Hc].
Qed.

Lemma lstrip_id_head : forall a, head_nonspace a -> lstrip a = a.
Proof. intros a Hh. unfold lstrip. apply lstrip_by_id. exact Hh. Qed.

Lemma rstrip_id_last : forall a, last_nonspace a -> rstrip a = a.
Proof. intros a Hl. unfold rstrip. apply rstrip_by_id. exact Hl. Qed.

Lemma strip_id : forall a, head_nonspace a -> last_nonspace a -> strip a = a.
Proof. intros a Hh Hl. unfold strip. apply strip_by_id; assumption. Qed.

Lemma slice_inner : forall (t : str) a b,
    slice (a :: t ++ [b]) 1 (List.length (a :: t ++ [b]) - 1) = t.
Proof.
  intros t a b. unfold slice. cbn [List.length skipn]. rewrite app_length. cbn [List.length].
  replace (S (List.length t + 1) - 1 - 1) with (List.length t) by lia.
  apply firstn_app_exact.
Qed.

Lemma parse_google_param : forall name typ doc,
    name <> [] -> head_nonspace name -> last_nonspace name ->
    mem_c (ch 58) name = false -> mem_c (ch 40) name = false ->
    typ <> [] -> mem_c (ch 58) typ = false -> contains (L " or ") typ = false ->
    head_nonspace doc -> last_nonspace doc ->
    Nat.ltb 3 (List.length doc) && startswith [ch 123] doc && endswith [ch 125] doc = false ->
    parse_google [L "  " ++ name ++ L " (" ++ typ ++ L "): " ++ doc]
    = PSome name (mkParam (Has doc) (Has typ) None).
Proof.
  intros name typ doc Hne Hh Hl Hc58 Hc40 Htne Ht58 Hor Hdh Hdl Hbrace.
  set (pre := L "  " ++ name ++ [sp] ++ ch 40 :: typ ++ [ch 41]).
  assert (El0 : L "  " ++ name ++ L " (" ++ typ ++ L "): " ++ doc = pre ++ ch 58 :: sp :: doc).
  { unfold pre. cbn [L String.list_ascii_of_string app]. repeat rewrite <- app_assoc.
    cbn [app]. repeat rewrite <- app_assoc. reflexivity. }
  rewrite El0. unfold parse_google.
  assert (Hpre58 : mem_c (ch 58) pre = false).
  { unfold pre. rewrite !mem_c_app, Hc58. rewrite (mem_c_cons (ch 58) (ch 40) (typ ++ [ch 41])), mem_c_app, Ht58. reflexivity. }
  rewrite (find_char_first (ch 58) pre (sp :: doc) Hpre58).
  rewrite firstn_app_exact. rewrite skipn_app_succ.
  assert (Els : lstrip pre = (name ++ [sp]) ++ ch 40 :: typ ++ [ch 41]).
  { unfold pre. cbn [L String.list_ascii_of_string app]. rewrite !lstrip_cons_space.
    rewrite lstrip_app_head; [|exact Hne|exact Hh]. rewrite <- app_assoc. reflexivity. }
  rewrite Els. rewrite partition_char.
  2:{ rewrite mem_c_app, Hc40. reflexivity. }
  rewrite rstrip_snoc_space. rewrite (rstrip_id_last name Hl).
  change ([ch 40] ++ typ ++ [ch 41]) with ((ch 40 :: typ) ++ [ch 41]).
  rewrite rstrip_snoc_nonspace; [|reflexivity].
  rewrite is_empty_app_r; [|discriminate].
  assert (Hsw : startswith [ch 40] ((ch 40 :: typ) ++ [ch 41]) = true) by reflexivity.
  rewrite Hsw. rewrite endswith_app. cbn [andb negb].
  change ((ch 40 :: typ) ++ [ch 41]) with (ch 40 :: typ ++ [ch 41]).
  rewrite slice_inner. rewrite Hor.
  rewrite lstrip_cons_space. rewrite (lstrip_id_head doc Hdh). rewrite Hbrace.
  cbn [join]. rewrite (strip_id doc Hdh Hdl). reflexivity.
Qed.

Lemma first_class_None : forall {A} (f : A -> option c01ng_class) l,
    first_class f l = None -> Forall (fun x => f x = None) l.
Proof.
  intros A f l. induction l as [|x r IH]; intros H; [constructor|].
  cbn [first_class] in H. destruct (f x) eqn:E; [discriminate|].
  constructor; [exact E|apply IH; exact H].
Qed.

Definition free (t s : str) : Prop := contains t s = false.

(* what the proofs need of a ReST token / a google token; discharged by computation from the live tuples *)
Definition tok_props_rest (t : str) : bool :=
  negb (mem_c sp t) && negb (mem_c nl t) && negb (mem_c (ch 40) t) && negb (mem_c (ch 41) t)
  && mem_c (ch 58) t && Nat.ltb 1 (List.length t) && negb (endswith [ch 58] t).

Definition tok_props_google (t : str) : bool :=
  negb (mem_c sp t) && negb (mem_c nl t) && mem_c (ch 58) t && Nat.ltb 1 (List.length t).

Lemma rest_tokens_props : forallb tok_props_rest Extracted.rest_tokens = true.
Proof. vm_compute. reflexivity. Qed.

Lemma google_tokens_props : forallb tok_props_google Extracted.google_tokens = true.
Proof. vm_compute. reflexivity. Qed.

Lemma tok_props_rest_google : forall t, tok_props_rest t = true -> tok_props_google t = true.
Proof.
  intros t H. unfold tok_props_rest in H. unfold tok_props_google.
  repeat (apply andb_true_iff in H; destruct H as [H ?]).
  repeat (apply andb_true_iff; split); assumption.
Qed.

Lemma free_missing_char : forall t s c, mem_c c t = true -> mem_c c s = false -> free t s.
Proof.
  intros t s c Ht Hs. unfold free. destruct (contains t s) eqn:E; [|reflexivity].
  apply contains_true_iff in E. destruct E as [a [b E]]. subst s.
  rewrite !mem_c_app, Ht in Hs. rewrite orb_true_l, orb_true_r in Hs. discriminate.
Qed.

Lemma free_snoc : forall t a c, free t a -> last_c t <> Some c -> t <> [] -> free t (a ++ [c]).
Proof.
  intros t a c Ha Hl Hne. unfold free in *. apply contains_false_iff.
  apply find_None_no_occurrence. intros u v E.
  apply contains_false_iff in Ha. rewrite find_None_no_occurrence in Ha.
  destruct (last_c v) as [z|] eqn:Hv.
  - apply last_c_spec in Hv. destruct Hv as [v' Hv']. subst v.
    rewrite !app_assoc in E. apply app_inj_tail in E. destruct E as [E _].
    apply (Ha u v'). rewrite E. rewrite <- app_assoc. reflexivity.
  - apply last_c_nil_iff in Hv. subst v. rewrite app_nil_r in E.
    destruct (last_c t) as [z|] eqn:Ht.
    + apply last_c_spec in Ht. destruct Ht as [t' Ht']. subst t.
      rewrite app_assoc in E. apply app_inj_tail in E. destruct E as [_ E]. subst z.
      apply Hl. reflexivity.
    + apply last_c_nil_iff in Ht. contradiction.
Qed.

Lemma free_nil : forall t, t <> [] -> free t [].
Proof. intros [|x t] H; [contradiction|reflexivity]. Qed.

Lemma free_single : forall t c, 1 < List.length t -> free t [c].
Proof. intros t c H. apply contains_false_iff. apply find_None_too_long. exact H. Qed.

Lemma free_join_nl : forall t ls, mem_c nl t = false -> t <> [] ->
    Forall (free t) ls -> free t (join [nl] ls).
Proof.
  intros t ls Hnl Hne H. induction H as [|x r Hx Hr IH]; [apply free_nil; exact Hne|].
  destruct r as [|y r]; [exact Hx|].
  change (join [nl] (x :: y :: r)) with (x ++ nl :: join [nl] (y :: r)).
  apply contains_sep; [exact Hnl|exact Hx|exact IH].
Qed.

Lemma forallb_isspace_head : forall d, d <> [] -> head_nonspace d -> forallb isspace d = false.
Proof.
  intros [|c d] Hne Hh; [contradiction|]. cbn [forallb]. rewrite (Hh c eq_refl). reflexivity.
Qed.

Lemma indent_single_line : forall d, mem_c nl d = false -> d <> [] -> head_nonspace d ->
    indent tab d = tab ++ d.
Proof.
  intros d Hnl Hne Hh. unfold indent. rewrite (split_nl_one d Hnl). cbn [indent_lines].
  rewrite (forallb_isspace_head d Hne Hh). reflexivity.
Qed.

Section RestLikeToken.
  Variable t : str.
  Hypothesis Hsp : mem_c sp t = false.
  Hypothesis Hnl : mem_c nl t = false.
  Hypothesis Hlen : 1 < List.length t.

  Lemma t_nonnil : t <> [].
  Proof. intros E. rewrite E in Hlen. cbn in Hlen. lia. Qed.

  Lemma free_sp : forall a b, free t a -> free t b -> free t (a ++ sp :: b).
  Proof. intros a b Ha Hb. apply contains_sep; assumption. Qed.

  Lemma free_nl : forall a b, free t a -> free t b -> free t (a ++ nl :: b).
  Proof. intros a b Ha Hb. apply contains_sep; assumption. Qed.

  Lemma free_cons_sp : forall b, free t b -> free t (sp :: b).
  Proof. intros b Hb. apply contains_cons_notin; assumption. Qed.

  Lemma free_tab_app : forall b, free t b -> free t (tab ++ b).
  Proof. intros b Hb. unfold tab, Extracted.tab. cbn [L String.list_ascii_of_string app].
         repeat apply free_cons_sp. exact Hb. Qed.

  Lemma free_numpydoc_head : forall name typ, free t name -> free t typ ->
      free t (name ++ L " : " ++ typ).
  Proof.
    intros name typ Hn Ht.
    change (name ++ L " : " ++ typ) with (name ++ sp :: ([ch 58] ++ sp :: typ)).
    apply free_sp; [exact Hn|]. apply free_sp; [apply free_single; exact Hlen|exact Ht].
  Qed.

  Lemma free_numpydoc_param : forall name typ d, free t name -> free t typ -> free t d ->
      free t ((name ++ L " : " ++ typ) ++ nl :: tab ++ d).
  Proof.
    intros name typ d Hn Ht Hd. apply free_nl; [apply free_numpydoc_head; assumption|].
    apply free_tab_app. exact Hd.
  Qed.

  Lemma free_numpydoc_return : forall typ d, free t typ -> free t d -> free t (typ ++ nl :: tab ++ d).
  Proof. intros typ d Ht Hd. apply free_nl; [exact Ht|]. apply free_tab_app. exact Hd. Qed.

  Hypothesis H40 : mem_c (ch 40) t = false.
  Hypothesis H41 : mem_c (ch 41) t = false.
  Hypothesis Hlast : last_c t <> Some (ch 58).

  Lemma free_google_param : forall name typ d, free t name -> free t typ -> free t d ->
      free t (L "  " ++ name ++ L " (" ++ typ ++ L "): " ++ d).
  Proof.
    intros name typ d Hn Ht Hd.
    assert (E : L "  " ++ name ++ L " (" ++ typ ++ L "): " ++ d
                = sp :: sp :: (name ++ sp :: (ch 40 :: (typ ++ ch 41 :: ([ch 58] ++ sp :: d))))).
    { cbn [L String.list_ascii_of_string app]. repeat rewrite <- app_assoc. reflexivity. }
    rewrite E. apply free_cons_sp, free_cons_sp. apply free_sp; [exact Hn|].
    apply contains_cons_notin; [exact H40|].
    apply contains_sep; [exact H41|exact Ht|].
    apply free_sp; [apply free_single; exact Hlen|exact Hd].
  Qed.

  Lemma free_google_return : forall typ d, free t typ -> free t d ->
      free t ((L "  " ++ typ ++ L ":") ++ nl :: L "   " ++ d).
  Proof.
    intros typ d Ht Hd. apply free_nl.
    - cbn [L String.list_ascii_of_string app]. apply free_cons_sp, free_cons_sp.
      apply free_snoc; [exact Ht|exact Hlast|exact t_nonnil].
    - cbn [L String.list_ascii_of_string app]. repeat apply free_cons_sp. exact Hd.
  Qed.
End RestLikeToken.

Lemma set_default_doc_prefix : forall name p p' d,
    set_default_doc name p true = Ok p' -> p_doc p = Has d ->
    exists x, p_doc p' = Has (d ++ x) /\ p_typ p' = p_typ p.
Proof.
  intros name p p' d H Hd. unfold set_default_doc in H. rewrite Hd in H. cbv zeta in H.
  rewrite andb_false_r in H.
  assert (Hsame : Ok p = Ok p' -> exists x, p_doc p' = Has (d ++ x) /\ p_typ p' = p_typ p).
  { intros E. injection E as E. subst p'. exists []. rewrite app_nil_r. split; [exact Hd|reflexivity]. }
  destruct (p_default p) as [dflt|]; [|apply Hsame; exact H].
  destruct (negb (contains (L "Defaults") d || contains (L "defaults") d) && true); [|apply Hsame; exact H].
  set (dflt' := if pyval_eqb dflt (VStr NoneStr) then VNone else dflt) in *.
  destruct (negb (pyval_eqb dflt' VNone) || negb (endswith (L "kwargs") name)).
  - destruct (last_c d) as [c|]; [|discriminate].
    apply bind_Ok_inv in H. destruct H as [shown [_ H]]. injection H as H. subst p'.
    cbn [p_doc p_typ].
    destruct (ascii_eqb c (ch 46) || ascii_eqb c (ch 44)).
    + eexists. split; [reflexivity|reflexivity].
    + eexists. rewrite <- app_assoc. split; [reflexivity|reflexivity].
  - injection H as H. subst p'. cbn [p_doc p_typ]. exists []. rewrite app_nil_r. split; reflexivity.
Qed.

Lemma doc_with_default_prefix : forall name p d d',
    doc_with_default name p = Ok d' -> p_doc p = Has d -> exists x, d' = d ++ x.
Proof.
  intros name p d d' H Hd. unfold doc_with_default in H.
  apply bind_Ok_inv in H. destruct H as [p' [Hp' H]].
  destruct (set_default_doc_prefix name p p' d Hp' Hd) as [x [Hx _]].
  rewrite Hx in H. injection H as H. exists x. symmetry. exact H.
Qed.

Lemma filter_join_two : forall sep (a b : str), a <> [] -> b <> [] ->
    filter_join sep [Some a; Some b] = a ++ sep ++ b.
Proof.
  intros sep [|x a] [|y b] Ha Hb; try contradiction. reflexivity.
Qed.

Lemma filter_join_one : forall sep (a : str), a <> [] -> filter_join sep [Some a; None] = a.
Proof. intros sep [|x a] Ha; [contradiction|reflexivity]. Qed.

Lemma truthy_Has : forall (t : str), t <> [] -> truthy_fld (Has t) = Some t.
Proof. intros [|c t] H; [contradiction|reflexivity]. Qed.

Lemma app_nonnil_l : forall (a b : str), a <> [] -> a ++ b <> [].
Proof. intros [|x a] b H; [contradiction|discriminate]. Qed.

Lemma clean_ends_inv : forall s, clean_ends s = true -> head_nonspace s /\ last_nonspace s.
Proof.
  intros s H. unfold clean_ends in H. apply andb_true_iff in H. destruct H as [Hh Hl]. split.
  - intros c Hc. rewrite Hc in Hh. apply negb_true_iff. exact Hh.
  - intros c Hc. rewrite Hc in Hl. apply negb_true_iff. exact Hl.
Qed.

Lemma head_nonspace_app : forall a b, a <> [] -> head_nonspace a -> head_nonspace (a ++ b).
Proof. intros [|x a] b Hne H c Hc; [contradiction|]. apply H. exact Hc. Qed.

Lemma written_line_head : forall name p d d',
    doc_with_default name p = Ok d' -> p_doc p = Has d -> d <> [] -> head_nonspace d ->
    d' <> [] /\ head_nonspace d'.
Proof.
  intros name p d d' Hdd Hd Hne Hh. destruct (doc_with_default_prefix name p d d' Hdd Hd) as [x Hx]. subst d'.
  split; [apply app_nonnil_l; exact Hne|apply head_nonspace_app; assumption].
Qed.

Lemma emit_param_doc : forall style name p t d d',
    str_eqb name return_type_name = false ->
    p_typ p = Has t -> t <> [] -> p_doc p = Has d -> d <> [] -> doc_with_default name p = Ok d' ->
    head_nonspace d -> mem_c nl d' = false ->
    emit_param style name p
    = Ok (match style with
          | SGoogle => L "  " ++ name ++ L " (" ++ t ++ L "): " ++ d'
          | SNumpydoc => (name ++ L " : " ++ t) ++ nl :: tab ++ d'
          end).
Proof.
  intros style name p t d d' Hn Ht Htne Hd Hdne Hdd Hdh Hdnl.
  destruct (written_line_head name p d d' Hdd Hd Hdne Hdh) as [Hd'ne Hd'h].
  unfold emit_param. rewrite Hn, Ht, Hd, (truthy_Has t Htne), (truthy_Has d Hdne), Hdd.
  cbn [bind]. destruct style.
  - rewrite filter_join_two; [|cbn; discriminate|exact Hd'ne].
    cbn [app]. repeat rewrite <- app_assoc. reflexivity.
  - rewrite (indent_single_line d' Hdnl Hd'ne Hd'h). rewrite filter_join_two.
    + reflexivity.
    + intros E. apply app_eq_nil in E. destruct E as [_ E]. discriminate.
    + cbn. discriminate.
Qed.

Lemma emit_param_nodoc : forall style name p t,
    str_eqb name return_type_name = false ->
    p_typ p = Has t -> t <> [] -> p_doc p = Missing ->
    emit_param style name p
    = Ok (match style with
          | SGoogle => L "  " ++ name ++ L " (" ++ t ++ L "): "
          | SNumpydoc => name ++ L " : " ++ t
          end).
Proof.
  intros style name p t Hn Ht Htne Hd.
  unfold emit_param. rewrite Hn, Ht, Hd, (truthy_Has t Htne). cbn [truthy_fld bind]. destruct style.
  - rewrite filter_join_one; [reflexivity|cbn; discriminate].
  - rewrite filter_join_one; [reflexivity|].
    intros E. apply app_eq_nil in E. destruct E as [_ E]. discriminate.
Qed.

Lemma emit_param_return : forall style p t d d',
    p_typ p = Has t -> t <> [] -> p_doc p = Has d -> d <> [] ->
    doc_with_default return_type_name p = Ok d' -> head_nonspace d -> mem_c nl d' = false ->
    emit_param style return_type_name p
    = Ok (match style with
          | SGoogle => (L "  " ++ t ++ L ":") ++ nl :: L "   " ++ d'
          | SNumpydoc => t ++ nl :: tab ++ d'
          end).
Proof.
  intros style p t d d' Ht Htne Hd Hdne Hdd Hdh Hdnl.
  destruct (written_line_head _ p d d' Hdd Hd Hdne Hdh) as [Hd'ne Hd'h].
  unfold emit_param. rewrite str_eqb_refl, Ht, Hd, (truthy_Has t Htne), (truthy_Has d Hdne), Hdd.
  cbn [bind]. destruct style.
  - rewrite filter_join_two; [|cbn; discriminate|discriminate].
    cbn [app]. repeat rewrite <- app_assoc. reflexivity.
  - rewrite (indent_single_line d' Hdnl Hd'ne Hd'h). rewrite filter_join_two.
    + reflexivity.
    + exact Htne.
    + cbn. discriminate.
Qed.

Lemma fld_in_alphabet_inv : forall f, fld_in_alphabet f = true ->
    f = Missing \/ exists s, f = Has s /\ s <> [] /\ forallb in_alphabet s = true.
Proof.
  intros [| |s] H; [left; reflexivity|discriminate|].
  right. exists s. cbn [fld_in_alphabet] in H. apply andb_true_iff in H. destruct H as [Ha Hne].
  split; [reflexivity|]. split; [|exact Ha]. destruct s; [discriminate|discriminate].
Qed.

Lemma param_of_gparam_fields : forall g p, param_of_gparam g = Some p ->
    p_doc p = g_doc g /\ p_typ p = g_typ g /\ p_default p = sdefault g.
Proof.
  intros g p H. unfold param_of_gparam, sdefault in *.
  destruct (g_default g) as [[v|e|r]|]; try discriminate; injection H as H; subst p; repeat split.
Qed.

Lemma gparam_in_domain_param : forall g, gparam_in_domain g = true ->
    exists p, param_of_gparam g = Some p /\ p_doc p = g_doc g /\ p_typ p = g_typ g
              /\ p_default p = sdefault g.
Proof.
  intros g H. unfold gparam_in_domain in H. apply andb_true_iff in H. destruct H as [_ Hd].
  destruct (param_of_gparam g) as [p|] eqn:Hp.
  - exists p. split; [reflexivity|]. apply param_of_gparam_fields. exact Hp.
  - unfold param_of_gparam in Hp. destruct (g_default g) as [[v|e|r]|]; discriminate.
Qed.

Lemma entry_class_None_inv : forall style name g, entry_class style name g = None ->
    gparam_token_free g = true
    /\ exists t, fget (g_typ g) = Some t /\ type_shape_ok style t = true
       /\ match fget (g_doc g) with
          | None => writes_default name g = false
          | Some d =>
            prose_shape_ok style d = true /\ no_announce d = true
            /\ optional_prefix d && negb (startswith (L "Optional[") t) = false
            /\ (exists d', written_doc name g = Some d' /\ written_shape_ok style d' = true
                           /\ optional_prefix d' && negb (startswith (L "Optional[") t) = false)
            /\ (writes_default name g = true ->
                exists v nq, sdefault g = Some v /\ needs_quoting_ng (Some t) = Ok nq
                  /\ finding_class_C17 ADefaultsTo d v (Some t) = None
                  /\ (forall s, v = VStr s -> null_default v = false ->
                        unquote s = s
                        /\ (str_eqb name return_type_name = false -> kwargs_name name = false ->
                            code_quoted s = true -> contains [ch 91] t = true)))
          end.
Proof.
  intros style name g H. unfold entry_class in H.
  destruct (gparam_token_free g); cbn [negb] in H; [|discriminate]. split; [reflexivity|].
  destruct (fget (g_typ g)) as [t|]; [|discriminate]. exists t. split; [reflexivity|].
  destruct (type_shape_ok style t); cbn [negb] in H; [|discriminate]. split; [reflexivity|].
  destruct (fget (g_doc g)) as [d|]; [|destruct (writes_default name g); [discriminate|reflexivity]].
  destruct (prose_shape_ok style d); cbn [negb] in H; [|discriminate]. split; [reflexivity|].
  destruct (no_announce d); cbn [negb] in H; [|discriminate]. split; [reflexivity|].
  destruct (optional_prefix d && negb (startswith (L "Optional[") t)); [discriminate|]. split; [reflexivity|].
  cbv zeta in H.
  set (av := match written_doc name g with Some d' => _ | None => _ end) in H.
  (* however the default fares, the entry is in no class only if the written line is in none *)
  assert (Hav : av = None).
  { clearbody av. destruct av; [exfalso|reflexivity].
    destruct (writes_default name g); [|discriminate]. destruct (sdefault g) as [v|]; [|discriminate].
    destruct (match needs_quoting_ng (Some t) with Ok _ => false | Err _ => true end); [discriminate|].
    destruct (finding_class_C17 ADefaultsTo d v (Some t)); [discriminate|].
    destruct v; try discriminate.
    destruct (negb (str_eqb (unquote s) s) && negb (null_default (VStr s))); [discriminate|].
    destruct (negb (str_eqb name return_type_name) && negb (kwargs_name name) && code_quoted s
              && negb (null_default (VStr s)) && negb (contains [ch 91] t)); discriminate. }
  split.
  { unfold av in Hav. destruct (written_doc name g) as [d'|]; [|discriminate]. exists d'.
    destruct (written_shape_ok style d'); cbn [negb] in Hav; [|discriminate].
    destruct (optional_prefix d' && negb (startswith (L "Optional[") t)); [discriminate|]. repeat split. }
  intros Hw. rewrite Hw in H.
  destruct (sdefault g) as [v|] eqn:Hv; [|unfold writes_default in Hw; rewrite Hv in Hw; discriminate].
  destruct (needs_quoting_ng (Some t)) as [nq|e] eqn:Hnq; [|discriminate].
  destruct (finding_class_C17 ADefaultsTo d v (Some t)) eqn:Hc; [discriminate|].
  exists v, nq. split; [reflexivity|]. split; [reflexivity|]. split; [exact Hc|].
  intros s Es Hnull. subst v. rewrite Hnull in H. cbn [negb] in H. rewrite !andb_true_r in H.
  destruct (str_eqb (unquote s) s) eqn:Eu; cbn [negb] in H; [|discriminate].
  split; [apply str_eqb_eq; exact Eu|].
  intros Hnr Hkw Hcq. rewrite Hnr, Hkw, Hcq in H. cbn [negb andb] in H.
  destruct (contains [ch 91] t); [reflexivity|discriminate].
Qed.

(* the default of an entry whose sentence is written: inside the guard of C17, and what is asked of a str value *)
Definition default_facts (name : str) (p : param) (t d : str) : Prop :=
  exists v nq, p_default p = Some v /\ needs_quoting_ng (Some t) = Ok nq
    /\ negb (null_default v) || negb (endswith (L "kwargs") name) = true
    /\ guard_C17 ADefaultsTo d v (Some t) = true
    /\ (forall s, v = VStr s -> null_default v = false ->
          unquote s = s
          /\ (str_eqb name return_type_name = false -> kwargs_name name = false ->
              code_quoted s = true -> contains [ch 91] t = true)).

(* the prose of a guard entry: d in the IR, d' as written (d, then the default sentence if one is written) *)
Set Implicit Arguments.
Record written_prose (style : ngstyle) (name : str) (g : gparam) (p : param) (t d d' : str) : Prop := {
  wp_doc : p_doc p = Has d;
  wp_gdoc : g_doc g = Has d;
  wp_ne : d <> [];
  wp_clean : clean_ends d = true;
  wp_nl : mem_c nl d = false;
  wp_na : no_announce d = true;
  wp_tf : token_free d = true;
  wp_opt : optional_prefix d && negb (startswith (L "Optional[") t) = false;
  wp_line : doc_with_default name p = Ok d';
  wp_written : written_doc name g = Some d';
  wp_tf' : token_free d' = true;
  wp_nl' : mem_c nl d' = false;
  wp_clean' : clean_ends d' = true;
  wp_google' : style = SGoogle ->
               Nat.ltb 3 (List.length d') && startswith [ch 123] d' && endswith [ch 125] d' = false
               /\ endswith [ch 58] d' = false;
  wp_opt' : optional_prefix d' && negb (startswith (L "Optional[") t) = false;
  wp_ne' : d' <> [];
  wp_head' : head_nonspace d';
  wp_default : writes_default name g = true -> default_facts name p t d
}.
Unset Implicit Arguments.

(* what the guard gives about one entry: the dict p the emitter sees, the declared type t, and either no prose and
   no sentence to write, or the prose with the line written for it *)
Definition entry_facts (style : ngstyle) (name : str) (g : gparam) (p : param) (t : str) : Prop :=
  param_of_gparam g = Some p /\ p_typ p = Has t /\ g_typ g = Has t /\ t <> [] /\ token_free t = true
  /\ type_shape_ok style t = true /\ p_default p = sdefault g
  /\ ((p_doc p = Missing /\ g_doc g = Missing /\ writes_default name g = false /\ written_doc name g = None)
      \/ exists d d', written_prose style name g p t d d').

Lemma entry_facts_of_guard : forall style name g,
    gparam_in_domain g = true -> entry_class style name g = None ->
    exists p t, entry_facts style name g p t.
Proof.
  intros style name g Hdom Hcls.
  destruct (gparam_in_domain_param g Hdom) as [p [Hp [Hpd [Hpt Hpdef]]]].
  destruct (entry_class_None_inv style name g Hcls) as [Htf [t [Egt [Hts Hdoc]]]].
  unfold gparam_token_free in Htf. apply andb_true_iff in Htf. destruct Htf as [Htfd Htft].
  unfold gparam_in_domain in Hdom. apply andb_true_iff in Hdom. destruct Hdom as [Hdom _].
  apply andb_true_iff in Hdom. destruct Hdom as [Had Hat].
  destruct (fld_in_alphabet_inv _ Hat) as [Et | [t' [Et [Htne _]]]]; rewrite Et in Egt; [discriminate|].
  injection Egt as Egt. subst t'. rewrite Et in Htft. cbn [fld_all] in Htft.
  exists p, t. split; [exact Hp|]. split; [congruence|]. split; [exact Et|]. split; [exact Htne|].
  split; [exact Htft|]. split; [exact Hts|]. split; [exact Hpdef|].
  destruct (fld_in_alphabet_inv _ Had) as [Ed | [d [Ed [Hdne _]]]]; rewrite Ed in Hdoc; cbn [fget] in Hdoc.
  - left. split; [congruence|]. split; [exact Ed|]. split; [exact Hdoc|].
    unfold written_doc. rewrite Hp, Hpd, Ed. reflexivity.
  - right. destruct Hdoc as [Hps [Hna [Hopt [[d' [Hwd [Hws Hopt']]] Hdflt]]]].
    rewrite Ed in Htfd. cbn [fld_all] in Htfd.
    unfold prose_shape_ok in Hps. apply andb_true_iff in Hps. destruct Hps as [Hce Hnl].
    apply negb_true_iff in Hnl.
    assert (Hd : p_doc p = Has d) by congruence.
    assert (Hdd : doc_with_default name p = Ok d').
    { unfold written_doc in Hwd. rewrite Hp, Hd, (truthy_Has d Hdne) in Hwd.
      destruct (doc_with_default name p); [congruence|discriminate]. }
    destruct (clean_ends_inv d Hce) as [Hdh _].
    destruct (written_line_head name p d d' Hdd Hd Hdne Hdh) as [Hd'ne Hd'h].
    unfold written_shape_ok in Hws. apply andb_true_iff in Hws. destruct Hws as [Hws Hgoogle].
    apply andb_true_iff in Hws. destruct Hws as [Hws Hd'ce]. apply andb_true_iff in Hws. destruct Hws as [Hd'tf Hd'nl].
    apply negb_true_iff in Hd'nl.
    exists d, d'. split; try assumption.
    { intros E. subst style. apply andb_true_iff in Hgoogle. destruct Hgoogle as [Hb Hc].
      apply negb_true_iff in Hb. apply negb_true_iff in Hc. split; assumption. }
    intros Hw. destruct (Hdflt Hw) as [v [nq [Hv [Hnq [Hc17 Hstr]]]]].
    exists v, nq. split; [rewrite Hpdef; exact Hv|]. split; [exact Hnq|].
    split; [unfold writes_default in Hw; rewrite Hv in Hw; exact Hw|]. split; [|exact Hstr].
    unfold guard_C17, C17_domain. rewrite Hc17, Hna. destruct d; [contradiction|reflexivity].
Qed.

Lemma entry_scalar : forall style name g p t, entry_facts style name g p t -> scalar_param g = Ok p.
Proof. intros style name g p t [Hp _]. unfold scalar_param. rewrite Hp. reflexivity. Qed.

Lemma entry_emit : forall style name g p t,
    str_eqb name return_type_name = false -> entry_facts style name g p t ->
    emit_param style name p = Ok (join [nl] (unit_of_entry style name g)).
Proof.
  intros style name g p t Hnr [Hp [Ht [Hgt [Htne [_ [_ [_ Hdoc]]]]]]]. unfold unit_of_entry. rewrite Hgt. cbn [fget].
  destruct Hdoc as [[Hd [_ [_ Hwd]]] | [d [d' Hpr]]].
  - rewrite Hwd, (emit_param_nodoc style name p t Hnr Ht Htne Hd). destruct style; reflexivity.
  - destruct (clean_ends_inv d (wp_clean Hpr)) as [Hdh _].
    rewrite (wp_written Hpr),
      (emit_param_doc style name p t d d' Hnr Ht Htne (wp_doc Hpr) (wp_ne Hpr) (wp_line Hpr) Hdh (wp_nl' Hpr)).
    destruct style; reflexivity.
Qed.

Lemma is_ident_nonnil : forall s, is_ident s = true -> s <> [].
Proof. intros [|x s] H; [discriminate|discriminate]. Qed.

Lemma token_free_In : forall s t, token_free s = true -> In t all_tokens -> free t s.
Proof.
  intros s t H Hin. unfold token_free in H. rewrite forallb_forall in H.
  specialize (H t Hin). apply negb_true_iff in H. exact H.
Qed.

(* tokens foreign to a style: their presence would make the text be read as another style *)
Definition foreign_tokens (style : ngstyle) : list str :=
  match style with
  | SGoogle => Extracted.rest_tokens
  | SNumpydoc => Extracted.rest_tokens ++ Extracted.google_tokens
  end.

Lemma foreign_in_all : forall style t, In t (foreign_tokens style) -> In t all_tokens.
Proof.
  intros style t H. unfold all_tokens. destruct style; cbn [foreign_tokens] in H.
  - apply in_or_app. left. exact H.
  - apply in_app_or in H. destruct H as [H|H].
    + apply in_or_app. left. exact H.
    + apply in_or_app. right. apply in_or_app. left. exact H.
Qed.

Lemma foreign_tok_props : forall style tok, In tok (foreign_tokens style) ->
    mem_c sp tok = false /\ mem_c nl tok = false /\ mem_c (ch 58) tok = true /\ 1 < List.length tok.
Proof.
  intros style tok H.
  assert (Hg : tok_props_google tok = true).
  { pose proof rest_tokens_props as Hr. pose proof google_tokens_props as Hg. rewrite forallb_forall in Hr, Hg.
    assert (Hin : In tok Extracted.rest_tokens \/ In tok Extracted.google_tokens).
    { destruct style; cbn [foreign_tokens] in H; [left; exact H|apply in_app_or; exact H]. }
    destruct Hin as [Hin|Hin]; [apply tok_props_rest_google; apply Hr|apply Hg]; exact Hin. }
  unfold tok_props_google in Hg.
  apply andb_true_iff in Hg. destruct Hg as [Hg Hlen]. apply andb_true_iff in Hg. destruct Hg as [Hg H58].
  apply andb_true_iff in Hg. destruct Hg as [Hsp Hnl].
  apply negb_true_iff in Hsp. apply negb_true_iff in Hnl. apply Nat.ltb_lt in Hlen. repeat split; assumption.
Qed.

Lemma foreign_tok_props_rest : forall tok, In tok (foreign_tokens SGoogle) ->
    mem_c (ch 40) tok = false /\ mem_c (ch 41) tok = false /\ last_c tok <> Some (ch 58).
Proof.
  intros tok H. pose proof rest_tokens_props as Hr. rewrite forallb_forall in Hr.
  pose proof (Hr tok H) as Hp. unfold tok_props_rest in Hp.
  apply andb_true_iff in Hp. destruct Hp as [Hp Hlast]. apply andb_true_iff in Hp. destruct Hp as [Hp _].
  apply andb_true_iff in Hp. destruct Hp as [Hp _]. apply andb_true_iff in Hp. destruct Hp as [Hp H41].
  apply andb_true_iff in Hp. destruct Hp as [_ H40].
  apply negb_true_iff in H40. apply negb_true_iff in H41. apply negb_true_iff in Hlast.
  split; [exact H40|]. split; [exact H41|]. intros E. apply endswith_single in E. congruence.
Qed.

Lemma foreign_tok_nonnil : forall style tok, In tok (foreign_tokens style) -> tok <> [].
Proof.
  intros style tok H E. destruct (foreign_tok_props style tok H) as [_ [_ [_ Hlen]]]. subst tok. cbn in Hlen. lia.
Qed.

Lemma emit_param_line_free : forall style name g p t,
    str_eqb name return_type_name = false -> is_ident name = true ->
    entry_facts style name g p t ->
    exists line, emit_param style name p = Ok line
                 /\ forall tok, In tok (foreign_tokens style) -> free tok line.
Proof.
  intros style name g p t Hnr Hid [Hp [Ht [_ [Htne [Httf [_ [_ Hdoc]]]]]]].
  assert (Hparts : forall tok, In tok (foreign_tokens style) -> free tok name /\ free tok t).
  { intros tok Hin. destruct (foreign_tok_props style tok Hin) as [_ [_ [H58 _]]]. split.
    - apply (free_missing_char tok name (ch 58) H58). apply is_ident_no_char; [exact Hid|reflexivity].
    - apply token_free_In; [exact Httf|apply (foreign_in_all style); exact Hin]. }
  destruct Hdoc as [[Hd _] | [d [d' Hpr]]].
  - rewrite (emit_param_nodoc style name p t Hnr Ht Htne Hd). eexists. split; [reflexivity|].
    intros tok Hin. destruct (Hparts tok Hin) as [Hfn Hft].
    destruct (foreign_tok_props style tok Hin) as [Hsp [Hnl [_ Hlen]]].
    destruct style.
    + destruct (foreign_tok_props_rest tok Hin) as [H40 [H41 Hlast]].
      replace (L "  " ++ name ++ L " (" ++ t ++ L "): ") with (L "  " ++ name ++ L " (" ++ t ++ L "): " ++ [])
        by (rewrite app_nil_r; reflexivity).
      apply free_google_param; try assumption. apply free_nil. apply (foreign_tok_nonnil SGoogle tok Hin).
    + apply free_numpydoc_head; assumption.
  - destruct (clean_ends_inv d (wp_clean Hpr)) as [Hdh _].
    rewrite (emit_param_doc style name p t d d' Hnr Ht Htne (wp_doc Hpr) (wp_ne Hpr) (wp_line Hpr) Hdh (wp_nl' Hpr)).
    eexists. split; [reflexivity|].
    intros tok Hin. destruct (Hparts tok Hin) as [Hfn Hft].
    destruct (foreign_tok_props style tok Hin) as [Hsp [Hnl [_ Hlen]]].
    assert (Hfd : free tok d') by (apply token_free_In; [exact (wp_tf' Hpr)|apply (foreign_in_all style); exact Hin]).
    destruct style.
    + destruct (foreign_tok_props_rest tok Hin) as [H40 [H41 Hlast]]. apply free_google_param; assumption.
    + apply free_numpydoc_param; assumption.
Qed.

Definition returns_ok (style : ngstyle) (ps : list (str * gparam)) (r : fld gparam) : Prop :=
  match r with
  | Has g => gparam_token_free g = true
             /\ (exists t d, fget (g_typ g) = Some t /\ fget (g_doc g) = Some d)
             /\ entry_class style return_type_name g = None
             /\ existsb (fun np => writes_default (fst np) (snd np)) ps
                && negb (writes_default return_type_name g) = false
  | _ => True
  end.

Lemma finding_class_None_inv : forall style i,
    finding_class_C01_ng style i = None ->
    fld_all token_free (ir_doc i) = true /\ fld_all clean_ends (ir_doc i) = true
    /\ (style = SGoogle -> ir_params i <> [])
    /\ Forall (fun np => entry_class style (fst np) (snd np) = None
                         /\ kwargs_class (fst np) (snd np) = None) (ir_params i)
    /\ defaults_monotone false (ir_params i) = true
    /\ returns_ok style (ir_params i) (ir_returns i).
Proof.
  intros style i H. unfold finding_class_C01_ng in H. cbv zeta in H.
  destruct (fld_all token_free (ir_doc i)); cbn [negb] in H; [|discriminate].
  destruct (fld_all clean_ends (ir_doc i)); cbn [negb] in H; [|discriminate].
  split; [reflexivity|]. split; [reflexivity|].
  assert (Hmain :
            match first_class (fun np => match entry_class style (fst np) (snd np) with
                                         | Some k => Some k
                                         | None => kwargs_class (fst np) (snd np)
                                         end) (ir_params i) with
            | Some k => Some k
            | None =>
              if negb (defaults_monotone false (ir_params i)) then Some N_default_then_none
              else match ir_returns i with
                   | Has r =>
                     if negb (gparam_token_free r) then Some N_text_token
                     else match fget (g_typ r), fget (g_doc r) with
                          | Some _, Some _ =>
                            match entry_class style return_type_name r with
                            | Some k => Some k
                            | None => if existsb (fun np => writes_default (fst np) (snd np)) (ir_params i)
                                         && negb (writes_default return_type_name r)
                                      then Some N_return_after_default else None
                            end
                          | _, _ => Some N_return_partial
                          end
                   | _ => None
                   end
            end = None
            /\ (style = SGoogle -> ir_params i <> [])).
  { destruct style; [|split; [exact H|discriminate]].
    destruct (ir_params i) as [|np ps]; [destruct (ir_returns i); discriminate|].
    split; [exact H|]. intros _. discriminate. }
  clear H. destruct Hmain as [H Hne]. split; [exact Hne|].
  destruct (first_class _ (ir_params i)) eqn:Hfc; [discriminate|].
  apply first_class_None in Hfc.
  split.
  { eapply Forall_impl; [|exact Hfc]. intros np Hnp. cbv beta in Hnp.
    destruct (entry_class style (fst np) (snd np)); [discriminate|]. split; [reflexivity|exact Hnp]. }
  destruct (defaults_monotone false (ir_params i)); cbn [negb] in H; [|discriminate].
  split; [reflexivity|].
  unfold returns_ok. destruct (ir_returns i) as [| |r]; [exact I|exact I|].
  destruct (gparam_token_free r); cbn [negb] in H; [|discriminate].
  split; [reflexivity|].
  destruct (fget (g_typ r)) as [t|]; [|discriminate].
  destruct (fget (g_doc r)) as [d|]; [|discriminate].
  split; [exists t, d; split; reflexivity|].
  destruct (entry_class style return_type_name r); [discriminate|]. split; [reflexivity|].
  destruct (existsb _ (ir_params i) && negb (writes_default return_type_name r)); [discriminate|reflexivity].
Qed.

Lemma emit_return_line_free : forall style g p t d0,
    entry_facts style return_type_name g p t -> fget (g_doc g) = Some d0 ->
    exists line, emit_param style return_type_name p = Ok line
                 /\ forall tok, In tok (foreign_tokens style) -> free tok line.
Proof.
  intros style g p t d0 [Hp [Ht [_ [Htne [Httf [_ [_ Hdoc]]]]]]] Hd0.
  destruct Hdoc as [[_ [Hgd0 _]] | [d [d' Hpr]]]; [rewrite Hgd0 in Hd0; discriminate|].
  destruct (clean_ends_inv d (wp_clean Hpr)) as [Hdh _].
  rewrite (emit_param_return style p t d d' Ht Htne (wp_doc Hpr) (wp_ne Hpr) (wp_line Hpr) Hdh (wp_nl' Hpr)).
  eexists. split; [reflexivity|].
  intros tok Hin. destruct (foreign_tok_props style tok Hin) as [Hsp [Hnl [_ Hlen]]].
  assert (Hft : free tok t) by (apply token_free_In; [exact Httf|apply (foreign_in_all style); exact Hin]).
  assert (Hfd : free tok d') by (apply token_free_In; [exact (wp_tf' Hpr)|apply (foreign_in_all style); exact Hin]).
  destruct style.
  - destruct (foreign_tok_props_rest tok Hin) as [_ [_ Hlast]]. apply free_google_return; assumption.
  - apply free_numpydoc_return; assumption.
Qed.

Lemma map_o_exists : forall {A B} (f : A -> outcome B) (Q : B -> Prop) l,
    Forall (fun x => exists y, f x = Ok y /\ Q y) l ->
    exists l', map_o f l = Ok l' /\ Forall Q l' /\ List.length l' = List.length l.
Proof.
  intros A B f Q l H. induction H as [|x r [y [Hy Qy]] Hr [l' [Hl' [HQ Hlen]]]].
  - exists []. repeat split. constructor.
  - exists (y :: l'). cbn [map_o]. rewrite Hy. cbn [bind]. rewrite Hl'. cbn [bind].
    split; [reflexivity|]. split; [constructor; assumption|cbn; lia].
Qed.

Lemma section_tokens_foreign_free : forall style,
    forallb (fun tok => negb (contains tok (nth 0 (arg_tokens_of style) []))
                        && negb (contains tok (nth 0 (return_tokens_of style) [])))
            (foreign_tokens style) = true.
Proof. intros []; vm_compute; reflexivity. Qed.

Lemma in_domain_ng_inv : forall i, in_domain_ng i = true ->
    (exists d, ir_doc i = Has d /\ forallb in_alphabet d = true)
    /\ Forall (fun np => is_ident (fst np) = true /\ str_eqb (fst np) return_type_name = false
                         /\ gparam_in_domain (snd np) = true) (ir_params i)
    /\ uniq (map fst (ir_params i)) = true
    /\ (forall g, ir_returns i = Has g -> gparam_in_domain g = true).
Proof.
  intros i H. unfold in_domain_ng in H.
  apply andb_true_iff in H. destruct H as [H Hr].
  apply andb_true_iff in H. destruct H as [H Hu].
  apply andb_true_iff in H. destruct H as [Hd Hp].
  split. { destruct (ir_doc i) as [| |d]; try discriminate. exists d. split; [reflexivity|exact Hd]. }
  split.
  { apply Forall_forall. intros np Hin. rewrite forallb_forall in Hp. specialize (Hp np Hin).
    apply andb_true_iff in Hp. destruct Hp as [Hp Hg].
    apply andb_true_iff in Hp. destruct Hp as [Hid Hn]. apply negb_true_iff in Hn.
    repeat split; assumption. }
  split; [exact Hu|].
  intros g Hg. rewrite Hg in Hr. exact Hr.
Qed.

(* the forced-default side condition carried through the parameter list (cf. defaults_monotone) *)
Definition forced_ok (req : bool) (name : str) (g : gparam) : Prop :=
  req = true ->
  writes_default name g = true
  \/ (kwargs_name name = true /\ (exists v, sdefault g = Some v /\ null_default v = true)
      /\ match fget (g_typ g) with Some t => in_simple_types t = false | None => True end).

Definition entry_guard (style : ngstyle) (np : str * gparam) : Prop :=
  is_ident (fst np) = true /\ str_eqb (fst np) return_type_name = false
  /\ gparam_in_domain (snd np) = true
  /\ entry_class style (fst np) (snd np) = None /\ kwargs_class (fst np) (snd np) = None.

Fixpoint forced_all (req : bool) (ps : list (str * gparam)) : Prop :=
  match ps with
  | [] => True
  | (n, g) :: r => forced_ok req n g /\ forced_all (req || writes_default n g) r
  end.

Lemma defaults_monotone_forced : forall ps seen, defaults_monotone seen ps = true -> forced_all seen ps.
Proof.
  induction ps as [|[n g] r IH]; intros seen H; [exact I|].
  cbn [defaults_monotone] in H. cbv zeta in H. apply andb_true_iff in H. destruct H as [H Hr].
  cbn [forced_all]. split; [|apply IH; exact Hr].
  intros Hseen. subst seen. cbn [negb orb] in H.
  apply orb_true_iff in H. destruct H as [H|H]; [left; exact H|]. right.
  apply andb_true_iff in H. destruct H as [H Hsim].
  apply andb_true_iff in H. destruct H as [Hkw Hnull].
  split; [exact Hkw|]. split.
  - destruct (sdefault g) as [v|]; [|discriminate]. exists v. split; [reflexivity|exact Hnull].
  - destruct (fget (g_typ g)) as [t|]; [|exact I]. apply negb_true_iff in Hsim. exact Hsim.
Qed.

Lemma guard_C01_ng_inv : forall style i, guard_C01_ng style i = true ->
    exists doc,
      ir_doc i = Has doc /\ token_free doc = true /\ clean_ends doc = true /\ forallb in_alphabet doc = true
      /\ (style = SGoogle -> ir_params i <> [])
      /\ Forall (entry_guard style) (ir_params i) /\ forced_all false (ir_params i)
      /\ uniq (map fst (ir_params i)) = true
      /\ returns_ok style (ir_params i) (ir_returns i)
      /\ (forall g, ir_returns i = Has g -> gparam_in_domain g = true).
Proof.
  intros style i Hg. unfold guard_C01_ng in Hg. apply andb_true_iff in Hg. destruct Hg as [Hdom Hcls].
  destruct (finding_class_C01_ng style i) eqn:Hfc; [discriminate|]. clear Hcls.
  destruct (finding_class_None_inv style i Hfc) as [Hdtf [Hdce [Hgne [Hps [Hmono Hret]]]]].
  destruct (in_domain_ng_inv i Hdom) as [[doc [Hdoc Hda]] [Hpd [Hu Hrd]]].
  rewrite Hdoc in Hdtf, Hdce. cbn [fld_all] in Hdtf, Hdce.
  exists doc. repeat (split; [assumption|]). split; [|split; [apply defaults_monotone_forced; exact Hmono|]].
  - apply Forall_forall. intros np Hin. rewrite Forall_forall in Hps, Hpd.
    destruct (Hps np Hin) as [Hec Hkc]. destruct (Hpd np Hin) as [Hid [Hnr Hgd]].
    unfold entry_guard. repeat split; assumption.
  - repeat (split; [assumption|]). assumption.
Qed.

Lemma return_part_free : forall style ps r,
    returns_ok style ps r -> (forall g, r = Has g -> gparam_in_domain g = true) ->
    exists ret,
      match r with
      | Has g => do p <- scalar_param g;
                 do l <- emit_param style return_type_name p;
                 Ok (nl :: nth 0 (return_tokens_of style) [] ++ nl :: l)
      | _ => Ok []
      end = Ok ret
      /\ forall tok, In tok (foreign_tokens style) -> free tok ret.
Proof.
  intros style ps r Hret Hrd. destruct r as [| |g].
  1, 2: exists []; split; [reflexivity|]; intros tok Hin; apply free_nil; apply (foreign_tok_nonnil style tok Hin).
  cbn [returns_ok] in Hret. destruct Hret as [_ [[t0 [d0 [Ht0 Hd0]]] [Hec _]]].
  destruct (entry_facts_of_guard style return_type_name g (Hrd g eq_refl) Hec) as [p [t Hef]].
  rewrite (entry_scalar _ _ _ _ _ Hef). cbn [bind].
  destruct (emit_return_line_free style g p t d0 Hef Hd0) as [line [Hline Hfl]].
  rewrite Hline. cbn [bind]. eexists. split; [reflexivity|].
  intros tok Hin. destruct (foreign_tok_props style tok Hin) as [_ [Hnl _]].
  pose proof (section_tokens_foreign_free style) as Hsec. rewrite forallb_forall in Hsec.
  specialize (Hsec tok Hin). apply andb_true_iff in Hsec. destruct Hsec as [_ Hrt].
  apply negb_true_iff in Hrt.
  apply contains_cons_notin; [exact Hnl|]. apply contains_sep; [exact Hnl|exact Hrt|apply Hfl; exact Hin].
Qed.

(* for an IR inside the guard the specification printer produces a text, and that text contains
   no section token of a style that takes precedence over (or competes with) the style it was written in:
   no ReST token in google text; no ReST and no google token in numpydoc text.  Any number of parameters.
   Third conjunct, for the detection of google: with parameters, the text contains the args token. *)
Theorem text_foreign_free : forall style i,
    guard_C01_ng style i = true ->
    exists text, text_of_o style i = Ok text
                 /\ (forall tok, In tok (foreign_tokens style) -> free tok text)
                 /\ (ir_params i <> [] -> contains (nth 0 (arg_tokens_of style) []) text = true).
Proof.
  intros style i Hg.
  destruct (guard_C01_ng_inv style i Hg) as [doc [Hdoc [Hdtf [_ [_ [_ [Hall [_ [_ [Hret Hrd]]]]]]]]]].
  (* every parameter line *)
  assert (Hlines : Forall (fun np => exists line,
                               (do p <- scalar_param (snd np); emit_param style (fst np) p) = Ok line
                               /\ forall tok, In tok (foreign_tokens style) -> free tok line)
                          (ir_params i)).
  { eapply Forall_impl; [|exact Hall]. intros [name g] [Hid [Hnr [Hgd [Hec _]]]]. cbn [fst snd] in *.
    destruct (entry_facts_of_guard style name g Hgd Hec) as [p [t Hef]].
    rewrite (entry_scalar _ _ _ _ _ Hef). cbn [bind]. apply (emit_param_line_free style name g p t Hnr Hid Hef). }
  destruct (map_o_exists _ _ _ Hlines) as [lines [Hmap [Hfree Hlen_lines]]].
  destruct (return_part_free style (ir_params i) (ir_returns i) Hret Hrd) as [ret [Hret' Hretfree]].
  unfold text_of_o. rewrite Hdoc. cbn [bind]. rewrite Hmap. cbn [bind]. rewrite Hret'. cbn [bind].
  eexists. split; [reflexivity|]. split.
  2:{ (* the parameter part begins with the args token *)
      intros Hpne. destruct lines as [|l ls].
      - destruct (ir_params i); [contradiction|discriminate Hlen_lines].
      - set (A := nth 0 (arg_tokens_of style) []).
        assert (Ej : exists rest, join [nl] (A :: l :: ls) = A ++ rest).
        { eexists. cbn [join]. reflexivity. }
        destruct Ej as [rest Ej]. rewrite Ej.
        change (nl :: doc ++ [nl; nl; nl] ++ (A ++ rest) ++ [nl] ++ ret ++ [nl]
                   ++ match style with SGoogle => [] | SNumpydoc => [nl] end)
          with ((nl :: doc) ++ [nl; nl; nl] ++ (A ++ rest) ++ [nl] ++ ret ++ [nl]
                   ++ match style with SGoogle => [] | SNumpydoc => [nl] end).
        rewrite (app_assoc (nl :: doc) [nl; nl; nl]). rewrite <- (app_assoc A rest).
        apply contains_app_mid. }
  intros tok Hin. destruct (foreign_tok_props style tok Hin) as [_ [Hnl [_ Hlen]]].
  pose proof (foreign_tok_nonnil style tok Hin) as Hne.
  pose proof (section_tokens_foreign_free style) as Hsec. rewrite forallb_forall in Hsec.
  specialize (Hsec tok Hin). apply andb_true_iff in Hsec. destruct Hsec as [Hat _].
  apply negb_true_iff in Hat.
  assert (Hdocfree : free tok doc) by (apply token_free_In; [exact Hdtf|apply (foreign_in_all style); exact Hin]).
  assert (Hpl : free tok (join [nl] match lines with [] => [] | _ => nth 0 (arg_tokens_of style) [] :: lines end)).
  { apply free_join_nl; [exact Hnl|exact Hne|].
    destruct lines as [|l ls]; [constructor|]. constructor; [exact Hat|].
    eapply Forall_impl; [|exact Hfree]. intros a Ha. apply Ha. exact Hin. }
  assert (Htail : free tok (match style with SNumpydoc => [nl] | SGoogle => [] end)).
  { destruct style; [apply free_nil; exact Hne|apply free_single; exact Hlen]. }
  (* the text is  nl doc nl nl nl (args token and lines) nl ret nl tail ; tok holds no nl, so it occurs in the
     whole only if it occurs in one of the pieces *)
  apply contains_cons_notin; [exact Hnl|].
  cbn [app].
  apply contains_sep; [exact Hnl|exact Hdocfree|].
  apply contains_cons_notin; [exact Hnl|]. apply contains_cons_notin; [exact Hnl|].
  apply contains_sep; [exact Hnl|exact Hpl|].
  apply contains_sep; [exact Hnl|apply Hretfree; exact Hin|exact Htail].
Qed.

(* style detection on the texts of guard IRs: text written in google style is read as google, text
   written in numpydoc style as numpydoc, never as ReST; any number of parameters *)
Theorem detect_style_guard : forall style i,
    guard_C01_ng style i = true ->
    exists text, text_of_o style i = Ok text /\ detect_style text = style3_of style.
Proof.
  intros style i Hg.
  destruct (text_foreign_free style i Hg) as [text [Htext [Hfree Hargs]]].
  exists text. split; [exact Htext|].
  unfold detect_style.
  assert (Hrest : existsb (fun t => contains t text) Extracted.rest_tokens = false).
  { apply existsb_false. intros t Ht. apply Hfree. destruct style; cbn [foreign_tokens].
    - exact Ht.
    - apply in_or_app. left. exact Ht. }
  rewrite Hrest. destruct style; cbn [style3_of].
  - assert (Hg' : existsb (fun t => contains t text) Extracted.google_tokens = true).
    { apply existsb_exists. exists (nth 0 (arg_tokens_of SGoogle) []).
      split; [left; reflexivity|]. apply Hargs.
      destruct (guard_C01_ng_inv SGoogle i Hg) as [_ [_ [_ [_ [_ [Hne _]]]]]]. apply Hne. reflexivity. }
    rewrite Hg'. reflexivity.
  - assert (Hg' : existsb (fun t => contains t text) Extracted.google_tokens = false).
    { apply existsb_false. intros t Ht. apply Hfree. cbn [foreign_tokens]. apply in_or_app. right. exact Ht. }
    rewrite Hg'. reflexivity.
Qed.

Lemma extract_default_not_None : forall line rs ann typ emit l w,
    extract_default line rs ann typ emit = Ok (l, Some w) -> w <> VNone.
Proof.
  intros line rs ann typ emit l w H. unfold extract_default in H.
  destruct (location_within casefold line ann) as [[[s e] f]|]; [|discriminate].
  cbv zeta in H. apply bind_Ok_inv in H. destruct H as [v [Hv H]].
  apply coerce_ok_not_none in Hv.
  destruct emit; injection H as _ H; subst; exact Hv.
Qed.

Lemma unquote_val_not_None : forall v, v <> VNone -> unquote_val v <> VNone.
Proof. intros [|b|z|r|s] H; try discriminate; contradiction. Qed.

(* the writing branch of set_default_doc does not look at the name *)
Lemma set_default_doc_name_indep : forall name p v,
    p_default p = Some v ->
    negb (null_default v) || negb (endswith (L "kwargs") name) = true ->
    set_default_doc name p true = set_default_doc (L "x") p true.
Proof.
  intros name p v Hv Hw. unfold set_default_doc. destruct (p_doc p) as [| |doc]; try reflexivity.
  cbv zeta. rewrite Hv. rewrite !andb_false_r.
  destruct (negb (contains (L "Defaults") doc || contains (L "defaults") doc) && true); [|reflexivity].
  assert (Hn : negb (pyval_eqb (if pyval_eqb v (VStr NoneStr) then VNone else v) VNone) = negb (null_default v)).
  { unfold null_default. destruct (pyval_eqb v (VStr NoneStr)) eqn:E.
    - rewrite orb_true_r. reflexivity.
    - rewrite orb_false_r. reflexivity. }
  rewrite Hn. rewrite Hw. rewrite endswith_kwargs_x. cbn [negb]. rewrite orb_true_r. reflexivity.
Qed.

(* the C17 theorem, read for the line the emitter writes for a parameter called [name] *)
Lemma extract_written_default : forall name p d t v d',
    p_doc p = Has d -> p_typ p = Has t -> p_default p = Some v ->
    negb (null_default v) || negb (endswith (L "kwargs") name) = true ->
    guard_C17 ADefaultsTo d v (Some t) = true ->
    doc_with_default name p = Ok d' ->
    exists v', extract_default d' true default_announces (Some t) false = Ok (d, Some v')
               /\ same_default v v' = true.
Proof.
  intros name p d t v d' Hd Ht Hv Hw Hg Hdd.
  destruct (C17_partial_lemma _ _ _ _ Hg) as [line [Hr [_ [v' [He Hs]]]]].
  exists v'. split; [|exact Hs].
  assert (El : line = d').
  { unfold render in Hr. apply bind_Ok_inv in Hr. destruct Hr as [p' [Hp' Hr]].
    unfold doc_with_default in Hdd. rewrite (set_default_doc_name_indep name p v Hv Hw) in Hdd.
    assert (Ep : mkParam (Has d) (fld_of_opt (Some t)) (Some v) = p).
    { cbn [fld_of_opt]. rewrite <- Hd, <- Ht, <- Hv. apply param_eta. }
    rewrite Ep in Hp'. rewrite Hp' in Hdd. cbn [bind] in Hdd.
    destruct (p_doc p') as [| |ln]; try discriminate.
    destruct (startswith (d ++ L " Defaults to ") ln); [|discriminate].
    injection Hr as Hr. injection Hdd as Hdd. congruence. }
  rewrite <- El. exact He.
Qed.

Lemma interpolate_written : forall name p d t v d' req,
    p_doc p = Has d -> p_typ p = Has t -> p_default p = Some v ->
    negb (null_default v) || negb (endswith (L "kwargs") name) = true ->
    guard_C17 ADefaultsTo d v (Some t) = true ->
    doc_with_default name p = Ok d' ->
    exists v', interpolate_force (mkParam (Has d') (Has t) None) req false
               = Ok (mkParam (Has d) (Has t) (Some (unquote_val v')), true)
               /\ same_default v v' = true /\ v' <> VNone.
Proof.
  intros name p d t v d' req Hd Ht Hv Hw Hg Hdd.
  destruct (extract_written_default name p d t v d' Hd Ht Hv Hw Hg Hdd) as [v' [He Hs]].
  pose proof (extract_default_not_None _ _ _ _ _ _ _ He) as Hnn.
  exists v'. split; [|split; [exact Hs|exact Hnn]].
  unfold interpolate_force, interpolate_defaults. cbn [p_doc p_typ p_default fget extract_default_fld].
  rewrite He. cbn [bind fst snd].
  destruct v' as [|b|z|r|s]; [contradiction| | | |];
    cbn [unquote_val p_default p_doc p_typ andb]; rewrite andb_false_r; cbn [bind];
      rewrite orb_true_r; reflexivity.
Qed.

Lemma no_announce_nil : no_announce [] = true.
Proof. exact DefaultsFacts.no_announce_nil. Qed.

Lemma interpolate_plain : forall d t,
    no_announce d = true ->
    interpolate_force (mkParam (Has d) (Has t) None) false false = Ok (mkParam (Has d) (Has t) None, false)
    /\ (in_simple_types t = false ->
        interpolate_force (mkParam (Has d) (Has t) None) true false
        = Ok (mkParam (Has d) (Has t) (Some (VStr NoneStr)), true)).
Proof.
  intros d t Hna.
  pose proof (extract_default_no_announce d true (Some t) false Hna) as He.
  split.
  - unfold interpolate_force, interpolate_defaults. cbn [p_doc p_typ p_default fget extract_default_fld].
    rewrite He. cbn [bind fst snd p_default p_doc p_typ andb orb]. reflexivity.
  - intros Hsim. unfold interpolate_force, interpolate_defaults.
    cbn [p_doc p_typ p_default fget extract_default_fld].
    rewrite He. cbn [bind fst snd p_default p_doc p_typ andb orb]. rewrite Hsim.
    cbn [bind p_default orb]. reflexivity.
Qed.

Lemma bind_ext : forall {A B} (x : outcome A) (f g : A -> outcome B),
    (forall a, f a = g a) -> bind x f = bind x g.
Proof. intros A B [a|e] f g H; [apply H|reflexivity]. Qed.

(* this transcription of _set_name_and_type goes through the two steps of the other one *)
Lemma set_name_and_type_steps_ng : forall n p it ww,
    set_name_and_type n p false it ww
    = (do np <- name_type_stage (fun p v => infer_default p v it) n p; name_type_tail ww (fst np) (snd np)).
Proof.
  intros n p it ww. unfold set_name_and_type. apply bind_ext. intros [n1 [doc typ dflt]].
  unfold name_type_tail, google_opt, DocParse.google_opt. cbn [fst snd p_typ p_doc p_default fget].
  destruct typ as [| |t]; destruct doc as [| |[|c d]]; reflexivity.
Qed.

Lemma kwargs_name_plain : forall name, kwargs_name name = false -> plain_name name.
Proof. intros name H. apply orb_false_iff in H. exact H. Qed.

Lemma edge_ok_of_clean : forall d, clean_ends d = true -> d <> [] -> edge_ok d.
Proof.
  intros d Hce Hne. destruct (clean_ends_inv d Hce) as [Hh Hl]. split.
  - destruct d as [|c r]; [contradiction|]. exists c, r. split; [reflexivity|apply Hh; reflexivity].
  - destruct (last_c d) as [c|] eqn:E; [|apply last_c_nil_iff in E; contradiction].
    exists c. split; [reflexivity|apply Hl; exact E].
Qed.

Lemma name_type_tail_clean : forall n1 d t dflt,
    endswith google_opt t = false -> mem_c nl d = false -> clean_ends d = true ->
    optional_prefix d && negb (startswith (L "Optional[") t) = false ->
    name_type_tail true n1 (mkParam (Has d) (Has t) dflt) = Ok (n1, mkParam (doc_fld d) (Has t) dflt).
Proof.
  intros n1 d t dflt Ht Hnl Hce Hopt. apply name_type_tail_id; [exact Ht|exact Hnl| |].
  - apply edge_ok_of_clean. exact Hce.
  - intros t' E. injection E as E. subst t'. exact Hopt.
Qed.

Lemma snt_plain : forall name d t,
    kwargs_name name = false ->
    endswith google_opt t = false -> mem_c nl d = false -> clean_ends d = true ->
    optional_prefix d && negb (startswith (L "Optional[") t) = false ->
    set_name_and_type name (mkParam (Has d) (Has t) None) false false true
    = Ok (name, mkParam (doc_fld d) (Has t) None).
Proof.
  intros name d t Hkw Htopt Hdnl Hdce Hopt.
  rewrite set_name_and_type_steps_ng, (name_type_stage_plain _ name _ (kwargs_name_plain name Hkw)).
  apply name_type_tail_clean; assumption.
Qed.

Lemma snt_kwargs : forall name d t dflt,
    kwargs_name name = true -> startswith [ch 42] name = false -> str_eqb t (L "dict") = false ->
    (dflt = None \/ dflt = Some (VStr NoneStr)) ->
    endswith google_opt t = false -> mem_c nl d = false -> clean_ends d = true ->
    optional_prefix d && negb (startswith (L "Optional[") t) = false ->
    set_name_and_type name (mkParam (Has d) (Has t) dflt) false false true
    = Ok (name, mkParam (doc_fld d) (Has t) (Some (VStr NoneStr))).
Proof.
  intros name d t dflt Hkw Hstar Hdict Hdflt Htopt Hdnl Hdce Hopt.
  rewrite set_name_and_type_steps_ng, (name_type_stage_kwargs _ name _ Hkw Hstar).
  cbn [bind fst snd p_doc p_typ p_default kwargs_typ]. rewrite Hdict.
  rewrite name_type_tail_clean by assumption. destruct Hdflt as [E|E]; subst dflt; reflexivity.
Qed.

Lemma none_strs_unquote : forall s, existsb (str_eqb s) Extracted.none_types_strs = true -> unquote s = s.
Proof.
  intros s H. apply existsb_exists in H. destruct H as [x [Hin Hx]]. apply str_eqb_eq in Hx. subst x.
  assert (Hall : forallb (fun s => str_eqb (unquote s) s) Extracted.none_types_strs = true)
    by (vm_compute; reflexivity).
  rewrite forallb_forall in Hall. apply str_eqb_eq. apply Hall. exact Hin.
Qed.

Lemma none_like_unquote_val : forall v, in_none_types v = true -> unquote_val v = v.
Proof.
  intros [|b|z|r|s] H; try reflexivity. cbn [unquote_val]. f_equal. apply none_strs_unquote. exact H.
Qed.

Lemma unquote_val_NoneStr : unquote_val (VStr NoneStr) = VStr NoneStr.
Proof. vm_compute. reflexivity. Qed.

(* the value _infer_default leaves in the IR, from the value extract_default found *)
Definition final_default (v' : pyval) : pyval :=
  let u := unquote_val v' in
  unquote_val (if in_none_types u then VStr NoneStr else u).

Lemma final_default_same : forall v v',
    same_default v v' = true -> v' <> VNone ->
    (forall s, v = VStr s -> null_default v = false -> unquote s = s) ->
    (pyval_eqb v (final_default v') || (in_none_types v && in_none_types (final_default v')) = true)
    /\ (in_none_types (unquote_val v') = false -> final_default v' = v)
    /\ (in_none_types (unquote_val v') = true -> final_default v' = VStr NoneStr).
Proof.
  intros v v' Hs Hnn Hq. unfold final_default. cbv zeta.
  split; [|split].
  - unfold same_default in Hs. apply orb_true_iff in Hs. destruct Hs as [Hs|Hs].
    + apply pyval_eqb_eq in Hs. rewrite <- Hs.
      destruct (in_none_types v) eqn:Hn.
      * rewrite unquote_val_NoneStr, in_none_types_NoneStr. cbn [andb]. apply orb_true_r.
      * assert (E : unquote_val v = v).
        { destruct v as [|b|z|r|s]; try reflexivity. cbn [unquote_val]. f_equal. apply (Hq s eq_refl).
          unfold null_default. apply orb_false_iff. split; [reflexivity|].
          destruct (pyval_eqb (VStr s) (VStr NoneStr)) eqn:E; [|reflexivity].
          apply pyval_eqb_eq in E. rewrite E in Hn. rewrite in_none_types_NoneStr in Hn. discriminate. }
        rewrite E, pyval_eqb_refl. reflexivity.
    + apply andb_true_iff in Hs. destruct Hs as [Hv Hv']. unfold none_like in *.
      rewrite (none_like_unquote_val v' Hv'), Hv'. rewrite unquote_val_NoneStr, in_none_types_NoneStr, Hv. apply orb_true_r.
  - intros Hn. rewrite Hn. unfold same_default in Hs. apply orb_true_iff in Hs. destruct Hs as [Hs|Hs].
    + apply pyval_eqb_eq in Hs. rewrite <- Hs. rewrite <- Hs in Hn.
      destruct v as [|b|z|r|s]; try reflexivity. cbn [unquote_val]. f_equal. apply (Hq s eq_refl).
      unfold null_default. apply orb_false_iff. split; [reflexivity|].
      destruct (pyval_eqb (VStr s) (VStr NoneStr)) eqn:E; [|reflexivity].
      apply pyval_eqb_eq in E. rewrite E in Hn. rewrite in_none_types_NoneStr in Hn. discriminate.
    + exfalso. apply andb_true_iff in Hs. destruct Hs as [_ Hv']. unfold none_like in Hv'.
      rewrite (none_like_unquote_val v' Hv') in Hn. congruence.
  - intros Hn. rewrite Hn. apply unquote_val_NoneStr.
Qed.

Lemma snt_default : forall name d t u nq,
    kwargs_name name = false -> needs_quoting_ng (Some t) = Ok nq ->
    (let v2 := unquote_val (if in_none_types u then VStr NoneStr else u) in
     negb (pyval_eqb v2 (VStr NoneStr)) && code_quoted_val v2 = true -> contains [ch 91] t = true) ->
    endswith google_opt t = false -> mem_c nl d = false -> clean_ends d = true ->
    optional_prefix d && negb (startswith (L "Optional[") t) = false ->
    set_name_and_type name (mkParam (Has d) (Has t) (Some u)) false false true
    = Ok (name, mkParam (doc_fld d) (Has t)
                        (Some (unquote_val (if in_none_types u then VStr NoneStr else u)))).
Proof.
  intros name d t u nq Hkw Hnq Hcq Htopt Hdnl Hdce Hopt.
  rewrite set_name_and_type_steps_ng, (name_type_stage_plain _ name _ (kwargs_name_plain name Hkw)).
  cbn [p_default]. unfold infer_default. cbn [p_typ p_doc fget andb]. cbv zeta. rewrite Hnq.
  cbn [bind]. cbv zeta in Hcq.
  destruct (negb (pyval_eqb (unquote_val (if in_none_types u then VStr NoneStr else u)) (VStr NoneStr))
            && code_quoted_val (unquote_val (if in_none_types u then VStr NoneStr else u))) eqn:Ec.
  - rewrite (Hcq eq_refl). cbn [bind fst snd]. apply name_type_tail_clean; assumption.
  - cbn [bind fst snd]. apply name_type_tail_clean; assumption.
Qed.

Lemma ident_facts : forall name, is_ident name = true ->
    name <> [] /\ head_nonspace name /\ last_nonspace name
    /\ mem_c (ch 58) name = false /\ mem_c (ch 40) name = false /\ startswith [ch 42] name = false.
Proof.
  intros name H. pose proof (is_ident_nonnil name H) as Hne.
  assert (Hall : forallb is_id_char name = true).
  { unfold is_ident in H. destruct name; [discriminate|]. apply andb_true_iff in H. apply H. }
  rewrite forallb_forall in Hall.
  split; [exact Hne|]. split.
  { intros c Hc. apply is_id_char_not_space. apply Hall. destruct name as [|x r]; [discriminate|].
    injection Hc as Hc. subst. left. reflexivity. }
  split.
  { intros c Hc. apply is_id_char_not_space. apply Hall. apply last_c_In. exact Hc. }
  split; [apply is_ident_no_char; [exact H|reflexivity]|].
  split; [apply is_ident_no_char; [exact H|reflexivity]|].
  destruct name as [|x r]; [reflexivity|]. cbn [startswith]. rewrite andb_true_r.
  destruct (ascii_eqb (ch 42) x) eqn:E; [|reflexivity].
  apply ascii_eqb_eq in E. subst x.
  assert (Hx : is_id_char (ch 42) = true) by (apply Hall; left; reflexivity). discriminate Hx.
Qed.

Lemma type_shape_inv : forall style t, type_shape_ok style t = true ->
    clean_ends t = true /\ endswith google_opt t = false
    /\ match style with
       | SGoogle => mem_c (ch 58) t = false /\ contains (L " or ") t = false
       | SNumpydoc => True
       end.
Proof.
  intros style t H. unfold type_shape_ok in H.
  apply andb_true_iff in H. destruct H as [H Hs].
  apply andb_true_iff in H. destruct H as [H Hopt].
  apply andb_true_iff in H. destruct H as [Hce _].
  apply negb_true_iff in Hopt. split; [exact Hce|]. split; [exact Hopt|].
  destruct style; [|exact I].
  apply andb_true_iff in Hs. destruct Hs as [H58 Hor].
  apply negb_true_iff in H58. apply negb_true_iff in Hor. split; assumption.
Qed.

Lemma parse_unit_entry : forall style name g p t,
    is_ident name = true -> entry_facts style name g p t ->
    parse_unit style (unit_of_entry style name g)
    = PSome name (mkParam (Has (match written_doc name g with Some d' => d' | None => [] end)) (Has t) None).
Proof.
  intros style name g p t Hid [Hp [Ht [Hgt [Htne [Httf [Hts [Hpdef Hdoc]]]]]]].
  destruct (ident_facts name Hid) as [Hne [Hh [Hl [H58 [H40 _]]]]].
  destruct (type_shape_inv style t Hts) as [Htce [_ Hst]].
  destruct (clean_ends_inv t Htce) as [Hth _].
  unfold unit_of_entry. rewrite Hgt. cbn [fget].
  destruct Hdoc as [[_ [_ [_ Hwd]]] | [d [d' Hpr]]].
  - rewrite Hwd. destruct style; cbn [parse_unit].
    + destruct Hst as [Ht58 Hor].
      replace (L "  " ++ name ++ L " (" ++ t ++ L "): ") with (L "  " ++ name ++ L " (" ++ t ++ L "): " ++ [])
        by (rewrite app_nil_r; reflexivity).
      apply parse_google_param; try assumption.
      * intros c Hc. discriminate.
      * intros c Hc. discriminate.
      * reflexivity.
    + apply parse_numpydoc_param_nodoc; try assumption.
      * apply rstrip_id_last. exact Hl.
      * apply lstrip_id_head. exact Hth.
  - rewrite (wp_written Hpr). pose proof (wp_head' Hpr) as Hd'h.
    destruct style; cbn [parse_unit].
    + destruct Hst as [Ht58 Hor]. destruct (wp_google' Hpr eq_refl) as [Hbrace _].
      destruct (clean_ends_inv d' (wp_clean' Hpr)) as [_ Hd'l].
      apply parse_google_param; assumption.
    + apply parse_numpydoc_param; try assumption.
      * apply rstrip_id_last. exact Hl.
      * apply lstrip_id_head. exact Hth.
      * apply lstrip_id_head. exact Hd'h.
Qed.

Lemma doc_with_default_nowrite : forall name g p d,
    param_of_gparam g = Some p -> p_default p = sdefault g -> p_doc p = Has d ->
    writes_default name g = false -> doc_with_default name p = Ok d.
Proof.
  intros name g p d Hp Hpd Hd Hw. unfold doc_with_default, set_default_doc. rewrite Hd. cbv zeta.
  rewrite andb_false_r. rewrite Hpd. unfold writes_default in Hw.
  destruct (sdefault g) as [v|]; [|cbn [bind]; rewrite Hd; reflexivity].
  apply orb_false_iff in Hw. destruct Hw as [Hn Hk].
  apply negb_false_iff in Hn. apply negb_false_iff in Hk.
  destruct (negb (contains (L "Defaults") d || contains (L "defaults") d) && true);
    [|cbn [bind]; rewrite Hd; reflexivity].
  assert (E : (if pyval_eqb v (VStr NoneStr) then VNone else v) = VNone).
  { unfold null_default in Hn. apply orb_true_iff in Hn. destruct Hn as [Hn|Hn].
    - apply pyval_eqb_eq in Hn. subst v. reflexivity.
    - rewrite Hn. reflexivity. }
  rewrite E. change (pyval_eqb VNone VNone) with true. cbn [negb orb]. rewrite Hk. cbn [negb bind p_doc].
  reflexivity.
Qed.

Lemma null_default_none_like : forall v, null_default v = true -> in_none_types v = true.
Proof.
  intros v H. unfold null_default in H. apply orb_true_iff in H. destruct H as [H|H];
    apply pyval_eqb_eq in H; subst v; vm_compute; reflexivity.
Qed.

Lemma in_domain_default : forall g, gparam_in_domain g = true -> sdefault g = None -> g_default g = None.
Proof.
  intros g H Hs. unfold gparam_in_domain in H. apply andb_true_iff in H. destruct H as [_ H].
  unfold sdefault in Hs. destruct (g_default g) as [[v|e|r]|]; try discriminate; reflexivity.
Qed.

Lemma in_domain_default_some : forall g v, sdefault g = Some v -> g_default g = Some (DV v).
Proof.
  intros g v Hs. unfold sdefault in Hs. destruct (g_default g) as [[w|e|r]|]; try discriminate.
  injection Hs as Hs. subst. reflexivity.
Qed.

Lemma fld_eqb_refl : forall f, fld_eqb f f = true.
Proof. intros [| |s]; cbn; try reflexivity. apply str_eqb_refl. Qed.

Lemma gparam_same_intro : forall g D T dv,
    fld_eqb (g_typ g) T = true -> fld_eqb (g_doc g) D = true ->
    default_eqb (g_default g) (option_map DV dv) = true ->
    gparam_same g (gparam_of_param (mkParam D T dv)) = true.
Proof.
  intros g D T dv HT HD Hv. unfold gparam_same, gparam_of_param.
  cbn [g_typ g_doc g_default p_typ p_doc p_default]. rewrite HT, HD, Hv. reflexivity.
Qed.

Lemma kwargs_class_inv : forall name g t,
    kwargs_class name g = None -> kwargs_name name = true -> g_typ g = Has t ->
    (exists v, sdefault g = Some v /\ null_default v = true) /\ str_eqb t (L "dict") = false
    /\ startswith [ch 42] name = false /\ writes_default name g = false.
Proof.
  intros name g t Hkc Hkw Hgt. unfold kwargs_class in Hkc. rewrite Hkw, Hgt in Hkc.
  destruct (sdefault g) as [v|] eqn:Hv; [|discriminate]. cbn [fget opt_str_eqb] in Hkc.
  destruct (null_default v) eqn:Hnull; cbn [andb] in Hkc; [|discriminate].
  destruct (str_eqb t (L "dict")); cbn [negb andb] in Hkc; [discriminate|].
  destruct (startswith [ch 42] name) eqn:Hstar; [discriminate|].
  split; [exists v; split; [reflexivity|exact Hnull]|]. split; [reflexivity|]. split; [reflexivity|].
  unfold writes_default. rewrite Hv, Hnull. cbn [negb orb].
  unfold kwargs_name in Hkw. apply orb_true_iff in Hkw. destruct Hkw as [Hkw|Hkw]; [rewrite Hkw; reflexivity|].
  exfalso. destruct name as [|x r]; [discriminate|]. cbn [L String.list_ascii_of_string startswith] in Hkw, Hstar.
  apply andb_true_iff in Hkw. destruct Hkw as [Hx _]. rewrite andb_true_r in Hstar.
  apply ascii_eqb_eq in Hx. subst x. rewrite ascii_eqb_refl in Hstar. discriminate Hstar.
Qed.

Lemma entry_nowrite : forall style name g p t,
    entry_facts style name g p t -> writes_default name g = false ->
    exists d, match written_doc name g with Some d' => d' | None => [] end = d /\ g_doc g = doc_fld d
              /\ no_announce d = true /\ mem_c nl d = false /\ clean_ends d = true
              /\ optional_prefix d && negb (startswith (L "Optional[") t) = false.
Proof.
  intros style name g p t [Hp [_ [_ [_ [_ [_ [Hpdef Hdoc]]]]]]] Hw.
  destruct Hdoc as [[_ [Hgd [_ Hwd]]] | [d [d' Hpr]]].
  - exists []. rewrite Hwd. repeat split. exact Hgd.
  - exists d. rewrite (wp_written Hpr).
    pose proof (doc_with_default_nowrite name g p d Hp Hpdef (wp_doc Hpr) Hw) as E.
    rewrite (wp_line Hpr) in E. injection E as E.
    split; [exact E|]. split; [|split; [exact (wp_na Hpr)|split; [exact (wp_nl Hpr)|split; [exact (wp_clean Hpr)|exact (wp_opt Hpr)]]]].
    rewrite (wp_gdoc Hpr). destruct d; [exfalso; apply (wp_ne Hpr); reflexivity|reflexivity].
Qed.

(* one entry, blocks to IR: the unit written for a guard entry is parsed, interpolated and named back into an entry
   that is the same (type, prose, default with its Python type) *)
Lemma entry_pipeline : forall style name g req,
    is_ident name = true -> str_eqb name return_type_name = false ->
    gparam_in_domain g = true -> entry_class style name g = None -> kwargs_class name g = None ->
    forced_ok req name g ->
    exists p0 p1 q,
      parse_unit style (unit_of_entry style name g) = PSome name p0
      /\ interpolate_force p0 req false = Ok (p1, req || writes_default name g)
      /\ set_name_and_type name p1 false false true = Ok (name, q)
      /\ gparam_same g (gparam_of_param q) = true.
Proof.
  intros style name g req Hid Hnr Hgd Hec Hkc Hforced.
  destruct (entry_facts_of_guard style name g Hgd Hec) as [p [t Hef]].
  pose proof (parse_unit_entry style name g p t Hid Hef) as Hparse.
  pose proof Hef as [Hp [Ht [Hgt [Htne [Httf [Hts [Hpdef Hdoc]]]]]]].
  destruct (type_shape_inv style t Hts) as [Htce [Htopt _]].
  assert (Etyp : fld_eqb (g_typ g) (Has t) = true) by (rewrite Hgt; apply fld_eqb_refl).
  destruct (writes_default name g) eqn:Hw.
  - (* a default is written: its sentence is found, read back and settled *)
    destruct Hdoc as [[_ [_ [Hw' _]]] | [d [d' Hpr]]]; [congruence|].
    destruct (wp_default Hpr Hw) as [v [nq [Hpv [Hnq [Hwcond [Hg17 Hstr]]]]]].
    assert (Hkwf : kwargs_name name = false).
    { destruct (kwargs_name name) eqn:Hkw; [|reflexivity].
      destruct (kwargs_class_inv name g t Hkc Hkw Hgt) as [_ [_ [_ Hwf]]]. congruence. }
    rewrite (wp_written Hpr) in Hparse.
    destruct (interpolate_written name p d t v d' req (wp_doc Hpr) Ht Hpv Hwcond Hg17 (wp_line Hpr))
      as [v' [Hint [Hsame Hnn]]].
    destruct (final_default_same v v' Hsame Hnn (fun s Es Hn => proj1 (Hstr s Es Hn))) as [Hfd [Hfd1 Hfd2]].
    exists (mkParam (Has d') (Has t) None), (mkParam (Has d) (Has t) (Some (unquote_val v'))),
           (mkParam (doc_fld d) (Has t) (Some (final_default v'))).
    split; [exact Hparse|]. split; [rewrite orb_true_r; exact Hint|]. split.
    + apply (snt_default name d t (unquote_val v') nq Hkwf Hnq);
        [|exact Htopt|exact (wp_nl Hpr)|exact (wp_clean Hpr)|exact (wp_opt Hpr)].
      cbv zeta. intros Hcq.
      destruct (in_none_types (unquote_val v')) eqn:Hn.
      * rewrite unquote_val_NoneStr in Hcq. change (pyval_eqb (VStr NoneStr) (VStr NoneStr)) with
            (str_eqb NoneStr NoneStr) in Hcq. rewrite str_eqb_refl in Hcq. discriminate.
      * pose proof (Hfd1 eq_refl) as Efd. unfold final_default in Efd. cbv zeta in Efd. rewrite Hn in Efd.
        rewrite Efd in Hcq. apply andb_true_iff in Hcq. destruct Hcq as [Hns Hcode].
        destruct v as [|b|z|r|s]; try discriminate. cbn [code_quoted_val] in Hcode.
        assert (Hnull : null_default (VStr s) = false).
        { unfold null_default. apply negb_true_iff in Hns. rewrite Hns. reflexivity. }
        apply (Hstr s eq_refl Hnull); assumption.
    + apply gparam_same_intro; [exact Etyp| |].
      * rewrite (wp_gdoc Hpr). destruct d; [exfalso; apply (wp_ne Hpr); reflexivity|apply fld_eqb_refl].
      * rewrite Hpdef in Hpv. rewrite (in_domain_default_some g v Hpv). exact Hfd.
  - (* no sentence: the prose comes back as it is *)
    destruct (entry_nowrite style name g p t Hef Hw) as [d [Ed [Egd [Hna [Hdnl [Hce Hopt]]]]]].
    rewrite Ed in Hparse.
    destruct (interpolate_plain d t Hna) as [Hi0 Hi1].
    assert (Edoc : fld_eqb (g_doc g) (doc_fld d) = true) by (rewrite Egd; apply fld_eqb_refl).
    exists (mkParam (Has d) (Has t) None).
    destruct (kwargs_name name) eqn:Hkw.
    + (* a ...kwargs name: None comes back as the str None, forced or not *)
      destruct (kwargs_class_inv name g t Hkc Hkw Hgt) as [[v [Hv Hnull]] [Hdict [Hstar _]]].
      assert (Hdflt : default_eqb (g_default g) (option_map DV (Some (VStr NoneStr))) = true).
      { rewrite (in_domain_default_some g v Hv). cbn [option_map default_eqb].
        rewrite (null_default_none_like v Hnull), in_none_types_NoneStr. apply orb_true_r. }
      exists (mkParam (Has d) (Has t) (if req then Some (VStr NoneStr) else None)),
             (mkParam (doc_fld d) (Has t) (Some (VStr NoneStr))).
      split; [exact Hparse|]. split; [|split; [|apply gparam_same_intro; assumption]].
      * destruct req; [|exact Hi0]. apply Hi1.
        destruct (Hforced eq_refl) as [Hc|[_ [_ Hc]]]; [congruence|]. rewrite Hgt in Hc. exact Hc.
      * apply snt_kwargs; try assumption. destruct req; [right|left]; reflexivity.
    + destruct req; [exfalso; destruct (Hforced eq_refl) as [Hc|[Hc _]]; congruence|].
      exists (mkParam (Has d) (Has t) None), (mkParam (doc_fld d) (Has t) None).
      split; [exact Hparse|]. split; [exact Hi0|]. split; [apply snt_plain; assumption|].
      apply gparam_same_intro; [exact Etyp|exact Edoc|].
      assert (Hsd : sdefault g = None).
      { unfold writes_default in Hw. destruct (sdefault g) as [v|] eqn:Hv; [|reflexivity].
        exfalso. apply orb_false_iff in Hw. destruct Hw as [_ Hk]. apply negb_false_iff in Hk.
        unfold kwargs_name in Hkw. rewrite Hk in Hkw. discriminate. }
      rewrite (in_domain_default g Hgd Hsd). reflexivity.
Qed.

Definition ir_params_of (res : list (str * param)) : list (str * gparam) :=
  map (fun np => (fst np, gparam_of_param (snd np))) res.

(* the parameter list, blocks to IR: the units written for the parameters of a guard IR come back, through
   _parse, interpolate_defaults with the require_default flag threaded, and _set_name_and_type, as the same names in
   the same order with the same types, prose and defaults; the flag that reaches the return entry is set exactly
   when some parameter wrote a default *)
Theorem params_loop_blocks : forall style ps tl req acc,
    Forall (entry_guard style) ps -> forced_all req ps ->
    exists res,
      params_loop style rt_flags (units_of_params style ps ++ tl) req acc
      = params_loop style rt_flags tl
                    (req || existsb (fun np => writes_default (fst np) (snd np)) ps) (acc ++ res)
      /\ map fst res = map fst ps
      /\ params_same ps (ir_params_of res) = true.
Proof.
  intros style ps tl. induction ps as [|[n g] r IH]; intros req acc Hall Hforced.
  - exists []. cbn [units_of_params map app existsb]. rewrite app_nil_r, orb_false_r.
    repeat split.
  - inversion Hall as [|x l Hx Hl]; subst. destruct Hx as [Hid [Hnr [Hgd [Hec Hkc]]]].
    cbn [fst snd] in *. cbn [forced_all] in Hforced. destruct Hforced as [Hf Hfr].
    destruct (entry_pipeline style n g req Hid Hnr Hgd Hec Hkc Hf) as [p0 [p1 [q [Hparse [Hint [Hsnt Hsame]]]]]].
    destruct (IH (req || writes_default n g) (acc ++ [(n, q)]) Hl Hfr) as [res [Hloop [Hnames Hps]]].
    exists ((n, q) :: res).
    split; [|split].
    + cbn [units_of_params map app params_loop fst snd]. rewrite Hparse.
      change (f_emit_default_doc rt_flags) with false. rewrite Hint. cbn [bind].
      change (f_infer_type rt_flags) with false. change (f_word_wrap rt_flags) with true.
      rewrite Hsnt. cbn [bind].
      unfold units_of_params in Hloop. rewrite Hloop. rewrite <- app_assoc. cbn [app existsb fst snd].
      rewrite orb_assoc. reflexivity.
    + cbn [map fst]. rewrite Hnames. reflexivity.
    + cbn [ir_params_of map fst snd params_same]. rewrite str_eqb_refl, Hsame. cbn [andb]. exact Hps.
Qed.

(* OrderedDict(pairs) on distinct keys keeps the pairs as they are *)
Lemma od_fold_nodup : forall {A} (l acc : list (str * A)),
    NoDup (map fst (acc ++ l)) -> fold_left (fun d kv => od_set (fst kv) (snd kv) d) l acc = acc ++ l.
Proof.
  intros A l. induction l as [|[k v] r IH]; intros acc H.
  - rewrite app_nil_r. reflexivity.
  - cbn [fold_left fst snd]. rewrite map_app in H. cbn [map fst] in H.
    rewrite od_set_fresh.
    + rewrite IH; [rewrite <- app_assoc; reflexivity|].
      rewrite !map_app. cbn [map fst]. rewrite <- app_assoc. exact H.
    + intros Hin. apply (NoDup_remove_2 _ _ _ H). apply in_or_app. left. exact Hin.
Qed.

Lemma od_of_pairs_uniq : forall {A} (l : list (str * A)), uniq (map fst l) = true -> od_of_pairs l = l.
Proof. intros A l H. unfold od_of_pairs. apply (od_fold_nodup l []). apply nodup_str_NoDup. exact H. Qed.

Definition head_no_colon (u : list str) : Prop := endswith [ch 58] (nth 0 u ([] : str)) = false.

Lemma afterward_index_none : forall (units : list (list str)) k,
    Forall head_no_colon units -> afterward_index units k = None.
Proof.
  intros units. induction units as [|u r IH]; intros k H; [reflexivity|].
  inversion H as [|x l Hx Hl]; subst. unfold head_no_colon in Hx. cbn [afterward_index].
  destruct (endswith [ch 58] (nth 0 u [])) eqn:E; [exfalso; clear - Hx E; unfold str in *; congruence|].
  apply IH. exact Hl.
Qed.

Lemma endswith_char_app : forall c a b, b <> [] -> endswith [c] (a ++ b) = endswith [c] b.
Proof.
  intros c a b Hb. destruct (endswith [c] b) eqn:E.
  - apply endswith_single in E. apply endswith_single. rewrite last_c_app_nonnil; assumption.
  - destruct (endswith [c] (a ++ b)) eqn:E2; [|reflexivity].
    apply endswith_single in E2. rewrite last_c_app_nonnil in E2; [|exact Hb].
    apply endswith_single in E2. congruence.
Qed.

Lemma type_shape_numpydoc_colon : forall t, type_shape_ok SNumpydoc t = true -> endswith [ch 58] t = false.
Proof.
  intros t H. unfold type_shape_ok in H. apply andb_true_iff in H. destruct H as [_ H].
  apply negb_true_iff in H. exact H.
Qed.

(* the first line of the unit of a guard entry does not end with a colon: nothing is taken for "afterward" text *)
Lemma unit_head_no_colon : forall style name g,
    gparam_in_domain g = true -> entry_class style name g = None ->
    endswith [ch 58] (nth 0 (unit_of_entry style name g) []) = false.
Proof.
  intros style name g Hgd Hec.
  destruct (entry_facts_of_guard style name g Hgd Hec) as [p [t [_ [_ [Hgt [Htne [_ [Hts [_ Hdoc]]]]]]]]].
  unfold unit_of_entry. rewrite Hgt. cbn [fget].
  destruct Hdoc as [[_ [_ [_ Hwd]]] | [d [d' Hpr]]].
  - rewrite Hwd. destruct style; cbn [nth].
    + rewrite !app_assoc. rewrite endswith_char_app; [reflexivity|discriminate].
    + rewrite !app_assoc. rewrite endswith_char_app; [|exact Htne].
      apply type_shape_numpydoc_colon. exact Hts.
  - rewrite (wp_written Hpr). destruct style; cbn [nth].
    + rewrite !app_assoc. rewrite endswith_char_app; [apply (wp_google' Hpr eq_refl)|exact (wp_ne' Hpr)].
    + rewrite !app_assoc. rewrite endswith_char_app; [|exact Htne].
      apply type_shape_numpydoc_colon. exact Hts.
Qed.

Lemma return_type_not_kwargs : kwargs_name return_type_name = false
                               /\ endswith (L "kwargs") return_type_name = false.
Proof. split; vm_compute; reflexivity. Qed.

Lemma firstn_drop_last : forall (a : str) c, firstn (List.length (a ++ [c]) - 1) (a ++ [c]) = a.
Proof.
  intros a c. rewrite app_length. cbn [List.length].
  replace (List.length a + 1 - 1) with (List.length a) by lia. apply firstn_app_exact.
Qed.

Lemma return_dict_google : forall t d', head_nonspace t -> head_nonspace d' ->
    return_dict SGoogle (RLines [L "  " ++ t ++ L ":"; L "   " ++ d'])
    = Ok (mkParam (Has d') (Has t) None, false).
Proof.
  intros t d' Ht Hd. cbn [return_dict].
  assert (E1 : lstrip (L "   " ++ d') = d').
  { cbn [L String.list_ascii_of_string app]. rewrite !lstrip_cons_space. apply lstrip_id_head. exact Hd. }
  assert (E2 : lstrip (firstn (List.length (L "  " ++ t ++ L ":") - 1) (L "  " ++ t ++ L ":")) = t).
  { replace (L "  " ++ t ++ L ":") with ((L "  " ++ t) ++ [ch 58]) by (rewrite <- app_assoc; reflexivity).
    rewrite firstn_drop_last. cbn [L String.list_ascii_of_string app]. rewrite !lstrip_cons_space.
    apply lstrip_id_head. exact Ht. }
  rewrite E1, E2. reflexivity.
Qed.

Lemma return_dict_numpydoc : forall t d', head_nonspace d' ->
    return_dict SNumpydoc (RUnits [[t; tab ++ d']; [[]]]) = Ok (mkParam (Has d') (Has t) None, false).
Proof.
  intros t d' Hd. cbn [return_dict]. rewrite lstrip_tab_app. rewrite (lstrip_id_head d' Hd). reflexivity.
Qed.

Lemma return_pipeline : forall style g req,
    gparam_in_domain g = true -> entry_class style return_type_name g = None ->
    (exists t d, fget (g_typ g) = Some t /\ fget (g_doc g) = Some d) ->
    (req = true -> writes_default return_type_name g = true) ->
    exists t d' p1 req',
      return_lines g = Some (t, d') /\ head_nonspace t /\ head_nonspace d'
      /\ set_name_and_type return_type_name (mkParam (Has d') (Has t) None) false false true
         = Ok (return_type_name, mkParam (Has d') (Has t) None)
      /\ interpolate_force (mkParam (Has d') (Has t) None) req false = Ok (p1, req')
      /\ gparam_same g (gparam_of_param p1) = true.
Proof.
  intros style g req Hgd Hec [t0 [d0 [Ht0 Hd0]]] Hreq.
  destruct (return_type_not_kwargs) as [Hnk Hnk'].
  destruct (entry_facts_of_guard style return_type_name g Hgd Hec) as [p [t Hef]].
  pose proof Hef as [Hp [Ht [Hgt [Htne [Httf [Hts [Hpdef Hdoc]]]]]]].
  assert (Etyp : fld_eqb (g_typ g) (Has t) = true) by (rewrite Hgt; apply fld_eqb_refl).
  destruct (type_shape_inv style t Hts) as [Htce [Htopt _]].
  destruct (clean_ends_inv t Htce) as [Hth _].
  destruct Hdoc as [[_ [Hgd0 _]] | [d [d' Hpr]]]; [rewrite Hgd0 in Hd0; discriminate|].
  assert (Hsnt : set_name_and_type return_type_name (mkParam (Has d') (Has t) None) false false true
                 = Ok (return_type_name, mkParam (Has d') (Has t) None)).
  { rewrite (snt_plain return_type_name d' t Hnk Htopt (wp_nl' Hpr) (wp_clean' Hpr) (wp_opt' Hpr)).
    destruct d'; [exfalso; apply (wp_ne' Hpr); reflexivity|reflexivity]. }
  assert (Erl : return_lines g = Some (t, d')) by (unfold return_lines; rewrite Hgt, (wp_written Hpr); reflexivity).
  exists t, d'.
  destruct (writes_default return_type_name g) eqn:Hw.
  - destruct (wp_default Hpr Hw) as [v [nq [Hpv [_ [Hwcond [Hg17 _]]]]]].
    destruct (interpolate_written return_type_name p d t v d' req (wp_doc Hpr) Ht Hpv Hwcond Hg17 (wp_line Hpr))
      as [v' [Hint [Hsame Hnn]]].
    exists (mkParam (Has d) (Has t) (Some (unquote_val v'))), true.
    split; [exact Erl|]. split; [exact Hth|]. split; [exact (wp_head' Hpr)|]. split; [exact Hsnt|].
    split; [exact Hint|].
    apply gparam_same_intro; [exact Etyp|rewrite (wp_gdoc Hpr); apply fld_eqb_refl|].
    rewrite Hpdef in Hpv. rewrite (in_domain_default_some g v Hpv). cbn [option_map default_eqb].
    unfold same_default in Hsame. apply orb_true_iff in Hsame. destruct Hsame as [Hs|Hs]; [rewrite Hs; reflexivity|].
    apply andb_true_iff in Hs. destruct Hs as [Hnv Hnv']. unfold none_like in *.
    rewrite (none_like_unquote_val v' Hnv'), Hnv, Hnv'. apply orb_true_r.
  - assert (Hreqf : req = false) by (destruct req; [specialize (Hreq eq_refl); discriminate|reflexivity]).
    subst req.
    destruct (entry_nowrite style return_type_name g p t Hef Hw) as [d1 [Ed [Egd [Hna _]]]].
    rewrite (wp_written Hpr) in Ed. subst d1.
    destruct (interpolate_plain d' t Hna) as [Hi0 _].
    exists (mkParam (Has d') (Has t) None), false.
    split; [exact Erl|]. split; [exact Hth|]. split; [exact (wp_head' Hpr)|]. split; [exact Hsnt|].
    split; [exact Hi0|].
    apply gparam_same_intro; [exact Etyp| |].
    + rewrite Egd. destruct d'; [exfalso; apply (wp_ne' Hpr); reflexivity|apply fld_eqb_refl].
    + assert (Hsd : sdefault g = None).
      { unfold writes_default in Hw. destruct (sdefault g) as [v|]; [|reflexivity].
        rewrite Hnk' in Hw. rewrite orb_true_r in Hw. discriminate. }
      rewrite (in_domain_default g Hgd Hsd). reflexivity.
Qed.

Definition blank_tail (style : ngstyle) (tl : list (list str)) : Prop :=
  tl = [] \/ (style = SNumpydoc /\ (tl = [[[]]] \/ tl = [[[]]; [[]]])).

Lemma params_part : forall style ps tl,
    Forall (entry_guard style) ps -> forced_all false ps -> uniq (map fst ps) = true ->
    blank_tail style tl ->
    afterward_index (units_of_params style ps ++ tl) 0 = None
    /\ exists res,
        params_loop style rt_flags (units_of_params style ps ++ tl) false []
        = Ok (res, existsb (fun np => writes_default (fst np) (snd np)) ps)
        /\ od_of_pairs res = res
        /\ params_same ps (ir_params_of res) = true.
Proof.
  intros style ps tl Hall Hforced Huniq Htl. split.
  - apply afterward_index_none. apply Forall_app. split.
    + unfold units_of_params. apply Forall_map. eapply Forall_impl; [|exact Hall].
      intros [n g] [_ [_ [Hgd [Hec _]]]]. cbn [fst snd] in *. unfold head_no_colon.
      apply unit_head_no_colon; assumption.
    + destruct Htl as [E | [_ [E|E]]]; subst tl; repeat constructor.
  - destruct (params_loop_blocks style ps tl false [] Hall Hforced) as [res [Hloop [Hnames Hsame]]].
    exists res. split; [|split; [|exact Hsame]].
    + rewrite Hloop. cbn [app orb].
      destruct Htl as [E | [Es [E|E]]]; subst; reflexivity.
    + apply od_of_pairs_uniq. rewrite Hnames. exact Huniq.
Qed.

(* the return entry as the scanner hands it to the parse phase *)
Definition ret_of (style : ngstyle) (t d' : str) : retv :=
  match style with
  | SGoogle => RLines [L "  " ++ t ++ L ":"; L "   " ++ d']
  | SNumpydoc => RUnits [[t; tab ++ d']; [[]]]
  end.

Lemma return_dict_of : forall style t d', head_nonspace t -> head_nonspace d' ->
    return_dict style (ret_of style t d') = Ok (mkParam (Has d') (Has t) None, false).
Proof.
  intros [] t d' Ht Hd; [apply return_dict_google; assumption|apply return_dict_numpydoc; exact Hd].
Qed.

(* the blocks of a guard IR: the units of the parameters, the blank units numpydoc text ends in, the return entry *)
Lemma scanned_of_parts : forall style i doc, ir_doc i = Has doc ->
    exists tl, blank_tail style tl
      /\ scanned_of style i
         = mkScanned doc (units_of_params style (ir_params i) ++ tl)
                     (match match ir_returns i with Has g => return_lines g | _ => None end with
                      | Some (t, d') => ret_of style t d'
                      | None => RUnits []
                      end) None.
Proof.
  intros style i doc Hdoc. unfold scanned_of. rewrite Hdoc. cbv zeta.
  destruct (match ir_returns i with Has g => return_lines g | _ => None end) as [[t d']|];
    destruct style; try (exists []; split; [left; reflexivity|rewrite app_nil_r; reflexivity]);
    destruct (ir_params i) as [|np ps]; try (exists []; split; [left; reflexivity|reflexivity]).
  - exists [[[]]]. split; [right; split; [reflexivity|left; reflexivity]|reflexivity].
  - exists [[[]]; [[]]]. split; [right; split; [reflexivity|right; reflexivity]|reflexivity].
Qed.

Lemma parse_phase_ng_parts : forall style fl doc args ret res req,
    afterward_index args 0 = None -> params_loop style fl args false [] = Ok (res, req) -> od_of_pairs res = res ->
    parse_phase_ng style fl (mkScanned doc args ret None)
    = if retv_truthy ret then
        do rd <- return_dict style ret;
        do np <- set_name_and_type (L "return_type") (fst rd) (snd rd) (f_infer_type fl) (f_word_wrap fl);
        do pr <- interpolate_force (snd np) req (f_emit_default_doc fl);
        Ok (doc, res, Has (fst pr))
      else Ok (doc, res, FNone).
Proof.
  intros style fl doc args ret res req Haft Hloop Hod. unfold parse_phase_ng.
  cbn [sc_args sc_doc sc_afterward sc_ret]. rewrite Haft, Hloop. cbn [bind]. rewrite Hod.
  destruct (retv_truthy ret); [|reflexivity]. destruct (return_dict style ret) as [[rp il]|e]; reflexivity.
Qed.

Definition ret_gp (r : fld param) : fld gparam :=
  match r with Has p => Has (gp p) | FNone => FNone | Missing => Missing end.

(* the parse phase, blocks to IR: on the blocks of a guard IR,
   _parse_phase_numpydoc_and_google gives back the same summary, the same parameters and the same return entry.
   Any number of parameters. *)
Theorem parse_phase_blocks : forall style i,
    guard_C01_ng style i = true ->
    exists doc res r,
      parse_phase_ng style rt_flags (scanned_of style i) = Ok (doc, res, r)
      /\ ir_doc i = Has doc
      /\ params_same (ir_params i) (ir_params_of res) = true
      /\ returns_same (ir_returns i) (ret_gp r) = true.
Proof.
  intros style i Hg.
  destruct (guard_C01_ng_inv style i Hg) as [doc [Hdoc [_ [_ [_ [_ [Hall [Hforced [Huniq [Hret Hrd]]]]]]]]]].
  destruct (scanned_of_parts style i doc Hdoc) as [tl [Htl Hsc]]. rewrite Hsc.
  destruct (params_part style (ir_params i) tl Hall Hforced Huniq Htl) as [Haft [res [Hloop [Hod Hps]]]].
  rewrite (parse_phase_ng_parts style rt_flags doc _ _ res _ Haft Hloop Hod).
  exists doc, res.
  destruct (ir_returns i) as [| |g] eqn:Er.
  1, 2: exists FNone; split; [reflexivity|split; [exact Hdoc|split; [exact Hps|reflexivity]]].
  cbn [returns_ok] in Hret. destruct Hret as [_ [Htd [Hec Hafter]]].
  assert (Hreq : existsb (fun np => writes_default (fst np) (snd np)) (ir_params i) = true ->
                 writes_default return_type_name g = true).
  { intros E. rewrite E in Hafter. cbn [andb] in Hafter. apply negb_false_iff in Hafter. exact Hafter. }
  destruct (return_pipeline style g _ (Hrd g eq_refl) Hec Htd Hreq)
    as [t [d' [p1 [req' [Hrl [Hth [Hdh [Hsnt [Hint Hsame]]]]]]]]].
  exists (Has p1). split; [|split; [exact Hdoc|split; [exact Hps|exact Hsame]]].
  rewrite Hrl. assert (Etr : retv_truthy (ret_of style t d') = true) by (destruct style; reflexivity).
  rewrite Etr, (return_dict_of style t d' Hth Hdh). cbn [bind fst snd f_infer_type f_word_wrap f_emit_default_doc rt_flags].
  unfold return_type_name in Hsnt. rewrite Hsnt. cbn [bind snd]. rewrite Hint. reflexivity.
Qed.

Lemma strs_eqb_eq : forall a b, strs_eqb a b = true -> a = b.
Proof.
  induction a as [|x a IH]; intros [|y b] H; try discriminate; [reflexivity|].
  cbn [strs_eqb] in H. apply andb_true_iff in H. destruct H as [Hx Ha].
  apply str_eqb_eq in Hx. subst y. f_equal. apply IH. exact Ha.
Qed.

Lemma units_eqb_eq : forall a b, units_eqb a b = true -> a = b.
Proof.
  induction a as [|x a IH]; intros [|y b] H; try discriminate; [reflexivity|].
  cbn [units_eqb] in H. apply andb_true_iff in H. destruct H as [Hx Ha].
  apply strs_eqb_eq in Hx. subst y. f_equal. apply IH. exact Ha.
Qed.

Lemma scanned_eqb_eq : forall a b, scanned_eqb a b = true -> a = b.
Proof.
  intros [d1 a1 r1 f1] [d2 a2 r2 f2] H. unfold scanned_eqb in H. cbn [sc_doc sc_args sc_ret sc_afterward] in H.
  apply andb_true_iff in H. destruct H as [H Hf].
  apply andb_true_iff in H. destruct H as [H Hr].
  apply andb_true_iff in H. destruct H as [Hd Ha].
  apply str_eqb_eq in Hd. apply units_eqb_eq in Ha. subst.
  assert (Er : r1 = r2).
  { destruct r1 as [l1|u1], r2 as [l2|u2]; cbn [retv_eqb] in Hr; try discriminate.
    - apply strs_eqb_eq in Hr. subst. reflexivity.
    - apply units_eqb_eq in Hr. subst. reflexivity. }
  assert (Ef : f1 = f2).
  { destruct f1 as [x|], f2 as [y|]; try discriminate; [|reflexivity].
    apply strs_eqb_eq in Hf. subst. reflexivity. }
  subst. reflexivity.
Qed.

Lemma text_of_o_nonempty : forall style i text, text_of_o style i = Ok text -> is_empty text = false.
Proof.
  intros style i text H. unfold text_of_o in H.
  apply bind_Ok_inv in H. destruct H as [doc [_ H]].
  apply bind_Ok_inv in H. destruct H as [lines [_ H]]. cbv zeta in H.
  apply bind_Ok_inv in H. destruct H as [ret [_ H]].
  injection H as H. subst text. reflexivity.
Qed.

(* C01 for numpydoc and google, inside the guard and given that the scanner turns the emitted text into the blocks
   [scanned_of] (the text-to-blocks link [scan_link_b], which NGScanLink proves from the guard): the emitted text is
   recognised as its own style, parsing it succeeds, and the result is the same interface *)
Theorem C01_ng_partial_modulo_scan : forall style i,
    guard_C01_ng style i = true -> scan_link_b style i = true -> C01_ng_at style i.
Proof.
  intros style i Hg Hlink.
  destruct (detect_style_guard style i Hg) as [text [Htext Hdet]].
  destruct (parse_phase_blocks style i Hg) as [doc [res [r [Hphase [Hdoc [Hps Hrs]]]]]].
  unfold scan_link_b in Hlink. rewrite Htext in Hlink.
  apply andb_true_iff in Hlink. destruct Hlink as [Halpha Hscan].
  destruct (scan_ng style text) as [sc|e] eqn:Esc; [|discriminate].
  apply scanned_eqb_eq in Hscan. subst sc.
  unfold C01_ng_at. exists text.
  exists (mkIR FNone (Has (L "static")) (Has doc) (map (fun np => (fst np, gp (snd np))) res)
               (match r with Has p => Has (gp p) | FNone => FNone | Missing => Missing end) None).
  split; [exact Htext|]. split; [exact Hdet|]. split.
  - unfold parse_ng. rewrite Halpha. cbn [negb]. rewrite (text_of_o_nonempty style i text Htext).
    rewrite Esc. cbn [bind]. rewrite Hphase. cbn [bind].
    change (f_emit_default_prop rt_flags) with true. cbn [bind]. reflexivity.
  - unfold same_interface. cbn [ir_doc ir_params ir_returns]. rewrite Hdoc, fld_eqb_refl.
    unfold ir_params_of in Hps. unfold gp. rewrite Hps. cbn [andb]. exact Hrs.
Qed.

(* the guard is not vacuous: the canonical five-parameter shape of the test-suite, with a return entry *)
Example guard_C01_ng_nonvacuous :
  let i := mkIR FNone (Has (L "static")) (Has (L "Acquire from the official model zoo."))
                [(L "dataset_name", mkG (Has (L "name of dataset.")) (Has (L "str")) (Some (DV (VStr (L "mnist")))));
                 (L "K", mkG (Has (L "backend engine, e.g., `np` or `tf`.")) (Has (L "Literal['np', 'tf']"))
                             (Some (DV (VStr (L "np")))));
                 (L "as_numpy", mkG (Has (L "Convert to numpy ndarrays.")) (Has (L "Optional[bool]")) (Some (DV VNone)));
                 (L "data_loader_kwargs", mkG (Has (L "pass this as arguments to data_loader function"))
                                              (Has (L "Optional[dict]")) (Some (DV (VStr NoneStr))))]
                FNone None in
  guard_C01_ng SGoogle i = true /\ guard_C01_ng SNumpydoc i = true
  /\ scan_link_b SGoogle i = true /\ scan_link_b SNumpydoc i = true.
Proof. vm_compute. repeat split. Qed.

Example guard_C01_ng_nonvacuous_return :
  let i := mkIR FNone (Has (L "static")) (Has (L "Sum."))
                [(L "a", mkG (Has (L "first.")) (Has (L "int")) None)]
                (Has (mkG (Has (L "the result.")) (Has (L "int")) None)) None in
  guard_C01_ng SGoogle i = true /\ guard_C01_ng SNumpydoc i = true
  /\ scan_link_b SGoogle i = true /\ scan_link_b SNumpydoc i = true.
Proof. vm_compute. repeat split. Qed.

(* the full statement is false of the faithful model: witnesses *)
Definition C01_ng_statement : Prop := forall style i, in_domain_ng i = true -> C01_ng_at style i.

Lemma C01_ng_at_roundtrip : forall style i, C01_ng_at style i -> roundtrip style i = RtHolds.
Proof.
  intros style i [text [i' [Ht [Hd [Hp Hs]]]]]. unfold roundtrip. rewrite Ht, Hd.
  assert (E : style3_eqb (style3_of style) (style3_of style) = true) by (destruct style; reflexivity).
  rewrite E. cbn [negb]. rewrite Hp, Hs. reflexivity.
Qed.

Theorem C01_ng_refuted : ~ C01_ng_statement.
Proof.
  intros H.
  (* numpydoc: return entry with a type and no prose -> IndexError *)
  set (i := mkIR FNone (Has (L "static")) (Has (L "Sum.")) []
                 (Has (mkG Missing (Has (L "int")) None)) None).
  assert (Hd : in_domain_ng i = true) by (vm_compute; reflexivity).
  assert (Hr : roundtrip SNumpydoc i <> RtHolds) by (vm_compute; discriminate).
  exact (Hr (C01_ng_at_roundtrip SNumpydoc i (H SNumpydoc i Hd))).
Qed.
