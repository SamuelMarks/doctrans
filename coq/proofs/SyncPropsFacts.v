(* SyncPropsFacts: theorems about SyncProps.v for property C14: the event model (one write, of the output file, only
   after every pair was applied), every pair as one first-match replacement (frame theorem of RewriteAtQuery lifted
   over the list of pairs), and the guarded statement. *)
From Coq Require Import List Ascii Bool Arith ZArith Lia.
From Coq Require String.
Import String.StringSyntax.
From DT Require Import PyStr Sexp PyVal PureUtils PyAst Locate SyncProps C15Spec C14Spec C14Guard2 PyStrFacts LocateFacts
     RewriteFacts.
From DT Require SyncFacts.
Import ListNotations.

Lemma dotted_nonempty : forall s, dotted s <> [].
Proof. intros s. apply SyncFacts.strip_split_nonnil. Qed.

Lemma emit_file_ok : forall t evts, emit_file t = Ok evts -> evts = [EvWrite FOutput t].
Proof.
  intros t evts H. unfold emit_file in H.
  destruct (has_raw_default t && negb (has_misplaced_arg t)); [discriminate|].
  destruct (has_raw_default t || has_misplaced_arg t); [discriminate|].
  inversion H. reflexivity.
Qed.

Definition loop_pairs (x : c14_input) := zip3 (ci_ips x) (ci_ops x) (ci_evs x).

Lemma run_ok_inv : forall x evts st,
    run_C14 x = (evts, st) ->
    (exists e, evts = [] /\ st = Err e)
    \/ (exists i0 o0 tree i',
           ast_parse [1] (ci_in x) = Ok i0 /\ ast_parse [0] (ci_out x) = Ok o0
           /\ List.length (ci_ips x) = List.length (ci_ops x)
           /\ sync_loop (ci_env x) (ci_eval x) (ci_wrap x) (loop_pairs x) i0 o0 = Ok (tree, i')
           /\ evts = [EvWrite FOutput tree] /\ st = Ok tt).
Proof.
  intros x evts st H. unfold run_C14, sync_properties in H.
  destruct (ast_parse [1] (ci_in x)) as [i0|e] eqn:Ei; simpl in H; [|inversion H; left; eexists; split; reflexivity].
  destruct (ast_parse [0] (ci_out x)) as [o0|e] eqn:Eo; simpl in H; [|inversion H; left; eexists; split; reflexivity].
  destruct (Nat.eqb (List.length (ci_ips x)) (List.length (ci_ops x))) eqn:El; simpl in H;
    [|inversion H; left; eexists; split; reflexivity].
  destruct (sync_loop (ci_env x) (ci_eval x) (ci_wrap x) (zip3 (ci_ips x) (ci_ops x) (ci_evs x)) i0 o0)
    as [[tree i']|e] eqn:Es; simpl in H; [|inversion H; left; eexists; split; reflexivity].
  destruct (emit_file tree) as [ev|e] eqn:Ee; [|inversion H; left; eexists; split; reflexivity].
  apply emit_file_ok in Ee. subst ev. inversion H; subst.
  right. exists i0, o0, tree, i'. apply Nat.eqb_eq in El. repeat split; assumption.
Qed.

Lemma apply_wrap_mid : forall env w n i1 o1 repl i2 o2,
    apply_wrap env w n i1 o1 = Ok (repl, i2, o2) ->
    o2 = o1 \/ exists i e, o2 = set_ann_by_id i e o1.
Proof.
  intros env w n i1 o1 repl i2 o2 H. unfold apply_wrap in H.
  destruct w as [w|]; [|inversion H; left; reflexivity].
  destruct n as [m|s|a].
  - discriminate.
  - destruct s; try discriminate.
    + destruct (wrap_annotation env w ann) as [e|er]; simpl in H; [|discriminate].
      destruct id; inversion H; subst; [left; reflexivity | right; eexists; eexists; reflexivity].
    + destruct (aa_ann a) as [ann|]; [|inversion H; left; reflexivity].
      destruct (wrap_annotation env w ann) as [e|er]; simpl in H; [|discriminate].
      inversion H; subst. right. eexists; eexists; reflexivity.
  - destruct (aa_ann a) as [ann|]; [|inversion H; left; reflexivity].
    destruct (wrap_annotation env w ann) as [e|er]; simpl in H; [|discriminate].
    inversion H; subst. right. eexists; eexists; reflexivity.
Qed.

Lemma sync_property_eq : forall env ev ip i e op w o last,
    sync_property env ev ip i e op w o last
    = do r <- sp_prepare env ev ip i e op w o;
      let '(repl, i2, o2) := r in
      if is_container repl && negb last then Err Unmodelled
      else if const_hazard (dotted op) o2 then Err Unmodelled
      else do v <- rewrite_visit (dotted op) repl o2;
           if rw_replaced (snd v) then match fst v with NMod g => Ok (g, i2) | _ => Err Unmodelled end
           else Err AssertionError.
Proof.
  intros. unfold sync_property, sp_prepare, dotted.
  match goal with |- (do found <- ?c; _) = _ => destruct c as [[[n i1] o1]|er] end; reflexivity.
Qed.

Lemma sync_property_inv : forall env ev ip i e op w o last o1 i1,
    sync_property env ev ip i e op w o last = Ok (o1, i1) ->
    exists repl o2 st,
      sp_prepare env ev ip i e op w o = Ok (repl, i1, o2)
      /\ rewrite_visit (dotted op) repl o2 = Ok (NMod o1, st) /\ rw_replaced st = true.
Proof.
  intros env ev ip i e op w o last o1 i1 H. rewrite sync_property_eq in H.
  destruct (sp_prepare env ev ip i e op w o) as [[[repl i2] o2]|er]; simpl in H; [|discriminate].
  destruct (is_container repl && negb last); [discriminate|].
  destruct (const_hazard (dotted op) o2); [discriminate|].
  destruct (rewrite_visit (dotted op) repl o2) as [[g st]|er] eqn:Er; simpl in H; [|discriminate].
  destruct (rw_replaced st) eqn:Erep; [|discriminate].
  destruct g as [gen_ast|s|a]; try discriminate. inversion H; subst.
  exists repl, o2, st. repeat split; assumption.
Qed.

Lemma sync_property_of_prepare : forall env ev ip i e op w o last repl i2 o2 g st,
    sp_prepare env ev ip i e op w o = Ok (repl, i2, o2) ->
    is_container repl = false -> const_hazard (dotted op) o2 = false ->
    rewrite_visit (dotted op) repl o2 = Ok (NMod g, st) -> rw_replaced st = true ->
    sync_property env ev ip i e op w o last = Ok (g, i2).
Proof.
  intros env ev ip i e op w o last repl i2 o2 g st Hp Hc Hh Hr Hrep.
  rewrite sync_property_eq, Hp. simpl. rewrite Hc, Hh, Hr. simpl. rewrite Hrep. reflexivity.
Qed.

Lemma sp_prepare_mid : forall env ev ip i e op w o repl i2 o2,
    sp_prepare env ev ip i e op w o = Ok (repl, i2, o2) ->
    is_mid o o2 /\ (ev = false -> exists n0 log, find_in_ast_log (dotted ip) i = Ok (Some n0, log)).
Proof.
  intros env ev ip i e op w o repl i2 o2 H. unfold sp_prepare in H. fold (dotted op) in H. fold (dotted ip) in H.
  destruct ev.
  - destruct (negb (Nat.eqb (count [ch 46] ip) 0)); [discriminate|].
    destruct (it2literal e) as [lit|er]; simpl in H; [|discriminate].
    split; [|intros; discriminate].
    exists o. split; [left; reflexivity|]. eapply apply_wrap_mid; eassumption.
  - destruct (find_in_ast_log (dotted ip) i) as [[r log]|er] eqn:Efi; simpl in H; [|discriminate].
    destruct r as [n0|]; simpl in H; [|discriminate].
    split; [|intros; eexists; eexists; reflexivity].
    exists (apply_dlog log o). split; [right; eexists; reflexivity|]. eapply apply_wrap_mid; eassumption.
Qed.

Lemma sp_prepare_found : forall env ip i e op w o n log,
    find_in_ast_log (dotted ip) i = Ok (Some n, log) ->
    sp_prepare env false ip i e op w o = apply_wrap env w n (apply_dlog log i) (apply_dlog log o).
Proof. intros env ip i e op w o n log H. unfold sp_prepare. fold (dotted ip). rewrite H. reflexivity. Qed.

Lemma sync_property_step : forall env ev ip i e op w o last o1 i1,
    sync_property env ev ip i e op w o last = Ok (o1, i1) ->
    pair_step env ev w last (ip, op, e) i o o1 i1.
Proof.
  intros env ev ip i e op w o last o1 i1 H.
  destruct (sync_property_inv _ _ _ _ _ _ _ _ _ _ _ H) as [repl [o2 [st [Hp [Er Erep]]]]].
  destruct (sp_prepare_mid _ _ _ _ _ _ _ _ _ _ _ Hp) as [Hmid Hfind].
  destruct (C15_rewrite_frame_lemma (dotted op) repl o2 o1 st (dotted_nonempty op) Er)
    as [[H1 _]|[_ [p [H2 H3]]]]; [congruence|].
  eapply ps_intro; eassumption.
Qed.

Lemma sync_loop_steps : forall env ev w pairs i o o' i',
    sync_loop env ev w pairs i o = Ok (o', i') -> pair_steps env ev w pairs i o o' i'.
Proof.
  intros env ev w pairs. induction pairs as [|[[ip op] e] rest IH]; intros i o o' i' H; simpl in H.
  - inversion H; subst. constructor.
  - destruct (sync_property env ev ip i e op w o (is_empty rest)) as [[o1 i1]|er] eqn:Es; simpl in H; [|discriminate].
    eapply pss_cons; [apply sync_property_step; eassumption | apply IH; assumption].
Qed.

(* an error in any pair ends the call before anything is written *)
Lemma sync_loop_error_no_write : forall x e,
    (forall i0 o0, ast_parse [1] (ci_in x) = Ok i0 -> ast_parse [0] (ci_out x) = Ok o0 ->
                   sync_loop (ci_env x) (ci_eval x) (ci_wrap x) (loop_pairs x) i0 o0 = Err e) ->
    fst (run_C14 x) = [].
Proof.
  intros x e H. destruct (run_C14 x) as [evts st] eqn:Er.
  destruct (run_ok_inv x evts st Er) as [[e0 [H1 H2]]|[i0 [o0 [tree [i' [Hi [Ho [Hl [Hs _]]]]]]]]]; [subst; reflexivity|].
  rewrite (H i0 o0 Hi Ho) in Hs. discriminate.
Qed.

Theorem C14_frame_lemma : forall x, C14_frame x.
Proof.
  intros x f tree Hin. destruct (run_C14 x) as [evts st] eqn:Er. simpl in Hin.
  destruct (run_ok_inv x evts st Er) as [[e0 [H1 H2]]|[i0 [o0 [tree0 [i' [Hi [Ho [Hl [Hs [He Hst]]]]]]]]]]; subst.
  - contradiction.
  - destruct Hin as [Hin|[]]. inversion Hin; subst. split; [reflexivity|]. split; [reflexivity|].
    exists i0, o0, i'. repeat split; try assumption. apply sync_loop_steps. assumption.
Qed.

(* at most one write event, never on the input file *)
Theorem C14_events_lemma : forall x,
    fst (run_C14 x) = [] \/ exists tree, fst (run_C14 x) = [EvWrite FOutput tree] /\ snd (run_C14 x) = Ok tt.
Proof.
  intros x. destruct (run_C14 x) as [evts st] eqn:Er.
  destruct (run_ok_inv x evts st Er) as [[e0 [H1 H2]]|[i0 [o0 [tree0 [i' [_ [_ [_ [_ [He Hst]]]]]]]]]]; subst; simpl.
  - left. reflexivity.
  - right. exists tree0. split; reflexivity.
Qed.

Theorem C14_error_no_write_lemma : forall x e, snd (run_C14 x) = Err e -> fst (run_C14 x) = [].
Proof.
  intros x e H. destruct (C14_events_lemma x) as [H1|[tree [H1 H2]]]; [assumption|]. rewrite H2 in H. discriminate.
Qed.

Lemma attach_default_keeps : forall log a,
    aa_loc (attach_default log a) = aa_loc a /\ aa_id (attach_default log a) = aa_id a.
Proof.
  intros log a. unfold attach_default.
  destruct (List.find (fun ev => path_eqb (fst ev) (aa_id a)) log); simpl; split; reflexivity.
Qed.

Lemma set_arg_ann_keeps : forall i e a,
    aa_loc (set_arg_ann i e a) = aa_loc a /\ aa_id (set_arg_ann i e a) = aa_id a.
Proof. intros i e a. unfold set_arg_ann. destruct (path_eqb (aa_id a) i); simpl; split; reflexivity. Qed.

Lemma first_arg_hit_map : forall f q l,
    (forall a, aa_loc (f a) = aa_loc a /\ aa_id (f a) = aa_id a) ->
    first_arg_hit q (map f l) = first_arg_hit q l.
Proof.
  intros f q l Hf. unfold first_arg_hit. induction l as [|a r IH]; simpl; [reflexivity|].
  destruct (Hf a) as [H1 H2]. rewrite H1.
  destruct (oloc_eqb (aa_loc a) q); simpl; [rewrite H2; reflexivity | exact IH].
Qed.

Lemma first_hit_list_ext : forall q (g : astmt -> astmt) l,
    Forall (fun s => first_hit q (g s) = first_hit q s) l ->
    first_hit_list q (map g l) = first_hit_list q l.
Proof.
  intros q g l H. induction H as [|x l Hx Hl IH]; simpl; [reflexivity|]. rewrite Hx, IH. reflexivity.
Qed.

Lemma first_hit_blocks_ext : forall q (g : astmt -> astmt) bl,
    Forall (Forall (fun s => first_hit q (g s) = first_hit q s)) bl ->
    first_hit_blocks q (map (map g) bl) = first_hit_blocks q bl.
Proof.
  intros q g bl H. induction H as [|b bl Hb Hbl IH]; simpl; [reflexivity|].
  rewrite (first_hit_list_ext q g b Hb), IH. reflexivity.
Qed.

Lemma first_hit_map_args : forall f q,
    (forall a, aa_loc (f a) = aa_loc a /\ aa_id (f a) = aa_id a) ->
    forall s, first_hit q (map_args_stmt f s) = first_hit q s.
Proof.
  intros f q Hf. induction s using astmt_ind2; try reflexivity.
  - simpl. destruct (oloc_eqb l (removelast q)); [|reflexivity].
    rewrite !first_arg_hit_map by assumption. reflexivity.
  - simpl map_args_stmt. rewrite !first_hit_class. destruct (oloc_eqb l q); [reflexivity|].
    apply first_hit_list_ext. assumption.
  - simpl map_args_stmt. rewrite !first_hit_other. apply first_hit_blocks_ext. assumption.
  - simpl. destruct (Hf a) as [H1 H2]. rewrite H1, H2. reflexivity.
Qed.

Lemma first_hit_set_stmt_ann : forall i e q s,
    first_hit q (map_stmts (set_stmt_ann i e) s) = first_hit q s.
Proof.
  intros i e q. induction s using astmt_ind2; try reflexivity.
  - simpl map_stmts. unfold set_stmt_ann at 1. rewrite !first_hit_class. destruct (oloc_eqb l q); [reflexivity|].
    apply first_hit_list_ext. assumption.
  - simpl. destruct (path_eqb i0 i); reflexivity.
  - simpl map_stmts. unfold set_stmt_ann at 1. rewrite !first_hit_other. apply first_hit_blocks_ext. assumption.
Qed.

Lemma first_hit_list_map_all : forall q (g : astmt -> astmt) l,
    (forall s, first_hit q (g s) = first_hit q s) -> first_hit_list q (map g l) = first_hit_list q l.
Proof. intros q g l H. apply first_hit_list_ext. apply Forall_forall. intros s _. apply H. Qed.

Lemma first_hit_mid : forall q o o_mid, is_mid o o_mid -> first_hit_list q o_mid = first_hit_list q o.
Proof.
  intros q o o_mid [t0 [Ht0 Hmid]].
  assert (H0 : first_hit_list q t0 = first_hit_list q o).
  { destruct Ht0 as [E|[log E]]; subst; [reflexivity|]. unfold apply_dlog.
    apply first_hit_list_map_all. intros s. apply first_hit_map_args. apply attach_default_keeps. }
  destruct Hmid as [E|[i [e E]]]; subst; [assumption|]. rewrite <- H0. unfold set_ann_by_id.
  apply first_hit_list_map_all. intros s. rewrite first_hit_set_stmt_ann. apply first_hit_map_args.
  apply set_arg_ann_keeps.
Qed.

Lemma pair_steps_single : forall env ev w pr i o o' i',
    pair_steps env ev w [pr] i o o' i' -> pair_step env ev w true pr i o o' i'.
Proof.
  intros env ev w pr i o o' i' H.
  inversion H as [|pr0 rest i0 o0 o1 i1 o2 i2 Hstep Hrest]; subst.
  inversion Hrest; subst. exact Hstep.
Qed.

Lemma ast_parse_ok : forall root m t, ast_parse root m = Ok t -> t = annotate_at root m.
Proof.
  intros root m t H. unfold ast_parse in H. destruct (supported m); [|discriminate]. inversion H. reflexivity.
Qed.

Lemma domain_supported_in : forall x, C14_domain x = true -> supported (ci_in x) = true.
Proof.
  intros x H. unfold C14_domain in H.
  repeat match goal with
         | [ H0 : _ && _ = true |- _ ] => apply andb_true_iff in H0; destruct H0
         end.
  assumption.
Qed.

(* inside the region C15 covers, find_in_ast returns what the address resolves to: same position, same content *)
Lemma find_log_resolve : forall root m q,
    supported m = true -> finding_class_C15 m q = None ->
    exists r log, find_in_ast_log q (annotate_at root m) = Ok (r, log) /\ option_map node_view r = resolve_at root q m.
Proof.
  intros root m q Hs Hc. pose proof (C15_partial_at root m q Hs Hc) as Hfv. unfold find_view_at, find_in_ast in Hfv.
  destruct (find_in_ast_log q (annotate_at root m)) as [[r log]|er]; simpl in Hfv; [|discriminate].
  injection Hfv as Hr. exists r, log. split; [reflexivity | exact Hr].
Qed.

Lemma pair_class_lookup : forall x ip op,
    ci_eval x = false -> pair_class x ip op = None ->
    finding_class_C15 (ci_in x) (dotted ip) = None
    /\ first_hit_list (dotted op) (annotate_at [0] (ci_out x))
       = option_map fst (resolve_at [0] (dotted op) (ci_out x)).
Proof.
  intros x ip op Hev H. unfold pair_class in H. rewrite Hev in H.
  destruct (finding_class_C15 (ci_in x) (dotted ip)) eqn:E1; [discriminate|].
  split; [reflexivity|].
  destruct (rw_finding_class_at [0] (ci_out x) (dotted op)) eqn:E2; [discriminate|].
  unfold rw_finding_class_at in E2.
  destruct (const_hazard (dotted op) (annotate_at [0] (ci_out x))); [discriminate|].
  destruct (first_hit_list (dotted op) (annotate_at [0] (ci_out x))) as [h|];
    destruct (resolve_at [0] (dotted op) (ci_out x)) as [[p n]|]; simpl; try reflexivity; try discriminate.
  - destruct (path_eqb h p) eqn:Ep; [|discriminate]. apply path_eqb_eq in Ep. subst. reflexivity.
  - destruct n as [m0|s0|a0]; try discriminate. destruct s0; discriminate.
Qed.

(* a pair in no finding class, both of whose addresses resolve: what the remaining clauses of pair_class say *)
Lemma pair_class_none : forall x ip op pi src p dst,
    ci_eval x = false -> pair_class x ip op = None ->
    resolve_at [1] (dotted ip) (ci_in x) = Some (pi, src) -> resolve_at [0] (dotted op) (ci_out x) = Some (p, dst) ->
    const_hazard (dotted op) (annotate_at [0] (ci_out x)) = false
    /\ is_parg dst = is_parg src
    /\ (match ci_wrap x, src with Some _, PStmt (SAssign _ _) => true | _, _ => false end) = false
    /\ (is_parg dst = false ->
        existsb (stmt_exists (is_parent_func (dotted op))) (annotate_at [0] (ci_out x)) = false).
Proof.
  intros x ip op pi src p dst Hev H Hri Hro. unfold pair_class in H. rewrite Hev, Hri, Hro in H.
  destruct (finding_class_C15 (ci_in x) (dotted ip)); [discriminate|].
  destruct (rw_finding_class_at [0] (ci_out x) (dotted op)) eqn:E2; [discriminate|].
  unfold rw_finding_class_at in E2.
  destruct (const_hazard (dotted op) (annotate_at [0] (ci_out x))); [discriminate|]. clear E2.
  split; [reflexivity|].
  destruct (is_parg src), (is_parg dst); simpl in H; try discriminate.
  - split; [reflexivity|]. destruct (ci_wrap x); destruct src as [m|[]|a]; try discriminate; split; try reflexivity;
      intros; discriminate.
  - split; [reflexivity|].
    destruct (match ci_wrap x, src with Some _, PStmt (SAssign _ _) => true | _, _ => false end); [discriminate|].
    split; [reflexivity|]. intros _.
    destruct (existsb (stmt_exists (is_parent_func (dotted op))) (annotate_at [0] (ci_out x))); [discriminate | reflexivity].
Qed.

Lemma found_of_resolve : forall root m q p n,
    supported m = true -> finding_class_C15 m q = None -> resolve_at root q m = Some (p, n) ->
    exists nd log, find_in_ast_log q (annotate_at root m) = Ok (Some nd, log) /\ node_view nd = (p, n).
Proof.
  intros root m q p n Hs Hc Hr. destruct (find_log_resolve root m q Hs Hc) as [[nd|] [log [E Hv]]];
    rewrite Hr in Hv; [|discriminate].
  injection Hv as Hv. exists nd, log. split; assumption.
Qed.

Theorem C14_partial_lemma : forall x, guard_C14 x = true -> C14_holds x.
Proof.
  intros x Hg. unfold guard_C14 in Hg. apply andb_true_iff in Hg. destruct Hg as [Hdom Hg].
  pose proof (domain_supported_in x Hdom) as Hsup.
  destruct (finding_class_C14 x) eqn:Ec; [discriminate|]. clear Hg.
  unfold finding_class_C14 in Ec.
  destruct (ci_eval x) eqn:Hev; [discriminate|].
  unfold C14_holds.
  destruct (ci_ips x) as [|ip [|ip2 ips]] eqn:Eips; simpl; try exact I;
    destruct (ci_ops x) as [|op [|op2 ops]] eqn:Eops; simpl; try exact I.
  simpl in Ec. destruct (pair_class x ip op) eqn:Epc; [discriminate|]. clear Ec.
  destruct (pair_class_lookup x ip op Hev Epc) as [Hin Hout].
  (* what a write implies *)
  assert (Hwrite : forall tree, fst (run_C14 x) = [EvWrite FOutput tree] ->
            exists o_mid st p,
              is_mid (annotate_at [0] (ci_out x)) o_mid
              /\ first_hit_list (dotted op) o_mid = Some p
              /\ replaced_first (dotted op) (rw_node st) p o_mid tree
              /\ exists n log, find_in_ast_log (dotted ip) (annotate_at [1] (ci_in x)) = Ok (Some n, log)).
  { intros tree Hw.
    destruct (C14_frame_lemma x FOutput tree) as [_ [_ [i0 [o0 [i' [Hi [Ho [_ Hsteps]]]]]]]].
    { rewrite Hw. left. reflexivity. }
    apply ast_parse_ok in Hi. apply ast_parse_ok in Ho. subst i0 o0.
    rewrite Eips, Eops in Hsteps.
    assert (Hz : exists e, zip3 [ip] [op] (ci_evs x) = [(ip, op, e)]).
    { destruct (ci_evs x); simpl; eexists; reflexivity. }
    destruct Hz as [e0 Hz]. rewrite Hz in Hsteps. apply pair_steps_single in Hsteps.
    inversion Hsteps as [ip0 op0 e1 i o o1' i1' o_mid repl st p Hsp Hfind Hmid Hrv Hrep Hfh Hrf]; subst.
    exists o_mid, st, p. repeat split; try assumption. apply Hfind. assumption. }
  split.
  - (* an address that does not resolve *)
    intros Hunres.
    destruct (run_C14 x) as [evts st] eqn:Er.
    destruct (run_ok_inv x evts st Er) as [[e0 [H1 H2]]|[i0 [o0 [tree [i' [_ [_ [_ [_ [He Hst]]]]]]]]]]; subst.
    + exists e0. reflexivity.
    + exfalso. destruct (Hwrite tree eq_refl) as [o_mid [st [p [Hmid [Hfh [_ [n [log Hfind]]]]]]]].
      destruct Hunres as [Hu|[_ Hu]].
      * rewrite (first_hit_mid _ _ _ Hmid), Hout, Hu in Hfh. discriminate.
      * destruct (find_log_resolve [1] _ _ Hsup Hin) as [r [log' [E Hr]]]. rewrite Hfind in E. injection E as E _.
        subst r. rewrite Hu in Hr. discriminate.
  - (* a write *)
    intros tree Hw. destruct (Hwrite tree Hw) as [o_mid [st [p [Hmid [Hfh [Hrf [n [log Hfind]]]]]]]].
    rewrite (first_hit_mid _ _ _ Hmid), Hout in Hfh.
    destruct (resolve_at [0] (dotted op) (ci_out x)) as [[p' n']|] eqn:Eres; simpl in Hfh; [|discriminate].
    inversion Hfh; subst p'.
    exists p, n', o_mid, st. repeat split; try assumption.
    intros _. destruct (find_log_resolve [1] _ _ Hsup Hin) as [r [log' [E Hr]]]. rewrite Hfind in E.
    injection E as E _. subst r. exists (node_view n). symmetry. exact Hr.
Qed.
