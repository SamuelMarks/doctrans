(* SyncLocate: the abstract tree layer of SyncFacts (find, rewrite) instantiated with the Locate model
   (find_in_ast / RewriteAtQuery on annotated modules), and what the C15 theorems give for sync:
   the frame law of the rewriter (C11), when the rewriter replaces what the finder found (REPLACES, with the
   refutation for FunctionDef targets), and that inside guard_C15 conform works on the node resolve names.
   emit / parse / render / cmp / options stay abstract.  Defines the two adapters loc_find / loc_rewrite and the
   `others` of the frame law (norm, others_list, others_ref). *)
From Coq Require Import List Ascii Bool Arith ZArith Lia.
From Coq Require String.
Import String.StringSyntax.
From DT Require Import PyStr Sexp PyVal PureUtils PyAst FS Sync PyStrFacts FSFacts SyncFacts.
From DT Require Import Locate C15Spec LocateFacts RewriteFacts C15Facts.
Import ListNotations.

(* find_in_ast as conform sees it.  An exception inside find_in_ast (unreachable on a freshly annotated
   supported module inside guard_C15) is shown as None. *)
Definition loc_find (q : list str) (t : amodule) : option anode :=
  match find_in_ast q t with Ok r => r | Err _ => None end.

(* RewriteAtQuery(search, n).visit(t) with its flag.  conform asserts a non-empty search before it gets
   here; a visit that raises, or does not return a Module, is shown as unchanged/not replaced. *)
Definition loc_rewrite (q : list str) (n : anode) (t : amodule) : amodule * bool :=
  match q with
  | [] => (t, false)
  | _ => match rewrite_visit q n t with
         | Ok (NMod m', st) => (m', rw_replaced st)
         | _ => (t, false)
         end
  end.

Lemma loc_rewrite_ok : forall q n t m' st,
    q <> [] -> rewrite_visit q n t = Ok (NMod m', st) -> loc_rewrite q n t = (m', rw_replaced st).
Proof.
  intros q n t m' st Hq H. unfold loc_rewrite. destruct q as [|x q']; [contradiction Hq; reflexivity|].
  rewrite H. reflexivity.
Qed.

Lemma loc_rewrite_true_inv : forall q n t t',
    loc_rewrite q n t = (t', true) ->
    q <> [] /\ exists st, rewrite_visit q n t = Ok (NMod t', st) /\ rw_replaced st = true.
Proof.
  intros q n t t' H. unfold loc_rewrite in H. destruct q as [|x q']; [discriminate H|].
  split; [discriminate|].
  destruct (rewrite_visit (x :: q') n t) as [[[m'|s|a] st]|e]; try discriminate H.
  injection H as H1 H2. subst m'. exists st. split; [reflexivity|exact H2].
Qed.

Lemma loc_find_resolve : forall m q,
    guard_C15 m q = true -> option_map node_view (loc_find q (annotate m)) = resolve q m.
Proof.
  intros m q Hg. pose proof (C15_partial_lemma m q Hg) as H.
  unfold C15_find_at, find_view, find_view_at in H. unfold loc_find, annotate.
  destruct (find_in_ast q (annotate_at [] m)) as [r|e]; cbn [bind] in H; [|discriminate H].
  injection H as H. exact H.
Qed.

Lemma loc_find_some_resolve : forall m q o,
    guard_C15 m q = true -> loc_find q (annotate m) = Some o -> resolve q m = Some (node_view o).
Proof.
  intros m q o Hg H. rewrite <- (loc_find_resolve m q Hg), H. reflexivity.
Qed.

Lemma loc_find_none_resolve : forall m q,
    guard_C15 m q = true -> loc_find q (annotate m) = None -> resolve q m = None.
Proof.
  intros m q Hg H. rewrite <- (loc_find_resolve m q Hg), H. reflexivity.
Qed.

(* what visit_FunctionDef may do to an addressed parent function that has no addressed argument is
   forgotten: the entries (not the number) of its positional defaults *)
Definition norm_args (a : aarguments) : aarguments :=
  mkAArguments (aar_args a) (map (fun _ => DRaw []) (aar_defaults a)) (aar_kwonly a)
               (aar_kw_defaults a) (aar_vararg a) (aar_kwarg a).

Fixpoint norm (q : loc) (s : astmt) : astmt :=
  match s with
  | AFunc i l n a b d r =>
    if oloc_eqb l (removelast q) then AFunc i l n (norm_args a) b d r else s
  | AClass i l n bs b d => AClass i l n bs (map (norm q) b) d
  | AOther i t h bl => AOther i t h (map (map (norm q)) bl)
  | _ => s
  end.

Lemma map_const_length : forall (A B : Type) (c : B) (l1 l2 : list A),
    List.length l1 = List.length l2 -> map (fun _ => c) l1 = map (fun _ => c) l2.
Proof.
  intros A B c l1. induction l1 as [|x l1 IH]; intros [|y l2] H; try discriminate H; [reflexivity|].
  cbn [map]. rewrite (IH l2) by (injection H as H; exact H). reflexivity.
Qed.

Lemma map_Forall2_eq : forall (A B : Type) (R : A -> A -> Prop) (f : A -> B) l l',
    Forall (fun x => forall y, R x y -> f x = f y) l -> Forall2 R l l' -> map f l = map f l'.
Proof.
  intros A B R f l l' HP H2. induction H2 as [|x y l l' Hxy Hl IH]; [reflexivity|].
  inversion HP as [|x0 l0 Hx Hrest]. subst. cbn [map]. rewrite (Hx y Hxy), (IH Hrest). reflexivity.
Qed.

Lemma smd_norm : forall q s s', same_mod_defaults q s s' -> norm q s = norm q s'.
Proof.
  intros q s. induction s as [i l n a b d r _|i l n bs b d IHb|i l t a v|i l ts v|i e|i e|i t h bl IHbl|a]
                using astmt_ind2; intros s' H; inversion H; subst; try reflexivity.
  - match goal with Hl : oloc_eqb l (removelast q) = true |- _ => cbn [norm]; rewrite Hl end.
    match goal with Hs : same_args a _ |- _ => destruct Hs as [E1 [E2 [E3 [E4 [E5 E6]]]]] end.
    unfold norm_args. rewrite E1, E2, E3, E4, E5.
    rewrite (map_const_length _ _ (DRaw []) _ _ E6). reflexivity.
  - cbn [norm]. f_equal. apply (map_Forall2_eq _ _ (same_mod_defaults q)); assumption.
  - cbn [norm]. f_equal.
    apply (map_Forall2_eq _ _ (Forall2 (same_mod_defaults q))); [|assumption].
    apply Forall_forall. intros blk Hin blk' H2. rewrite Forall_forall in IHbl.
    apply (map_Forall2_eq _ _ (same_mod_defaults q)); [apply IHbl; exact Hin|exact H2].
Qed.

(* [others_list q ref t]: the top-level statements of t, normalised, without the one at the index at which
   [ref] has the first position RewriteAtQuery would replace.  [ref] is the tree before the rewrite: the
   replaced position cannot be told from the new tree alone (the new node carries no _location). *)
Fixpoint others_list (q : loc) (ref t : list astmt) : list astmt :=
  match ref, t with
  | r :: ref', x :: t' =>
    match first_hit q r with
    | Some _ => map (norm q) t'
    | None => norm q x :: others_list q ref' t'
    end
  | _, _ => map (norm q) t
  end.

Definition others_ref (ref : amodule) (q : list str) (t : amodule) : list astmt := others_list q ref t.

Lemma visit_list_others : forall q l st l' st',
    rw_replaced st = false -> visit_list q st l = Ok (l', st') ->
    others_list q l l' = others_list q l l.
Proof.
  intros q l. induction l as [|x rest IH]; intros st l' st' Hst Hv; cbn [visit_list] in Hv.
  - injection Hv as Hv _. subst l'. reflexivity.
  - destruct (visit_stmt q st x) as [[x' st1]|e] eqn:Ex; cbn [bind fst snd] in Hv; [|discriminate Hv].
    destruct (visit_list q st1 rest) as [[r' st2]|e] eqn:El; cbn [bind fst snd] in Hv; [|discriminate Hv].
    injection Hv as Hv _. subst l'.
    destruct (frame_stmt_all q x st x' st1 Hst Ex) as [[H1 [H2 H3]]|[H1 [p [H2 H3]]]].
    + cbn [others_list]. rewrite H2. rewrite <- (smd_norm q x x' H3).
      rewrite (IH st1 r' st2 H1 El). reflexivity.
    + rewrite (visit_list_id q rest st1 H1) in El. injection El as El _. subst r'.
      cbn [others_list]. rewrite H2. reflexivity.
Qed.

(* the abstract frame law, with the tree before as the reference: holds of RewriteAtQuery for every tree
   (stale locations included), every search and every replacement node; no guard *)
Definition REWRITE_FRAME_REF_law (node tree X : Type)
           (rewrite : list str -> node -> tree -> tree * bool)
           (others : tree -> list str -> tree -> list X) : Prop :=
  forall search n t, others t search (fst (rewrite search n t)) = others t search t.

Theorem loc_rewrite_frame : REWRITE_FRAME_REF_law anode amodule astmt loc_rewrite others_ref.
Proof.
  intros q n t. unfold loc_rewrite, others_ref. destruct q as [|x q']; [reflexivity|].
  destruct (rewrite_visit (x :: q') n t) as [[[m'|s|a] st]|e] eqn:E; cbn [fst]; try reflexivity.
  rewrite rewrite_visit_eq in E by discriminate.
  destruct (visit_list (x :: q') (mkRw false n) t) as [[l st1]|e] eqn:EV; cbn [bind fst snd] in E;
    [|discriminate E].
  injection E as E _. subst l. apply (visit_list_others (x :: q') t (mkRw false n) m' st1 eq_refl EV).
Qed.

Lemma not_addressed_not_replaced : forall q n t,
    first_hit_list q t = None -> snd (loc_rewrite q n t) = false.
Proof.
  intros q n t H. unfold loc_rewrite. destruct q as [|x q']; [reflexivity|].
  destruct (rewrite_visit (x :: q') n t) as [[[m'|s|a] st]|e] eqn:E; try reflexivity.
  cbn [snd]. rewrite (C15_rewrite_position (x :: q') n t m' st) by (try discriminate; exact E).
  rewrite H. reflexivity.
Qed.

(* inside both guards a node the finder found is replaced, whenever the visit returns at all *)
Theorem replaces_resolved_nodes : forall m q n o m' st,
    guard_C15 m q = true -> rw_guard_C15 m q = true ->
    loc_find q (annotate m) = Some o ->
    rewrite_visit q n (annotate m) = Ok (NMod m', st) ->
    q <> [] ->
    loc_rewrite q n (annotate m) = (m', true)
    /\ replaced_first q (rw_node st) (fst (node_view o)) (annotate m) m'.
Proof.
  intros m q n o m' st Hg Hrw Hf Hv Hq.
  pose proof (loc_find_some_resolve m q o Hg Hf) as Hres.
  pose proof (C15_rewrite_partial_lemma m q n m' st Hq Hrw Hv) as HP. rewrite Hres in HP.
  destruct (node_view o) as [p pn]. destruct HP as [H1 H2].
  split; [|exact H2]. rewrite (loc_rewrite_ok q n (annotate m) m' st Hq Hv), H1. reflexivity.
Qed.

Corollary replaces_class_nodes : forall m q n i l name bs body d m' st,
    guard_C15 m q = true -> rw_guard_C15 m q = true ->
    loc_find q (annotate m) = Some (NStmt (AClass i l name bs body d)) ->
    rewrite_visit q n (annotate m) = Ok (NMod m', st) ->
    q <> [] ->
    loc_rewrite q n (annotate m) = (m', true)
    /\ replaced_first q (rw_node st) i (annotate m) m'.
Proof.
  intros m q n i l name bs body d m' st Hg Hrw Hf Hv Hq.
  apply (replaces_resolved_nodes m q n _ m' st Hg Hrw Hf Hv Hq).
Qed.

(* a FunctionDef statement is never swapped for the replacement node: only its argument lists and the
   entries of its defaults can change *)
Lemma visit_keeps_function : forall q st i l n a b d r s' st',
    visit_stmt q st (AFunc i l n a b d r) = Ok (s', st') -> exists a', s' = AFunc i l n a' b d r.
Proof.
  intros q st i l n a b d r s' st' H.
  destruct (vfd_shape _ _ _ _ _ _ _ _ _ _ _ H)
    as [[_ [-> _]]|(node' & ds & ra & args1 & b1 & kw1 & b2 & -> & _)]; eexists; reflexivity.
Qed.

(* the finding found-definition-not-replaced: a location that names a FunctionDef which no tested node
   carries is found by the finder side (resolve) and never replaced, whatever the replacement node *)
Theorem function_nodes_never_replaced : forall m q n,
    rw_finding_class_C15 m q = Some KR_function_target ->
    (exists p name args body d r, resolve q m = Some (p, PStmt (SFunc name args body d r)))
    /\ snd (loc_rewrite q n (annotate m)) = false.
Proof.
  intros m q n H. unfold rw_finding_class_C15 in H.
  destruct (const_hazard q (annotate m)); [discriminate H|].
  destruct (first_hit_list q (annotate m)) as [h|] eqn:EH.
  - destruct (resolve q m) as [[p pn]|]; [|discriminate H].
    destruct (path_eqb h p); discriminate H.
  - split; [|apply not_addressed_not_replaced; exact EH].
    destruct (resolve q m) as [[p [mm|s|a]]|]; try discriminate H.
    destruct s as [name args body d r|name bs body d|t a v|ts v|e|e|tag h bl]; try discriminate H.
    exists p, name, args, body, d, r. reflexivity.
Qed.

(* hence REPLACES_law is false of the Locate layer: def helper(a, b) is found and never replaced *)
Lemma helper_found_not_replaced :
  (exists o, loc_find [L "helper"] (annotate [w_helper; w_C]) = Some o
             /\ fst (node_view o) = [0])
  /\ guard_C15 [w_helper; w_C] [L "helper"] = true
  /\ rw_finding_class_C15 [w_helper; w_C] [L "helper"] = Some KR_function_target
  /\ forall n, snd (loc_rewrite [L "helper"] n (annotate [w_helper; w_C])) = false.
Proof.
  split; [eexists; split; vm_compute; reflexivity|].
  split; [vm_compute; reflexivity|]. split; [vm_compute; reflexivity|].
  intros n. apply not_addressed_not_replaced. vm_compute. reflexivity.
Qed.

Theorem REPLACES_law_refuted : ~ REPLACES_law anode amodule loc_find loc_rewrite.
Proof.
  intros H. destruct helper_found_not_replaced as [[o [Ho _]] [_ [_ Hn]]].
  assert (Hq : [L "helper"] <> (@nil str)) by discriminate.
  pose proof (H [L "helper"] (NStmt (AExpr [] (EConst VNone))) (annotate [w_helper; w_C]) o Ho Hq) as HT.
  rewrite Hn in HT. discriminate HT.
Qed.

Section SyncLocate.
  Variables (irT opts : Type).
  Variable emit_k : kind -> irT -> opts -> outcome anode.
  Variable parse_file : FS.path -> bytes -> outcome amodule.
  Variable cmp : anode -> anode -> bool.
  Variable render_node : anode -> outcome bytes.
  Variable render_tree : amodule -> outcome bytes.
  Variable opts_of : option anode -> list str -> kind -> opts.
  Variable type_ok : kind -> anode -> bool.

  Notation lconform :=
    (conform emit_k parse_file loc_find loc_rewrite cmp render_node render_tree opts_of type_ok).

  (* C11: a replacement made by sync keeps every other top-level statement of the file (up to the default
     entries of an addressed parent function); no premise on the tree layer at all *)
  Theorem sync_replace_keeps_other_statements :
    RENDER_PARSE_law amodule parse_file render_tree ->
    forall fs file search k ir f fs' pr content t o,
      lconform fs file search k ir f = (fs', Ok true, pr) ->
      fs_get file fs = Some content -> parse_file file content = Ok t -> loc_find search t = Some o ->
      exists content' t',
        fs_get file fs' = Some content' /\ parse_file file content' = Ok t'
        /\ others_ref t search t' = others_ref t search t.
  Proof.
    intros HRP fs file search k ir f fs' pr content t o H Hc Hp Hf.
    destruct (conform_replaced_keeps_others_ref _ _ _ _ _ _ _ _ _ _ _ _ _ _ _
                loc_rewrite_frame HRP _ _ _ _ _ _ _ _ _ _ _ H Hc Hp Hf)
      as [content' [t' [n [H1 [H2 [_ [_ H5]]]]]]].
    exists content', t'. split; [exact H1|]. split; [exact H2|exact H5].
  Qed.

  (* C11 with the position named: the file parses to the fresh annotation of m and the location is inside
     rw_guard_C15.  Then the one position that changed is the position of resolve, replaced by the
     visitor's final node; everything visited before it is unchanged up to same_mod_defaults, everything
     after it unchanged *)
  Theorem sync_replace_preserves_other_statements :
    RENDER_PARSE_law amodule parse_file render_tree ->
    forall fs file search k ir f fs' pr content m o,
      lconform fs file search k ir f = (fs', Ok true, pr) ->
      fs_get file fs = Some content -> parse_file file content = Ok (annotate m) ->
      loc_find search (annotate m) = Some o ->
      rw_guard_C15 m search = true ->
      exists content' t' p pn r,
        fs_get file fs' = Some content' /\ parse_file file content' = Ok t'
        /\ resolve search m = Some (p, pn)
        /\ replaced_first search r p (annotate m) t'
        /\ others_ref (annotate m) search t' = others_ref (annotate m) search (annotate m).
  Proof.
    intros HRP fs file search k ir f fs' pr content m o H Hc Hp Hf Hrw.
    destruct (conform_replaced_keeps_others_ref _ _ _ _ _ _ _ _ _ _ _ _ _ _ _
                loc_rewrite_frame HRP _ _ _ _ _ _ _ _ _ _ _ H Hc Hp Hf)
      as [content' [t' [n [H1 [H2 [_ [HR H5]]]]]]].
    destruct (loc_rewrite_true_inv _ _ _ _ HR) as [Hq [st [Hv Hrep]]].
    pose proof (C15_rewrite_partial_lemma m search n t' st Hq Hrw Hv) as HP.
    destruct (resolve search m) as [[p pn]|].
    - destruct HP as [_ HP]. exists content', t', p, pn, (rw_node st).
      repeat (split; [first [assumption|reflexivity]|]). exact H5.
    - destruct HP as [HP _]. rewrite HP in Hrep. discriminate Hrep.
  Qed.

  (* at the level of conform: inside guard_C15 a modification either appends because resolve finds
     nothing at the location, or rewrites at the node resolve names *)
  Theorem sync_works_on_resolved_node :
    forall fs file search k ir f fs' pr content m,
      lconform fs file search k ir f = (fs', Ok true, pr) ->
      fs_get file fs = Some content -> parse_file file content = Ok (annotate m) ->
      guard_C15 m search = true ->
      (resolve search m = None /\ exists n src,
          emit_k k ir (opts_of None search k) = Ok n /\ render_node n = Ok src
          /\ fs' = written fs file Ap src)
      \/ (exists o n t' src,
             loc_find search (annotate m) = Some o /\ resolve search m = Some (node_view o)
             /\ emit_k k ir (opts_of (Some o) search k) = Ok n /\ cmp o n = false
             /\ loc_rewrite search n (annotate m) = (t', true) /\ render_tree t' = Ok src
             /\ fs' = written fs file Wt src).
  Proof.
    intros fs file search k ir f fs' pr content m H Hc Hp Hg.
    destruct (conform_true_at _ _ _ _ _ _ _ _ _ _ _ _ _ _ _ _ _ _ _ _ _ _ _ H Hc Hp)
      as [[Hf0 [n [src [He [Hr [E _]]]]]]
         |[o [n [t' [src [Hf0 [He [_ [_ [HC [HR [Hrd [E _]]]]]]]]]]]]].
    - left. split; [apply (loc_find_none_resolve m search Hg Hf0)|]. exists n, src.
      split; [exact He|]. split; [exact Hr|exact E].
    - right. exists o, n, t', src.
      split; [exact Hf0|]. split; [apply (loc_find_some_resolve m search o Hg Hf0)|].
      repeat (split; [assumption|]). exact E.
  Qed.

  (* the same for the settled state every successful run establishes (SyncFacts.sync_establishes_settled):
     the node compared with the re-emission of the truth is the one resolve names *)
  Theorem settled_node_is_resolved : forall fs file search k ir m content,
      settled anode amodule irT opts emit_k parse_file loc_find loc_rewrite cmp opts_of type_ok
              fs file search k ir ->
      fs_get file fs = Some content -> parse_file file content = Ok (annotate m) ->
      guard_C15 m search = true ->
      exists o n, resolve search m = Some (node_view o)
                  /\ emit_k k ir (opts_of (Some o) search k) = Ok n
                  /\ (cmp o n = true \/ snd (loc_rewrite search n (annotate m)) = false).
  Proof.
    intros fs file search k ir m content [content0 [t [o [n [H1 [H2 [H3 [H4 [_ [_ H7]]]]]]]]]] Hc Hp Hg.
    rewrite Hc in H1. injection H1 as H1. subst content0. rewrite Hp in H2. injection H2 as H2. subst t.
    exists o, n. split; [apply (loc_find_some_resolve m search o Hg H3)|]. split; [exact H4|exact H7].
  Qed.
End SyncLocate.

(* non-vacuity of the positive half: class C of [w_C; w_helper] is inside both guards, is found at position
   [0], and a visit with a fresh ClassDef replaces it and keeps the other statement (def helper) *)
Example class_target_replaced_example :
  let m := [w_C; w_helper] in
  let n := NStmt (AClass [] None (L "C") [] [] []) in
  guard_C15 m [L "C"] = true /\ rw_guard_C15 m [L "C"] = true
  /\ option_map (fun o => fst (node_view o)) (loc_find [L "C"] (annotate m)) = Some [0]
  /\ snd (loc_rewrite [L "C"] n (annotate m)) = true
  /\ others_ref (annotate m) [L "C"] (fst (loc_rewrite [L "C"] n (annotate m)))
     = [annotate_stmt [] [1] w_helper]
  /\ rw_guard_C15 m [L "helper"] = false.
Proof. cbv zeta. repeat apply conj; vm_compute; reflexivity. Qed.
