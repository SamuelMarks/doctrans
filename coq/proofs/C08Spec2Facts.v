(* The refined C08 classifier (model/C08Spec2.v) against C08Spec's: old classes and their names are kept, the class
   K8r_text_quoted_three_deep is added only where the old classifier is silent and only for the argparse kind, the refined
   guard lies inside the old one; what the class describes (two passes strip two pairs of quotes), classified samples and
   unclassified neighbours. *)
From Coq Require Import List Ascii Bool Arith ZArith.
From Coq Require String.
Import String.StringSyntax.
From DT Require Import PyStr PyVal Defaults IR C01Spec C05Spec C08Spec C08Spec2 C05Closed.
From DT Require EmitAst C04Spec2 C05ClosedFacts.
From DT Require Import PyStrFacts RefineFacts.
Import ListNotations.

Lemma finding_class_C08_r_adds : forall k i c,
    finding_class_C08_r k i = Some c ->
    (exists c0, finding_class_C08 k i = Some c0 /\ c = K8r_old c0)
    \/ (finding_class_C08 k i = None /\ c = K8r_text_quoted_three_deep).
Proof.
  intros k i c H. destruct (refine_adds K8r_old _ _ c H) as [Hold|[Hnone Hnew]]; [left; exact Hold|].
  right. split; [exact Hnone|]. unfold new_class_C08 in Hnew.
  destruct (is_argparse_kind k && _); [injection Hnew as Hnew; symmetry; exact Hnew|discriminate Hnew].
Qed.

Lemma finding_class_C08_r_old : forall k i c,
    finding_class_C08 k i = Some c -> finding_class_C08_r k i = Some (K8r_old c).
Proof. intros k i c. apply (refine_old K8r_old). Qed.

(* a kept class keeps its name, so the KNOWN_FINDINGS lines of the old classes stay valid *)
Lemma c08_class_r_name_old : forall c, c08_class_r_name (K8r_old c) = c05_class_name c.
Proof. reflexivity. Qed.

Lemma guard_C08_r_inside : forall k i, guard_C08_r k i = true -> guard_C08 k i = true.
Proof. intros k i. apply (refine_guard K8r_old). Qed.

Lemma three_deep_needs_argparse_kind : forall k i,
    new_class_C08 k i = Some K8r_text_quoted_three_deep -> k = KArgparse.
Proof.
  intros k i H. unfold new_class_C08 in H. destruct k; cbn [is_argparse_kind andb] in H; try discriminate H. reflexivity.
Qed.

(* a text in the class is itself wrapped in quote marks, and so is what one emission leaves of it: three pairs at least *)
Lemma three_deep_loses_twice : forall s,
    three_deep s = true ->
    C04Spec2.loses_quotes s = true /\ C04Spec2.loses_quotes (EmitAst.set_value_str s) = true.
Proof.
  intros s H. unfold three_deep in H.
  assert (A : forall t, C04Spec2.loses_quotes (EmitAst.set_value_str t) = true -> C04Spec2.loses_quotes t = true).
  { intros t Ht. unfold C04Spec2.loses_quotes in *. destruct (str_eqb (EmitAst.set_value_str t) t) eqn:E; [|reflexivity].
    apply str_eqb_eq in E. rewrite E in Ht. rewrite E in Ht. rewrite str_eqb_refl in Ht. discriminate Ht. }
  split; [apply A; apply A; exact H|apply A; exact H].
Qed.

(* the witness: a summary in three pairs of single quote marks.  Unnamed by the old classifier, named by the refined one
   for the argparse kind only, in the domain; and over the model of the argparse conversion the description read back
   after the first, the second and the third emission are three different texts (so the second and third emission,
   which print the second and the third of them, differ) *)
Definition w8_summary : ir := C05ClosedFacts.w1p (L "'''a'''") (cg (L "first.") (L "int") (VInt 1)).

Definition doc_after (n : nat) (i : ir) : option (fld str) :=
  (fix go (n : nat) (i : ir) : option (fld str) :=
     match n with
     | O => Some (ir_doc i)
     | S m => match conv_argparse default_env i with Ok i' => go m i' | Err _ => None end
     end) n i.

Lemma three_deep_summary_classified :
  finding_class_C08 KArgparse w8_summary = None
  /\ finding_class_C08_r KArgparse w8_summary = Some K8r_text_quoted_three_deep
  /\ forallb (fun k => match finding_class_C08_r k w8_summary with None => true | Some _ => false end)
             [KRest; KNumpydoc; KGoogle; KClass; KFunction; KMethod] = true
  /\ c05_domain w8_summary = true
  /\ doc_after 1 w8_summary = Some (Has (L "''a''"))
  /\ doc_after 2 w8_summary = Some (Has (L "'a'"))
  /\ doc_after 3 w8_summary = Some (Has (L "a")).
Proof. vm_compute. repeat split; reflexivity. Qed.

(* the same on the prose of a parameter *)
Definition w8_help : ir := C05ClosedFacts.w1p (L "Sum.") (cg (L "'''a'''") (L "int") (VInt 1)).

Lemma three_deep_help_classified :
  finding_class_C08 KArgparse w8_help = None
  /\ finding_class_C08_r KArgparse w8_help = Some K8r_text_quoted_three_deep
  /\ finding_class_C08_r KClass w8_help = None
  /\ c05_domain w8_help = true.
Proof. vm_compute. repeat split; reflexivity. Qed.

(* one pair and two pairs stabilise after the first pass: not in the class; seven quote marks alone are *)
Lemma one_and_two_pairs_unclassified :
  forallb (fun s => match finding_class_C08_r KArgparse (C05ClosedFacts.w1p s (cg (L "first.") (L "int") (VInt 1)))
                    with None => true | Some _ => false end)
          [L "'a'"; L "''a''"; L "'a' and 'b'"; L "''''"; L "'''''"] = true
  /\ finding_class_C08_r KArgparse (C05ClosedFacts.w1p (L "'''''''") (cg (L "first.") (L "int") (VInt 1)))
     = Some K8r_text_quoted_three_deep.
Proof. vm_compute. repeat split; reflexivity. Qed.
