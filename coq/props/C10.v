(* C10: idempotence, convergence, the truth is never written.  The lemmas live in
   proofs/SyncFacts.v. *)
From Coq Require Import List Ascii Bool Arith.
From Coq Require String.
Import String.StringSyntax.
From DT Require Import PyStr Sexp PyVal PureUtils FS Sync PyStrFacts FSFacts SyncFacts.
Import ListNotations.

(* a file reported unchanged: the file system is the very same *)
Theorem C10_reported_unchanged_is_unchanged :
    forall (node tree irT opts : Type) (emit_k : kind -> irT -> opts -> outcome node)
      (parse_file : path -> bytes -> outcome tree) (find : list str -> tree -> option node)
      (rewrite : list str -> node -> tree -> tree * bool) (cmp : node -> node -> bool)
      (render_node : node -> outcome bytes) (render_tree : tree -> outcome bytes)
      (opts_of : option node -> list str -> kind -> opts) (type_ok : kind -> node -> bool)
      (fs : fsys) (file : path) (search : list str) (k : kind) (ir : irT) 
      (f : fault) (fs' : fsys) (pr : list str),
    conform emit_k parse_file find rewrite cmp render_node render_tree opts_of type_ok fs file search
      k ir f = (fs', Ok false, pr) -> fs' = fs.
Proof. exact conform_false_unchanged. Qed.
Print Assumptions C10_reported_unchanged_is_unchanged.

(* the truth reads the same afterwards, for every outcome and every fault assignment, provided it is not the
   temporary name of a target *)
Theorem C10_truth_untouched :
    forall (node tree irT opts : Type) (emit_k : kind -> irT -> opts -> outcome node)
      (parse_file : path -> bytes -> outcome tree) (find : list str -> tree -> option node)
      (rewrite : list str -> node -> tree -> tree * bool) (cmp : node -> node -> bool)
      (render_node : node -> outcome bytes) (render_tree : tree -> outcome bytes)
      (opts_of : option node -> list str -> kind -> opts) (type_ok : kind -> node -> bool)
      (parse_truth : kind -> option node -> list str -> outcome irT) (fs : fsys) 
      (a : sync_args) (truth : path) (faults : path -> fault) (fs' : fsys)
      (r : outcome (list (path * bool))) (pr : list str),
    ground_truth emit_k parse_file find rewrite cmp render_node render_tree opts_of type_ok
      parse_truth fs a truth faults = (fs', r, pr) ->
    (forall t : path, In t (targets a) -> t <> truth -> truth <> tmp_of t) ->
    fs_get truth fs' = fs_get truth fs.
Proof. exact ground_truth_truth_untouched. Qed.
Print Assumptions C10_truth_untouched.

(* from FIX and REPLACES: the second run changes nothing, flags all false, prints nothing *)
Theorem C10_second_run_noop :
    forall (node tree irT opts : Type) (emit_k : kind -> irT -> opts -> outcome node)
      (parse_file : path -> bytes -> outcome tree) (find : list str -> tree -> option node)
      (rewrite : list str -> node -> tree -> tree * bool) (cmp : node -> node -> bool)
      (render_node : node -> outcome bytes) (render_tree : tree -> outcome bytes)
      (opts_of : option node -> list str -> kind -> opts) (type_ok : kind -> node -> bool)
      (parse_truth : kind -> option node -> list str -> outcome irT),
    FIX_law node tree irT opts emit_k parse_file find rewrite cmp render_node render_tree opts_of
      type_ok ->
    REPLACES_law node tree find rewrite ->
    forall (fs : fsys) (a : sync_args) (truth : path) (fs1 : fsys) (eff : list (path * bool))
      (pr : list str),
    sync_args_ok a truth ->
    ground_truth emit_k parse_file find rewrite cmp render_node render_tree opts_of type_ok
      parse_truth fs a truth NoFaults = (fs1, Ok eff, pr) ->
    forall faults : path -> fault,
    exists eff' : list (path * bool),
      ground_truth emit_k parse_file find rewrite cmp render_node render_tree opts_of type_ok
        parse_truth fs1 a truth faults = (fs1, Ok eff', []) /\ flags_false eff'.
Proof. exact sync_second_run_noop. Qed.
Print Assumptions C10_second_run_noop.

(* from FIX alone: the second run changes nothing and flags are all false *)
Theorem C10_second_run_unchanged :
    forall (node tree irT opts : Type) (emit_k : kind -> irT -> opts -> outcome node)
      (parse_file : path -> bytes -> outcome tree) (find : list str -> tree -> option node)
      (rewrite : list str -> node -> tree -> tree * bool) (cmp : node -> node -> bool)
      (render_node : node -> outcome bytes) (render_tree : tree -> outcome bytes)
      (opts_of : option node -> list str -> kind -> opts) (type_ok : kind -> node -> bool)
      (parse_truth : kind -> option node -> list str -> outcome irT),
    FIX_law node tree irT opts emit_k parse_file find rewrite cmp render_node render_tree opts_of
      type_ok ->
    forall (fs : fsys) (a : sync_args) (truth : path) (fs1 : fsys) (eff : list (path * bool))
      (pr : list str),
    sync_args_ok a truth ->
    ground_truth emit_k parse_file find rewrite cmp render_node render_tree opts_of type_ok
      parse_truth fs a truth NoFaults = (fs1, Ok eff, pr) ->
    forall faults : path -> fault,
    exists (eff' : list (path * bool)) (pr' : list str),
      ground_truth emit_k parse_file find rewrite cmp render_node render_tree opts_of type_ok
        parse_truth fs1 a truth faults = (fs1, Ok eff', pr') /\ flags_false eff'.
Proof. exact sync_second_run_unchanged. Qed.
Print Assumptions C10_second_run_unchanged.

(* from FIX: n further runs, under any faults, leave the file system of the first run *)
Theorem C10_converges :
    forall (node tree irT opts : Type) (emit_k : kind -> irT -> opts -> outcome node)
      (parse_file : path -> bytes -> outcome tree) (find : list str -> tree -> option node)
      (rewrite : list str -> node -> tree -> tree * bool) (cmp : node -> node -> bool)
      (render_node : node -> outcome bytes) (render_tree : tree -> outcome bytes)
      (opts_of : option node -> list str -> kind -> opts) (type_ok : kind -> node -> bool)
      (parse_truth : kind -> option node -> list str -> outcome irT),
    FIX_law node tree irT opts emit_k parse_file find rewrite cmp render_node render_tree opts_of
      type_ok ->
    forall (fs : fsys) (a : sync_args) (truth : path) (fs1 : fsys) (eff : list (path * bool))
      (pr : list str),
    sync_args_ok a truth ->
    ground_truth emit_k parse_file find rewrite cmp render_node render_tree opts_of type_ok
      parse_truth fs a truth NoFaults = (fs1, Ok eff, pr) ->
    forall (faults : path -> fault) (n : nat),
    sync_runs node tree irT opts emit_k parse_file find rewrite cmp render_node render_tree opts_of
      type_ok parse_truth a truth faults n fs1 = Some fs1.
Proof. exact sync_converges. Qed.
Print Assumptions C10_converges.

(* the idempotence theorem applied to the toy instance *)
Theorem C10_toy_second_run_noop :
    forall faults : path -> fault,
    exists eff' : list (path * bool),
      Toy.run [(L "g.py", L "truth"); (L "f.py", L "truth"); (L "t.py", L "truth")] faults =
      ([(L "g.py", L "truth"); (L "f.py", L "truth"); (L "t.py", L "truth")], Ok eff', []) /\
      flags_false eff'.
Proof. exact toy_second_run_noop. Qed.
Print Assumptions C10_toy_second_run_noop.
