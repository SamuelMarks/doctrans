(* C06Facts: the emitter's side of C06.  Structure of the emitted argument list (unbounded in the number of
   parameters): names, order, kinds, alignment of defaults, every parameter carries a default node; the
   signature the IR describes is obtained inside guard_C06_function and refuted outside; attribute names
   of the emitted class and option strings of the emitted argparse function. *)
From Coq Require Import List Ascii Bool Arith ZArith Lia.
From Coq Require String.
Import String.StringSyntax.
From DT Require Import PyStr Sexp PyVal TyExpr PureUtils Defaults PyAst IR EmitAst C06Spec PyStrFacts EmitAstFacts.
From DT Require ParseAst ListFacts DefaultsFacts.
Import ListNotations.

Lemma arg_of_param_name : forall pt it kv a, arg_of_param pt it kv = Ok a -> a_name a = fst kv.
Proof.
  intros pt it [name g] a H. unfold arg_of_param in H. destruct it.
  - destruct (g_typ g) as [| |t].
    + injection H as H. now subst a.
    + injection H as H. now subst a.
    + destruct (in_simple_types t).
      * injection H as H. now subst a.
      * apply DefaultsFacts.bind_Ok_inv in H. destruct H as [e [_ H]]. injection H as H. now subst a.
  - injection H as H. now subst a.
Qed.

Lemma arg_of_param_ann_indep : forall pt it n1 n2 g,
    (do a <- arg_of_param pt it (n1, g); Ok (a_ann a)) = (do a <- arg_of_param pt it (n2, g); Ok (a_ann a)).
Proof.
  intros pt it n1 n2 g. unfold arg_of_param. destruct it; [|reflexivity].
  destruct (g_typ g) as [| |t]; try reflexivity.
  destruct (in_simple_types t); [reflexivity|].
  destruct (ast_parse_fix pt t); reflexivity.
Qed.

Lemma emitted_ann_spec : forall pt it kv a,
    arg_of_param pt it kv = Ok a -> emitted_ann pt it (snd kv) = Ok (a_ann a).
Proof.
  intros pt it [name g] a H. unfold emitted_ann. cbn [snd].
  transitivity (do a0 <- arg_of_param pt it (name, g); Ok (a_ann a0));
    [apply arg_of_param_ann_indep | rewrite H; reflexivity].
Qed.

Lemma sig_combine : forall pt it kw l afp dfp,
    map_outcome (arg_of_param pt it) l = Ok afp ->
    map_outcome default_of_param l = Ok dfp ->
    map_outcome (emitted_param_sig pt it kw) l
    = Ok (map (fun p => mkSig (a_name (fst p)) (if kw then KwOnly else PosOrKw) (Some (snd p)) (a_ann (fst p)))
              (combine afp dfp)).
Proof.
  intros pt it kw l. induction l as [|kv l IH]; intros afp dfp Ha Hd; cbn in Ha, Hd.
  - injection Ha as Ha. injection Hd as Hd. subst. reflexivity.
  - apply DefaultsFacts.bind_Ok_inv in Ha. destruct Ha as [a [Ha1 Ha]]. apply DefaultsFacts.bind_Ok_inv in Ha. destruct Ha as [as' [Ha2 Ha]].
    injection Ha as Ha. subst afp.
    apply DefaultsFacts.bind_Ok_inv in Hd. destruct Hd as [d [Hd1 Hd]]. apply DefaultsFacts.bind_Ok_inv in Hd. destruct Hd as [ds' [Hd2 Hd]].
    injection Hd as Hd. subst dfp.
    cbn [map_outcome combine map fst snd]. unfold emitted_param_sig at 1.
    rewrite (emitted_ann_spec _ _ _ _ Ha1). cbn [bind]. rewrite Hd1. cbn [bind].
    rewrite (IH _ _ Ha2 Hd2). cbn [bind]. rewrite (arg_of_param_name _ _ _ _ Ha1). reflexivity.
Qed.

Definition fn_args0 (ftype : option str) : list arg :=
  match ftype with
  | None => []
  | Some t => if str_eqb t (L "static") then [] else [set_arg t None]
  end.

Definition fn_kwarg (i : ir) : option arg :=
  match filter (fun kv => negb (no_kwargs kv)) (ir_params i) with
  | kv :: _ => Some (set_arg (fst kv) None)
  | [] => None
  end.

Lemma emit_function_arguments : forall pt i fn ft it kw tds n a body d r i2,
    emit_function pt i fn ft it kw tds = Ok (SFunc n a body d r, i2) ->
    exists ftype afp dfp,
      py_or ft (ir_type i) = Ok ftype
      /\ map_outcome (arg_of_param pt it) (filter no_kwargs (ir_params i)) = Ok afp
      /\ map_outcome default_of_param (filter no_kwargs (ir_params i)) = Ok dfp
      /\ a = (if kw then mkArguments (fn_args0 ftype) [] afp (map Some dfp) None (fn_kwarg i)
              else mkArguments (fn_args0 ftype ++ afp) dfp [] [] None (fn_kwarg i)).
Proof.
  intros pt i fn ft it kw tds n a body d r i2 H.
  destruct (emit_function_inv _ _ _ _ _ _ _ _ _ H)
    as (n' & ftype & afp & dfp & ib & rv & text & r' & _ & Hft & Ha & Hd & _ & _ & _ & _ & Hs & _).
  injection Hs as _ -> _ _. exists ftype, afp, dfp. split; [exact Hft|]. split; [exact Ha|]. split; [exact Hd|]. destruct kw; reflexivity.
Qed.

Lemma first_arg_args0 : forall ftype,
    map (fun x => mkSig (a_name x) PosOrKw None (a_ann x)) (fn_args0 ftype) = first_arg ftype.
Proof. intros [t|]; unfold fn_args0, first_arg; [destruct (str_eqb t (L "static")); reflexivity | reflexivity]. Qed.

Lemma kwarg_sig_spec : forall i,
    (match fn_kwarg i with Some x => [mkSig (a_name x) VarKw None (a_ann x)] | None => [] end) = kwarg_sig i.
Proof.
  intros i. unfold fn_kwarg, kwarg_sig. destruct (filter _ (ir_params i)) as [|kv r]; reflexivity.
Qed.

Lemma kwonly_sig_map : forall (afp : list arg) (dfp : list expr),
    map (fun p : arg * option expr => mkSig (a_name (fst p)) KwOnly (snd p) (a_ann (fst p)))
        (combine afp (map Some dfp))
    = map (fun p : arg * expr => mkSig (a_name (fst p)) KwOnly (Some (snd p)) (a_ann (fst p)))
          (combine afp dfp).
Proof.
  induction afp as [|a afp IH]; intros [|d dfp]; cbn; try reflexivity. f_equal. apply IH.
Qed.

(* every parameter of the IR carries a default node in the emitted signature; names, order, kinds *)
Lemma emit_function_signature : forall pt i fn ft it kw tds n a body d r i2,
    emit_function pt i fn ft it kw tds = Ok (SFunc n a body d r, i2) ->
    exists ftype ps,
      py_or ft (ir_type i) = Ok ftype
      /\ map_outcome (emitted_param_sig pt it kw) (filter no_kwargs (ir_params i)) = Ok ps
      /\ py_signature_of (SFunc n a body d r) = Some (first_arg ftype ++ ps ++ kwarg_sig i, r).
Proof.
  intros pt i fn ft it kw tds n a body d r i2 H.
  destruct (emit_function_arguments _ _ _ _ _ _ _ _ _ _ _ _ _ H) as [ftype [afp [dfp [Hft [Ha [Hd Hargs]]]]]].
  exists ftype. eexists. split; [exact Hft|]. split; [eapply sig_combine; eauto|].
  assert (Hla : List.length afp = List.length (filter no_kwargs (ir_params i))) by (eapply map_outcome_length; eauto).
  assert (Hld : List.length dfp = List.length (filter no_kwargs (ir_params i))) by (eapply map_outcome_length; eauto).
  subst a. unfold py_signature_of. destruct kw; cbn [ar_args ar_defaults ar_kwonly ar_kw_defaults ar_vararg ar_kwarg].
  - cbn [List.length]. rewrite Nat.sub_0_r, firstn_all, skipn_all. rewrite combine_nil. cbn [map app].
    rewrite first_arg_args0, kwarg_sig_spec, kwonly_sig_map. reflexivity.
  - rewrite app_length. replace (List.length (fn_args0 ftype) + List.length afp - List.length dfp)
      with (List.length (fn_args0 ftype)) by lia.
    rewrite firstn_app, Nat.sub_diag, firstn_all, firstn_O, app_nil_r.
    rewrite skipn_app, Nat.sub_diag, skipn_all. cbn [skipn app combine map].
    rewrite first_arg_args0, kwarg_sig_spec. reflexivity.
Qed.

Lemma emit_function_counts : forall pt i fn ft it kw tds n a body d r i2,
    emit_function pt i fn ft it kw tds = Ok (SFunc n a body d r, i2) ->
    List.length (ar_defaults a) <= List.length (ar_args a)
    /\ List.length (ar_kw_defaults a) = List.length (ar_kwonly a)
    /\ List.length (ar_defaults a) + List.length (ar_kw_defaults a)
       = List.length (filter no_kwargs (ir_params i)).
Proof.
  intros pt i fn ft it kw tds n a body d r i2 H.
  destruct (emit_function_arguments _ _ _ _ _ _ _ _ _ _ _ _ _ H) as [ftype [afp [dfp [Hft [Ha [Hd Hargs]]]]]].
  assert (Hla : List.length afp = List.length (filter no_kwargs (ir_params i))) by (eapply map_outcome_length; eauto).
  assert (Hld : List.length dfp = List.length (filter no_kwargs (ir_params i))) by (eapply map_outcome_length; eauto).
  subst a. destruct kw; cbn [ar_args ar_defaults ar_kwonly ar_kw_defaults].
  - rewrite map_length. cbn [List.length]. lia.
  - rewrite app_length. cbn [List.length]. lia.
Qed.

Lemma map_outcome_arg_names : forall pt it l afp,
    map_outcome (arg_of_param pt it) l = Ok afp -> map a_name afp = map fst l.
Proof.
  intros pt it l. induction l as [|kv l IH]; intros afp H; cbn in H.
  - injection H as H. now subst.
  - apply DefaultsFacts.bind_Ok_inv in H. destruct H as [a [Ha H]]. apply DefaultsFacts.bind_Ok_inv in H. destruct H as [r [Hr H]].
    injection H as H. subst afp. cbn. f_equal; [eapply arg_of_param_name; eauto | now apply IH].
Qed.

Lemma emit_function_names : forall pt i fn ft it kw tds n a body d r i2,
    emit_function pt i fn ft it kw tds = Ok (SFunc n a body d r, i2) ->
    exists ftype, py_or ft (ir_type i) = Ok ftype
      /\ map a_name (ar_args a ++ ar_kwonly a)
         = map a_name (fn_args0 ftype) ++ map fst (filter no_kwargs (ir_params i))
      /\ ar_vararg a = None /\ ar_kwarg a = fn_kwarg i.
Proof.
  intros pt i fn ft it kw tds n a body d r i2 H.
  destruct (emit_function_arguments _ _ _ _ _ _ _ _ _ _ _ _ _ H) as [ftype [afp [dfp [Hft [Ha [Hd Hargs]]]]]].
  exists ftype. split; [exact Hft|]. apply map_outcome_arg_names in Ha.
  subst a. destruct kw; cbn [ar_args ar_kwonly ar_vararg ar_kwarg]; rewrite ?app_nil_r, map_app, Ha; auto.
Qed.

(* well-formedness of the emitted argument list reduces to the IR's names being distinct identifiers (and
   no Name(None) annotation): the length conditions always hold *)
Lemma emit_function_wf : forall pt i fn ft it kw tds n a body d r i2,
    emit_function pt i fn ft it kw tds = Ok (SFunc n a body d r, i2) ->
    forallb (fun x => is_identifier (a_name x) && ann_ok (a_ann x)) (all_args a) = true ->
    nodupb (map a_name (all_args a)) = true ->
    wf_arguments a = true.
Proof.
  intros pt i fn ft it kw tds n a body d r i2 H Hid Hnd.
  destruct (emit_function_counts _ _ _ _ _ _ _ _ _ _ _ _ _ H) as [Hle [Heq _]].
  unfold wf_arguments. rewrite Hid, Hnd. cbn [andb].
  apply andb_true_iff. split; [now apply Nat.leb_le | now apply Nat.eqb_eq].
Qed.

Lemma emit_function_no_annotations : forall pt i fn ft kw tds n a body d r i2,
    emit_function pt i fn ft false kw tds = Ok (SFunc n a body d r, i2) ->
    forallb (fun x => ann_ok (a_ann x)) (all_args a) = true /\ r = None.
Proof.
  intros pt i fn ft kw tds n a body d r i2 H.
  destruct (emit_function_arguments _ _ _ _ _ _ _ _ _ _ _ _ _ H) as [ftype [afp [dfp [Hft [Ha [Hd Hargs]]]]]].
  assert (Hafp : forallb (fun x => ann_ok (a_ann x)) afp = true).
  { apply map_outcome_Forall2 in Ha. clear -Ha. induction Ha as [|kv y l ys Hy Hr IH]; [reflexivity|].
    cbn. rewrite IH. destruct kv as [nm g]. cbn in Hy. injection Hy as Hy. subst y. reflexivity. }
  assert (H0 : forallb (fun x => ann_ok (a_ann x)) (fn_args0 ftype) = true).
  { unfold fn_args0. destruct ftype as [t|]; [destruct (str_eqb t (L "static"))|]; reflexivity. }
  assert (Hk : forallb (fun x => ann_ok (a_ann x)) (match fn_kwarg i with Some x => [x] | None => [] end) = true).
  { unfold fn_kwarg. destruct (filter (fun kv => negb (no_kwargs kv)) (ir_params i)); reflexivity. }
  split.
  - subst a. unfold all_args. destruct kw; cbn [ar_args ar_kwonly ar_vararg ar_kwarg];
      rewrite ?forallb_app, ?H0, ?Hafp, ?Hk; reflexivity.
  - destruct (emit_function_inv _ _ _ _ _ _ _ _ _ H)
      as (n' & ft0 & afp0 & dfp0 & ib & rv & text & r' & _ & _ & _ & _ & _ & _ & _ & Hr & Hs & _).
    injection Hs as _ _ _ Hret. injection Hr as Hr. congruence.
Qed.

Lemma map_outcome_ext_in : forall {A B} (f g : A -> outcome B) l,
    (forall x, In x l -> f x = g x) -> map_outcome f l = map_outcome g l.
Proof.
  intros A B f g l. induction l as [|x l IH]; intros H; cbn; [reflexivity|].
  rewrite (H x (or_introl eq_refl)). rewrite IH; [reflexivity|]. intros y Hy. apply H. now right.
Qed.

Lemma plain_default_sig : forall pt it kw kv,
    plain_default (snd kv) = true -> emitted_param_sig pt it kw kv = spec_param_sig pt it kw kv.
Proof.
  intros pt it kw [name g] Hp. unfold emitted_param_sig, spec_param_sig, plain_default in *. cbn [snd fst] in *.
  destruct (emitted_ann pt it g) as [ann|e]; [|reflexivity]. cbn [bind].
  unfold default_of_param, spec_default. cbn [snd].
  destruct (g_default g) as [[v|e|o]|]; try discriminate.
  destruct (in_none_types v) eqn:En; cbn [bind]; [reflexivity|].
  destruct v; cbn [bind]; try reflexivity.
  apply andb_true_iff in Hp. destruct Hp as [_ Hs]. apply str_eqb_eq in Hs.
  unfold set_value. now rewrite Hs.
Qed.

Lemma C06_function_partial_lemma : forall pt i fn ft it kw tds s i2 ftype,
    guard_C06_function i = true ->
    emit_function pt i fn ft it kw tds = Ok (s, i2) ->
    py_or ft (ir_type i) = Ok ftype ->
    exists sg, spec_signature pt i ftype it kw = Ok sg /\ option_map fst (py_signature_of s) = Some sg.
Proof.
  intros pt i fn ft it kw tds s i2 ftype G H Hft.
  assert (Hs : exists n a body d r, s = SFunc n a body d r).
  { destruct (emit_function_inv _ _ _ _ _ _ _ _ _ H) as (n & ft0 & afp & dfp & ib & rv & text & r & _ & _ & _ & _ & _ & _ & _ & _ & Hs & _).
    rewrite Hs. eauto 6. }
  destruct Hs as [n [a [body [d [r Hs]]]]]. subst s.
  destruct (emit_function_signature _ _ _ _ _ _ _ _ _ _ _ _ _ H) as [ftype' [ps [Hft' [Hps Hsig]]]].
  rewrite Hft in Hft'. injection Hft' as Hft'. subst ftype'.
  exists (first_arg ftype ++ ps ++ kwarg_sig i). split.
  - unfold spec_signature.
    rewrite <- (map_outcome_ext_in (emitted_param_sig pt it kw) (spec_param_sig pt it kw)).
    + rewrite Hps. reflexivity.
    + intros kv Hin. apply plain_default_sig. unfold guard_C06_function in G.
      rewrite forallb_forall in G. now apply G.
  - rewrite Hsig. reflexivity.
Qed.

Definition w6_ir : ir :=
  mkIR (Has (L "f")) (Has (L "static")) (Has (L "Summary."))
       [(L "x", mkG (Has (L "the x.")) (Has (L "int")) None)] FNone None.

Lemma C06_function_refuted_lemma : ~ C06_function_statement.
Proof.
  intros H.
  specialize (H [] w6_ir (Some (L "f")) (Some (L "static")) true false (Ok [])).
  destruct (emit_function [] w6_ir (Some (L "f")) (Some (L "static")) true false (Ok [])) as [[s i2]|e] eqn:E;
    [|vm_compute in E; discriminate].
  specialize (H s i2 (Some (L "static")) eq_refl eq_refl). destruct H as [sg [H1 H2]].
  vm_compute in E. injection E as Es _. subst s.
  vm_compute in H1. injection H1 as H1. subst sg. vm_compute in H2. discriminate.
Qed.

(* the emitted signature of the witness: def f(x: int = None) *)
Lemma C06_witness_signature :
  exists s i2, emit_function [] w6_ir (Some (L "f")) (Some (L "static")) true false (Ok []) = Ok (s, i2)
               /\ option_map fst (py_signature_of s)
                  = Some [mkSig (L "x") PosOrKw (Some (EConst VNone)) (Some (EName (L "int")))].
Proof. eexists. eexists. split; [vm_compute; reflexivity|]. vm_compute. reflexivity. Qed.

Lemma generic_param2ast_shape : forall pt name t g s,
    generic_param2ast pt name t g = Ok s -> exists a v, s = SAnnAssign (EName name) a (Some v).
Proof.
  intros pt name t g s H. unfold generic_param2ast in H.
  apply DefaultsFacts.bind_Ok_inv in H. destruct H as [ann [_ H]]. apply DefaultsFacts.bind_Ok_inv in H. destruct H as [v [_ H]].
  injection H as H. subst s. unfold ann_assign. eauto.
Qed.

Lemma param2ast_shape : forall pt name g s g',
    param2ast pt name g = Ok (s, g') -> exists a v, s = SAnnAssign (EName name) a (Some v).
Proof.
  intros pt name g s g' H. unfold param2ast in H.
  apply DefaultsFacts.bind_Ok_inv in H. destruct H as [g1 [_ H]]. apply DefaultsFacts.bind_Ok_inv in H. destruct H as [g2 [_ H]].
  destruct (fget (g_typ g2)) as [t|].
  - apply DefaultsFacts.bind_Ok_inv in H. destruct H as [nq [_ H]]. destruct nq.
    + apply DefaultsFacts.bind_Ok_inv in H. destruct H as [ann [_ H]]. apply DefaultsFacts.bind_Ok_inv in H. destruct H as [v [_ H]].
      injection H as H _. subst s. unfold ann_assign. eauto.
    + destruct (in_simple_types t).
      * apply DefaultsFacts.bind_Ok_inv in H. destruct H as [z [_ H]]. injection H as H _. subst s. unfold ann_assign. eauto.
      * destruct (str_eqb t (L "dict") || startswith [ch 42] t).
        -- destruct (g_default g2); [discriminate|]. injection H as H _. subst s. unfold ann_assign. eauto.
        -- apply DefaultsFacts.bind_Ok_inv in H. destruct H as [s' [Hs H]]. injection H as H _. subst s'.
           eapply generic_param2ast_shape; eauto.
  - injection H as H _. subst s. unfold ann_assign. eauto.
Qed.

Definition not_assign (s : stmt) : bool := negb (ParseAst.is_assignment s).

Definition attr_of_stmt (x : stmt) : list (str * expr * option expr) :=
  match x with
  | SAnnAssign (EName n) a v => [(n, a, v)]
  | _ => []
  end.

Lemma not_assign_no_attrs : forall meth, forallb not_assign meth = true -> flat_map attr_of_stmt meth = [].
Proof.
  induction meth as [|x meth IH]; intros H; [reflexivity|]. cbn [forallb] in H.
  apply andb_true_iff in H. destruct H as [Hx Hm]. cbn [flat_map]. rewrite (IH Hm), app_nil_r.
  destruct x; try reflexivity. discriminate Hx.
Qed.

Lemma call_meth_of_dict_shape : forall pt ids ww p m,
    call_meth_of_dict pt ids ww p = Ok m -> not_assign m = true.
Proof.
  intros pt ids ww p m H. unfold call_meth_of_dict in H.
  apply DefaultsFacts.bind_Ok_inv in H. destruct H as [dsm [_ H]]. apply DefaultsFacts.bind_Ok_inv in H. destruct H as [ret [_ H]].
  injection H as H. subst m. reflexivity.
Qed.

Lemma class_meth_not_assign : forall pt keys ww (ec : bool) (ib : option (list stmt)) (rt : option gparam) meth,
    (if ec then
       match ib with
       | Some [] => Ok []
       | Some b => Ok [call_meth b]
       | None =>
         match rt with
         | Some p => if gparam_nonempty p then do m <- call_meth_of_dict pt keys ww p; Ok [m] else Ok []
         | None => Err Unmodelled
         end
       end
     else Ok []) = Ok meth ->
    forallb not_assign meth = true.
Proof.
  intros pt keys ww ec ib rt meth Hm.
  destruct ec; [|injection Hm as <-; reflexivity].
  destruct ib as [[|s0 b]|]; try (injection Hm as <-; reflexivity).
  destruct rt as [p|]; [|discriminate Hm].
  destruct (gparam_nonempty p); [|injection Hm as <-; reflexivity].
  apply DefaultsFacts.bind_Ok_inv in Hm. destruct Hm as [m [Hcm Hm]]. injection Hm as <-.
  cbn [forallb]. rewrite (call_meth_of_dict_shape _ _ _ _ _ Hcm). reflexivity.
Qed.

Lemma class_attr_shapes : forall pt (l : list (str * gparam)) attrs,
    map_outcome (fun kv => do r <- param2ast pt (fst kv) (snd kv); Ok (fst r)) l = Ok attrs ->
    Forall2 (fun kv s => exists a v, s = SAnnAssign (EName (fst kv)) a (Some v)) l attrs.
Proof.
  intros pt l attrs H. apply map_outcome_Forall2 in H. revert H. apply ListFacts.Forall2_impl. intros [k g] y Hy.
  apply DefaultsFacts.bind_Ok_inv in Hy. destruct Hy as [[s g'] [Hp Hy]]. injection Hy as Hy. subst y.
  exact (param2ast_shape _ _ _ _ _ Hp).
Qed.

Lemma attr_shapes_names : forall (l : list (str * gparam)) attrs,
    Forall2 (fun kv s => exists a v, s = SAnnAssign (EName (fst kv)) a (Some v)) l attrs ->
    map (fun x => fst (fst x)) (flat_map attr_of_stmt attrs) = map fst l.
Proof.
  intros l attrs H. induction H as [|kv s l attrs [a [v Hs]] _ IH]; [reflexivity|].
  subst s. cbn [flat_map attr_of_stmt app map fst]. rewrite IH. reflexivity.
Qed.

(* the annotated attributes of the emitted class are the parameters of the IR, return entry folded in, in order *)
Lemma emit_class_attr_names : forall pt i ec cn bs ds ww tds s i',
    emit_class pt i ec cn bs ds ww tds = Ok (s, i') ->
    map (fun x => fst (fst x)) (class_attrs_of s) = od_keys (ir_params (class_fold_returns i)).
Proof.
  intros pt i ec cn bs ds ww tds s i' H.
  destruct (emit_class_inv _ _ _ _ _ _ _ _ _ _ H) as (ib & text & meth & attrs & _ & _ & Hm & Ha & _ & ->).
  change (class_attrs_of (SClass cn (map EName bs) (SExpr (set_value (VStr (class_docstring text))) :: attrs ++ meth) (map EName ds)))
    with (flat_map attr_of_stmt (attrs ++ meth)).
  rewrite flat_map_app, (not_assign_no_attrs meth (class_meth_not_assign _ _ _ _ _ _ _ Hm)), app_nil_r.
  exact (attr_shapes_names _ _ (class_attr_shapes _ _ _ Ha)).
Qed.

Lemma set_value_option : forall name, set_value (VStr (L "--" ++ name)) = EConst (VStr (L "--" ++ name)).
Proof.
  intros name. unfold set_value, set_value_str. 
  replace (both_ends dq (L "--" ++ name)) with false; [replace (both_ends sq (L "--" ++ name)) with false|].
  - rewrite andb_false_r. reflexivity.
  - unfold both_ends. cbn. destruct (last_c _); reflexivity.
  - unfold both_ends. cbn. destruct (last_c _); reflexivity.
Qed.

Lemma param2argparse_param_shape : forall pt ww edd name g s,
    param2argparse_param pt ww edd name g = Ok s ->
    exists kws, s = SExpr (ECall (EAttr argparser (L "add_argument")) (spec_option name) kws).
Proof.
  intros pt ww edd name g s H. unfold param2argparse_param in H.
  apply DefaultsFacts.bind_Ok_inv in H. destruct H as [[[[[action choices] required] typ] g2] [_ H]].
  apply DefaultsFacts.bind_Ok_inv in H. destruct H as [[doc dflt_doc] [_ H]].
  apply DefaultsFacts.bind_Ok_inv in H. destruct H as [dflt_in [_ H]].
  apply DefaultsFacts.bind_Ok_inv in H. destruct H as [r [_ H]].
  match type of H with (let '(_, _) := ?X in _) = _ => destruct X as [typ2 required2] end.
  apply DefaultsFacts.bind_Ok_inv in H. destruct H as [help [_ H]].
  apply DefaultsFacts.bind_Ok_inv in H. destruct H as [dkw [_ H]].
  injection H as Hs. subst s. unfold spec_option. eexists.
  f_equal. f_equal. f_equal. apply set_value_option.
Qed.

Lemma emit_argparse_options : forall pt i edd fn ft wd ww ds n a body d r i2,
    emit_argparse pt i edd fn ft wd ww ds = Ok (SFunc n a body d r, i2) ->
    exists doc desc adds tail,
      body = doc :: desc :: adds ++ tail
      /\ is_add_argument doc = None /\ is_add_argument desc = None
      /\ Forall2 (fun kv s => exists kws, is_add_argument s = Some (spec_option (fst kv), kws)) (ir_params i) adds.
Proof.
  intros pt i edd fn ft wd ww ds n a body d r i2 H.
  destruct (emit_argparse_inv _ _ _ _ _ _ _ _ _ _ H)
    as (n' & ftype & ib & dtext & desc & ps & spliced & ret & _ & _ & _ & _ & _ & Hps & _ & _ & _ & Hs).
  injection Hs as _ _ -> _ _.
  exists (SExpr (set_value (VStr (indent tab dtext ++ tab)))), (description_assign desc), ps, (spliced ++ ret).
  split; [reflexivity|]. split; [reflexivity|]. split; [reflexivity|].
  apply map_outcome_Forall2 in Hps. revert Hps. apply ListFacts.Forall2_impl. intros kv y Hy.
  apply param2argparse_param_shape in Hy. destruct Hy as [kws Hs]. subst y. exists kws.
  unfold is_add_argument, argparser. rewrite !str_eqb_refl. reflexivity.
Qed.

Definition w6_ir_ok : ir :=
  mkIR (Has (L "f")) (Has (L "static")) (Has (L "Summary."))
       [(L "x", mkG (Has (L "the x.")) (Has (L "int")) (Some (DV (VInt 5))));
        (L "name", mkG (Has (L "the name.")) (Has (L "Optional[str]")) (Some (DV (VStr (L "mnist")))));
        (L "kwargs", mkG (Has (L "more.")) (Has (L "Optional[dict]")) (Some (DV (VStr NoneStr))))]
       (Has (mkG (Has (L "result.")) (Has (L "int")) None)) None.
