(* C03DocLinkMain: the docstring link of property C03, assembled.

     emit.function:   text = to_docstring(ir, emit_default_doc, emit_types = not inline_types, indent_level, ...)
                      (C03DocLinkDefs.function_docstring_text over DocEmit.to_docstring)
     parse.function:  d = parse.docstring(inspect.cleandoc(text).replace(":cvar", ":param"), infer_type=False)
                      (C03DocLinkDefs.function_docstring_ir over C03DocLinkDefs.cleandoc and the ReST model of DocParse)

   C03_doc_link_lemma: inside guard_C03 and the boolean side condition doc_link_ok, both succeed and the docstring-derived IR
   satisfies doc_agrees - the hypothesis of the C03 theorems (props/C03.v).  Closed corollaries of
   C03_partial / C03_scalar / C03_return_only follow.  Pieces: C03DocLinkGuard.guard_link_facts (guard + side condition
   => per-entry facts), C03DocLinkLines.to_docstring_lines (the text as lines; over C03DocLinkEmit.td_param_written), C03DocLinkClean.cleandoc_heads (cleandoc
   keeps the contents of the lines, changes blanks only), C03DocLink.parse_heads (the ReST scanner / parser of C01 on
   heads followed by arbitrary blanks), C03DocLink.params_agree / returns_agree.

   The side condition doc_link_ok (C03DocLinkDefs) and why each clause is there:
     has_documented        NEEDED: without any documented entry the docstring holds no ReST token and parse.docstring reads
                           it as numpydoc / Google (not in the DocParse model; on the real code a summary such as
                           Returns:/  int  then invents a return entry);
     prose_link_ok         plain blanks only - NEEDED (str.splitlines in multiline() splits at form feed etc. and the prose
                           comes back changed); no trailing backslash - narrows the theorem only (multiline() keeps it;
                           C03_trailing_backslash_regression_lemma is such a point); not starting with
                           Optional - proof limit (the C01 line lemmas assume it; no failing input known);
     typ_link_ok           (types written into the docstring, inline_types = False) NEEDED: a ReST token, a line break or
                           a leading ** inside the type text breaks the :type line;
     summary_link_ok       one clean line without tab - proof limit (multi-line summaries are not covered; cleandoc's tab
                           expansion is not modelled);
     fits_line             word_wrap off, or no line longer than the width - proof limit (no proof about textwrap.fill
                           re-flowing followed by the parser's re-joining).
   Witnesses for the NEEDED clauses: link_witnesses below. *)
From Coq Require Import List Ascii Bool Arith ZArith Lia.
From Coq Require String.
Import String.StringSyntax.
From DT Require Import PyStr Sexp PyVal TyExpr PureUtils Defaults PyAst IR Extracted.
From DT Require DocEmit DocParse C01Spec C02Spec DocParseFacts.
From DT Require Import C03Spec C03Compose C03DocLinkDefs.
From DT Require C03DocLinkClean C03DocLinkEmit C03DocLinkLines C03DocLink C03DocLinkGuard.
Import ListNotations.

(* the link, and the summary comes back as it is *)
Theorem fn_doc_link_sum : forall w o i,
    guard_C03 o i = true -> doc_link_ok w o i = true ->
    exists text d,
      function_docstring_text w o i = Ok text
      /\ function_docstring_ir text = Ok d
      /\ doc_agrees o i d = true
      /\ (forall d0, ir_doc i = Has d0 -> d0 <> [] -> ir_doc d = Has d0).
Proof.
  intros w o i Hg Hl.
  pose proof (C03DocLinkGuard.guard_link_facts w o i Hg Hl) as Hfacts. cbv zeta in Hfacts.
  destruct Hfacts as [Hsum [Hsumtok [Hents [Hret [Hdents [Hnd [Hrent Hsome]]]]]]].
  destruct (C03DocLink.guard_agree_facts o i Hg) as [Hndp [Hpf Hrf]].
  assert (Hlast : forall g d l, ir_returns i = Has g -> prose_of g = Some d ->
                                emitted_typ (negb (fo_inline o)) g = None -> last_c d = Some l -> isspace l = false).
  { intros g d l Eg Ep _ Hlc. destruct (Hrf g Eg d Ep) as [_ [[_ [l' [Hl' Hsp]]] _]].
    rewrite Hlc in Hl'. injection Hl' as Hl'. subst l'. exact Hsp. }
  (* the emitter's text as lines, cleandoc on lines, the parser on the heads that are left *)
  destruct (C03DocLinkLines.to_docstring_lines w i (fo_edd o) (fo_indent o) (negb (fo_inline o)) (fo_sep_tab o)
              (fo_word_wrap o) Hsum Hents Hret Hlast Hsome)
    as [text [i' [lns [Htd [Etext [Hne [Hok Hheads]]]]]]].
  destruct (C03DocLinkClean.cleandoc_heads lns Hne Hok) as [ws0 [hws [Hcd [Hfst [Hws0 Hws]]]]].
  assert (Hwsall : C03DocLink.ws_all hws).
  { intros hw Hin. rewrite forallb_forall in Hws. apply (Hws hw Hin). }
  rewrite Hheads in Hfst.
  destruct (C03DocLink.parse_heads_sum (sum_of i) (docs_of (negb (fo_inline o)) (ir_params i))
              (rent_of (negb (fo_inline o)) (ir_returns i)) ws0 hws Hsumtok Hdents Hnd Hrent Hsome Hfst Hws0 Hwsall)
    as [sdoc [Hparse Hsdoc]].
  exists text. eexists. split; [|split; [|split]].
  - unfold function_docstring_text. rewrite Htd. reflexivity.
  - unfold function_docstring_ir. rewrite Etext, Hcd. cbn [bind]. exact Hparse.
  - unfold doc_agrees, DocParse.ir_of_parts. cbn [ir_params ir_returns]. rewrite map_map. cbn [fst snd].
    rewrite (C03DocLink.params_agree (negb (fo_inline o)) (ir_params i) Hndp Hpf). cbn [andb].
    apply C03DocLink.returns_agree. exact Hrf.
  - intros d0 Ed0 Hne0. unfold DocParse.ir_of_parts. cbn [ir_doc]. f_equal.
    assert (Es : sum_of i = Some d0).
    { unfold sum_of, DocEmit.truthy_fld. rewrite Ed0. destruct d0; [contradiction|reflexivity]. }
    destruct (Hsdoc d0 Es) as [w0 [E Hw0]]. rewrite E.
    apply DocParseFacts.strip_pad; [exact Hws0|exact Hw0|].
    apply DocParseFacts.strip_fix_edge_ok; [exact Hne0|].
    apply (C03DocLinkGuard.summary_stripped w o i); [|exact Es].
    apply (C03DocLinkGuard.doc_link_ok_inv w o i Hl).
Qed.

Theorem C03_doc_link_lemma : forall w o i,
    guard_C03 o i = true -> doc_link_ok w o i = true ->
    exists text d,
      function_docstring_text w o i = Ok text
      /\ function_docstring_ir text = Ok d
      /\ doc_agrees o i d = true.
Proof.
  intros w o i Hg Hl. destruct (fn_doc_link_sum w o i Hg Hl) as [text [d [Ht [Hd [Ha _]]]]].
  exists text, d. repeat split; assumption.
Qed.

(* the closed corollaries of the C03 theorems: text and d instantiated, no docstring hypothesis *)

Theorem C03_partial_closed_lemma : forall w o i,
    guard_C03 o i = true -> doc_link_ok w o i = true ->
    exists text d,
      function_docstring_text w o i = Ok text /\ function_docstring_ir text = Ok d /\ C03_at o i text d.
Proof.
  intros w o i Hg Hl. destruct (C03_doc_link_lemma w o i Hg Hl) as [text [d [Ht [Hd Ha]]]].
  exists text, d. split; [exact Ht|]. split; [exact Hd|]. apply C03_partial_lemma; assumption.
Qed.

(* non-vacuity: seven parameters (defaults of every class, a ** parameter), a return entry; types in the signature
   (nv3) and types in the docstring, keyword-only, method (nv4) *)

Definition nv4_opts : fopts := mkFO (L "cls") false true 1 false false true [].

Definition nv4_ir : ir :=
  mkIR (Has (L "f")) (Has (L "static")) (Has (L "Summary."))
       [(L "dataset_name", mkG (Has (L "name of the dataset.")) (Has (L "str")) (Some (DV (VStr (L "mnist")))));
        (L "K", mkG (Has (L "backend.")) (Has (L "Literal['np', 'tf']")) (Some (DV (VStr (L "np")))));
        (L "lr", mkG Missing Missing (Some (DV VNone)));
        (L "n", mkG (Has (L "count.")) (Has (L "int")) (Some (DV (VInt (-5)%Z))));
        (L "items", mkG (Has (L "the items.")) (Has (L "List[int]")) (Some (DV (VStr (L "```[1, 2]```")))));
        (L "data_loader_kwargs", mkG (Has (L "passed on.")) (Has (L "Optional[dict]")) (Some (DV (VStr NoneStr))))]
       (Has (mkG (Has (L "the pair.")) (Has (L "Tuple[int, int]")) (Some (DV (VStr (L "```[1, 2]```")))))) None.

Lemma C03_doc_link_nonvacuous_lemma :
  guard_C03 nv3_opts nv3_ir = true /\ doc_link_ok 100 nv3_opts nv3_ir = true
  /\ guard_C03 nv4_opts nv4_ir = true /\ doc_link_ok 100 nv4_opts nv4_ir = true
  /\ List.length (ir_params nv3_ir) = 7 /\ List.length (ir_params nv4_ir) = 6.
Proof. vm_compute. repeat split; reflexivity. Qed.

(* witnesses: inside guard_C03, outside doc_link_ok, and the link fails in the model (the same inputs fail on the
   real code) *)

Definition lw_ir (g : gparam) : ir := mkIR FNone (Has (L "static")) (Has (L "Sum.")) [(L "a", g)] FNone None.
Definition lw_inline : fopts := mkFO (L "static") true false 2 true false true [].
Definition lw_doctyp : fopts := mkFO (L "static") false false 2 true false true [].

(* the docstring link at one point, as a boolean *)
Definition doc_link_b (w : nat) (o : fopts) (i : ir) : bool :=
  match function_docstring_text w o i with
  | Ok text => match function_docstring_ir text with Ok d => doc_agrees o i d | Err _ => false end
  | Err _ => false
  end.

Definition link_witnesses : list (fopts * ir) :=
  [ (* prose with a form feed: re-flowed *)
    (lw_inline, lw_ir (mkG (Has (L "a" ++ [ch 12] ++ L "b")) (Has (L "str")) (Some (DV (VStr (L "x"))))));
    (* a ReST token inside a type that is written into the docstring *)
    (lw_doctyp, lw_ir (mkG (Has (L "the a.")) (Has (L "Literal[':type']")) (Some (DV VNone))));
    (* no documented entry: the text holds no ReST token and is not read as ReST *)
    (lw_inline, lw_ir (mkG Missing (Has (L "int")) (Some (DV (VInt 5))))) ].

Lemma C03_doc_link_witnesses_lemma :
  forallb (fun oi => guard_C03 (fst oi) (snd oi) && negb (doc_link_ok 100 (fst oi) (snd oi))
                     && negb (doc_link_b 100 (fst oi) (snd oi))) link_witnesses = true.
Proof. vm_compute. reflexivity. Qed.

Lemma witness_link_fails : forall oi, In oi link_witnesses ->
    guard_C03 (fst oi) (snd oi) = true /\ doc_link_b 100 (fst oi) (snd oi) = false.
Proof.
  intros oi Hin. pose proof (proj1 (forallb_forall _ _) C03_doc_link_witnesses_lemma oi Hin) as Hw. cbv beta in Hw.
  rewrite !andb_true_iff, !negb_true_iff in Hw. split; apply Hw.
Qed.

(* prose ending in a backslash: inside the guard, outside doc_link_ok, and the link holds (pure_utils.multiline keeps it) *)
Lemma C03_trailing_backslash_regression_lemma :
  guard_C03 lw_inline (lw_ir (mkG (Has (L "dir\")) (Has (L "str")) (Some (DV (VStr (L "x")))))) = true
  /\ doc_link_b 100 lw_inline (lw_ir (mkG (Has (L "dir\")) (Has (L "str")) (Some (DV (VStr (L "x")))))) = true.
Proof. vm_compute. split; reflexivity. Qed.

Lemma doc_link_b_intro : forall w o i text d,
    function_docstring_text w o i = Ok text -> function_docstring_ir text = Ok d -> doc_agrees o i d = true ->
    doc_link_b w o i = true.
Proof. intros w o i text d Ht Hd Ha. unfold doc_link_b. rewrite Ht, Hd. exact Ha. Qed.

(* hence the link does NOT hold on the whole guard: the side condition is not an artefact of the proof *)
Lemma C03_doc_link_refuted_lemma :
  ~ (forall w o i, guard_C03 o i = true ->
       exists text d, function_docstring_text w o i = Ok text /\ function_docstring_ir text = Ok d
                      /\ doc_agrees o i d = true).
Proof.
  intros H. destruct (witness_link_fails _ (or_introl eq_refl)) as [Hg Hb].
  destruct (H 100 _ _ Hg) as [text [d [Ht [Hd Ha]]]].
  rewrite (doc_link_b_intro _ _ _ _ _ Ht Hd Ha) in Hb. discriminate Hb.
Qed.
