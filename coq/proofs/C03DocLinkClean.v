(* C03DocLinkClean: what inspect.cleandoc (model: C03DocLinkDefs.cleandoc) does to a text given as lines
   (indentation, content): the contents come back in order, each followed by blanks, after leading blanks.
   Used by proofs/C03DocLinkMain.v (property C03, docstring link). *)
From Coq Require Import List Ascii Bool Arith Lia.
From Coq Require String.
From DT Require Import PyStr PyVal PyStrFacts ListFacts SplitFacts C03DocLinkDefs.
From DT Require DocEmit.
Import ListNotations.

Lemma cd_heads_of_rev : forall X, heads_of (rev X) = rev (heads_of X).
Proof. intros X. unfold heads_of. rewrite map_rev. apply filter_rev. Qed.

Definition wk (l : ln) : Prop := forallb isspace (fst l) = true.

Lemma ln_ok_inv : forall l, ln_ok l = true ->
  forallb isspace (fst l) = true /\ mem_c nl (fst l) = false /\ mem_c tabch (fst l) = false
  /\ mem_c nl (snd l) = false /\ mem_c tabch (snd l) = false
  /\ (forall c r, snd l = c :: r -> isspace c = false).
Proof.
  intros l H. unfold ln_ok in H. rewrite !andb_true_iff in H. destruct H as [[[[[H1 H2] H3] H4] H5] H6].
  apply negb_true_iff in H2, H3, H4, H5.
  repeat split; try assumption.
  intros c r E. rewrite E in H6. now apply negb_true_iff in H6.
Qed.

Lemma lstrip_render : forall l, ln_ok l = true -> lstrip (render_ln l) = snd l.
Proof.
  intros l Hl. destruct (ln_ok_inv l Hl) as [H1 [_ [_ [_ [_ H6]]]]].
  unfold lstrip, lstrip_by, render_ln. rewrite dropwhile_app_all by exact H1.
  apply dropwhile_head_false. intros c Hc.
  destruct (snd l) as [|d t] eqn:E; cbn in Hc; [discriminate Hc|].
  inversion Hc; subst. apply (H6 c t). reflexivity.
Qed.

Lemma line_indent_render : forall l, ln_ok l = true ->
    line_indent (render_ln l) = match snd l with [] => None | _ => Some (List.length (fst l)) end.
Proof.
  intros l Hl. unfold line_indent. rewrite (lstrip_render l Hl).
  destruct (snd l) as [|d t] eqn:E; [reflexivity|].
  f_equal. unfold render_ln. rewrite E, app_length. lia.
Qed.

Lemma margin_none : forall r,
    Forall (fun l => ln_ok l = true) r -> margin_of (map render_ln r) = None ->
    forall l, In l r -> snd l = [].
Proof.
  intros r. induction r as [|a r IH]; intros Hall Hm l Hin; [destruct Hin|].
  inversion Hall as [|a' r' Ha Hr]; subst.
  cbn [map margin_of] in Hm. rewrite (line_indent_render a Ha) in Hm.
  destruct (snd a) as [|d t] eqn:E.
  - destruct Hin as [Heq|Hin]; [subst l; exact E|]. apply IH; assumption.
  - destruct (margin_of (map render_ln r)); discriminate Hm.
Qed.

Lemma margin_bound : forall r m,
    Forall (fun l => ln_ok l = true) r -> margin_of (map render_ln r) = Some m ->
    forall l, In l r -> snd l <> [] -> m <= List.length (fst l).
Proof.
  intros r. induction r as [|a r IH]; intros m Hall Hm l Hin Hne; [destruct Hin|].
  inversion Hall as [|a' r' Ha Hr]; subst.
  cbn [map margin_of] in Hm. rewrite (line_indent_render a Ha) in Hm.
  destruct (snd a) as [|d t] eqn:E.
  - destruct Hin as [Heq|Hin]; [subst l; congruence|].
    apply (IH m Hr Hm l Hin Hne).
  - destruct (margin_of (map render_ln r)) as [b|] eqn:Eb.
    + inversion Hm; subst m. destruct Hin as [Heq|Hin]; [subst l; lia|].
      specialize (IH b Hr eq_refl l Hin Hne). lia.
    + inversion Hm; subst m. destruct Hin as [Heq|Hin]; [subst l; lia|].
      exfalso. apply Hne. apply (margin_none r Hr Eb l Hin).
Qed.

Definition cut (m : nat) (l : ln) : ln := (skipn m (fst l), snd l).

Lemma skipn_render : forall m l,
    (snd l <> [] -> m <= List.length (fst l)) -> skipn m (render_ln l) = render_ln (cut m l).
Proof.
  intros m l H. unfold render_ln, cut. cbn [fst snd]. rewrite skipn_app. f_equal.
  destruct l as [ws h]. cbn [fst snd] in *.
  destruct h as [|d t]; [apply skipn_nil|].
  assert (Hle : m <= List.length ws) by (apply H; discriminate).
  replace (m - List.length ws) with 0 by lia. reflexivity.
Qed.

Lemma drop_front_render : forall X, exists X',
    drop_empty_front (map render_ln X) = map render_ln X'
    /\ heads_of X' = heads_of X /\ (forall l, In l X' -> In l X).
Proof.
  intros X. induction X as [|[ws h] X IH].
  - exists []. repeat split. intros l Hl. exact Hl.
  - destruct IH as [X' [H1 [H2 H3]]].
    destruct ws as [|c ws]; [destruct h as [|d h]|].
    + exists X'. cbn [map render_ln fst snd app drop_empty_front].
      split; [exact H1|]. split; [rewrite H2; reflexivity|].
      intros l Hl. right. apply H3. exact Hl.
    + exists (([], d :: h) :: X). cbn [map render_ln fst snd app drop_empty_front].
      repeat split. intros l Hl. exact Hl.
    + exists ((c :: ws, h) :: X). cbn [map render_ln fst snd app drop_empty_front].
      repeat split. intros l Hl. exact Hl.
Qed.

Lemma drop_back_render : forall X, exists X',
    drop_empty_back (map render_ln X) = map render_ln X'
    /\ heads_of X' = heads_of X /\ (forall l, In l X' -> In l X).
Proof.
  intros X. unfold drop_empty_back. rewrite <- map_rev.
  destruct (drop_front_render (rev X)) as [X' [H1 [H2 H3]]].
  exists (rev X'). rewrite H1, map_rev. split; [reflexivity|]. split.
  - rewrite cd_heads_of_rev, H2, cd_heads_of_rev. apply rev_involutive.
  - intros l Hl. apply in_rev in Hl. apply H3 in Hl. apply in_rev in Hl. exact Hl.
Qed.

Lemma regroup : forall Y, (forall l, In l Y -> wk l) ->
    exists ws0 hws,
      join [nl] (map render_ln Y) = text_of_heads ws0 hws
      /\ map fst hws = heads_of Y
      /\ forallb isspace ws0 = true
      /\ forallb (fun hw => forallb isspace (snd hw)) hws = true.
Proof.
  intros Y. induction Y as [|[ws h] Y IH]; intros Hwk.
  - exists [], []. repeat split.
  - destruct IH as [ws0 [hws [H1 [H2 [H3 H4]]]]].
    { intros l Hl. apply Hwk. right. exact Hl. }
    assert (Hws : forallb isspace ws = true).
    { apply (Hwk (ws, h)). left. reflexivity. }
    destruct Y as [|y Y'].
    + cbn [map join]. unfold render_ln. cbn [fst snd]. destruct h as [|c h].
      * exists ws, []. unfold text_of_heads. cbn [map concat].
        repeat split. exact Hws.
      * exists ws, [(c :: h, [])]. unfold text_of_heads. cbn [map concat fst snd].
        rewrite !app_nil_r. repeat split. exact Hws.
    + cbn [map] in H1 |- *. rewrite join_cons_cons, H1. unfold render_ln at 1. cbn [fst snd].
      destruct h as [|c h].
      * exists (ws ++ nl :: ws0), hws. unfold text_of_heads.
        rewrite app_nil_r, <- app_assoc. split; [reflexivity|].
        split; [rewrite H2; reflexivity|]. split; [|exact H4].
        rewrite forallb_app, Hws. cbn [forallb]. rewrite H3. reflexivity.
      * exists ws, ((c :: h, nl :: ws0) :: hws). unfold text_of_heads.
        cbn [map concat fst snd]. rewrite <- !app_assoc. split; [reflexivity|].
        split; [cbn [map fst]; rewrite H2; reflexivity|]. split; [exact Hws|].
        cbn [forallb snd]. rewrite H3, H4. reflexivity.
Qed.

Lemma text_no_tab : forall lns,
    Forall (fun l => ln_ok l = true) lns -> mem_c tabch (text_of_lns lns) = false.
Proof.
  intros lns Hall. destruct (mem_c tabch (text_of_lns lns)) eqn:E; [|reflexivity].
  exfalso. apply mem_c_In in E. unfold text_of_lns in E. apply join_chars in E.
  destruct E as [E|[s [Hs Hx]]]; [destruct E as [E|[]]; discriminate E|].
  apply in_map_iff in Hs. destruct Hs as [l [Hl Hin]]. subst s.
  rewrite Forall_forall in Hall. specialize (Hall l Hin).
  destruct (ln_ok_inv l Hall) as [_ [_ [H3 [_ [H5 _]]]]].
  unfold render_ln in Hx. apply in_app_or in Hx. destruct Hx as [Hx|Hx].
  - apply mem_c_In in Hx. congruence.
  - apply mem_c_In in Hx. congruence.
Qed.

Lemma text_split : forall lns,
    lns <> [] -> Forall (fun l => ln_ok l = true) lns ->
    split_nl (text_of_lns lns) = map render_ln lns.
Proof.
  intros lns Hne Hall. rewrite split_nl_eq. unfold text_of_lns. apply split_c_join.
  - destruct lns; [congruence|discriminate].
  - apply Forall_forall. intros s Hs. apply in_map_iff in Hs. destruct Hs as [l [Hl Hin]]. subst s.
    rewrite Forall_forall in Hall. specialize (Hall l Hin).
    destruct (ln_ok_inv l Hall) as [_ [H2 [_ [H4 _]]]].
    intros Hx. unfold render_ln in Hx. apply in_app_or in Hx. destruct Hx as [Hx|Hx].
    + apply mem_c_In in Hx. congruence.
    + apply mem_c_In in Hx. congruence.
Qed.

Lemma margin_step : forall r,
    Forall (fun l => ln_ok l = true) r ->
    exists r',
      match margin_of (map render_ln r) with
      | Some m => map (skipn m) (map render_ln r)
      | None => map render_ln r
      end = map render_ln r'
      /\ map snd r' = map snd r /\ (forall l, In l r' -> wk l).
Proof.
  intros r Hall. destruct (margin_of (map render_ln r)) as [m|] eqn:Em.
  - exists (map (cut m) r). split; [|split].
    + rewrite !map_map. apply map_ext_in. intros l Hl. apply skipn_render.
      intros Hn. apply (margin_bound r m Hall Em l Hl Hn).
    + rewrite map_map. apply map_ext. intros l. reflexivity.
    + intros l Hl. apply in_map_iff in Hl. destruct Hl as [l' [Hl' Hin]]. subst l.
      unfold wk, cut. cbn [fst]. apply forallb_skipn.
      rewrite Forall_forall in Hall. specialize (Hall l' Hin).
      destruct (ln_ok_inv l' Hall) as [H1 _]. exact H1.
  - exists r. split; [reflexivity|]. split; [reflexivity|].
    intros l Hin. rewrite Forall_forall in Hall. specialize (Hall l Hin).
    destruct (ln_ok_inv l Hall) as [H1 _]. exact H1.
Qed.

Theorem cleandoc_heads : forall lns : list ln,
    lns <> [] -> forallb ln_ok lns = true ->
    exists ws0 hws,
      cleandoc (text_of_lns lns) = Ok (text_of_heads ws0 hws)
      /\ map fst hws = heads_of lns
      /\ forallb isspace ws0 = true
      /\ forallb (fun hw => forallb isspace (snd hw)) hws = true.
Proof.
  intros lns Hne Hok.
  assert (Hall : Forall (fun l => ln_ok l = true) lns).
  { apply Forall_forall. rewrite forallb_forall in Hok. exact Hok. }
  unfold cleandoc. rewrite (text_no_tab lns Hall), (text_split lns Hne Hall).
  destruct lns as [|l0 r]; [congruence|].
  inversion Hall as [|l0' r0 Hl0 Hr]; subst.
  cbn [map]. cbv zeta. rewrite (lstrip_render l0 Hl0).
  destruct (margin_step r Hr) as [r' [Hr1 [Hr2 Hr3]]]. rewrite Hr1.
  change (snd l0 :: map render_ln r') with (map render_ln (([], snd l0) :: r')).
  destruct (drop_back_render (([], snd l0) :: r')) as [Y1 [Hb1 [Hb2 Hb3]]]. rewrite Hb1.
  destruct (drop_front_render Y1) as [Y2 [Hf1 [Hf2 Hf3]]]. rewrite Hf1.
  destruct (regroup Y2) as [ws0 [hws [Hg1 [Hg2 [Hg3 Hg4]]]]].
  { intros l Hl. apply Hf3 in Hl. apply Hb3 in Hl. destruct Hl as [Hl|Hl].
    - subst l. reflexivity.
    - apply Hr3. exact Hl. }
  exists ws0, hws. split; [f_equal; exact Hg1|]. split; [|split; assumption].
  rewrite Hg2, Hf2, Hb2. unfold heads_of. cbn [map snd]. rewrite Hr2. reflexivity.
Qed.

Print Assumptions cleandoc_heads.
