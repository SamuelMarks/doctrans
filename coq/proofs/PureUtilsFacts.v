(* PureUtilsFacts: lemmas about model/PureUtils.v (multiline, quote, unquote).  Proofs only.
   (The idempotence of set_default_doc lives in DefaultsFacts.set_default_doc_idem.) *)
From Coq Require Import List Ascii Bool Arith ZArith Lia.
From Coq Require String.
Import String.StringSyntax.
From DT Require Import PyStr Sexp PyVal Extracted PureUtils PyStrFacts.
Import ListNotations.

(* multiline: the continuation appended after the last line is cut off by length *)
Lemma drop_last3_app : forall (s : str) a b c, drop_last3 (s ++ [a; b; c]) = s.
Proof.
  intros s a b c. unfold drop_last3. rewrite app_length. cbn [List.length].
  replace (List.length s + 3 - 3) with (List.length s) by lia.
  rewrite firstn_app, Nat.sub_diag, firstn_all. cbn [firstn]. apply app_nil_r.
Qed.

Lemma rstrip_by_last_false : forall p (s : str) l, last_c s = Some l -> p l = false -> rstrip_by p s = s.
Proof. intros p s l Hl Hp. apply rstrip_by_id. intros c Hc. congruence. Qed.

(* one line of text that does not end in a blank comes back as it is, also when it ends in a
   backslash *)
Lemma multiline_noquote_line : forall c r l, splitlines (c :: r) = [c :: r] ->
    last_c (c :: r) = Some l -> mem_c l (L " " ++ [nl]) = false ->
    multiline_noquote (c :: r) = c :: r.
Proof.
  intros c r l Hs Hl Hm. unfold multiline_noquote. rewrite Hs. cbn [map join].
  change (L " \" ++ [nl]) with [sp; ch 92; nl]. rewrite drop_last3_app.
  unfold rstrip_chars. apply (rstrip_by_last_false _ _ l Hl). exact Hm.
Qed.

Lemma in_none_types_VNone : in_none_types VNone = true.
Proof. reflexivity. Qed.

Lemma in_none_types_NoneStr : in_none_types (VStr NoneStr) = true.
Proof. reflexivity. Qed.

Lemma in_none_types_not_NoneStr : forall s,
    in_none_types (VStr s) = false -> str_eqb s NoneStr = false.
Proof.
  intros s H. destruct (str_eqb s NoneStr) eqn:E; [|reflexivity].
  apply str_eqb_eq in E. subst s. rewrite in_none_types_NoneStr in H. discriminate H.
Qed.

Lemma quote_nil : quote [] = [].
Proof. reflexivity. Qed.

Lemma quote_eq : forall c r d,
    last_c (c :: r) = Some d ->
    quote (c :: r) = if ascii_eqb c d && (ascii_eqb c sq || ascii_eqb c dq)
                     then c :: r else dq :: (c :: r) ++ [dq].
Proof. intros c r d H. unfold quote. rewrite H. reflexivity. Qed.

Lemma quote_quoted : forall q s, q = dq \/ q = sq -> quote (q :: s ++ [q]) = q :: s ++ [q].
Proof.
  intros q s Hq. rewrite (quote_eq q (s ++ [q]) q).
  - rewrite ascii_eqb_refl. destruct Hq as [Hq|Hq]; subst q; reflexivity.
  - apply (last_c_app_single (q :: s) q).
Qed.

Lemma quote_cases : forall s,
    quote s = s \/ (s <> [] /\ quote s = dq :: s ++ [dq]).
Proof.
  intros [|c r]; [left; reflexivity|].
  destruct (last_c (c :: r)) as [d|] eqn:Hl.
  - rewrite (quote_eq c r d Hl).
    destruct (ascii_eqb c d && (ascii_eqb c sq || ascii_eqb c dq)).
    + left. reflexivity.
    + right. split; [discriminate|reflexivity].
  - apply last_c_nil_iff in Hl. discriminate.
Qed.

Lemma quote_idem : forall s, quote (quote s) = quote s.
Proof.
  intros s. destruct (quote_cases s) as [H|[_ H]]; rewrite H.
  - exact H.
  - apply (quote_quoted dq s). left. reflexivity.
Qed.

Lemma quote_val_idem : forall v v1, quote_val v = Ok v1 -> quote_val v1 = Ok v1.
Proof.
  intros [|b|z|r|s] v1 H; cbn [quote_val] in H; try discriminate H;
    injection H as H; subst v1; cbn [quote_val]; [reflexivity|].
  rewrite quote_idem. reflexivity.
Qed.

Lemma unquote_id : forall s,
    (startswith [dq] s && endswith [dq] s) || (startswith [sq] s && endswith [sq] s) = false ->
    unquote s = s.
Proof. intros s H. unfold unquote. rewrite H, andb_false_r. reflexivity. Qed.

Lemma unquote_id_marks : forall s,
    (forall q, q = dq \/ q = sq -> ~ (head_c s = Some q /\ last_c s = Some q)) ->
    unquote s = s.
Proof.
  intros s H. apply unquote_id. apply orb_false_iff. split.
  - destruct (startswith [dq] s) eqn:E1; [|reflexivity].
    destruct (endswith [dq] s) eqn:E2; [|reflexivity].
    exfalso. apply (H dq (or_introl eq_refl)). split.
    + apply startswith_single. exact E1.
    + apply endswith_single. exact E2.
  - destruct (startswith [sq] s) eqn:E1; [|reflexivity].
    destruct (endswith [sq] s) eqn:E2; [|reflexivity].
    exfalso. apply (H sq (or_intror eq_refl)). split.
    + apply startswith_single. exact E1.
    + apply endswith_single. exact E2.
Qed.

Lemma unquote_short : forall s, List.length s <= 1 -> unquote s = s.
Proof.
  intros s H. unfold unquote.
  assert (E : Nat.ltb 1 (List.length s) = false) by (apply Nat.ltb_ge; exact H).
  rewrite E. reflexivity.
Qed.

Lemma unquote_quoted : forall q s, q = dq \/ q = sq -> unquote (q :: s ++ [q]) = s.
Proof.
  intros q s Hq. unfold unquote.
  assert (Hlen : List.length (q :: s ++ [q]) = S (S (List.length s))).
  { cbn [List.length]. rewrite app_length. cbn [List.length]. lia. }
  assert (Hs : startswith [q] (q :: s ++ [q]) = true).
  { apply startswith_single. reflexivity. }
  assert (He : endswith [q] (q :: s ++ [q]) = true).
  { apply (endswith_app (q :: s) [q]). }
  assert (Hcond : (startswith [dq] (q :: s ++ [q]) && endswith [dq] (q :: s ++ [q]))
                  || (startswith [sq] (q :: s ++ [q]) && endswith [sq] (q :: s ++ [q])) = true).
  { destruct Hq as [Hq|Hq]; subst q; rewrite Hs, He; cbn [andb orb]; [reflexivity|apply orb_true_r]. }
  rewrite Hcond, Hlen. cbn [Nat.ltb Nat.leb andb].
  unfold slice. cbn [skipn].
  replace (S (S (List.length s)) - 1 - 1) with (List.length s) by lia.
  apply firstn_app_exact.
Qed.

Lemma unquote_quote : forall s, unquote s = s -> unquote (quote s) = s.
Proof.
  intros s Hs. destruct (quote_cases s) as [H|[_ H]]; rewrite H.
  - exact Hs.
  - apply (unquote_quoted dq s). left. reflexivity.
Qed.
